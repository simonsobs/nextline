(** Proofs about Relay/Model.v, for EVERY list of labels (every interleaving).
    [inv] is the invariant of the run (script = emitted ++ todo; emitted = delivered ++ pipe ++ lost; where the sentinel
    can be; which control points go with which child and monitor states), [step_inv] its preservation, label by label.
    Read off it: [complete_in_order], [prefix_always], [nothing_after_end].  [bracketed_always] needs a second
    invariant [binv] (the phase of the plugin's log is that of the main task) and the boot assumption;
    [hooks_never_overlap] has its own ([step_alt]: the open call in the log is the monitor's state); the wedge
    [kill_mid_write_wedges] has [winv].  [endrun_inv] turns "on_end_run is in the log" into "main is at PEndRun". *)
From NL Require Import Relay.Model.
From Coq Require Import Lia.
Open Scope Z_scope.

Lemma run_from_ind : forall boot (P : st -> Prop), (forall s l, P s -> P (step boot s l)) ->
  forall ls s, P s -> P (run_from boot s ls).
Proof. intros boot P HP. induction ls as [ | l ls IH]; intros s H; simpl; auto. Qed.

Lemma run_app : forall boot script ls ls', run boot script (ls ++ ls') = run_from boot (run boot script ls) ls'.
Proof. intros. apply fold_left_app. Qed.

Fixpoint evs (p : list item) : list Z :=
  match p with [] => [] | Ev z :: r => z :: evs r | Sentinel :: r => evs r end.

Fixpoint nosent (p : list item) : bool :=
  match p with [] => true | Ev _ :: r => nosent r | Sentinel :: _ => false end.

Fixpoint sent_last (p : list item) : bool :=
  match p with
  | [] => false
  | Ev _ :: r => sent_last r
  | Sentinel :: r => match r with [] => true | _ => false end
  end.

Lemma evs_app : forall p q, evs (p ++ q) = evs p ++ evs q.
Proof. induction p as [ | [z | ] p IH]; intros q; simpl; rewrite ?IH; reflexivity. Qed.

Lemma nosent_app_ev : forall p z, nosent (p ++ [Ev z]) = nosent p.
Proof. induction p as [ | [y | ] p IH]; intros z; simpl; auto. Qed.

Lemma nosent_app_sent : forall p, nosent p = true -> nosent (p ++ [Sentinel]) = false /\ sent_last (p ++ [Sentinel]) = true.
Proof. induction p as [ | [y | ] p IH]; simpl; intros H; auto; discriminate. Qed.

Lemma sent_last_app_ev_false : forall p z, nosent p = true -> sent_last (p ++ [Ev z]) = false.
Proof. induction p as [ | [y | ] p IH]; simpl; intros z H; auto; discriminate. Qed.

Lemma sent_last_nosent : forall p, sent_last p = true -> nosent p = false.
Proof. induction p as [ | [y | ] p IH]; simpl; intros H; auto; discriminate. Qed.

Definition late (p : pc) : bool :=
  match p with PDrain | PSentinel | PAwaitMon | PEndRun => true | _ => false end.
Definition dead (c : cstate) : bool :=
  match c with CExited | CKilled => true | _ => false end.

Record inv (script : list Z) (s : st) : Prop := mkInv {
  i_script : script = emitted s ++ todo s;
  i_cons : exists lost, emitted s = delivered s ++ evs (pipe s) ++ lost /\ (child s <> CKilled -> lost = buf s);
  i_exit : child s = CExited -> todo s = [] /\ buf s = [];
  i_late : late (main s) = true -> dead (child s) = true;
  i_init : main s = PInit -> child s = CNotStarted;
  i_pipe : if nosent (pipe s)
           then (mon s = MDone -> pipe s = [] /\ (main s = PAwaitMon \/ main s = PEndRun))
           else (sent_last (pipe s) = true /\ main s = PAwaitMon /\ mon s <> MDone);
  i_end : main s = PEndRun -> mon s = MDone;
  i_busy : forall z, mon s = MBusy z -> exists d, delivered s = d ++ [z];
  i_dl : deliveries (log s) = delivered s
}.

Lemma inv_init : forall script, inv script (init script).
Proof.
  intros script. constructor; simpl; auto; try discriminate.
  all: try (exists []; split; auto); try (intros H; discriminate).
Qed.

Lemma deliveries_app : forall a b, deliveries (a ++ b) = deliveries a ++ deliveries b.
Proof. induction a as [ | [ | z | z | ] a IH]; intros b; simpl; rewrite ?IH; reflexivity. Qed.

Ltac dinv H := destruct H as [Hscr [lost [Hcons Hlost]] Hexit Hlate Hinit Hpipe Hend Hbusy Hdl].

(** [i_cons] with the same [lost] *)
Ltac keep_cons :=
  match goal with Hc : ?em = _ ++ _ ++ ?lost |- exists _, ?em = _ /\ _ => exists lost; split; [exact Hc | auto] end.

(** [i_pipe] when pipe and monitor are as before and only [main] has moved: in either case of [nosent] the
    hypothesis says where [main] was, which is not where it is now, or is where the goal wants it *)
Ltac keep_pipe :=
  match goal with
  | Hp : (if nosent ?p then _ else _) |- if nosent ?p then _ else _ =>
    destruct (nosent p);
    [ let Hm := fresh "Hm" in intros Hm; try discriminate; destruct (Hp Hm) as [_ [E | E]]; discriminate
    | destruct Hp as [? [E ?]]; try discriminate; repeat split; auto; discriminate ] end.

(** opens [inv script s'] into its fields and closes those that follow from the same field of [s]: the unchanged
    ones, [i_cons] and [i_pipe] as above, [i_dl] when what is logged is not a delivery, [i_init] once main has left
    PInit.  What is left after it in a case of [step_inv] are the fields the label changes (named at the label). *)
Ltac fin :=
  constructor; simpl; auto; try discriminate;
  try (keep_cons; fail); try (keep_pipe; fail);
  try (rewrite deliveries_app; simpl; rewrite ?app_nil_r; assumption);
  try (match goal with Hi : ?m = PInit -> _ = CNotStarted |- ?m = PInit -> _ =>
         let X := fresh "X" in intros X; specialize (Hi X); discriminate end);
  try (intros; discriminate).

Lemma step_inv : forall boot script s l, inv script s -> inv script (step boot s l).
Proof.
  intros boot script s l H.
  destruct s as [td em bf pp ch wd mn dl mp lg].
  pose proof H as H0. dinv H. simpl in *.
  destruct l; unfold step; simpl.
  - (* StartProc: i_cons *)
    destruct mp; try exact H0. fin.
    exists lost. split; auto. intros _. apply Hlost. rewrite (Hinit eq_refl). discriminate.
  - (* StartRun: nothing changes *)
    destruct mp; try exact H0. fin.
  - (* Emit: i_script, i_cons *)
    destruct ch; try exact H0. destruct td as [ | z r]; try exact H0.
    destruct (boot && before_start_run mp); try exact H0.
    constructor; simpl; auto; try discriminate.
    + rewrite <- app_assoc. exact Hscr.
    + exists (bf ++ [z]). split; auto.
      rewrite (Hlost ltac:(discriminate)) in Hcons. rewrite Hcons. rewrite <- !app_assoc. reflexivity.
  - (* Flush: i_cons, i_pipe *)
    destruct ch; try exact H0. destruct bf as [ | z r]; try exact H0.
    assert (Hnl : late mp = false).
    { destruct (late mp) eqn:E; auto. specialize (Hlate eq_refl). discriminate. }
    assert (Hns : nosent pp = true).
    { destruct (nosent pp) eqn:E; auto. destruct Hpipe as [_ [E' _]]. subst mp. discriminate. }
    rewrite Hns in Hpipe.
    constructor; simpl; auto; try discriminate.
    + exists r. split; auto. rewrite (Hlost ltac:(discriminate)) in Hcons.
      rewrite Hcons, evs_app. simpl. rewrite <- !app_assoc. reflexivity.
    + rewrite nosent_app_ev, Hns. intros Hm. destruct (Hpipe Hm) as [_ [E | E]]; subst mp; discriminate.
  - (* ChildExit: i_cons *)
    destruct ch; try exact H0. destruct td; try exact H0. destruct bf; try exact H0. fin.
    exists lost. split; auto. intros _. apply Hlost. discriminate.
  - (* Kill: i_cons *)
    destruct ch; try exact H0. fin.
    exists lost. split; auto. intros C; exfalso; apply C; reflexivity.
  - (* KillMidWrite: i_cons *)
    destruct ch; try exact H0. fin.
    exists lost. split; auto. intros C; exfalso; apply C; reflexivity.
  - (* ProcExitSeen: nothing changes *)
    destruct mp; try exact H0. destruct ch; try exact H0; fin.
  - (* DrainTick: nothing changes *)
    destruct mp; try exact H0. destruct (pipe_empty pp); try exact H0. fin.
  - (* Timeout: nothing changes *)
    destruct mp; try exact H0. fin.
  - (* PutSentinel: i_cons, i_pipe *)
    destruct mp; try exact H0.
    assert (Hns : nosent pp = true).
    { destruct (nosent pp) eqn:E; auto. destruct Hpipe as [_ [E' _]]. discriminate. }
    rewrite Hns in Hpipe.
    assert (Hmn : mn <> MDone).
    { intros Hm. destruct (Hpipe Hm) as [_ [E | E]]; discriminate. }
    fin.
    + exists lost. split; auto. destruct wd; auto. rewrite evs_app. simpl. rewrite app_nil_r. exact Hcons.
    + destruct wd.
      * rewrite Hns. intros Hm. contradiction.
      * destruct (nosent_app_sent pp Hns) as [E1 E2]. rewrite E1. auto.
  - (* MonTake: i_cons, i_pipe, i_end, i_busy, i_dl *)
    destruct mn; try exact H0. destruct pp as [ | [z | ] r]; try exact H0. simpl in *.
    constructor; simpl; auto; try discriminate.
    + exists lost. split; auto. rewrite Hcons. rewrite <- !app_assoc. reflexivity.
    + destruct (nosent r).
      * intros Hm; discriminate.
      * destruct Hpipe as [E1 [E2 _]]. repeat split; auto. discriminate.
    + intros Hm. specialize (Hend Hm). discriminate.
    + intros z0 Hz. inversion Hz. eexists. reflexivity.
    + rewrite deliveries_app. simpl. rewrite Hdl. reflexivity.
  - (* MonDeliver: i_end *)
    destruct mn; try exact H0. fin.
    intros Hm. specialize (Hend Hm). discriminate.
  - (* MonSeesSentinel: i_cons *)
    destruct mn; try exact H0. destruct pp as [ | [z | ] r]; try exact H0. simpl in *.
    destruct Hpipe as [E1 [E2 _]]. destruct r; try discriminate. simpl in Hcons.
    fin.
    exists lost. split; auto.
  - (* EndRun: nothing changes *)
    destruct mp; try exact H0. destruct mn; try exact H0.
    destruct (nosent pp) eqn:Hns.
    + destruct (Hpipe eq_refl) as [Ep _]. subst pp.
      fin.
    + destruct Hpipe as [_ [_ C]]. exfalso; apply C; reflexivity.
Qed.

Lemma run_from_inv : forall boot script ls s, inv script s -> inv script (run_from boot s ls).
Proof. intros boot script. apply run_from_ind. intros s l. apply step_inv. Qed.

Lemma run_inv : forall boot script ls, inv script (run boot script ls).
Proof. intros. apply run_from_inv. apply inv_init. Qed.

Lemma complete_in_order : forall boot script ls,
  let s := run boot script ls in
  main s = PEndRun -> child s = CExited ->
  delivered s = script /\ emitted s = script /\ deliveries (log s) = script.
Proof.
  intros boot script ls s Hm Hc. pose proof (run_inv boot script ls) as H. fold s in H.
  dinv H.
  specialize (Hend Hm). destruct (Hexit Hc) as [Htd Hbf].
  assert (Hp : pipe s = []).
  { destruct (nosent (pipe s)) eqn:E.
    - destruct (Hpipe Hend) as [Ep _]. exact Ep.
    - destruct Hpipe as [_ [_ C]]. contradiction. }
  rewrite Htd, app_nil_r in Hscr.
  rewrite Hp in Hcons. simpl in Hcons.
  rewrite (Hlost ltac:(rewrite Hc; discriminate)), Hbf, app_nil_r in Hcons.
  repeat split; congruence.
Qed.

(** what is delivered is always a prefix of what was emitted (kill at any point),
    which is a prefix of what the script emits *)
Lemma prefix_always : forall boot script ls,
  let s := run boot script ls in
  (exists rest, emitted s = delivered s ++ rest) /\ (exists rest, script = emitted s ++ rest) /\
  deliveries (log s) = delivered s.
Proof.
  intros boot script ls s. pose proof (run_inv boot script ls) as H. fold s in H.
  dinv H.
  repeat split.
  - eexists. exact Hcons.
  - eexists. exact Hscr.
  - exact Hdl.
Qed.

(** The acceptors [bracket_from] and [alternating] of Model.v read the log from the left and answer yes or no, but
    a run extends its log on the RIGHT: to say what one more entry does one needs the state reached, not the
    answer.  [phase_from] and [alt_state] (below) are the same automata returning that state; [phase_from_app] /
    [alt_state_app] are the step on the right, [bracket_phase] / [alternating_alt] tie them to the acceptors. *)
Definition phase_step (ph : nat) (o : obs) : option nat :=
  match o, ph with
  | OStartRun, O => Some 1%nat
  | ODeliver _, 1%nat | ODone _, 1%nat => Some 1%nat
  | OEndRun, 1%nat => Some 2%nat
  | _, _ => None
  end.

Fixpoint phase_from (ph : nat) (l : list obs) : option nat :=
  match l with
  | [] => Some ph
  | o :: r => match phase_step ph o with Some p => phase_from p r | None => None end
  end.

Lemma phase_from_app : forall l ph o,
  phase_from ph (l ++ [o]) = match phase_from ph l with Some p => phase_step p o | None => None end.
Proof.
  induction l as [ | x l IH]; intros ph o; simpl.
  - destruct (phase_step ph o); reflexivity.
  - destruct (phase_step ph x); auto.
Qed.

Lemma bracket_phase : forall l ph p, phase_from ph l = Some p -> bracket_from ph l = true.
Proof.
  induction l as [ | o l IH]; intros ph p; simpl; auto.
  destruct o; destruct ph as [ | [ | ph]]; simpl; try apply IH; discriminate.
Qed.

Definition phase_of_pc (p : pc) : nat :=
  match p with PInit | PStarted => 0%nat | PEndRun => 2%nat | _ => 1%nat end.

Record binv (s : st) : Prop := mkBinv {
  b_phase : phase_from 0 (log s) = Some (phase_of_pc (main s));
  b_quiet : before_start_run (main s) = true -> emitted s = []
}.

(** The case analysis of [step boot s l] for a state [s] whose fields are variables: on the label, then on
    whatever the label's case of [step] examines.  One goal per transition, enabled (the new state written
    out) or not (the state unchanged). *)
Ltac step_cases l :=
  destruct l; unfold step, pipe_empty, before_start_run, andb; simpl;
  repeat (match goal with |- context [match ?x with _ => _ end] => is_var x; destruct x end; simpl).

Lemma step_binv : forall script s l, inv script s -> binv s -> binv (step true s l).
Proof.
  intros script s l H B.
  destruct s as [td em bf pp ch wd mn dl mp lg].
  destruct B as [Bph Bq]. simpl in *.
  (* a delivery is logged in phase 1: something has been emitted, so on_start_run was called, and the monitor
     is not done, so on_end_run was not *)
  assert (P1 : em <> [] -> mn <> MDone -> phase_of_pc mp = 1%nat /\ before_start_run mp = false).
  { intros He Hm. destruct mp; simpl; auto; try (elim He; apply Bq; reflexivity).
    elim Hm. apply (i_end _ _ H). reflexivity. }
  destruct (i_cons _ _ H) as (lost & Hc & _). simpl in Hc.
  (* the labels that leave log and main alone, or move main within a phase, keep both fields *)
  step_cases l; try (constructor; simpl in *; auto; try (intros; discriminate); fail).
  - (* StartRun *)
    constructor; simpl; [rewrite phase_from_app, Bph; reflexivity | discriminate].
  - (* MonTake *)
    destruct P1 as [E1 E2]; [rewrite Hc; destruct dl; discriminate | discriminate | ].
    constructor; simpl; [rewrite phase_from_app, Bph, E1; reflexivity | rewrite E2; discriminate].
  - (* MonDeliver *)
    destruct (i_busy _ _ H z eq_refl) as [d Hd]. simpl in Hd.
    destruct P1 as [E1 E2]; [rewrite Hc, Hd; destruct d; discriminate | discriminate | ].
    constructor; simpl; [rewrite phase_from_app, Bph, E1; reflexivity | rewrite E2; discriminate].
  - (* EndRun *)
    constructor; simpl; [rewrite phase_from_app, Bph; reflexivity | discriminate].
Qed.

Lemma run_from_binv : forall script ls s, inv script s -> binv s -> binv (run_from true s ls).
Proof.
  intros script ls s H B. apply (run_from_ind true (fun s => inv script s /\ binv s)); auto.
  intros s0 l [H0 B0]. split; [apply step_inv | eapply step_binv]; eauto.
Qed.

Lemma bracketed_always : forall script ls, bracketed (log (run true script ls)) = true.
Proof.
  intros script ls. unfold bracketed. eapply bracket_phase.
  apply (run_from_binv script ls (init script) (inv_init script)). constructor; simpl; auto.
Qed.

(** nothing at all is delivered after on_end_run: the log stops changing *)
Lemma nothing_after_end : forall boot script ls l,
  main (run boot script ls) = PEndRun ->
  log (run boot script (ls ++ [l])) = log (run boot script ls).
Proof.
  intros boot script ls l Hm. rewrite run_app.
  pose proof (i_end _ _ (run_inv boot script ls) Hm) as Hend.
  destruct (run boot script ls) as [td em bf pp ch wd mn dl mp lg]. simpl in *. subst mp mn.
  step_cases l; reflexivity.
Qed.

(** on_end_run is in the log only once the main task is past it: turns the hypothesis of [nothing_after_end]
    into one about the log *)
Definition endrun_inv (s : st) : Prop := In OEndRun (log s) -> main s = PEndRun.

Lemma step_endrun_inv : forall boot s l, endrun_inv s -> endrun_inv (step boot s l).
Proof.
  intros boot [td em bf pp ch wd mn dl mp lg] l H. unfold endrun_inv in *. simpl in H.
  (* no label leaves PEndRun, and only EndRun, which enters it, logs OEndRun.  Where the log grew, OEndRun is the new
     entry (EndRun: main is PEndRun) or was there before; then H gives main = PEndRun: that is the goal where main
     did not move, and impossible where this case of [step] started from another control point *)
  step_cases l; try exact H; intros Hin; try reflexivity;
    try (apply in_app_or in Hin; destruct Hin as [Hin | [Hin | []]]; try discriminate Hin);
    first [exact (H Hin) | discriminate (H Hin)].
Qed.

Lemma run_endrun_inv : forall boot script ls, endrun_inv (run boot script ls).
Proof. intros boot script ls. apply (run_from_ind boot endrun_inv (step_endrun_inv boot)). intros []. Qed.

(** the boot assumption is needed in the model: without it a delivery can precede on_start_run *)
Lemma bracket_needs_boot :
  bracketed (log (run false [5] [StartProc; Emit; Flush; MonTake; StartRun])) = false.
Proof. reflexivity. Qed.

Fixpoint alt_state (open : option Z) (l : list obs) : option (option Z) :=
  match l with
  | [] => Some open
  | ODeliver z :: r => match open with None => alt_state (Some z) r | Some _ => None end
  | ODone z :: r => match open with Some y => if Z.eqb y z then alt_state None r else None | None => None end
  | _ :: r => alt_state open r
  end.

Lemma alt_state_app : forall l open o,
  alt_state open (l ++ [o]) = match alt_state open l with Some op => alt_state op [o] | None => None end.
Proof.
  induction l as [ | x l IH]; intros open o.
  - reflexivity.
  - simpl. destruct x; try apply IH; destruct open; try reflexivity; try apply IH. match goal with |- context [Z.eqb ?a ?b] => destruct (Z.eqb a b) end; [apply IH | reflexivity].
Qed.

Lemma alternating_alt : forall l open op, alt_state open l = Some op -> alternating open l = true.
Proof.
  induction l as [ | o l IH]; intros open op; simpl; auto.
  destruct o; try apply IH; destruct open as [y | ]; try apply IH; try discriminate.
  destruct (Z.eqb y z); simpl; try apply IH; discriminate.
Qed.

Definition open_of (m : mstate) : option Z := match m with MBusy z => Some z | _ => None end.

Lemma step_alt : forall boot s l,
  alt_state None (log s) = Some (open_of (mon s)) ->
  alt_state None (log (step boot s l)) = Some (open_of (mon (step boot s l))).
Proof.
  intros boot s l H. destruct s as [td em bf pp ch wd mn dl mp lg]. simpl in *.
  (* where the log grows: by a call when nothing is open, by the completion of the open call, or by a run hook *)
  step_cases l; auto; rewrite alt_state_app, H; simpl; rewrite ?Z.eqb_refl; reflexivity.
Qed.

Lemma hooks_never_overlap : forall boot script ls, alternating None (log (run boot script ls)) = true.
Proof.
  intros boot script ls. eapply alternating_alt.
  apply (run_from_ind boot (fun s => alt_state None (log s) = Some (open_of (mon s)))); [apply step_alt | reflexivity].
Qed.

(** the run can get stuck for ever: child killed inside a pipe write *)
Record winv (s : st) : Prop := mkWinv {
  w_wedged : wedged s = true;
  w_nosent : nosent (pipe s) = true;
  w_mon : mon s <> MDone;
  w_main : main s <> PEndRun
}.

Lemma step_winv : forall boot s l, winv s -> winv (step boot s l).
Proof.
  intros boot s l [W1 W2 W3 W4]. destruct s as [td em bf pp ch wd mn dl mp lg]. simpl in *. subst wd.
  step_cases l; constructor; simpl; auto; try discriminate.
  (* Flush: the pipe grows by an event *)
  rewrite nosent_app_ev. exact W2.
Qed.

Lemma kill_mid_write_wedges : forall boot script ls1 ls2,
  child (run boot script ls1) = CRunning ->
  main (run boot script (ls1 ++ KillMidWrite :: ls2)) <> PEndRun.
Proof.
  intros boot script ls1 ls2 Hc. rewrite run_app.
  apply w_main, (run_from_ind boot winv (step_winv boot) ls2).
  destruct (run_inv boot script ls1) as [_ _ _ Hlate _ Hpipe Hend _ _].
  destruct (run boot script ls1) as [td em bf pp ch wd mn dl mp lg]. simpl in *. subst ch. simpl.
  assert (Hnl : late mp = false).
  { destruct (late mp) eqn:E; auto. specialize (Hlate eq_refl). discriminate. }
  destruct (nosent pp) eqn:Hns.
  - constructor; simpl; auto.
    + intros Hm. destruct (Hpipe Hm) as [_ [E | E]]; subst mp; discriminate.
    + intros E. subst mp. discriminate.
  - destruct Hpipe as [_ [E _]]. subst mp. discriminate.
Qed.
