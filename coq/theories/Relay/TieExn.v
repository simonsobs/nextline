(** try/finally WITH ITS REAL MEANING on the regenerated code of the relay: what RunSession.run
    (with relay_events, _on_start_run, _on_end_run inlined: [main_program] of Relay/Tie.v) does when
    an await RAISES or the task is CANCELLED at an await.

    [xrun s r t]: big-step semantics of a statement tree.  Every await (run_in_process, a hook,
    the process, sleep(0), the sentinel put, `await task`), every assert and the yield of
    RunSession.run (where the body of Callback._run's `async with` runs: an exception of that body
    is thrown in there) either completes or RAISES; "raises" stands for an exception of the awaited
    thing AND for asyncio.CancelledError delivered at that await (the trees have no `except`
    clause -- the translator refuses handlers -- so both propagate the same way).
    `try: a finally: b` runs b after a WHATEVER a did and re-raises a's exception unless b raises
    itself; loops iterate any number of times (conditions are not interpreted: every branch, every
    number of iterations).  The trace records which await was reached and whether it returned.

    [outcomes s] is the finite list of all (result, trace) a tree can produce (a loop whose body is
    silent when it completes -- the drain loop: only sleep(0) -- contributes "left normally" or
    "an await of the body raised"); [xrun_in_outcomes] proves that every derivation of [xrun] is in
    it, so a property checked on [outcomes main_program] holds for EVERY execution, raise and
    cancellation point.

    NOT covered: exceptions inside the monitor task are seen only as "`await task` raises" (the
    monitor itself has no raising semantics here: a hook that raises kills it and, the sentinel
    never being read, `await task` re-raises after the put); GeneratorExit/aclose of the context
    manager; an exception between the statements of a `finally` that is not an await or assert. *)
From NL Require Import Relay.Model Relay.Syntax Gen.RelaySkel Relay.Tie.
Open Scope Z_scope.

Inductive leaf :=
| LAssert | LSpawn | LHook (h : hook) | LBody | LProc | LSleep | LPut | LMon    (* may raise *)
| LCreate | LInFinally.                                                      (* markers: cannot raise *)

Inductive xres := XNormal | XRaise | XBreak.
Notation xtrace := (list (leaf * bool)).      (* (what, returned?) *)

Inductive skind :=
| KSilent                          (* no effect here, cannot raise *)
| KAtom (l : leaf) (quiet : bool)  (* an await/assert: returns (recorded unless quiet) or raises *)
| KMark (l : leaf)                 (* recorded, cannot raise *)
| KRaises | KBreaks | KCompound | KForeign.

Definition kind (s : stmt) : skind :=
  match s with
  | SSkip | STimerNew _ | STimerRestart | SNewQueueOut | SSetRunningNone | SSetInFinally false => KSilent
  | SAssert => KAtom LAssert true
  | SAwaitSpawn => KAtom LSpawn false
  | SAwaitHook h => KAtom (LHook h) false
  | SYield => KAtom LBody false
  | SAwaitProcess => KAtom LProc false
  | SAwaitSleep0 => KAtom LSleep true
  | SAwaitPutNone => KAtom LPut false
  | SAwaitMonitor => KAtom LMon false
  | SCreateMonitor => KMark LCreate
  | SSetInFinally true => KMark LInFinally
  | SRaise => KRaises
  | SBreak => KBreaks
  | SSeq _ _ | STry _ _ | SIf _ _ _ | SWhile _ _ => KCompound
  | _ => KForeign                  (* SWithRelay, SCall*, SAssignEvent, SSleepInterval: not in an inlined main program *)
  end.

(** the exception that leaves `try: a finally: b` *)
Definition after_finally (ra rb : xres) : xres := match rb with XNormal => ra | _ => rb end.

Inductive xrun : stmt -> xres -> xtrace -> Prop :=
| X_silent : forall s, kind s = KSilent -> xrun s XNormal []
| X_mark : forall s l, kind s = KMark l -> xrun s XNormal [(l, true)]
| X_ret : forall s l q, kind s = KAtom l q -> xrun s XNormal (if q then [] else [(l, true)])
| X_raise : forall s l q, kind s = KAtom l q -> xrun s XRaise [(l, false)]      (* it raises / the task is cancelled here *)
| X_raises : xrun SRaise XRaise []
| X_break : xrun SBreak XBreak []
| X_seq : forall a b t1 r t2, xrun a XNormal t1 -> xrun b r t2 -> xrun (SSeq a b) r (t1 ++ t2)
| X_seq_stop : forall a b r t1, r <> XNormal -> xrun a r t1 -> xrun (SSeq a b) r t1
| X_try : forall a b ra ta rb tb, xrun a ra ta -> xrun b rb tb -> xrun (STry a b) (after_finally ra rb) (ta ++ tb)
| X_if_t : forall c a b r t, xrun a r t -> xrun (SIf c a b) r t
| X_if_f : forall c a b r t, xrun b r t -> xrun (SIf c a b) r t
| X_while_exit : forall c b, xrun (SWhile c b) XNormal []
| X_while_iter : forall c b t1 r t2, xrun b XNormal t1 -> xrun (SWhile c b) r t2 -> xrun (SWhile c b) r (t1 ++ t2)
| X_while_break : forall c b t1, xrun b XBreak t1 -> xrun (SWhile c b) XNormal t1
| X_while_raise : forall c b t1, xrun b XRaise t1 -> xrun (SWhile c b) XRaise t1.

Definition is_normal (r : xres) : bool := match r with XNormal => true | _ => false end.

Fixpoint outcomes (s : stmt) : list (xres * xtrace) :=
  match s with
  | SSeq a b =>
      flat_map (fun x : xres * xtrace =>
                  if is_normal (fst x) then map (fun y : xres * xtrace => (fst y, snd x ++ snd y)) (outcomes b) else [x])
               (outcomes a)
  | STry a b =>
      flat_map (fun x : xres * xtrace => map (fun y : xres * xtrace => (after_finally (fst x) (fst y), snd x ++ snd y)) (outcomes b))
               (outcomes a)
  | SIf _ a b => outcomes a ++ outcomes b
  | SWhile _ b =>
      (XNormal, []) ::
      flat_map (fun x : xres * xtrace =>
                  match fst x with XNormal => [] | XBreak => [(XNormal, snd x)] | XRaise => [x] end)
               (outcomes b)
  | s =>
      match kind s with
      | KSilent => [(XNormal, [])]
      | KMark l => [(XNormal, [(l, true)])]
      | KAtom l q => [(XNormal, if q then [] else [(l, true)]); (XRaise, [(l, false)])]
      | KRaises => [(XRaise, [])]
      | KBreaks => [(XBreak, [])]
      | _ => []
      end
  end.

(** side conditions under which [outcomes] is complete: every loop body is silent when it
    completes, and nothing foreign occurs *)
Fixpoint loops_silent (s : stmt) : bool :=
  match s with
  | SSeq a b | STry a b | SIf _ a b => loops_silent a && loops_silent b
  | SWhile _ b => loops_silent b && forallb (fun x : xres * xtrace => negb (is_normal (fst x)) || is_nil (snd x)) (outcomes b)
  | s => match kind s with KForeign => false | _ => true end
  end.

Lemma outcomes_leaf : forall s, kind s <> KCompound ->
  outcomes s = match kind s with
               | KSilent => [(XNormal, [])]
               | KMark l => [(XNormal, [(l, true)])]
               | KAtom l q => [(XNormal, if q then [] else [(l, true)]); (XRaise, [(l, false)])]
               | KRaises => [(XRaise, [])]
               | KBreaks => [(XBreak, [])]
               | _ => []
               end.
Proof. intros s C. destruct s; simpl in *; try reflexivity; exfalso; apply C; reflexivity. Qed.

Lemma xrun_in_outcomes : forall s r t, xrun s r t -> loops_silent s = true -> In (r, t) (outcomes s).
Proof.
  (* a leaf's outcomes are listed by its kind; a compound statement's are built from those of its parts *)
  induction 1; intros LS;
    try (rewrite outcomes_leaf by (rewrite H; discriminate); rewrite H); simpl; auto;
    pose proof LS as LS'; simpl in LS'; apply andb_prop in LS'; destruct LS' as [La Lb].
  - apply in_flat_map. exists (XNormal, t1). split; [auto | ]. simpl. apply in_map_iff. exists (r, t2). auto.
  - apply in_flat_map. exists (r, t1). split; [auto | ]. destruct r; simpl; auto. contradiction.
  - apply in_flat_map. exists (ra, ta). split; [auto | ]. apply in_map_iff. exists (rb, tb). auto.
  - apply in_or_app. auto.
  - apply in_or_app. auto.
  - (* one more iteration: its trace is empty *)
    rewrite forallb_forall in Lb. specialize (Lb _ (IHxrun1 La)). simpl in Lb.
    destruct t1; [exact (IHxrun2 LS) | discriminate Lb].
  - right. apply in_flat_map. exists (XBreak, t1). split; [auto | simpl; auto].
  - right. apply in_flat_map. exists (XRaise, t1). split; [auto | simpl; auto].
Qed.

Definition hook_eq (a b : hook) : bool := hook_eqb a b.      (* [hook_eqb] of Relay/Tie.v under the name used here *)
Definition leaf_eqb (a b : leaf) : bool :=
  match a, b with
  | LAssert, LAssert | LSpawn, LSpawn | LBody, LBody | LProc, LProc | LSleep, LSleep | LPut, LPut | LMon, LMon
  | LCreate, LCreate | LInFinally, LInFinally => true
  | LHook x, LHook y => hook_eq x y
  | _, _ => false
  end.

Definition reached (l : leaf) (t : xtrace) : bool := existsb (fun e : leaf * bool => leaf_eqb l (fst e)) t.
Definition returned (l : leaf) (t : xtrace) : bool := existsb (fun e : leaf * bool => leaf_eqb l (fst e) && snd e) t.
Definition failed (l : leaf) (t : xtrace) : bool := existsb (fun e : leaf * bool => leaf_eqb l (fst e) && negb (snd e)) t.

Fixpoint upto (l : leaf) (t : xtrace) : xtrace :=
  match t with [] => [] | e :: r => if leaf_eqb l (fst e) then [] else e :: upto l r end.
Fixpoint from (l : leaf) (t : xtrace) : xtrace :=
  match t with [] => [] | e :: r => if leaf_eqb l (fst e) then r else from l r end.

Definition implb' (a b : bool) : bool := negb a || b.       (* [Bool.implb] *)

(** the `finally` of relay_events is reached from EVERY await of the protected body: once the
    monitor task exists, `in_finally = True` is executed whatever raised or was cancelled after it *)
Definition finally_reached (t : xtrace) : bool := implb' (reached LCreate t) (reached LInFinally t).

(** and the monitor is shut down: after `in_finally = True` the sentinel put is reached unless
    sleep(0) of the drain loop raised; `await task` is reached iff the put returned *)
Definition monitor_shut_down (t : xtrace) : bool :=
  implb' (reached LInFinally t) (reached LPut (from LInFinally t) || failed LSleep (from LInFinally t))
  && Bool.eqb (reached LMon t) (returned LPut t).

(** the `finally` of RunSession.run: a spawned process whose on_start_run returned is awaited
    whatever the body at the yield did *)
Definition process_awaited (t : xtrace) : bool :=
  implb' (returned LSpawn t && returned (LHook HOnStartRun) t) (reached LProc t).

(** on_end_run is called only if NOTHING raised before, in particular `await task` returned;
    and only after on_start_run *)
Definition end_run_guarded (t : xtrace) : bool :=
  implb' (reached (LHook HOnEndRun) t)
         (forallb (fun e : leaf * bool => snd e) (upto (LHook HOnEndRun) t) && returned LMon (upto (LHook HOnEndRun) t)
          && returned (LHook HOnStartRun) (upto (LHook HOnEndRun) t) && returned LProc (upto (LHook HOnEndRun) t)).

(** the order of the protocol on every path: create < spawn < on_start_run < in_finally < put < await task *)
Definition in_order (t : xtrace) : bool :=
  implb' (reached LSpawn t) (reached LCreate (upto LSpawn t))
  && implb' (reached (LHook HOnStartRun) t) (returned LSpawn (upto (LHook HOnStartRun) t))
  && implb' (reached LProc t) (returned (LHook HOnStartRun) (upto LProc t))
  && implb' (reached LPut t) (reached LInFinally (upto LPut t))
  && implb' (reached LMon t) (returned LPut (upto LMon t)).

Definition xsafe (t : xtrace) : bool :=
  finally_reached t && monitor_shut_down t && process_awaited t && end_run_guarded t && in_order t.

Lemma main_program_closed : loops_silent main_program = true.
Proof. vm_compute. reflexivity. Qed.

Lemma all_outcomes_safe : forallb (fun x : xres * xtrace => xsafe (snd x)) (outcomes main_program) = true.
Proof. vm_compute. reflexivity. Qed.

(** for EVERY execution of the regenerated RunSession.run, every await that raises, every
    cancellation point *)
Theorem finally_semantics : forall r t, xrun main_program r t -> xsafe t = true.
Proof.
  intros r t H. apply xrun_in_outcomes in H; [ | exact main_program_closed].
  pose proof all_outcomes_safe as A. rewrite forallb_forall in A. exact (A _ H).
Qed.

(** non-vacuity: the path on which nothing raises exists, ends normally and is the protocol *)
Example xrun_normal_path :
  In (XNormal, [(LCreate, true); (LSpawn, true); (LHook HOnStartRun, true); (LBody, true); (LProc, true); (LInFinally, true);
                (LPut, true); (LMon, true); (LHook HOnEndRun, true)]) (outcomes main_program)
  /\ (3 <=? length (filter (fun x : xres * xtrace => negb (is_normal (fst x))) (outcomes main_program)))%nat = true.
Proof. vm_compute. split; [ | reflexivity]. auto 20. Qed.

(** e.g.: the process await is cancelled -> the relay still drains, puts the sentinel and awaits the
    monitor; on_end_run is not called; the exception propagates *)
Example xrun_cancel_at_process_await :
  In (XRaise, [(LCreate, true); (LSpawn, true); (LHook HOnStartRun, true); (LBody, true); (LProc, false); (LInFinally, true);
               (LPut, true); (LMon, true)]) (outcomes main_program).
Proof. vm_compute. auto 30. Qed.
