(** The relation between the state of the interpreter of Ids/Interp.v and the state of the
    hand-written Ids/Model.v, and the elementary updates that preserve it.  Nothing here depends
    on the regenerated code except [st_init] (the kinds of the containers that the regenerated
    __init__ bodies create). *)
From NL Require Import Ids.Interp Gen.IdsFuns Ids.Inv.
Open Scope Z_scope.

Definition enc_oz (o : option Z) : value := match o with Some k => VInt k | None => VNone end.
Definition enc_id (id : ttid) : value := VId (VInt (fst id)) (enc_oz (snd id)).
Definition is_some {A} (o : option A) : bool := match o with Some _ => true | None => false end.

Definition st_init : istate := y_st (iinit program).

(** [lt], [lm]: the heap locations of the composer's thread counter and of the mapper's trace
    counter.  A task counter exists for a thread NUMBER once the defaultdict was asked for it; the
    model's total function [c_task_ctr] reads 1 where there is none yet. *)
Record Rst (lt lm : nat) (st : istate) (s : state) : Prop := {
  r_kinds : forall c n, i_kinds st c n = i_kinds st_init c n;
  r_kc : i_attrs st Keeper "_counter" = VObj Composer;
  r_lt : i_attrs st Composer "thread_no_counter" = VCtr lt;
  r_lm : i_attrs st Mapper "_counter" = VCtr lm;
  r_ltm : lt <> lm;
  r_lt_h : i_heap st lt = c_thread_ctr s;
  r_lm_h : i_heap st lm = m_ctr s;
  r_lt_n : (lt < i_next st)%nat;
  r_lm_n : (lm < i_next st)%nat;
  r_set : forall a, is_some (i_dicts st Keeper "_set" (aval a)) = k_set s a;
  r_thno : forall th, i_dicts st Composer "_thread_no_map" (VThread th) = option_map VInt (c_thread_no s th);
  r_tkno : forall th k, i_dicts st Composer "_task_no_map" (VTask th k) = option_map VInt (c_task_no s (th, Some k));
  r_cmap : forall a, i_dicts st Composer "_map" (aval a) = option_map enc_id (c_map s a);
  r_mmap : forall a, i_dicts st Mapper "_map" (aval a) = option_map VInt (m_map s a);
  r_tkctr : forall tn, match i_dicts st Composer "_task_no_counter_map" (VInt tn) with
                       | None => c_task_ctr s tn = 1
                       | Some (VCtr l) => i_heap st l = c_task_ctr s tn /\ (l < i_next st)%nat /\ l <> lt /\ l <> lm
                       | Some _ => False
                       end;
  r_tk_inj : forall tn tn' l, i_dicts st Composer "_task_no_counter_map" (VInt tn) = Some (VCtr l) ->
                              i_dicts st Composer "_task_no_counter_map" (VInt tn') = Some (VCtr l) -> tn = tn'
}.

Definition w_kset s f := mkSt f (k_pend s) (c_thread_ctr s) (c_thread_no s) (c_task_ctr s) (c_task_no s) (c_map s) (m_ctr s) (m_map s).
Definition w_kpend s f := mkSt (k_set s) f (c_thread_ctr s) (c_thread_no s) (c_task_ctr s) (c_task_no s) (c_map s) (m_ctr s) (m_map s).
Definition w_thctr s z := mkSt (k_set s) (k_pend s) z (c_thread_no s) (c_task_ctr s) (c_task_no s) (c_map s) (m_ctr s) (m_map s).
Definition w_thno s f := mkSt (k_set s) (k_pend s) (c_thread_ctr s) f (c_task_ctr s) (c_task_no s) (c_map s) (m_ctr s) (m_map s).
Definition w_tkctr s f := mkSt (k_set s) (k_pend s) (c_thread_ctr s) (c_thread_no s) f (c_task_no s) (c_map s) (m_ctr s) (m_map s).
Definition w_tkno s f := mkSt (k_set s) (k_pend s) (c_thread_ctr s) (c_thread_no s) (c_task_ctr s) f (c_map s) (m_ctr s) (m_map s).
Definition w_cmap s f := mkSt (k_set s) (k_pend s) (c_thread_ctr s) (c_thread_no s) (c_task_ctr s) (c_task_no s) f (m_ctr s) (m_map s).
Definition w_mctr s z := mkSt (k_set s) (k_pend s) (c_thread_ctr s) (c_thread_no s) (c_task_ctr s) (c_task_no s) (c_map s) z (m_map s).
Definition w_mmap s f := mkSt (k_set s) (k_pend s) (c_thread_ctr s) (c_thread_no s) (c_task_ctr s) (c_task_no s) (c_map s) (m_ctr s) f.

Lemma veqb_aval a b : veqb (aval a) (aval b) = actor_eqb a b.
Proof.
  destruct a as [th [k|]], b as [th' [k'|]]; unfold aval, actor_eqb; simpl; try reflexivity.
  - rewrite andb_false_r. reflexivity.
  - rewrite andb_false_r. reflexivity.
  - rewrite andb_true_r. reflexivity.
Qed.

Lemma Rst_put_out lt lm st s v : Rst lt lm st s -> Rst lt lm (put_out st v) s.
Proof. intros []. constructor; auto. Qed.
Lemma Rst_clear_out lt lm st s : Rst lt lm st s -> Rst lt lm (clear_out st) s.
Proof. intros []. constructor; auto. Qed.
Lemma Rst_kpend lt lm st s f : Rst lt lm st s -> Rst lt lm st (w_kpend s f).
Proof. intros []. constructor; auto. Qed.

Lemma Rst_set_attr lt lm st s c n v :
  same_ref Keeper "_counter" c n = false -> same_ref Composer "thread_no_counter" c n = false ->
  same_ref Mapper "_counter" c n = false ->
  Rst lt lm st s -> Rst lt lm (set_attr st c n v) s.
Proof. intros H1 H2 H3 []. constructor; auto; cbn [set_attr i_attrs]; rewrite ?H1, ?H2, ?H3; auto. Qed.

Lemma Rst_thread_ctr lt lm st s :
  Rst lt lm st s -> Rst lt lm (set_heap st lt (c_thread_ctr s + 1)) (w_thctr s (c_thread_ctr s + 1)).
Proof.
  intros []. constructor; auto; cbn.
  - rewrite Nat.eqb_refl. lia.
  - rewrite (proj2 (Nat.eqb_neq _ _)) by auto. assumption.
  - intros tn. specialize (r_tkctr0 tn). destruct (i_dicts st Composer "_task_no_counter_map" (VInt tn)) as [[]|]; auto.
    destruct r_tkctr0 as (A & B & C & D). rewrite (proj2 (Nat.eqb_neq _ _)) by auto. auto.
Qed.

Lemma Rst_trace_ctr lt lm st s :
  Rst lt lm st s -> Rst lt lm (set_heap st lm (m_ctr s + 1)) (w_mctr s (m_ctr s + 1)).
Proof.
  intros []. constructor; auto; cbn.
  - rewrite (proj2 (Nat.eqb_neq _ _)) by auto. assumption.
  - rewrite Nat.eqb_refl. lia.
  - intros tn. specialize (r_tkctr0 tn). destruct (i_dicts st Composer "_task_no_counter_map" (VInt tn)) as [[]|]; auto.
    destruct r_tkctr0 as (A & B & C & D). rewrite (proj2 (Nat.eqb_neq _ _)) by auto. auto.
Qed.

(** defaultdict miss: a new counter that starts at 1 is stored under the thread number *)
Lemma Rst_new_task_ctr lt lm st s tn :
  Rst lt lm st s -> i_dicts st Composer "_task_no_counter_map" (VInt tn) = None ->
  Rst lt lm (set_entry (fst (alloc st 1)) (Composer, "_task_no_counter_map") (VInt tn) (Some (VCtr (i_next st)))) s.
Proof.
  intros [] Hn. constructor; auto; cbn.
  - rewrite (proj2 (Nat.eqb_neq _ _)) by lia. assumption.
  - rewrite (proj2 (Nat.eqb_neq _ _)) by lia. assumption.
  - lia.
  - lia.
  - intros tn'. destruct (Z.eqb_spec tn' tn).
    + subst. rewrite Nat.eqb_refl. specialize (r_tkctr0 tn). rewrite Hn in r_tkctr0. repeat split; auto; lia.
    + specialize (r_tkctr0 tn'). destruct (i_dicts st Composer "_task_no_counter_map" (VInt tn')) as [[]|]; auto.
      destruct r_tkctr0 as (A & B & C & D). rewrite (proj2 (Nat.eqb_neq _ _)) by lia. repeat split; auto.
  - intros a b l. destruct (Z.eqb_spec a tn); destruct (Z.eqb_spec b tn); subst; auto; intros H1 H2.
    + inversion H1; subst. specialize (r_tkctr0 b). rewrite H2 in r_tkctr0. lia.
    + inversion H2; subst. specialize (r_tkctr0 a). rewrite H1 in r_tkctr0. lia.
    + eauto.
Qed.

Lemma Rst_task_ctr lt lm st s tn l :
  Rst lt lm st s -> i_dicts st Composer "_task_no_counter_map" (VInt tn) = Some (VCtr l) ->
  Rst lt lm (set_heap st l (c_task_ctr s tn + 1)) (w_tkctr s (updf Z.eqb (c_task_ctr s) tn (c_task_ctr s tn + 1))).
Proof.
  intros [] Hl. pose proof (r_tkctr0 tn) as Htn. rewrite Hl in Htn. destruct Htn as (A & B & C & D).
  constructor; auto; cbn.
  - rewrite (proj2 (Nat.eqb_neq _ _)) by auto. assumption.
  - rewrite (proj2 (Nat.eqb_neq _ _)) by auto. assumption.
  - intros tn'. unfold updf. destruct (Z.eqb_spec tn' tn).
    + subst. rewrite Hl. rewrite Nat.eqb_refl. repeat split; auto.
    + pose proof (r_tkctr0 tn') as H'. destruct (i_dicts st Composer "_task_no_counter_map" (VInt tn')) as [[]|] eqn:E; auto.
      destruct H' as (A' & B' & C' & D'). rewrite (proj2 (Nat.eqb_neq _ _)); [auto|]. intros ->. apply n. eauto.
Qed.

Lemma Rst_thno lt lm st s th n :
  Rst lt lm st s ->
  Rst lt lm (set_entry st (Composer, "_thread_no_map") (VThread th) (Some (VInt n))) (w_thno s (updf Z.eqb (c_thread_no s) th (Some n))).
Proof.
  intros []. constructor; auto; cbn.
  intros th'. unfold updf. destruct (Z.eqb th' th); auto.
Qed.

Lemma Rst_tkno lt lm st s th k n :
  Rst lt lm st s ->
  Rst lt lm (set_entry st (Composer, "_task_no_map") (VTask th k) (Some (VInt n)))
      (w_tkno s (updf actor_eqb (c_task_no s) (th, Some k) (Some n))).
Proof.
  intros []. constructor; auto; cbn.
  intros th' k'. unfold updf, actor_eqb. cbn. destruct (Z.eqb th' th && Z.eqb k' k); auto.
Qed.

Lemma Rst_cmap lt lm st s a id :
  Rst lt lm st s ->
  Rst lt lm (set_entry st (Composer, "_map") (aval a) (Some (enc_id id))) (w_cmap s (updf actor_eqb (c_map s) a (Some id))).
Proof.
  intros []. constructor; auto; cbn.
  intros b. unfold updf. rewrite veqb_aval. destruct (actor_eqb b a); auto.
Qed.

Lemma Rst_mmap lt lm st s a t :
  Rst lt lm st s ->
  Rst lt lm (set_entry st (Mapper, "_map") (aval a) (Some (VInt t))) (w_mmap s (updf actor_eqb (m_map s) a (Some t))).
Proof.
  intros []. constructor; auto; cbn.
  intros b. unfold updf. rewrite veqb_aval. destruct (actor_eqb b a); auto.
Qed.

Lemma Rst_kset lt lm st s a :
  Rst lt lm st s ->
  Rst lt lm (set_entry st (Keeper, "_set") (aval a) (Some VNone)) (w_kset s (updf actor_eqb (k_set s) a true)).
Proof.
  intros []. constructor; auto; cbn.
  intros b. unfold updf. rewrite veqb_aval. destruct (actor_eqb b a); auto.
Qed.

(** the part of the state the USE of the trace number lives in: LocalTraceFunc._map (trace number -> the
    trace function of its own Pdb), the objects created so far, the closure held by PdbInstanceFactory.
    None of the numbering methods touches it ([rest_of] is what every numbering lemma preserves). *)
Definition pview (st : istate) :=
  (i_dicts st Local "_map", i_nobj st, i_kinds st Local "_map", i_attrs st PdbFactory "_factory").
Definition rest_of (st : istate) := (i_out st, pview st).
Lemma rest_out a b : rest_of a = rest_of b -> i_out a = i_out b.
Proof. intros H. exact (f_equal fst H). Qed.
Lemma rest_pv a b : rest_of a = rest_of b -> pview a = pview b.
Proof. intros H. exact (f_equal snd H). Qed.

Lemma Rst_local_entry lt lm st s k v : Rst lt lm st s -> Rst lt lm (set_entry st (Local, "_map"%string) k v) s.
Proof. intros []. constructor; auto. Qed.
Lemma Rst_new_obj lt lm st s : Rst lt lm st s -> Rst lt lm (fst (new_obj st)) s.
Proof. intros []. constructor; auto. Qed.
