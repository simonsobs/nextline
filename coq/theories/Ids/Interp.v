(** An interpreter for the syntax of Ids/Syntax.v (executable definitions, plus the one-line
    unfolding equations eval_S / exec_S / drive_* that Ids/Tie.v steps with; [eval_body] /
    [exec_body] / [drive_k] are one level of the evaluator, open in their recursive calls, so that
    a symbolic run can be unfolded one level at a time).

    Objects.  Each of the six classes has ONE instance; `self.<name>` of class c is the
    attribute (c, name).  Containers (WeakKeyDictionary / defaultdict / WeakSet) are finite
    maps from values to values held per (class, attribute); a weak container keeps an entry
    as long as its key object is alive and object identities are never re-used (the same
    reading as Ids/Model.v).  Counter objects (`XNoCounter(n)`) live in a heap: creating one
    allocates a new location, calling one returns its next value and advances it; a counter
    is a first-class value, so the term shows where it is kept and by which key it is found.

    The executing thread / task.  A body runs "in" an actor (thread, optional task):
    `current_thread()` is the thread, `asyncio.current_task()` is the task, or None, or --
    when the thread runs no event loop ([cx_noloop]) -- raises RuntimeError.
    `task.get_loop()` is an arbitrary function [cx_loop] of the task.

    Hooks.  `self._hook.hook.h(k=v)` as a STATEMENT suspends the running method: [exec]
    returns [RHook] with the frames that remain.  The driver [drive] then runs every
    implementation of h found in the regenerated @hookimpl table and resumes the frames --
    except at a hook the caller declares a preemption point ([cut]), where the frames are
    handed back.  That is how the two halves of the start of a trace (labels Filtered and
    Mapped of Ids/Model.v: other threads run between `self._counter()` of the keeper and
    `self._counter()` of the mapper) are obtained from ONE method body.  A hook read inside
    an expression (`self._hook.hook.current_thread_no()`) calls the first implementation. *)
From NL Require Export Ids.Syntax Ids.Model.
Open Scope string_scope.
Open Scope list_scope.
Open Scope Z_scope.

Inductive value :=
| VNone | VBool (b : bool) | VInt (z : Z)
| VThread (th : Z)                   (* a threading.Thread object *)
| VTask (th k : Z)                   (* an asyncio.Task object (it runs in thread th) *)
| VLoop (l : Z)
| VId (tn kn : value)                (* ThreadTaskId(thread_no, task_no) *)
| VPair (a b : value)
| VCtr (loc : nat)
| VObj (c : cls)                     (* the instance of class c *)
| VEvent (name : string) (fields : list (string * value))
| VInst (kind : string) (loc : nat) (fields : list (string * value))   (* an object of a class not looked into (a Pdb, its StdInOut) *)
| VBound (self : value) (m : string)  (* a bound method / attribute of such an object: pdb.trace_dispatch *)
| VFun (f : string).                  (* a closure: a translated parameterless function *)

Definition cls_eqb (a b : cls) : bool :=
  match a, b with
  | Keeper, Keeper | Composer, Composer | Mapper, Mapper | Repeater, Repeater | Local, Local | PdbFactory, PdbFactory => true
  | _, _ => false
  end.

Fixpoint veqb (a b : value) : bool :=
  match a, b with
  | VNone, VNone => true
  | VBool x, VBool y => Bool.eqb x y
  | VInt x, VInt y => Z.eqb x y
  | VThread x, VThread y => Z.eqb x y
  | VTask x k, VTask y k' => Z.eqb x y && Z.eqb k k'
  | VLoop x, VLoop y => Z.eqb x y
  | VId a1 a2, VId b1 b2 => veqb a1 b1 && veqb a2 b2
  | VPair a1 a2, VPair b1 b2 => veqb a1 b1 && veqb a2 b2
  | VCtr x, VCtr y => Nat.eqb x y
  | VObj c, VObj c' => cls_eqb c c'
  | VInst k l _, VInst k' l' _ => String.eqb k k' && Nat.eqb l l'      (* identity: the class and the allocation number *)
  | VBound a1 m, VBound b1 m' => veqb a1 b1 && String.eqb m m'
  | VFun f, VFun f' => String.eqb f f'
  | _, _ => false
  end.

Definition truthy (v : value) : bool :=
  match v with
  | VNone => false
  | VBool b => b
  | VInt z => negb (Z.eqb z 0)
  | _ => true
  end.

Definition env := string -> option value.
Definition eempty : env := fun _ => None.
Definition eupd (en : env) (x : string) (v : value) : env := fun y => if String.eqb y x then Some v else en y.

Notation frame := (stmt * env)%type.

Record istate := mkI {
  i_attrs : cls -> string -> value;
  i_dicts : cls -> string -> value -> option value;
  i_kinds : cls -> string -> option ckind;
  i_heap : nat -> Z;                     (* counter objects: location -> next value *)
  i_next : nat;                          (* next free location *)
  i_out : list value;                    (* events put to queue_out / calls of trace functions, newest first *)
  i_nobj : nat                           (* number of opaque objects (StdInOut, CustomizedPdb, ..) created so far *)
}.

Definition st0 : istate :=
  mkI (fun _ _ => VNone) (fun _ _ _ => None) (fun _ _ => None) (fun _ => 0) 0%nat [] 0%nat.

Definition same_ref (c : cls) (n : string) (c' : cls) (n' : string) : bool := cls_eqb c c' && String.eqb n n'.

Definition set_attr (st : istate) (c : cls) (n : string) (v : value) : istate :=
  mkI (fun c' n' => if same_ref c' n' c n then v else i_attrs st c' n') (i_dicts st) (i_kinds st) (i_heap st) (i_next st) (i_out st) (i_nobj st).
Definition set_entry (st : istate) (d : cref) (k : value) (ov : option value) : istate :=
  mkI (i_attrs st)
      (fun c' n' x => if same_ref c' n' (fst d) (snd d) then (if veqb x k then ov else i_dicts st c' n' x) else i_dicts st c' n' x)
      (i_kinds st) (i_heap st) (i_next st) (i_out st) (i_nobj st).
Definition set_container (st : istate) (d : cref) (k : option ckind) : istate :=
  mkI (i_attrs st)
      (fun c' n' x => if same_ref c' n' (fst d) (snd d) then None else i_dicts st c' n' x)
      (fun c' n' => if same_ref c' n' (fst d) (snd d) then k else i_kinds st c' n')
      (i_heap st) (i_next st) (i_out st) (i_nobj st).
Definition clear_container (st : istate) (d : cref) : istate :=
  mkI (i_attrs st)
      (fun c' n' x => if same_ref c' n' (fst d) (snd d) then None else i_dicts st c' n' x)
      (i_kinds st) (i_heap st) (i_next st) (i_out st) (i_nobj st).
Definition set_heap (st : istate) (l : nat) (z : Z) : istate :=
  mkI (i_attrs st) (i_dicts st) (i_kinds st) (fun l' => if Nat.eqb l' l then z else i_heap st l') (i_next st) (i_out st) (i_nobj st).
Definition alloc (st : istate) (z : Z) : istate * nat :=
  (mkI (i_attrs st) (i_dicts st) (i_kinds st) (fun l' => if Nat.eqb l' (i_next st) then z else i_heap st l') (S (i_next st)) (i_out st) (i_nobj st),
   i_next st).
Definition put_out (st : istate) (v : value) : istate :=
  mkI (i_attrs st) (i_dicts st) (i_kinds st) (i_heap st) (i_next st) (v :: i_out st) (i_nobj st).
Definition clear_out (st : istate) : istate :=
  mkI (i_attrs st) (i_dicts st) (i_kinds st) (i_heap st) (i_next st) [] (i_nobj st).
Definition new_obj (st : istate) : istate * nat :=
  (mkI (i_attrs st) (i_dicts st) (i_kinds st) (i_heap st) (i_next st) (i_out st) (S (i_nobj st)), i_nobj st).
Definition lookup (st : istate) (d : cref) (k : value) : option value := i_dicts st (fst d) (snd d) k.

Record ctx := mkCx {
  cx_actor : actor;
  cx_noloop : bool;               (* asyncio.current_task() raises RuntimeError (no running loop) when there is no task *)
  cx_loop : Z -> Z -> Z           (* the event loop of task (th, k) *)
}.

Definition aval (a : actor) : value :=
  match snd a with Some k => VTask (fst a) k | None => VThread (fst a) end.

Inductive eres :=
| EV (st : istate) (en : env) (v : value)
| EExc (st : istate) (exc : string)
| EBad (why : string).                      (* the interpreter is stuck: ill-typed, unbound, out of fuel, unsupported *)

Inductive sres :=
| RNorm (st : istate) (en : env)
| RRet (st : istate) (v : value)
| RExc (st : istate) (exc : string)
| RHook (st : istate) (h : string) (kw : list (string * value)) (inner : list frame) (cur : stmt) (en : env)
| RBad (why : string).

Fixpoint find_method (ms : list (cls * string * (list string * stmt))) (c : cls) (m : string) : option (list string * stmt) :=
  match ms with
  | [] => None
  | ((c', m'), pb) :: r => if same_ref c m c' m' then Some pb else find_method r c m
  end.
Fixpoint find_str {A} (l : list (string * A)) (x : string) : option A :=
  match l with
  | [] => None
  | (y, v) :: r => if String.eqb x y then Some v else find_str r x
  end.
Fixpoint bind_params (ps : list string) (vs : list value) (en : env) : option env :=
  match ps, vs with
  | [], [] => Some en
  | p :: ps, v :: vs => bind_params ps vs (eupd en p v)
  | _, _ => None
  end.
Fixpoint bind_kw (ps : list string) (kw : list (string * value)) (en : env) : option env :=
  match ps with
  | [] => Some en
  | p :: ps => match find_str kw p with Some v => bind_kw ps kw (eupd en p v) | None => None end
  end.

Section Interp.
Variable P : prog.

Section InCtx.
Variable cx : ctx.

(** argument lists, left to right *)
Fixpoint eval_list (ev : istate -> env -> expr -> eres) (st : istate) (en : env) (es : list expr) (acc : list value)
  : istate * env * list value + eres :=
  match es with
  | [] => inl (st, en, rev acc)
  | e :: r => match ev st en e with EV st' en' v => eval_list ev st' en' r (v :: acc) | other => inr other end
  end.

(** self.m(vs) inside an expression: the callee gets its own locals, the caller keeps [en] *)
Definition call_method (exb : istate -> env -> stmt -> sres) (st : istate) (en : env) (c : cls) (m : string) (vs : list value) : eres :=
  match find_method (p_methods P) c m with
  | None => EBad "no such method"
  | Some (ps, body) =>
    match bind_params ps vs eempty with
    | None => EBad "arity"
    | Some en' =>
      match exb st en' body with
      | RNorm st' _ => EV st' en VNone
      | RRet st' v => EV st' en v
      | RExc st' x => EExc st' x
      | RHook _ _ _ _ _ _ => EBad "hook call inside an expression"
      | RBad w => EBad w
      end
    end
  end.

Definition lift (r : eres) (k : istate -> env -> value -> sres) : sres :=
  match r with EV st' en' v => k st' en' v | EExc st' x => RExc st' x | EBad w => RBad w end.

Definition eval_body (ev : istate -> env -> expr -> eres) (exb : istate -> env -> stmt -> sres)
    (st : istate) (en : env) (e : expr) : eres :=
    match e with
    | ENone => EV st en VNone
    | EBool b => EV st en (VBool b)
    | EInt z => EV st en (VInt z)
    | EVar x => match en x with Some v => EV st en v | None => EBad "unbound local" end
    | EAttr c name => EV st en (i_attrs st c name)
    | EField e f =>
      match ev st en e with
      | EV st' en' (VId tn kn) =>
        if String.eqb f "thread_no" then EV st' en' tn else if String.eqb f "task_no" then EV st' en' kn else EBad "field"
      | EV st' en' (VInst k l fs) =>
        EV st' en' (match find_str fs f with Some v => v | None => VBound (VInst k l fs) f end)
      | EV _ _ _ => EBad "field of a non-id"
      | other => other
      end
    | ECurrentThread => EV st en (VThread (fst (cx_actor cx)))
    | ECurrentTask =>
      match snd (cx_actor cx) with
      | Some k => EV st en (VTask (fst (cx_actor cx)) k)
      | None => if cx_noloop cx then EExc st "RuntimeError" else EV st en VNone
      end
    | EGetLoop e =>
      match ev st en e with
      | EV st' en' (VTask th k) => EV st' en' (VLoop (cx_loop cx th k))
      | EV _ _ _ => EBad "get_loop of a non-task"
      | other => other
      end
    | EFunc f =>
      match find_str (p_functions P) f with
      | None => EBad "no such function"
      | Some body =>
        match exb st eempty body with
        | RNorm st' _ => EV st' en VNone
        | RRet st' v => EV st' en v
        | RExc st' x => EExc st' x
        | RHook _ _ _ _ _ _ => EBad "hook call inside an expression"
        | RBad w => EBad w
        end
      end
    | EOr a b =>
      match ev st en a with
      | EV st' en' v => if truthy v then EV st' en' v else ev st' en' b
      | other => other
      end
    | EAnd a b =>
      match ev st en a with
      | EV st' en' v => if truthy v then ev st' en' b else EV st' en' v
      | other => other
      end
    | ENot a =>
      match ev st en a with
      | EV st' en' v => EV st' en' (VBool (negb (truthy v)))
      | other => other
      end
    | EIs a b | EEq a b =>
      match ev st en a with
      | EV st1 en1 va => match ev st1 en1 b with EV st2 en2 vb => EV st2 en2 (VBool (veqb va vb)) | other => other end
      | other => other
      end
    | EIsNot a b =>
      match ev st en a with
      | EV st1 en1 va => match ev st1 en1 b with EV st2 en2 vb => EV st2 en2 (VBool (negb (veqb va vb))) | other => other end
      | other => other
      end
    | EWalrus x e =>
      match ev st en e with
      | EV st' en' v => EV st' (eupd en' x v) v
      | other => other
      end
    | ETuple a b =>
      match ev st en a with
      | EV st1 en1 va => match ev st1 en1 b with EV st2 en2 vb => EV st2 en2 (VPair va vb) | other => other end
      | other => other
      end
    | EMkId a b =>
      match ev st en a with
      | EV st1 en1 va => match ev st1 en1 b with EV st2 en2 vb => EV st2 en2 (VId va vb) | other => other end
      | other => other
      end
    | EEvent name fields =>
      match eval_list ev st en (map snd fields) [] with
      | inl (st', en', vs) => EV st' en' (VEvent name (combine (map fst fields) vs))
      | inr other => other
      end
    | EGet d k =>
      match ev st en k with
      | EV st' en' vk => EV st' en' (match lookup st' d vk with Some v => v | None => VNone end)
      | other => other
      end
    | EGetD d k dflt =>
      match ev st en k with
      | EV st1 en1 vk =>
        match ev st1 en1 dflt with
        | EV st2 en2 vd => EV st2 en2 (match lookup st2 d vk with Some v => v | None => vd end)
        | other => other
        end
      | other => other
      end
    | EItem d k =>
      match ev st en k with
      | EV st' en' vk =>
        match lookup st' d vk with
        | Some v => EV st' en' v
        | None =>
          match i_kinds st' (fst d) (snd d) with
          | Some (KDefault f) =>
            match ev st' eempty f with
            | EV st2 _ v => EV (set_entry st2 d vk (Some v)) en' v
            | other => other
            end
          | Some KDict => EExc st' "KeyError"
          | _ => EBad "[] of a non-dict"
          end
        end
      | other => other
      end
    | EIn k d =>
      match ev st en k with
      | EV st' en' vk => EV st' en' (VBool (match lookup st' d vk with Some _ => true | None => false end))
      | other => other
      end
    | ENotIn k d =>
      match ev st en k with
      | EV st' en' vk => EV st' en' (VBool (match lookup st' d vk with Some _ => false | None => true end))
      | other => other
      end
    | EPop d k =>
      match ev st en k with
      | EV st' en' vk =>
        match lookup st' d vk with
        | Some v => EV (set_entry st' d vk None) en' v
        | None => EExc st' "KeyError"
        end
      | other => other
      end
    | EPopD d k dflt =>
      match ev st en k with
      | EV st1 en1 vk =>
        match ev st1 en1 dflt with
        | EV st2 en2 vd =>
          match lookup st2 d vk with
          | Some v => EV (set_entry st2 d vk None) en2 v
          | None => EV st2 en2 vd
          end
        | other => other
        end
      | other => other
      end
    | ESetDefault d k v =>
      match ev st en k with
      | EV st1 en1 vk =>
        match ev st1 en1 v with
        | EV st2 en2 vv =>
          match lookup st2 d vk with
          | Some old => EV st2 en2 old
          | None => EV (set_entry st2 d vk (Some vv)) en2 vv
          end
        | other => other
        end
      | other => other
      end
    | ECall f =>
      match ev st en f with
      | EV st' en' (VCtr l) => EV (set_heap st' l (i_heap st' l + 1)) en' (VInt (i_heap st' l))
      | EV st' en' (VObj c) =>
        match call_method exb st' en c "__call__" [] with
        | EV st2 _ v => EV st2 en' v
        | other => other
        end
      | EV st' en' (VFun g) =>
        match find_str (p_functions P) g with
        | None => EBad "no such function"
        | Some body =>
          match exb st' eempty body with
          | RNorm st2 _ => EV st2 en' VNone
          | RRet st2 v => EV st2 en' v
          | RExc st2 x => EExc st2 x
          | RHook _ _ _ _ _ _ => EBad "hook call inside an expression"
          | RBad w => EBad w
          end
        end
      | EV _ _ _ => EBad "call of a non-callable"
      | other => other
      end
    | EMethod c m args =>
      match eval_list ev st en args [] with
      | inl (st', en', vs) =>
        match call_method exb st' en c m vs with
        | EV st2 _ v => EV st2 en' v
        | other => other
        end
      | inr other => other
      end
    | EHook h =>
      match find_str (p_hookimpls P) h with
      | Some c => call_method exb st en c h []
      | None => EBad "no implementation of the hook"
      end
    | ENewCounter ctor args =>
      match eval_list ev st en args [] with
      | inl (st', en', vs) =>
        match find_str (p_counters P) ctor with
        | None => EBad "no such counter constructor"
        | Some cd =>
          let ostart := match vs with [VInt z] => Some z | [] => cd_default cd | _ => None end in
          match ostart with
          | None => EBad "counter constructor arguments"
          | Some start =>
            if Z.eqb (cd_step cd) 1 then
              let from := match cd_from cd with CFromParam => start | CFromConst z => z end in
              let '(st2, l) := alloc st' from in EV st2 en' (VCtr l)
            else EBad "itertools.count with a step other than 1"
          end
        end
      | inr other => other
      end
    | ENewObj c =>
      match call_method exb st en c "__init__" [] with
      | EV st' _ _ => EV st' en (VObj c)
      | other => other
      end
    | ENewInst kind fields =>
      match eval_list ev st en (map snd fields) [] with
      | inl (st', en', vs) => let '(st2, l) := new_obj st' in EV st2 en' (VInst kind l (combine (map fst fields) vs))
      | inr other => other
      end
    | EFunRef f => EV st en (VFun f)
    | ECallArgs f args =>
      match ev st en f with
      | EV st1 en1 vf =>
        match eval_list ev st1 en1 args [] with
        | inl (st2, en2, vs) =>
          (* WithContext(trace, ..) calls `trace` with the same arguments *)
          let target := match vf with
                        | VInst k _ fs => if String.eqb k "WithContext" then match find_str fs "trace" with Some t => t | None => VNone end else vf
                        | _ => vf
                        end in
          match target with
          | VBound self m => EV (put_out st2 (VEvent m [("self", self); ("arg", hd VNone vs)])) en2 VNone
          | _ => EBad "call of something that is not a trace function"
          end
        | inr other => other
        end
      | other => other
      end
    end.

Definition exec_body (ev : istate -> env -> expr -> eres) (exb : istate -> env -> stmt -> sres)
    (st : istate) (en : env) (s : stmt) : sres :=
    match s with
    | SSkip => RNorm st en
    | SSeq a b =>
      match exb st en a with
      | RNorm st' en' => exb st' en' b
      | RHook st' h kw inner cur en' => RHook st' h kw inner (SSeq cur b) en'
      | other => other
      end
    | SAssign x e => lift (ev st en e) (fun st' en' v => RNorm st' (eupd en' x v))
    | SAssign2 x y e =>
      lift (ev st en e) (fun st' en' v =>
        match v with VPair a b => RNorm st' (eupd (eupd en' x a) y b) | _ => RBad "unpacking a non-pair" end)
    | SSetAttr c name e => lift (ev st en e) (fun st' en' v => RNorm (set_attr st' c name v) en')
    | SNewContainer d k => RNorm (set_container st d (Some k)) en
    | SSetItem d k v =>
      lift (ev st en v) (fun st1 en1 vv =>
        lift (ev st1 en1 k) (fun st2 en2 vk => RNorm (set_entry st2 d vk (Some vv)) en2))
    | SDelItem d k =>
      lift (ev st en k) (fun st' en' vk =>
        match lookup st' d vk with Some _ => RNorm (set_entry st' d vk None) en' | None => RExc st' "KeyError" end)
    | SAdd d e => lift (ev st en e) (fun st' en' v => RNorm (set_entry st' d v (Some VNone)) en')
    | SDiscard d e => lift (ev st en e) (fun st' en' v => RNorm (set_entry st' d v None) en')
    | SClear d => RNorm (clear_container st d) en
    | SExpr e => lift (ev st en e) (fun st' en' _ => RNorm st' en')
    | SCallMethod c m args =>
      match eval_list ev st en args [] with
      | inl (st', en', vs) =>
        match find_method (p_methods P) c m with
        | None => RBad "no such method"
        | Some (ps, body) =>
          match bind_params ps vs eempty with
          | None => RBad "arity"
          | Some en0 =>
            match exb st' en0 body with
            | RNorm st2 _ | RRet st2 _ => RNorm st2 en'
            | RExc st2 x => RExc st2 x
            | RHook st2 h kw inner cur en2 => RHook st2 h kw (inner ++ [(cur, en2)]) SSkip en'
            | RBad w => RBad w
            end
          end
        end
      | inr (EExc st' x) => RExc st' x
      | inr (EBad w) => RBad w
      | inr (EV _ _ _) => RBad "impossible"
      end
    | SHook h kw =>
      match eval_list ev st en (map snd kw) [] with
      | inl (st', en', vs) => RHook st' h (combine (map fst kw) vs) [] SSkip en'
      | inr (EExc st' x) => RExc st' x
      | inr (EBad w) => RBad w
      | inr (EV _ _ _) => RBad "impossible"
      end
    | SPut e => lift (ev st en e) (fun st' en' v => RNorm (put_out st' v) en')
    | SIf c a b => lift (ev st en c) (fun st' en' v => if truthy v then exb st' en' a else exb st' en' b)
    | SReturn e => lift (ev st en e) (fun st' _ v => RRet st' v)
    | SRaise exc => RExc st exc
    | STry body exc handler =>
      match exb st en body with
      | RExc st' x => if String.eqb x exc then exb st' en handler else RExc st' x
      | RHook _ _ _ _ _ _ => RBad "hook call inside try"
      | other => other
      end
    | SOpaque _ => RNorm st en
    end.

Fixpoint eval (n : nat) (st : istate) (en : env) (e : expr) {struct n} : eres :=
  match n with
  | O => EBad "fuel"
  | S n => eval_body (eval n) (exec n) st en e
  end
with exec (n : nat) (st : istate) (en : env) (s : stmt) {struct n} : sres :=
  match n with
  | O => RBad "fuel"
  | S n => exec_body (eval n) (exec n) st en s
  end.

Lemma eval_S n st en e : eval (S n) st en e = eval_body (eval n) (exec n) st en e.
Proof. reflexivity. Qed.
Lemma exec_S n st en s : exec (S n) st en s = exec_body (eval n) (exec n) st en s.
Proof. reflexivity. Qed.

End InCtx.

Fixpoint impl_frames (impls : list (string * cls)) (h : string) (kw : list (string * value)) : option (list frame) :=
  match impls with
  | [] => Some []
  | (h', c) :: r =>
    if String.eqb h h' then
      match find_method (p_methods P) c h with
      | None => None
      | Some (ps, body) =>
        match bind_kw ps kw eempty, impl_frames r h kw with
        | Some en, Some fs => Some ((body, en) :: fs)
        | _, _ => None
        end
      end
    else impl_frames r h kw
  end.

Inductive dres :=
| DDone (st : istate)
| DSusp (st : istate) (ks : list frame)       (* stopped at a preemption point; ks remain *)
| DExc (st : istate) (exc : string)
| DBad (why : string).

(** what the driver does with the outcome [r] of the innermost frame; [drv] = drive the rest with the
    remaining fuel *)
Definition drive_k (drv : istate -> list frame -> dres) (cut : string -> bool) (rest : list frame) (r : sres) : dres :=
  match r with
  | RNorm st' _ | RRet st' _ => drv st' rest
  | RExc st' x => DExc st' x
  | RBad w => DBad w
  | RHook st' h kw inner cur en' =>
    let ks' := inner ++ (cur, en') :: rest in
    if cut h then DSusp st' ks'
    else match impl_frames (p_hookimpls P) h kw with
         | Some fs => drv st' (fs ++ ks')
         | None => DBad "hook implementation parameters"
         end
  end.

(** run a stack of frames (innermost first) to the end, dispatching hook calls *)
Fixpoint drive (n : nat) (cx : ctx) (cut : string -> bool) (st : istate) (ks : list frame) {struct n} : dres :=
  match n with
  | O => DBad "fuel"
  | S n =>
    match ks with
    | [] => DDone st
    | (s, en) :: rest => drive_k (drive n cx cut) cut rest (exec cx n st en s)
    end
  end.

Lemma drive_nil n cx cut st : drive (S n) cx cut st [] = DDone st.
Proof. reflexivity. Qed.
Lemma drive_cons n cx cut st s en rest :
  drive (S n) cx cut st ((s, en) :: rest) = drive_k (drive n cx cut) cut rest (exec cx n st en s).
Proof. reflexivity. Qed.

Lemma drive_k_norm drv cut rest st en : drive_k drv cut rest (RNorm st en) = drv st rest.
Proof. reflexivity. Qed.
Lemma drive_k_ret drv cut rest st v : drive_k drv cut rest (RRet st v) = drv st rest.
Proof. reflexivity. Qed.
Lemma drive_k_hook drv cut rest st h kw inner cur en :
  drive_k drv cut rest (RHook st h kw inner cur en) =
  if cut h then DSusp st (inner ++ (cur, en) :: rest)
  else match impl_frames (p_hookimpls P) h kw with
       | Some fs => drv st (fs ++ inner ++ (cur, en) :: rest)
       | None => DBad "hook implementation parameters"
       end.
Proof. reflexivity. Qed.

Record sys := mkSys {
  y_st : istate;
  y_susp : actor -> option (list frame)     (* an actor stopped inside `filtered`, at the call of on_start_task_or_thread *)
}.

Definition FUEL : nat := 60.

Definition cut_start (h : string) : bool := String.eqb h "on_start_task_or_thread".
Definition no_cut (h : string) : bool := false.

Definition field_z (fs : list (string * value)) (f : string) : option Z :=
  match find_str fs f with Some (VInt z) => Some z | _ => None end.

(** what the main process sees of an OnStartTrace / OnEndTrace event *)
Definition decode_start (evs : list value) : out :=
  match evs with
  | [VEvent name fs] =>
    if String.eqb name "OnStartTrace" then
      match field_z fs "trace_no", field_z fs "thread_no", find_str fs "task_no" with
      | Some tr, Some tn, Some VNone => OStart tr tn None
      | Some tr, Some tn, Some (VInt kn) => OStart tr tn (Some kn)
      | _, _, _ => OErr
      end
    else OErr
  | _ => OErr
  end.
Definition decode_end (evs : list value) : out :=
  match evs with
  | [VEvent name fs] =>
    if String.eqb name "OnEndTrace" then
      match field_z fs "trace_no" with Some tr => OEnd tr | None => OErr end
    else OErr
  | _ => OErr
  end.

Definition istep (nl : actor -> bool) (lp : Z -> Z -> Z) (y : sys) (l : label) : sys * out :=
  let st := clear_out (y_st y) in
  match l with
  | Filtered a =>
    (* the hook `filtered` is called in actor a *)
    match y_susp y a with
    | Some _ => (y, OSeen)                    (* a is stopped inside filtered: it cannot enter it again (Ids/Model.v: OSeen) *)
    | None =>
      match impl_frames (p_hookimpls P) "filtered" [] with
      | None => (y, OErr)
      | Some fs =>
        match drive FUEL (mkCx a (nl a) lp) cut_start st fs with
        | DDone st' => match i_out st' with [] => (mkSys st' (y_susp y), OSeen) | _ => (mkSys st' (y_susp y), OErr) end
        | DSusp st' ks =>
          match i_out st' with
          | [] => (mkSys st' (updf actor_eqb (y_susp y) a (Some ks)), OComposed)
          | _ => (mkSys st' (y_susp y), OErr)
          end
        | DExc st' _ => (mkSys st' (y_susp y), OErr)
        | DBad _ => (y, OErr)
        end
      end
    end
  | Mapped a =>
    (* a resumes: the implementations of on_start_task_or_thread, then the rest of `filtered` *)
    match y_susp y a with
    | None => (y, OErr)
    | Some ks =>
      match impl_frames (p_hookimpls P) "on_start_task_or_thread" [] with
      | None => (y, OErr)
      | Some fs =>
        match drive FUEL (mkCx a (nl a) lp) no_cut st (fs ++ ks) with
        | DDone st' => (mkSys st' (updf actor_eqb (y_susp y) a None), decode_start (i_out st'))
        | DSusp st' _ | DExc st' _ => (mkSys st' (updf actor_eqb (y_susp y) a None), OErr)
        | DBad _ => (y, OErr)
        end
      end
    end
  | Emit a x =>
    (* a plugin reads the hook current_trace_no() in actor a and tags what it emits *)
    match eval (mkCx a (nl a) lp) FUEL st eempty (EHook "current_trace_no") with
    | EV st' _ VNone => (mkSys st' (y_susp y), OEv None x)
    | EV st' _ (VInt t) => (mkSys st' (y_susp y), OEv (Some t) x)
    | EV st' _ _ | EExc st' _ => (mkSys st' (y_susp y), OErr)
    | EBad _ => (y, OErr)
    end
  | End a =>
    (* the done-callback calls TaskAndThreadKeeper._on_end(a) (in some other thread: the body never asks who runs it) *)
    match find_method (p_methods P) Keeper "_on_end" with
    | Some ([p], body) =>
      match drive FUEL (mkCx a (nl a) lp) no_cut st [(body, eupd eempty p (aval a))] with
      | DDone st' => (mkSys st' (y_susp y), decode_end (i_out st'))
      | DSusp st' _ | DExc st' _ => (mkSys st' (y_susp y), OErr)
      | DBad _ => (y, OErr)
      end
    | _ => (y, OErr)
    end
  end.

(** the USE of the trace number: the hook local_trace_func(frame, event, arg) called in actor a
    (by the global trace function, for every trace event of a).  The result is the object whose trace function
    received the call (a CustomizedPdb instance), if exactly one received it with the same first argument. *)
Definition decode_dispatch (evs : list value) (x : Z) : option value :=
  match evs with
  | [VEvent m fs] =>
    if String.eqb m "trace_dispatch" then
      match find_str fs "self", find_str fs "arg" with
      | Some self, Some (VInt x') => if Z.eqb x x' then Some self else None
      | _, _ => None
      end
    else None
  | _ => None
  end.

Definition idispatch (nl : actor -> bool) (lp : Z -> Z -> Z) (y : sys) (a : actor) (x : Z) : sys * option value :=
  let st := clear_out (y_st y) in
  match impl_frames (p_hookimpls P) "local_trace_func" [("frame", VInt x); ("event", VNone); ("arg", VNone)] with
  | None => (y, None)
  | Some fs =>
    match drive FUEL (mkCx a (nl a) lp) no_cut st fs with
    | DDone st' => (mkSys st' (y_susp y), decode_dispatch (i_out st') x)
    | DSusp st' _ | DExc st' _ => (mkSys st' (y_susp y), None)
    | DBad _ => (y, None)
    end
  end.

(** the plugins are instantiated -- TaskAndThreadKeeper() (which creates its ThreadTaskIdComposer),
    TaskOrThreadToTraceMapper() -- and the hook init(hook=..) of LocalTraceFunc and PdbInstanceFactory has run *)
Definition iinit : sys :=
  let cx := mkCx (0, None) false (fun _ _ => 0) in
  match find_method (p_methods P) Keeper "__init__", find_method (p_methods P) Mapper "__init__",
        find_method (p_methods P) Local "init", find_method (p_methods P) PdbFactory "init" with
  | Some ([], kb), Some ([], mb), Some ([p1], lb), Some ([p2], pb) =>
    match drive FUEL cx no_cut st0 [(kb, eempty); (mb, eempty); (lb, eupd eempty p1 VNone); (pb, eupd eempty p2 VNone)] with
    | DDone st => mkSys st (fun _ => None)
    | _ => mkSys st0 (fun _ => None)
    end
  | _, _, _, _ => mkSys st0 (fun _ => None)
  end.

Fixpoint itrace_from (nl : actor -> bool) (lp : Z -> Z -> Z) (y : sys) (ls : list label) : list (label * out) :=
  match ls with
  | [] => []
  | l :: r => (l, snd (istep nl lp y l)) :: itrace_from nl lp (fst (istep nl lp y l)) r
  end.
Fixpoint iexec_from (nl : actor -> bool) (lp : Z -> Z -> Z) (y : sys) (ls : list label) : sys :=
  match ls with
  | [] => y
  | l :: r => iexec_from nl lp (fst (istep nl lp y l)) r
  end.
Definition itrace nl lp (ls : list label) := itrace_from nl lp iinit ls.
Definition ifinal nl lp (ls : list label) := iexec_from nl lp iinit ls.
Definition iouts nl lp (ls : list label) : list out := map snd (itrace nl lp ls).

End Interp.
