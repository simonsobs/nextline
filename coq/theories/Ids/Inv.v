From NL Require Import Ids.Model.
Open Scope Z_scope.

Lemma oz_eqb_spec a b : reflect (a = b) (oz_eqb a b).
Proof.
  destruct a as [x|], b as [y|]; simpl; try (constructor; congruence).
  destruct (Z.eqb_spec x y); constructor; congruence.
Qed.

Lemma actor_eqb_spec (a b : actor) : reflect (a = b) (actor_eqb a b).
Proof.
  destruct a as [x k], b as [y k']. unfold actor_eqb. simpl.
  destruct (Z.eqb_spec x y); simpl; [|constructor; congruence].
  destruct (oz_eqb_spec k k'); constructor; congruence.
Qed.

Lemma actor_eqb_refl a : actor_eqb a a = true.
Proof. destruct (actor_eqb_spec a a); congruence. Qed.

Lemma trace_from_app : forall a s b,
  trace_from s (a ++ b) = trace_from s a ++ trace_from (exec_from s a) b.
Proof. induction a; simpl; intros; [reflexivity | rewrite IHa; reflexivity]. Qed.
Lemma exec_from_app : forall a s b, exec_from s (a ++ b) = exec_from (exec_from s a) b.
Proof. induction a; simpl; intros; [reflexivity | apply IHa]. Qed.
Lemma trace_snoc ls l : trace (ls ++ [l]) = trace ls ++ [(l, snd (step (final ls) l))].
Proof. unfold trace, final. rewrite trace_from_app. reflexivity. Qed.
Lemma final_snoc ls l : final (ls ++ [l]) = fst (step (final ls) l).
Proof. unfold final. rewrite exec_from_app. reflexivity. Qed.

Lemma trace_split : forall ls s pre l o post,
  trace_from s ls = pre ++ (l, o) :: post ->
  exists l1, pre = trace_from s l1 /\ o = snd (step (exec_from s l1) l).
Proof.
  induction ls as [|a ls IH]; intros s pre l o post H.
  - destruct pre; discriminate.
  - destruct pre as [|e pre]; simpl in H.
    + inversion H; subst. exists []. repeat split.
    + inversion H; subst. destruct (IH _ _ _ _ _ H2) as (l1 & -> & ->).
      exists (a :: l1). repeat split.
Qed.

Lemma started_app tr tr' a :
  started (tr ++ tr') a = match started tr a with Some v => Some v | None => started tr' a end.
Proof.
  induction tr as [|[l o] tr IH]; simpl; [reflexivity|].
  destruct l; auto. destruct o; auto. destruct (actor_eqb a a0); auto.
Qed.

Lemma starts_app tr tr' : starts (tr ++ tr') = starts tr ++ starts tr'.
Proof. induction tr as [|[[] []] tr IH]; simpl; rewrite ?IH; reflexivity. Qed.

Record Inv (tr : list ev) (s : state) : Prop := {
  i_pos : 1 <= m_ctr s /\ 1 <= c_thread_ctr s /\ forall tn, 1 <= c_task_ctr s tn;
  i_tr_range : forall a t, m_map s a = Some t -> 1 <= t < m_ctr s;
  i_tr_inj : forall a b t, m_map s a = Some t -> m_map s b = Some t -> a = b;
  i_set : forall a, k_set s a = true <-> m_map s a <> None;
  i_started : forall a, started tr a =
      match m_map s a, c_map s a with Some t, Some id => Some (t, id) | _, _ => None end;
  i_set_cmap : forall a, m_map s a <> None -> c_map s a <> None;
  i_pend : forall a, k_pend s a = true -> c_map s a <> None /\ m_map s a = None;
  i_th_range : forall th n, c_thread_no s th = Some n -> 1 <= n < c_thread_ctr s;
  i_th_inj : forall th th' n, c_thread_no s th = Some n -> c_thread_no s th' = Some n -> th = th';
  i_tk : forall a kn, c_task_no s a = Some kn ->
      snd a <> None /\ exists tn, c_thread_no s (fst a) = Some tn /\ 1 <= kn < c_task_ctr s tn;
  i_tk_inj : forall a b kn, c_task_no s a = Some kn -> c_task_no s b = Some kn -> fst a = fst b -> a = b;
  i_cmap : forall a tn okn, c_map s a = Some (tn, okn) ->
      c_thread_no s (fst a) = Some tn /\
      match snd a with None => okn = None | Some _ => exists kn, okn = Some kn /\ c_task_no s a = Some kn end
}.

Lemma Inv_init : Inv [] init.
Proof. constructor; simpl; intros; try discriminate; try reflexivity; try congruence; [repeat split; intros; lia|split; intros; congruence]. Qed.

Record CInv (s : state) : Prop := {
  c_pos : 1 <= c_thread_ctr s /\ forall tn, 1 <= c_task_ctr s tn;
  c_th_range : forall th n, c_thread_no s th = Some n -> 1 <= n < c_thread_ctr s;
  c_th_inj : forall th th' n, c_thread_no s th = Some n -> c_thread_no s th' = Some n -> th = th';
  c_tk : forall a kn, c_task_no s a = Some kn ->
      snd a <> None /\ exists tn, c_thread_no s (fst a) = Some tn /\ 1 <= kn < c_task_ctr s tn;
  c_tk_inj : forall a b kn, c_task_no s a = Some kn -> c_task_no s b = Some kn -> fst a = fst b -> a = b;
  c_cmap : forall a tn okn, c_map s a = Some (tn, okn) ->
      c_thread_no s (fst a) = Some tn /\
      match snd a with None => okn = None | Some _ => exists kn, okn = Some kn /\ c_task_no s a = Some kn end
}.

Lemma Inv_CInv tr s : Inv tr s -> CInv s.
Proof. intros []. constructor; try assumption. tauto. Qed.

Ltac updz := unfold updf in *; repeat match goal with
  | H : context [Z.eqb ?a ?b] |- _ => destruct (Z.eqb_spec a b); subst
  | |- context [Z.eqb ?a ?b] => destruct (Z.eqb_spec a b); subst
  | H : context [actor_eqb ?a ?b] |- _ => destruct (actor_eqb_spec a b); subst
  | |- context [actor_eqb ?a ?b] => destruct (actor_eqb_spec a b); subst
  end.

(** thread number assignment (first half of _compose) *)
Definition with_thread (s : state) (th : Z) : state * Z :=
  match c_thread_no s th with
  | Some tn => (s, tn)
  | None =>
    (mkSt (k_set s) (k_pend s) (c_thread_ctr s + 1) (updf Z.eqb (c_thread_no s) th (Some (c_thread_ctr s)))
          (c_task_ctr s) (c_task_no s) (c_map s) (m_ctr s) (m_map s), c_thread_ctr s)
  end.

Lemma with_thread_inv s th : CInv s ->
  let '(s1, tn) := with_thread s th in
  CInv s1 /\ c_thread_no s1 th = Some tn /\ c_map s1 = c_map s.
Proof.
  intros I. unfold with_thread. destruct (c_thread_no s th) as [tn|] eqn:E.
  - split; [exact I|]. repeat split; auto.
  - destruct I. split; [|repeat split; simpl; auto].
    + destruct c_pos0 as [P1 P2]. constructor; simpl; intros.
      * split; [lia|assumption].
      * updz. { inversion H; lia. } apply c_th_range0 in H. lia.
      * updz; auto; try solve [eauto];
          repeat match goal with H : Some _ = Some _ |- _ => inversion H; clear H; subst end;
          match goal with H : c_thread_no s _ = Some (c_thread_ctr s) |- _ => apply c_th_range0 in H; lia end.
      * destruct (c_tk0 _ _ H) as (A & tn & B & C). split; auto. exists tn. split; auto. updz; [congruence|assumption].
      * eauto.
      * destruct (c_cmap0 _ _ _ H) as (A & B). split; auto. updz; [congruence|assumption].
    + updz; congruence.
Qed.

Lemma compose_eq s a :
  compose s a =
  let '(s1, tn) := with_thread s (fst a) in
  match snd a with
  | None => (s1, (tn, None))
  | Some _ =>
    match c_task_no s1 a with
    | Some kn => (s1, (tn, Some kn))
    | None =>
      let kn := c_task_ctr s1 tn in
      (mkSt (k_set s1) (k_pend s1) (c_thread_ctr s1) (c_thread_no s1) (updf Z.eqb (c_task_ctr s1) tn (kn + 1))
            (updf actor_eqb (c_task_no s1) a (Some kn)) (c_map s1) (m_ctr s1) (m_map s1), (tn, Some kn))
    end
  end.
Proof. unfold compose, with_thread. destruct (c_thread_no s (fst a)); reflexivity. Qed.

Definition good_id (s : state) (a : actor) (id : ttid) : Prop :=
  c_thread_no s (fst a) = Some (fst id) /\
  match snd a with None => snd id = None | Some _ => exists kn, snd id = Some kn /\ c_task_no s a = Some kn end.

Lemma compose_inv s a : CInv s ->
  let '(s1, id) := compose s a in
  CInv s1 /\ good_id s1 a id /\ c_map s1 = c_map s.
Proof.
  intros I. rewrite compose_eq. pose proof (with_thread_inv s (fst a) I) as W.
  destruct (with_thread s (fst a)) as [s1 tn].
  destruct W as (I1 & Hth & Hcm).
  destruct a as [th [k|]]; simpl in *.
  2:{ split; [exact I1|]. repeat split; auto. }
  destruct (c_task_no s1 (th, Some k)) as [kn|] eqn:Ek.
  - split; [exact I1|]. repeat split; auto. simpl. eauto.
  - destruct I1. split; [|repeat split; simpl; auto].
    + destruct c_pos0 as [P1 P2]. constructor; simpl; eauto.
      * split; [assumption|]. intros x. unfold updf. destruct (Z.eqb_spec x tn); [specialize (P2 tn); lia|apply P2].
      * intros a' kn' H. unfold updf in H. destruct (actor_eqb_spec a' (th, Some k)).
        -- subst. inversion H; subst. split; [discriminate|]. exists tn. split; [exact Hth|].
           unfold updf. rewrite Z.eqb_refl. specialize (P2 tn). lia.
        -- destruct (c_tk0 _ _ H) as (A & tn' & B & C). split; auto. exists tn'. split; auto.
           unfold updf. destruct (Z.eqb_spec tn' tn); [subst|]; lia.
      * intros a' b' kn' H H0 H1. unfold updf in *.
        destruct (actor_eqb_spec a' (th, Some k)); destruct (actor_eqb_spec b' (th, Some k)); subst; auto.
        -- inversion H; subst. destruct (c_tk0 _ _ H0) as (_ & tn' & B & C). simpl in H1. rewrite <- H1 in B.
           rewrite Hth in B. inversion B; subst. lia.
        -- inversion H0; subst. destruct (c_tk0 _ _ H) as (_ & tn' & B & C). simpl in H1. rewrite H1 in B.
           rewrite Hth in B. inversion B; subst. lia.
        -- eauto.
      * intros a' tn' okn H. destruct (c_cmap0 _ _ _ H) as (A & B). split; auto.
        destruct a' as [th' [k'|]]; simpl in *; auto. destruct B as (kn & B1 & B2). exists kn. split; auto.
        unfold updf. destruct (actor_eqb_spec (th', Some k') (th, Some k)); [congruence|assumption].
    + exists (c_task_ctr s1 tn). split; auto. unfold updf. rewrite actor_eqb_refl. reflexivity.
Qed.

Lemma composer_call_frame s a :
  k_pend (fst (composer_call s a)) = k_pend s /\ k_set (fst (composer_call s a)) = k_set s /\
  m_ctr (fst (composer_call s a)) = m_ctr s /\ m_map (fst (composer_call s a)) = m_map s.
Proof.
  destruct s as [ks kp tc tno tkc tkn cm mc mm]. destruct a as [th [k|]]; unfold composer_call, compose; cbn.
  - destruct (cm (th, Some k)); cbn; auto. destruct (tno th); cbn; destruct (tkn (th, Some k)); cbn; auto.
  - destruct (cm (th, None)); cbn; auto. destruct (tno th); cbn; auto.
Qed.

Lemma composer_call_hit s a id : c_map s a = Some id -> composer_call s a = (s, id).
Proof. intros H. unfold composer_call. rewrite H. reflexivity. Qed.

Lemma composer_call_inv s a : CInv s ->
  let '(s1, id) := composer_call s a in
  CInv s1 /\ c_map s1 a = Some id /\
  (forall b, b <> a -> c_map s1 b = c_map s b) /\ (forall b id', c_map s b = Some id' -> c_map s1 b = Some id').
Proof.
  intros I. unfold composer_call. destruct (c_map s a) as [id|] eqn:E.
  - split; [exact I|]. repeat split; auto.
  - pose proof (compose_inv s a I) as W. destruct (compose s a) as [s1 id].
    destruct W as (I1 & G & Hcm). destruct I1. split; [|repeat split; simpl; auto].
    + constructor; simpl; eauto. intros a' tn okn H. unfold updf in H.
      destruct (actor_eqb_spec a' a); [|eauto].
      subst. inversion H; subst. destruct G as [G1 G2]. simpl in *. split; auto.
    + updz; congruence.
    + intros. updz; congruence.
    + intros. updz; [congruence|]. rewrite Hcm. assumption.
Qed.

Definition is_start (e : ev) : bool :=
  match e with (Mapped _, OStart _ _ _) => true | _ => false end.

Lemma Inv_silent tr s e : is_start e = false -> Inv tr s -> Inv (tr ++ [e]) s.
Proof.
  intros He I. destruct I. constructor; auto.
  intros a. rewrite started_app, i_started0.
  destruct (m_map s a), (c_map s a); auto; destruct e as [[] []]; simpl in *; auto; discriminate.
Qed.

Lemma Inv_step tr s l : Inv tr s -> Inv (tr ++ [(l, snd (step s l))]) (fst (step s l)).
Proof.
  intros I. destruct l as [a|a|a x|a].
  3:{ simpl. apply Inv_silent; auto. }
  3:{ simpl. destruct (m_map s a); simpl; apply Inv_silent; auto. }
  - (* Filtered: thread / task numbers *)
    simpl. destruct (k_set s a || k_pend s a) eqn:Ek; [simpl; apply Inv_silent; auto|].
    apply orb_false_iff in Ek. destruct Ek as [Ek Ep].
    pose proof (composer_call_inv s a (Inv_CInv _ _ I)) as W. pose proof (composer_call_frame s a) as F.
    destruct (composer_call s a) as [s1 id]. destruct W as (C1 & Hid & Hother & Hmono).
    destruct F as (Hkp & Hk & Hc & Hm). simpl in Hkp, Hk, Hc, Hm.
    assert (Hma : m_map s a = None).
    { destruct (m_map s a) eqn:E; auto. assert (k_set s a = true) by (apply (i_set _ _ I); congruence). congruence. }
    simpl. apply Inv_silent; [reflexivity|].
    destruct I. destruct i_pos0 as (P1 & P2 & P3). destruct C1. simpl.
    constructor; simpl; eauto.
    + rewrite Hc. repeat split; try lia; tauto.
    + intros b t H. rewrite Hm in H. rewrite Hc. eauto.
    + intros b b' t H H0. rewrite Hm in *. eauto.
    + intros b. rewrite Hk, Hm. apply i_set0.
    + intros b. rewrite i_started0, Hm. destruct (actor_eqb_spec b a).
      * subst. rewrite Hma. reflexivity.
      * rewrite (Hother _ n). reflexivity.
    + intros b H. rewrite Hm in H. apply i_set_cmap0 in H. destruct (c_map s b) eqn:E; [|congruence].
      rewrite (Hmono _ _ E). discriminate.
    + intros b H. unfold updf in H. rewrite Hm. destruct (actor_eqb_spec b a).
      * subst. split; [congruence|assumption].
      * rewrite Hkp in H. destruct (i_pend0 _ H) as [A B]. split; auto.
        destruct (c_map s b) eqn:E; [|congruence]. rewrite (Hmono _ _ E). discriminate.
  - (* Mapped: trace number, OnStartTrace *)
    simpl. destruct (k_pend s a) eqn:Ep; [|simpl; apply Inv_silent; auto].
    destruct (i_pend _ _ I _ Ep) as [Hca Hma].
    destruct (c_map s a) as [id|] eqn:Eid; [|congruence].
    destruct I. destruct i_pos0 as (P1 & P2 & P3). simpl.
    constructor; simpl; eauto.
    + repeat split; try lia; tauto.
    + intros b t H. unfold updf in H. destruct (actor_eqb_spec b a).
      * inversion H; subst. lia.
      * apply i_tr_range0 in H. lia.
    + intros b b' t H H0. unfold updf in *.
      destruct (actor_eqb_spec b a); destruct (actor_eqb_spec b' a); subst; auto.
      * inversion H; subst. apply i_tr_range0 in H0. lia.
      * inversion H0; subst. apply i_tr_range0 in H. lia.
      * eauto.
    + intros b. unfold updf. destruct (actor_eqb_spec b a); [split; intros; congruence|apply i_set0].
    + intros b. rewrite started_app, i_started0. simpl. unfold updf.
      destruct (actor_eqb_spec b a).
      * subst. rewrite Hma, Eid. destruct id; reflexivity.
      * destruct (m_map s b), (c_map s b); reflexivity.
    + intros b H. unfold updf in H. destruct (actor_eqb_spec b a); [subst; congruence|eauto].
    + intros b H. unfold updf in *. destruct (actor_eqb_spec b a); [discriminate|eauto].
Qed.

Theorem Inv_reach : forall ls, Inv (trace ls) (final ls).
Proof.
  induction ls using rev_ind.
  - apply Inv_init.
  - rewrite trace_snoc, final_snoc. apply Inv_step. assumption.
Qed.

Lemma started_maps ls a t id :
  started (trace ls) a = Some (t, id) -> m_map (final ls) a = Some t /\ c_map (final ls) a = Some id.
Proof.
  intros H. rewrite (i_started _ _ (Inv_reach ls)) in H.
  destruct (m_map (final ls) a), (c_map (final ls) a); inversion H; auto.
Qed.

Theorem trace_no_injective : forall ls a b ta ida tb idb,
  started (trace ls) a = Some (ta, ida) -> started (trace ls) b = Some (tb, idb) ->
  (a = b <-> ta = tb).
Proof.
  intros ls a b ta ida tb idb Ha Hb.
  apply started_maps in Ha. apply started_maps in Hb. destruct Ha as [Ha _], Hb as [Hb _]. split.
  - intros ->. congruence.
  - intros ->. eapply (i_tr_inj _ _ (Inv_reach ls)); eauto.
Qed.

Theorem thread_task_pair_identifies : forall ls a b ta na ka tb nb kb,
  started (trace ls) a = Some (ta, (na, ka)) -> started (trace ls) b = Some (tb, (nb, kb)) ->
  (fst a = fst b <-> na = nb) /\
  (fst a = fst b -> a <> b -> ka <> kb) /\
  ((na, ka) = (nb, kb) -> a = b) /\
  (snd a = None <-> ka = None).
Proof.
  intros ls a b ta na ka tb nb kb Ha Hb.
  apply started_maps in Ha. apply started_maps in Hb. destruct Ha as [_ Ha], Hb as [_ Hb].
  pose proof (Inv_reach ls) as I.
  destruct (i_cmap _ _ I _ _ _ Ha) as (A1 & A2). destruct (i_cmap _ _ I _ _ _ Hb) as (B1 & B2).
  assert (Hthread : fst a = fst b <-> na = nb).
  { split; [intros E; rewrite E in A1; congruence|intros ->; eapply (i_th_inj _ _ I); eauto]. }
  assert (Hpair : fst a = fst b -> ka = kb -> a = b).
  { intros E1 E2. destruct a as [th [k|]], b as [th' [k'|]]; simpl in *; subst th'; subst kb.
    - destruct A2 as (kn & Ek & A2). destruct B2 as (kn' & Ek' & B2). rewrite Ek in Ek'. inversion Ek'; subst kn'.
      eapply (i_tk_inj _ _ I); eauto.
    - destruct A2 as (kn & Ek & _); congruence.
    - destruct B2 as (kn & Ek & _); congruence.
    - reflexivity. }
  repeat split.
  - apply Hthread.
  - apply Hthread.
  - intros E Hne Hk. apply Hne. apply Hpair; assumption.
  - intros E. inversion E; subst. apply Hpair; auto. apply Hthread. reflexivity.
  - intros E. rewrite E in A2. assumption.
  - intros ->. destruct (snd a); auto. destruct A2 as (kn & E & _). discriminate.
Qed.

Lemma started_trace_no ls a : option_map fst (started (trace ls) a) = m_map (final ls) a.
Proof.
  pose proof (Inv_reach ls) as I. rewrite (i_started _ _ I).
  destruct (m_map (final ls) a) eqn:E; [|reflexivity].
  destruct (c_map (final ls) a) eqn:Ec; [reflexivity|].
  exfalso. apply (i_set_cmap _ _ I a); [rewrite E; discriminate|exact Ec].
Qed.

(** every event produced by an actor carries the trace number given to that
    actor when it started (none if it has not started) *)
Theorem attribution : forall ls pre a x o post,
  trace ls = pre ++ (Emit a x, o) :: post ->
  o = OEv (option_map fst (started pre a)) x.
Proof.
  intros ls pre a x o post H.
  destruct (trace_split _ _ _ _ _ _ H) as (l1 & -> & ->).
  simpl. fold (trace l1). fold (final l1). rewrite started_trace_no. reflexivity.
Qed.

(** the numbers of an actor never change once given *)
Theorem started_stable : forall pre post a v, started pre a = Some v -> started (pre ++ post) a = Some v.
Proof. intros. rewrite started_app, H. reflexivity. Qed.

Lemma m_map_stable tr s l a t : Inv tr s -> m_map s a = Some t -> m_map (fst (step s l)) a = Some t.
Proof.
  intros I H. destruct l as [b|b|b x|b]; cbn [step].
  - destruct (k_set s b || k_pend s b); [exact H|].
    pose proof (composer_call_frame s b) as (_ & _ & _ & Hm). destruct (composer_call s b) as [s1 id]. cbn [fst] in *.
    cbn. rewrite Hm. exact H.
  - destruct (k_pend s b) eqn:Ep; [|exact H]. cbn. unfold updf.
    destruct (actor_eqb_spec a b) as [->|]; [|exact H].
    destruct (i_pend _ _ I _ Ep) as [_ Hn]. congruence.
  - exact H.
  - destruct (m_map s b); exact H.
Qed.

Lemma m_map_stable_run : forall ls tr s a t, Inv tr s -> m_map s a = Some t -> m_map (exec_from s ls) a = Some t.
Proof.
  induction ls as [|l r IH]; intros tr s a t I H; [exact H|].
  cbn [exec_from]. eapply IH; [apply (Inv_step _ _ l I)|eapply m_map_stable; eauto].
Qed.

(** OnEndTrace carries the actor's trace number *)
Theorem end_attribution : forall ls pre a o post,
  trace ls = pre ++ (End a, o) :: post ->
  o = match started pre a with Some (t, _) => OEnd t | None => OErr end.
Proof.
  intros ls pre a o post H.
  destruct (trace_split _ _ _ _ _ _ H) as (l1 & -> & ->).
  simpl. fold (trace l1). fold (final l1). rewrite <- started_trace_no.
  destruct (started (trace l1) a) as [[t id]|]; reflexivity.
Qed.

(** an actor starts at most once, and the trace numbers given are 1, 2, 3, ... *)
Theorem start_numbers : forall ls, map (fun x => fst (snd x)) (starts (trace ls)) = map Z.of_nat (seq 1 (length (starts (trace ls)))).
Proof.
  intros ls.
  assert (H : map (fun x => fst (snd x)) (starts (trace ls)) = map Z.of_nat (seq 1 (length (starts (trace ls))))
              /\ m_ctr (final ls) = Z.of_nat (S (length (starts (trace ls))))).
  { induction ls using rev_ind; [split; reflexivity|].
    destruct IHls as [IH1 IH2]. rewrite trace_snoc, final_snoc.
    rewrite starts_app. destruct x as [a|a|a y|a]; simpl.
    - destruct (k_set (final ls) a || k_pend (final ls) a) eqn:Ek; simpl; [rewrite app_nil_r; auto|].
      pose proof (composer_call_frame (final ls) a) as (_ & _ & Hc & _).
      destruct (composer_call (final ls) a) as [s1 id]. simpl in *.
      rewrite app_nil_r, Hc. auto.
    - destruct (k_pend (final ls) a); simpl; [|rewrite app_nil_r; auto].
      rewrite app_length, map_app. simpl. rewrite Nat.add_1_r, seq_S, map_app, <- IH1. simpl.
      rewrite IH2. split; [reflexivity|lia].
    - rewrite app_nil_r. auto.
    - destruct (m_map (final ls) a); simpl; rewrite app_nil_r; auto. }
  apply H.
Qed.
