(** TIE for the last sentence of C13: "Text produced by the debugger itself (prompts, command
    output) is never reported as script output, and the real standard output still receives
    everything the script wrote."

    Gen/DebuggerStream.v holds the statement trees of StdInOut.__init__/write/flush/readline, of
    Factory._factory (how each Pdb is constructed), of CustomizedPdb.__init__'s call of
    Pdb.__init__, of peek_textio and the wrapper it installs on sys.stdout.write, of
    peek_stdout / peek_stdout_by_key and of Repeater.on_write_stdout, REGENERATED from the source
    at every check (translate/debugger_stream.py, fail closed).  This file
      1. gives the trees a semantics (an interpreter with an oracle for the calls that leave the
         fragment: prompt function, callback, original write);
      2. proves, for ALL object states / arguments / oracle answers, what each regenerated method
         does ([write_spec], [readline_spec], [wrapper_spec], ...) -- the only lemmas that look
         at the regenerated terms;
      3. defines the TWO-SINK run: a run is any list of labels
           LScript a s        the script calls sys.stdout.write(s) while current_trace_no() = a
           LDbgWrite n s      the Pdb of trace n writes s to ITS stdout (print(.., file=self.stdout),
                              self.stdout.write(self.prompt)); Pdb runs IN the traced thread, so
                              current_trace_no() = n while it does
           LDbgFlush n        self.stdout.flush()
           LDbgReadline n c   self.stdin.readline(); the prompt function (the user) answers c
         where WHICH object "its stdout / stdin" is, is computed from the regenerated factory;
      4. proves for all label lists (= all interleavings, all texts) non-interference of the
         debugger's writes with what is reported, passthrough of the script's writes to the
         real stdout, and that each prompt text is exactly what that debugger wrote since its
         last readline.

    The behaviour of pdb.Pdb / cmd.Cmd (CPython) is NOT translated.  Writing to the `stdout` they were constructed
    with (and reading commands with `stdin.readline()`) are the labels LDbgWrite/LDbgFlush/LDbgReadline; what
    CPython's pdb does BESIDE that has labels of its own: LDbgSysWrite (`help pdb` -> pydoc.pager -> sys.stdout;
    `interact` -> input() prompt) and LSwapOn/LSwapOff (Pdb.default binds sys.stdout to its own stream, process-wide,
    while a `!statement` runs).  The theorems about the debugger's text carry the assumptions as HYPOTHESES on the
    label list ([no_sys_write], [no_swap]); [reported_and_real_exact] says what happens without them, and [refuted_help_pdb], [refuted_bang_statement]
    are the two witnesses that the assumptions are false of CPython 3.12's pdb (both reproduced against /repo by
    harness/props/c13.py: known findings).  Also assumed: one Pdb per trace number, running in the thread or task of
    that trace (C06's tie); a write() call is atomic with respect to the others. *)
From NL Require Import Stdout.Spec Stdout.Proofs Stdout.DebugSyntax Gen.DebuggerStream.
From Coq Require Import String Lia.
Open Scope Z_scope.

Inductive val :=
| VNone
| VText (t : text)
| VInt (z : Z)
| VPromptFn        (* the function PromptFunc(hook) returns: asks the user, returns the command *)
| VJunk.           (* a value the translation does not follow *)

Definition store := string -> val.
Definition upd (st : store) (k : string) (v : val) : store :=
  fun x => if String.eqb x k then v else st x.
Definition empty_store : store := fun _ => VJunk.

(** a call that leaves the translated fragment *)
Inductive effect :=
| FxPrompt (v : val)                 (* the prompt function is called with v *)
| FxCall (f : string) (v : val)      (* the variable f of the enclosing function is called with v *)
| FxSysWrite (v : val).              (* sys.stdout.write(v) *)

(** the environment's answer to such a call; None = the call raised *)
Definition oracle := effect -> option val.

Inductive outcome := ONormal | OReturn (v : val) | ORaise.

Record frame := mkF { f_self : store; f_vars : store; f_fx : list effect }.

Definition add_fx (fr : frame) (x : effect) : frame := mkF (f_self fr) (f_vars fr) (f_fx fr ++ [x]).
Definition set_self (fr : frame) (a : string) (v : val) : frame := mkF (upd (f_self fr) a v) (f_vars fr) (f_fx fr).
Definition set_var (fr : frame) (x : string) (v : val) : frame := mkF (f_self fr) (upd (f_vars fr) x v) (f_fx fr).

Definition truthy (v : val) : bool :=
  match v with
  | VNone => false
  | VText t => truthy_text t
  | VInt z => negb (Z.eqb z 0)
  | VPromptFn | VJunk => true
  end.

(** `a + b`: str + str, int + int; anything else raises TypeError *)
Definition v_add (a b : val) : option val :=
  match a, b with
  | VText x, VText y => Some (VText (str_add x y))
  | VInt x, VInt y => Some (VInt (x + y))
  | _, _ => None
  end.

Definition v_len (a : val) : option val :=
  match a with VText t => Some (VInt (Z.of_nat (List.length t))) | _ => None end.

Definition v_endswith (a b : val) : option bool :=
  match a, b with VText x, VText y => Some (str_endswith x y) | _, _ => None end.

Fixpoint eval (o : oracle) (fr : frame) (e : expr) : frame * option val :=
  match e with
  | EVar x => (fr, Some (f_vars fr x))
  | EAttr a => (fr, Some (f_self fr a))
  | EStr t => (fr, Some (VText t))
  | ENone => (fr, Some VNone)
  | EOpaque => (fr, Some VJunk)
  | EAdd a b =>
      match eval o fr a with
      | (fr1, Some va) =>
          match eval o fr1 b with
          | (fr2, Some vb) => (fr2, v_add va vb)
          | (fr2, None) => (fr2, None)
          end
      | (fr1, None) => (fr1, None)
      end
  | ELen a =>
      match eval o fr a with
      | (fr1, Some va) => (fr1, v_len va)
      | (fr1, None) => (fr1, None)
      end
  | ECallAttr a arg =>
      match eval o fr arg with
      | (fr1, Some v) =>
          match f_self fr1 a with
          | VPromptFn => (add_fx fr1 (FxPrompt v), o (FxPrompt v))
          | _ => (fr1, None)                    (* not callable *)
          end
      | (fr1, None) => (fr1, None)
      end
  | ECallVar f arg =>
      match eval o fr arg with
      | (fr1, Some v) => (add_fx fr1 (FxCall f v), o (FxCall f v))
      | (fr1, None) => (fr1, None)
      end
  | ESysWrite arg =>
      match eval o fr arg with
      | (fr1, Some v) => (add_fx fr1 (FxSysWrite v), o (FxSysWrite v))
      | (fr1, None) => (fr1, None)
      end
  end.

Fixpoint ceval (o : oracle) (fr : frame) (c : cond) : frame * option bool :=
  match c with
  | CTruthy e =>
      match eval o fr e with
      | (fr1, Some v) => (fr1, Some (truthy v))
      | (fr1, None) => (fr1, None)
      end
  | CNot c' =>
      match ceval o fr c' with
      | (fr1, Some b) => (fr1, Some (negb b))
      | (fr1, None) => (fr1, None)
      end
  | CEndswith a b =>
      match eval o fr a with
      | (fr1, Some va) =>
          match eval o fr1 b with
          | (fr2, Some vb) => (fr2, v_endswith va vb)
          | (fr2, None) => (fr2, None)
          end
      | (fr1, None) => (fr1, None)
      end
  end.

Fixpoint exec (o : oracle) (s : stmt) (fr : frame) : frame * outcome :=
  match s with
  | SSkip => (fr, ONormal)
  | SSeq a b =>
      match exec o a fr with
      | (fr1, ONormal) => exec o b fr1
      | (fr1, r) => (fr1, r)
      end
  | SSetAttr a e =>
      match eval o fr e with
      | (fr1, Some v) => (set_self fr1 a v, ONormal)
      | (fr1, None) => (fr1, ORaise)
      end
  | SAugAttr a e =>
      (* self.a += e : self.a is loaded first, then e is evaluated, then the sum is stored *)
      let old := f_self fr a in
      match eval o fr e with
      | (fr1, Some v) =>
          match v_add old v with
          | Some r => (set_self fr1 a r, ONormal)
          | None => (fr1, ORaise)
          end
      | (fr1, None) => (fr1, ORaise)
      end
  | SSetVar x e =>
      match eval o fr e with
      | (fr1, Some v) => (set_var fr1 x v, ONormal)
      | (fr1, None) => (fr1, ORaise)
      end
  | SExpr e =>
      match eval o fr e with
      | (fr1, Some _) => (fr1, ONormal)
      | (fr1, None) => (fr1, ORaise)
      end
  | SReturn e =>
      match eval o fr e with
      | (fr1, Some v) => (fr1, OReturn v)
      | (fr1, None) => (fr1, ORaise)
      end
  | SIf c a b =>
      match ceval o fr c with
      | (fr1, Some true) => exec o a fr1
      | (fr1, Some false) => exec o b fr1
      | (fr1, None) => (fr1, ORaise)
      end
  | SAssert c =>
      match ceval o fr c with
      | (fr1, Some true) => (fr1, ONormal)
      | (fr1, _) => (fr1, ORaise)               (* AssertionError *)
      end
  end.

(** binding of the arguments of a call: positional ones in parameter order, then keywords;
    a parameter that got nothing takes its default (a constant expression) *)
Fixpoint bind_pos (ps : list string) (vs : list val) (st : store) : store :=
  match ps, vs with
  | p :: ps', v :: vs' => bind_pos ps' vs' (upd st p v)
  | _, _ => st
  end.

Fixpoint bind_kw (kw : list (string * val)) (st : store) : store :=
  match kw with
  | [] => st
  | (k, v) :: r => bind_kw r (upd st k v)
  end.

Definition const_val (e : expr) : val :=
  match e with ENone => VNone | EStr t => VText t | _ => VJunk end.

Fixpoint bind_defaults (ds : list (string * expr)) (st : store) : store :=
  match ds with
  | [] => st
  | (k, e) :: r => bind_defaults r (upd st k (const_val e))
  end.

Definition call (o : oracle) (m : method) (self : store) (pos : list val) (kw : list (string * val)) : frame * outcome :=
  exec o (m_body m) (mkF self (bind_kw kw (bind_pos (m_params m) pos (bind_defaults (m_defaults m) empty_store))) []).

(** the value a call evaluates to: a function that falls off its end returns None *)
Definition result_of (r : outcome) : option val :=
  match r with ONormal => Some VNone | OReturn v => Some v | ORaise => None end.

(** StdInOut has three attributes *)
Record sobj := mkS { so_end : val; so_fn : val; so_text : val }.

Definition store_of (ob : sobj) : store :=
  upd (upd (upd empty_store "prompt_end" (so_end ob)) "_prompt" (so_fn ob)) "_prompt_text" (so_text ob).
Definition sobj_of (st : store) : sobj := mkS (st "prompt_end"%string) (st "_prompt"%string) (st "_prompt_text"%string).

Definition so_call (o : oracle) (m : method) (ob : sobj) (pos : list val) : sobj * list effect * option val :=
  let '(fr, r) := call o m (store_of ob) pos [] in
  (sobj_of (f_self fr), f_fx fr, result_of r).

(** write(s): appends s to _prompt_text and nothing else; returns len(s); calls NOTHING outside
    (no sys.stdout, no callback, no prompt function) *)
Lemma write_spec : forall o e f t s,
  so_call o stdinout_write (mkS e f (VText t)) [VText s] =
  (mkS e f (VText (t ++ s)), [], Some (VInt (Z.of_nat (List.length s)))).
Proof. intros. reflexivity. Qed.

Lemma flush_spec : forall o ob, so_call o stdinout_flush ob [] = (ob, [], Some VNone).
Proof. intros o [e f t]. reflexivity. Qed.

Definition accepts (pe : val) (t : text) : bool :=
  match pe with
  | VText p => negb (truthy_text p) || str_endswith t p
  | VNone => true
  | _ => false
  end.

(** readline(): when the accumulated text is accepted, the prompt function is called ONCE with
    exactly that text, the text is cleared, and the command is returned; nothing else is called.
    When it is not accepted (AssertionError) nothing is called and nothing changes. *)
Lemma readline_spec_ok : forall (o : oracle) p t,
  accepts (VText p) t = true ->
  so_call o stdinout_readline (mkS (VText p) VPromptFn (VText t)) [] =
  (mkS (VText p) VPromptFn (VText []), [FxPrompt (VText t)], o (FxPrompt (VText t))).
Proof.
  intros o p t A. unfold accepts in A.
  unfold so_call, call, stdinout_readline; cbn.
  destruct p as [|c p]; cbn in *.
  - destruct (o (FxPrompt (VText t))); reflexivity.
  - unfold v_endswith. rewrite A. cbn. destruct (o (FxPrompt (VText t))); reflexivity.
Qed.

Lemma readline_spec_refused : forall (o : oracle) p t,
  accepts (VText p) t = false ->
  so_call o stdinout_readline (mkS (VText p) VPromptFn (VText t)) [] =
  (mkS (VText p) VPromptFn (VText t), [], None).
Proof.
  intros o p t A. unfold accepts in A.
  unfold so_call, call, stdinout_readline; cbn.
  destruct p as [|c p]; cbn in *; [discriminate|].
  unfold v_endswith. rewrite A. reflexivity.
Qed.

(* from here on [accepts (VText prompt) pend] stays folded under [simpl], so that it can be case-split as one test *)
Arguments accepts : simpl never.

Definition wrapper_call (o : oracle) (s : val) : list effect * option val :=
  let '(fr, r) := call o peek_wrapper empty_store [s] [] in (f_fx fr, result_of r).

(** write(s): the callback is called with s, THEN the original write with the same s, and the
    wrapper returns what the original write returned -- whatever the callback returned *)
Lemma wrapper_spec : forall (o : oracle) s r,
  o (FxCall "callback" s) = Some r ->
  wrapper_call o s = ([FxCall "callback" s; FxCall "org_write" s], o (FxCall "org_write" s)).
Proof.
  intros o s r H. unfold wrapper_call, call, peek_wrapper; cbn. rewrite H. cbn.
  destruct (o (FxCall "org_write" s)); reflexivity.
Qed.

(** the one way the real stdout can miss a write: the callback raised, the exception reaches the writer *)
Lemma wrapper_spec_callback_raises : forall (o : oracle) s,
  o (FxCall "callback" s) = None ->
  wrapper_call o s = ([FxCall "callback" s], None).
Proof. intros o s H. unfold wrapper_call, call, peek_wrapper; cbn. rewrite H. reflexivity. Qed.

(** the same function as the Gallina transcription of purefuns_peek.py (Gen/PeekFuns.v: peek_write), on
    which Stdout/Model.v and all of C13's theorems are built: the effects of the wrapper, applied to a
    world in order, are peek_write *)
Section WrapperWorld.
  Variable W : Type.
  Variable cbk : text -> W -> W.
  Variable org : text -> W -> W.

  Definition apply_wfx (w : W) (x : effect) : W :=
    match x with
    | FxCall f (VText u) =>
        if String.eqb f "callback" then cbk u w
        else if String.eqb f "org_write" then org u w
        else w
    | _ => w
    end.

  (** the answers of a callback that returns None and of a stream whose write returns the number of characters *)
  Definition wr_oracle : oracle := fun x =>
    match x with
    | FxCall f (VText u) =>
        if String.eqb f "callback" then Some VNone
        else if String.eqb f "org_write" then Some (VInt (Z.of_nat (List.length u)))
        else None
    | _ => None
    end.

  Definition sys_write_w (s : text) (w : W) : W := fold_left apply_wfx (fst (wrapper_call wr_oracle (VText s))) w.

  Lemma sys_write_w_is_peek_write : forall s w, sys_write_w s w = peek_write cbk org s w.
  Proof. intros. reflexivity. Qed.

  Lemma sys_write_w_spec : forall s w, sys_write_w s w = org s (cbk s w).
  Proof. exact sys_write_w_is_peek_write. Qed.

  Lemma sys_write_returns_len : forall s, snd (wrapper_call wr_oracle (VText s)) = Some (VInt (Z.of_nat (List.length s))).
  Proof. intros. reflexivity. Qed.
End WrapperWorld.

(** peek_textio as a context manager: what `textio.write` is while the body of the `with` runs
    (at the yield) and after the block has been left *)
Inductive wfun := WOrg | WWrapper.
Record pst := mkP { p_cur : wfun; p_saved : option wfun; p_at_yield : list wfun }.

Fixpoint pexec (fuel : nat) (ps : list pstmt) (st : pst) : pst :=
  match fuel with
  | O => st
  | S f =>
    match ps with
    | [] => st
    | PSaveOrg :: r => pexec f r (mkP (p_cur st) (Some (p_cur st)) (p_at_yield st))
    | PInstall :: r => pexec f r (mkP WWrapper (p_saved st) (p_at_yield st))
    | PRestore :: r =>
        pexec f r (mkP (match p_saved st with Some x => x | None => p_cur st end) (p_saved st) (p_at_yield st))
    | PYield :: r => pexec f r (mkP (p_cur st) (p_saved st) (p_at_yield st ++ [p_cur st]))
    | PTryFinally a b :: r => pexec f r (pexec f b (pexec f a st))
    end
  end.

Definition peek_cm : pst := pexec 20 peek_textio_prog (mkP WOrg None []).

(** the wrapper is installed exactly while the block runs, the original write is back afterwards *)
Lemma peek_cm_spec : p_at_yield peek_cm = [WWrapper] /\ p_cur peek_cm = WOrg.
Proof. split; reflexivity. Qed.


(** Repeater.on_write_stdout(trace_no, line), from its regenerated description *)
Definition ows_sem (e : evspec) (current_trace_no : unit -> pykey) (trace_no : pykey) (line : text) (w : world) : world :=
  let k := match ev_trace_no e with KParam => trace_no | KCurrent => current_trace_no tt end in
  let l := if ev_text_is_line e then line else [] in
  mkWorld (w_events w ++ repeat (k, l) (ev_puts e)) (w_real w).

Lemma ows_is_model : forall ctn k line w,
  ows_sem on_write_stdout_event ctn k line w = on_write_stdout ctn k line w.
Proof. intros. reflexivity. Qed.

Definition ksem (c : kcb) (user : pykey -> text -> world -> world) : pykey -> text -> buf * world -> buf * world :=
  match c with
  | KUser => fun k t st => (fst st, user k t (snd st))
  | KLinesUser => read_lines_by_key user
  end.

Definition usem (u : ucb) (key_factory : unit -> pykey) (user : pykey -> text -> world -> world)
  : text -> buf * world -> buf * world :=
  match u with UAssignKey c => assign_key key_factory (ksem c user) end.

(** the callback peek_textio gets while current_trace_no() = a *)
Definition the_callback (a : pykey) : text -> buf * world -> buf * world :=
  usem peek_wiring (fun _ => a) (ows_sem on_write_stdout_event (fun _ => a)).

(** one call of the patched sys.stdout.write = one step of Stdout/Model.v *)
Lemma sys_write_is_model_step : forall a s st,
  sys_write_w (buf * world) (the_callback a) org_write s st = step st (Write a s).
Proof. intros. reflexivity. Qed.

Definition str_assoc {A} (k : string) (l : list (string * A)) : option A :=
  match find (fun p => String.eqb (fst p) k) l with Some p => Some (snd p) | None => None end.

(** the variables of Factory / _factory that hold a StdInOut object: (name, inner?, object) *)
Record fenv := mkFE {
  fe_objs : list (string * (bool * sobj));
  fe_pdbs : list (string * list (string * sexp));
  fe_ret : option string
}.

Definition farg_val (prompt : text) (a : farg) : val :=
  match a with
  | FAPromptFunc => VPromptFn
  | FANone => VNone
  | FAStr t => VText t
  | FAPdbPrompt _ => VText prompt
  end.

Definition o_none : oracle := fun _ => None.

(** StdInOut(<pos>, <kw>): the regenerated __init__ run on a fresh object *)
Definition new_stdio (prompt : text) (pos : list farg) (kw : list (string * farg)) : sobj :=
  let '(fr, _) := call o_none stdinout_init empty_store (map (farg_val prompt) pos)
                    (map (fun p => (fst p, farg_val prompt (snd p))) kw) in
  sobj_of (f_self fr).

Definition set_attr (ob : sobj) (a : string) (v : val) : sobj := sobj_of (upd (store_of ob) a v).

Definition upd_obj (x : string) (f : sobj -> sobj) (l : list (string * (bool * sobj))) : list (string * (bool * sobj)) :=
  map (fun p => if String.eqb (fst p) x then (fst p, (fst (snd p), f (snd (snd p)))) else p) l.

Definition fstep (prompt : text) (inner : bool) (e : fenv) (s : fstmt) : fenv :=
  match s with
  | FNewStdio x pos kw => mkFE ((x, (inner, new_stdio prompt pos kw)) :: fe_objs e) (fe_pdbs e) (fe_ret e)
  | FNewPdb p args => mkFE (fe_objs e) ((p, args) :: fe_pdbs e) (fe_ret e)
  | FSetAttr x a v => mkFE (upd_obj x (fun ob => set_attr ob a (farg_val prompt v)) (fe_objs e)) (fe_pdbs e) (fe_ret e)
  | FReturnDispatch p => mkFE (fe_objs e) (fe_pdbs e) (Some p)
  end.

(** the state after Factory(hook) and one call of _factory() *)
Definition built (prompt : text) : fenv :=
  fold_left (fstep prompt true) factory_inner (fold_left (fstep prompt false) factory_outer (mkFE [] [] None)).

(** a stream argument of CustomizedPdb(...) *)
Definition stream_of_sexp (e : fenv) (x : sexp) : stream :=
  match x with
  | XName n => match str_assoc n (fe_objs e) with
               | Some (true, _) => SelfStdio n
               | Some (false, _) => SharedStdio n
               | None => Unresolved
               end
  | XSysStdout => SysStdout
  | XSysStdin => SysStdin
  | XOther n => OtherStream n
  | XAbsent => PdbDefault
  end.

(** what Pdb.__init__ receives: CustomizedPdb.__init__ hands on its own parameter (XName q),
    or something of its own *)
Definition through_init (e : fenv) (args : list (string * sexp)) (x : sexp) : stream :=
  match x with
  | XName q => match str_assoc q args with Some a => stream_of_sexp e a | None => Unresolved end
  | XSysStdout => SysStdout
  | XSysStdin => SysStdin
  | XOther n => OtherStream n
  | XAbsent => PdbDefault
  end.

(** (stdin, stdout) of the Pdb whose trace_dispatch _factory() returns *)
Definition pdb_streams (prompt : text) : option (stream * stream) :=
  let e := built prompt in
  match fe_ret e with
  | Some p => match str_assoc p (fe_pdbs e) with
              | Some args => Some (through_init e args (fst pdb_super_init), through_init e args (snd pdb_super_init))
              | None => None
              end
  | None => None
  end.

(** the StdInOut object a stream term denotes, as _factory() leaves it *)
Definition obj_of_stream (prompt : text) (s : stream) : option sobj :=
  match s with
  | SelfStdio x | SharedStdio x =>
      match str_assoc x (fe_objs (built prompt)) with Some (_, ob) => Some ob | None => None end
  | _ => None
  end.

(** a stream of nextline's own, not one of the process *)
Definition is_private (s : stream) : bool :=
  match s with SelfStdio _ | SharedStdio _ => true | _ => false end.

Definition is_own (s : stream) : bool :=
  match s with SelfStdio _ => true | _ => false end.

Definition stream_eqb (a b : stream) : bool :=
  match a, b with
  | SelfStdio x, SelfStdio y | SharedStdio x, SharedStdio y | OtherStream x, OtherStream y => String.eqb x y
  | SysStdout, SysStdout | SysStdin, SysStdin | PdbDefault, PdbDefault | Unresolved, Unresolved => true
  | _, _ => false
  end.

(** it is an object created by THIS call of _factory (one per trace, not one for all), the
    same object Pdb reads its commands from, and _factory() leaves it with an empty text, the
    prompt function, and prompt_end = pdb.prompt *)
Lemma pdb_streams_own : forall prompt,
  exists x, pdb_streams prompt = Some (SelfStdio x, SelfStdio x) /\
            obj_of_stream prompt (SelfStdio x) = Some (mkS (VText prompt) VPromptFn (VText [])).
Proof. intro. eexists; split; reflexivity. Qed.

(** in particular Pdb's output stream is a StdInOut object -- NOT sys.stdout, and not left to Pdb's default *)
Lemma pdb_stdout_private : forall prompt,
  exists i o, pdb_streams prompt = Some (i, o) /\ is_private o = true.
Proof. intro prompt. destruct (pdb_streams_own prompt) as (x & H & _). rewrite H. eauto. Qed.

Inductive dlabel :=
| LScript (a : pykey) (s : text)
| LDbgWrite (n : Z) (s : text)
| LDbgFlush (n : Z)
| LDbgReadline (n : Z) (c : text)
(* what CPython's pdb does BESIDE writing to the stdout it was constructed with: *)
| LDbgSysWrite (n : Z) (s : text)   (* the Pdb of trace n writes s to sys.stdout: `help pdb` (pydoc.pager), the prompt of
                                       `interact` (input()), an override that print()s *)
| LSwapOn (n : Z)                   (* Pdb.default of trace n (a `!statement` / any Python statement as a command):
                                       save_stdout = sys.stdout; sys.stdout = self.stdout   -- PROCESS-WIDE *)
| LSwapOff (n : Z).                 (* ... finally: sys.stdout = save_stdout *)

(** what `sys.stdout` is bound to: the object peek_textio patched, or the stdout of trace n's Pdb *)
Inductive sysout := Patched | Swapped (n : Z).
Definition zupd (f : Z -> sysout) (n : Z) (v : sysout) : Z -> sysout := fun m => if Z.eqb m n then v else f m.

(** the assumptions under which the debugger is "well behaved", as predicates on the label list *)
Definition no_sys_write (ls : list dlabel) : Prop :=
  forallb (fun l => match l with LDbgSysWrite _ _ => false | _ => true end) ls = true.
Definition no_swap (ls : list dlabel) : Prop :=
  forallb (fun l => match l with LSwapOn _ | LSwapOff _ => false | _ => true end) ls = true.

(** the writes that reach the PATCHED sys.stdout.write, in order: a script write or a debugger's sys.stdout write made
    while sys.stdout is the patched object (sy: what sys.stdout is, sv: the save_stdout of each trace's Pdb.default) *)
Fixpoint reaching_go (ls : list dlabel) (sy : sysout) (sv : Z -> sysout) : list label :=
  match ls with
  | [] => []
  | LScript a s :: r =>
      match sy with Patched => Write a s :: reaching_go r sy sv | Swapped _ => reaching_go r sy sv end
  | LDbgSysWrite n s :: r =>
      match sy with Patched => Write (Some n) s :: reaching_go r sy sv | Swapped _ => reaching_go r sy sv end
  | LSwapOn n :: r => reaching_go r (Swapped n) (zupd sv n sy)
  | LSwapOff n :: r => reaching_go r (sv n) sv
  | _ :: r => reaching_go r sy sv
  end.
Definition reaching (ls : list dlabel) : list label := reaching_go ls Patched (fun _ => Patched).

(** what the script wrote, as the labels of Stdout/Model.v; the run without the debugger *)
Fixpoint script_writes (ls : list dlabel) : list label :=
  match ls with
  | [] => []
  | LScript a s :: r => Write a s :: script_writes r
  | _ :: r => script_writes r
  end.

Definition is_script (l : dlabel) : bool := match l with LScript _ _ => true | _ => false end.
Definition erase_dbg (ls : list dlabel) : list dlabel := filter is_script ls.

Fixpoint dbg_writes_of (n : Z) (ls : list dlabel) : text :=
  match ls with
  | [] => []
  | LDbgWrite m s :: r => if Z.eqb m n then s ++ dbg_writes_of n r else dbg_writes_of n r
  | _ :: r => dbg_writes_of n r
  end.

Definition quiet_fx (x : effect) : bool := match x with FxPrompt _ => true | _ => false end.

(** for EVERY object state, argument and oracle: write and flush call nothing, readline calls at
    most the prompt function -- none of them writes to sys.stdout or calls the callback *)
(* more than [write_spec] gives: any argument, any value of the text attribute (the `+=` may raise) *)
Lemma write_quiet : forall o ob v, snd (fst (so_call o stdinout_write ob [v])) = [].
Proof. intros o [e f t] v. destruct t, v; reflexivity. Qed.

Lemma flush_quiet : forall o ob, snd (fst (so_call o stdinout_flush ob [])) = [].
Proof. intros. rewrite flush_spec. reflexivity. Qed.

(** The only call a body can make besides `callback`/`org_write`/sys.stdout.write is to an attribute of
    self, and the interpreter records that as FxPrompt.  So a body WITHOUT ECallVar / ESysWrite is quiet whatever
    the object, the arguments and the oracle are; that the regenerated readline is such a body is read off its tree. *)
Fixpoint self_calls_only (e : expr) : bool :=
  match e with
  | EAdd a b => self_calls_only a && self_calls_only b
  | ELen a | ECallAttr _ a => self_calls_only a
  | ECallVar _ _ | ESysWrite _ => false
  | _ => true
  end.

Fixpoint self_calls_only_c (c : cond) : bool :=
  match c with
  | CTruthy e => self_calls_only e
  | CNot c' => self_calls_only_c c'
  | CEndswith a b => self_calls_only a && self_calls_only b
  end.

Fixpoint self_calls_only_s (s : stmt) : bool :=
  match s with
  | SSkip => true
  | SSeq a b => self_calls_only_s a && self_calls_only_s b
  | SSetAttr _ e | SAugAttr _ e | SSetVar _ e | SExpr e | SReturn e => self_calls_only e
  | SIf c a b => self_calls_only_c c && self_calls_only_s a && self_calls_only_s b
  | SAssert c => self_calls_only_c c
  end.

Definition quiet_frame (fr : frame) : Prop := forallb quiet_fx (f_fx fr) = true.

Lemma eval_quiet : forall o e fr, self_calls_only e = true -> quiet_frame fr -> quiet_frame (fst (eval o fr e)).
Proof.
  unfold quiet_frame. intros o e. induction e; simpl; intros fr S Q; auto; try discriminate.
  - apply andb_prop in S. destruct S as [S1 S2]. specialize (IHe1 fr S1 Q).
    destruct (eval o fr e1) as [fr1 [va|]]; simpl in *; auto. specialize (IHe2 fr1 S2 IHe1).
    destruct (eval o fr1 e2) as [fr2 [vb|]]; simpl in *; auto.
  - specialize (IHe fr S Q). destruct (eval o fr e) as [fr1 [va|]]; simpl in *; auto.
  - specialize (IHe fr S Q). destruct (eval o fr e) as [fr1 [v|]]; simpl in *; auto.
    destruct (f_self fr1 a); auto. simpl. rewrite forallb_app, IHe. reflexivity.
Qed.

Lemma ceval_quiet : forall o c fr, self_calls_only_c c = true -> quiet_frame fr -> quiet_frame (fst (ceval o fr c)).
Proof.
  intros o c. induction c; simpl; intros fr S Q.
  - pose proof (eval_quiet o e fr S Q). destruct (eval o fr e) as [fr1 [v|]]; simpl in *; auto.
  - specialize (IHc fr S Q). destruct (ceval o fr c) as [fr1 [b|]]; simpl in *; auto.
  - apply andb_prop in S. destruct S as [S1 S2]. pose proof (eval_quiet o a fr S1 Q) as Q1.
    destruct (eval o fr a) as [fr1 [va|]]; simpl in *; auto. pose proof (eval_quiet o b fr1 S2 Q1).
    destruct (eval o fr1 b) as [fr2 [vb|]]; simpl in *; auto.
Qed.

Lemma exec_quiet : forall o s fr, self_calls_only_s s = true -> quiet_frame fr -> quiet_frame (fst (exec o s fr)).
Proof.
  intros o s. induction s; simpl; intros fr S Q; auto;
    try (pose proof (eval_quiet o e fr S Q); destruct (eval o fr e) as [fr1 [v|]]; simpl in *; auto).
  - apply andb_prop in S. destruct S as [S1 S2]. specialize (IHs1 fr S1 Q).
    destruct (exec o s1 fr) as [fr1 []]; simpl in *; auto.
  - destruct (v_add (f_self fr a) v); auto.
  - apply andb_prop in S. destruct S as [S Sb]. apply andb_prop in S. destruct S as [Sc Sa].
    pose proof (ceval_quiet o c fr Sc Q). destruct (ceval o fr c) as [fr1 [[]|]]; simpl in *; auto.
  - pose proof (ceval_quiet o c fr S Q). destruct (ceval o fr c) as [fr1 [[]|]]; simpl in *; auto.
Qed.

Lemma self_calls_only_quiet : forall o m ob pos,
  self_calls_only_s (m_body m) = true -> forallb quiet_fx (snd (fst (so_call o m ob pos))) = true.
Proof.
  intros o m ob pos S. unfold so_call, call.
  match goal with |- context [exec o ?b ?fr] => pose proof (exec_quiet o b fr S eq_refl) as Q; destruct (exec o b fr) end.
  exact Q.
Qed.

Lemma readline_quiet : forall o ob, forallb quiet_fx (snd (fst (so_call o stdinout_readline ob []))) = true.
Proof. intros. apply self_calls_only_quiet. reflexivity. Qed.

Section TwoSink.
  Variable W : Type.
  Variable cbk : pykey -> text -> W -> W.     (* the callback peek_textio got, run while current_trace_no() = key *)
  Variable org : text -> W -> W.              (* the original sys.stdout.write *)
  Variable prompt : text.                     (* Pdb.prompt *)

  Record gstate := mkG {
    g_w : W;
    g_objs : pykey -> string -> sobj;         (* StdInOut objects: owner (Some n: made by the _factory() call of trace n;
                                                 None: made once by Factory) and the variable that holds it *)
    g_prompts : list (Z * text);              (* calls of the prompt function: (trace whose Pdb asked, text) *)
    g_cmds : list (Z * text);                 (* what readline returned to the Pdb of trace n *)
    g_sys : sysout;                           (* what sys.stdout is bound to *)
    g_saved : Z -> sysout                     (* save_stdout of the Pdb.default call of trace n *)
  }.

  Definition set_w (w : W) (st : gstate) : gstate := mkG w (g_objs st) (g_prompts st) (g_cmds st) (g_sys st) (g_saved st).
  Definition set_obj (ow : pykey) (x : string) (ob : sobj) (st : gstate) : gstate :=
    mkG (g_w st) (fun o' x' => if key_eqb o' ow && String.eqb x' x then ob else g_objs st o' x') (g_prompts st) (g_cmds st)
        (g_sys st) (g_saved st).

  (** one call of the PATCHED sys.stdout.write(s) while current_trace_no() = a: the regenerated wrapper *)
  Definition sys_write (a : pykey) (s : text) (st : gstate) : gstate :=
    set_w (sys_write_w W (cbk a) org s (g_w st)) st.

  Definition obj_oracle (c : text) : oracle := fun x =>
    match x with
    | FxPrompt _ => Some (VText c)
    | FxSysWrite (VText u) => Some (VInt (Z.of_nat (List.length u)))
    | _ => None
    end.

  (** the calls a method of StdInOut made, executed by trace n *)
  Definition apply_ofx (n : Z) (st : gstate) (x : effect) : gstate :=
    match x with
    | FxPrompt (VText t) => mkG (g_w st) (g_objs st) (g_prompts st ++ [(n, t)]) (g_cmds st) (g_sys st) (g_saved st)
    | FxSysWrite (VText u) => sys_write (Some n) u st
    | _ => st
    end.

  Definition on_obj (ow : pykey) (x : string) (n : Z) (m : method) (c : text) (pos : list val) (is_readline : bool)
      (st : gstate) : gstate :=
    let '(ob', fx, r) := so_call (obj_oracle c) m (g_objs st ow x) pos in
    let st1 := fold_left (apply_ofx n) fx (set_obj ow x ob' st) in
    match is_readline, r with
    | true, Some (VText c') => mkG (g_w st1) (g_objs st1) (g_prompts st1) (g_cmds st1 ++ [(n, c')]) (g_sys st1) (g_saved st1)
    | _, _ => st1
    end.

  Definition to_stream (s : stream) (n : Z) (m : method) (c : text) (pos : list val) (rl : bool) (st : gstate) : gstate :=
    match s with
    | SelfStdio x => on_obj (Some n) x n m c pos rl st
    | SharedStdio x => on_obj None x n m c pos rl st
    | _ => st
    end.

  Definition pdb_stdin : stream := match pdb_streams prompt with Some (i, _) => i | None => Unresolved end.
  Definition pdb_stdout : stream := match pdb_streams prompt with Some (_, o) => o | None => Unresolved end.

  (** the Pdb of trace n writes s to the stdout it was constructed with *)
  Definition dbg_write (n : Z) (s : text) (st : gstate) : gstate :=
    match pdb_stdout with
    | SysStdout | PdbDefault => sys_write (Some n) s st     (* Pdb prints through the patched sys.stdout, in trace n *)
    | so => to_stream so n stdinout_write [] [VText s] false st
    end.

  (** `sys.stdout.write(s)` / print(s) executed while current_trace_no() = a: sys.stdout is looked up at the call *)
  Definition cur_sys_write (a : pykey) (s : text) (st : gstate) : gstate :=
    match g_sys st with
    | Patched => sys_write a s st
    | Swapped n => dbg_write n s st          (* lands in the stream of trace n's Pdb *)
    end.

  Definition dstep (st : gstate) (l : dlabel) : gstate :=
    match l with
    | LScript a s => cur_sys_write a s st
    | LDbgWrite n s => dbg_write n s st
    | LDbgFlush n => to_stream pdb_stdout n stdinout_flush [] [] false st
    | LDbgReadline n c => to_stream pdb_stdin n stdinout_readline c [] true st
    | LDbgSysWrite n s => cur_sys_write (Some n) s st
    | LSwapOn n => mkG (g_w st) (g_objs st) (g_prompts st) (g_cmds st) (Swapped n) (zupd (g_saved st) n (g_sys st))
    | LSwapOff n => mkG (g_w st) (g_objs st) (g_prompts st) (g_cmds st) (g_saved st n) (g_saved st)
    end.

  Definition init_obj (x : string) : sobj :=
    match obj_of_stream prompt (SelfStdio x) with Some ob => ob | None => mkS VJunk VJunk VJunk end.

  Definition ginit (w : W) : gstate := mkG w (fun _ x => init_obj x) [] [] Patched (fun _ => Patched).
  Definition grun (w : W) (ls : list dlabel) : gstate := fold_left dstep ls (ginit w).

  Lemma apply_ofx_quiet : forall n fx st, forallb quiet_fx fx = true -> g_w (fold_left (apply_ofx n) fx st) = g_w st.
  Proof.
    intros n fx. induction fx as [|x fx IH]; intros st H; simpl in *; auto.
    apply andb_prop in H. destruct H as [Hx H]. rewrite IH by exact H.
    destruct x; try discriminate. destruct v; reflexivity.
  Qed.

  Definition quiet_method (m : method) : Prop :=
    forall o ob pos, forallb quiet_fx (snd (fst (so_call o m ob pos))) = true.

  Lemma on_obj_w : forall ow x n m c pos rl st,
    forallb quiet_fx (snd (fst (so_call (obj_oracle c) m (g_objs st ow x) pos))) = true ->
    g_w (on_obj ow x n m c pos rl st) = g_w st.
  Proof.
    intros. unfold on_obj. destruct (so_call (obj_oracle c) m (g_objs st ow x) pos) as [[ob' fx] r]; simpl in *.
    assert (E : g_w (fold_left (apply_ofx n) fx (set_obj ow x ob' st)) = g_w st) by (rewrite apply_ofx_quiet; auto).
    destruct rl; auto. destruct r as [[]|]; auto.
  Qed.

  Lemma to_stream_w : forall s n m c pos rl st,
    (forall ob, forallb quiet_fx (snd (fst (so_call (obj_oracle c) m ob pos))) = true) ->
    g_w (to_stream s n m c pos rl st) = g_w st.
  Proof. intros. destruct s; simpl; auto; apply on_obj_w; auto. Qed.

  Definition g_sw (st : gstate) : sysout * (Z -> sysout) := (g_sys st, g_saved st).

  Lemma apply_ofx_sw : forall n fx st, g_sw (fold_left (apply_ofx n) fx st) = g_sw st.
  Proof.
    intros n fx. induction fx as [|x fx IH]; intro st; simpl; auto.
    rewrite IH. destruct x; try reflexivity; destruct v; reflexivity.
  Qed.

  Lemma on_obj_sw : forall ow x n m c pos rl st, g_sw (on_obj ow x n m c pos rl st) = g_sw st.
  Proof.
    intros. unfold on_obj. destruct (so_call (obj_oracle c) m (g_objs st ow x) pos) as [[ob' fx] r].
    assert (E : g_sw (fold_left (apply_ofx n) fx (set_obj ow x ob' st)) = g_sw st) by (rewrite apply_ofx_sw; reflexivity).
    destruct rl; auto. destruct r as [[]|]; auto.
  Qed.

  Lemma to_stream_sw : forall s n m c pos rl st, g_sw (to_stream s n m c pos rl st) = g_sw st.
  Proof. intros. destruct s; simpl; auto; apply on_obj_sw. Qed.

  Lemma dbg_write_sw : forall n s st, g_sw (dbg_write n s st) = g_sw st.
  Proof. intros. unfold dbg_write. destruct pdb_stdout; try reflexivity; apply to_stream_sw. Qed.

  Lemma cur_sys_write_sw : forall a s st, g_sw (cur_sys_write a s st) = g_sw st.
  Proof. intros. unfold cur_sys_write. destruct (g_sys st); [reflexivity | apply dbg_write_sw]. Qed.

  Lemma dstep_sw : forall st l,
    g_sw (dstep st l) =
    match l with
    | LSwapOn n => (Swapped n, zupd (g_saved st) n (g_sys st))
    | LSwapOff n => (g_saved st n, g_saved st)
    | _ => g_sw st
    end.
  Proof.
    intros st l. destruct l; unfold dstep; try reflexivity;
      auto using cur_sys_write_sw, dbg_write_sw, to_stream_sw.
  Qed.

  (** a write to the stdout the Pdb was constructed with never touches the world of the callback / the real stdout *)
  Lemma dbg_write_w : forall n s st, g_w (dbg_write n s st) = g_w st.
  Proof.
    intros. destruct (pdb_stdout_private prompt) as (i & o & HS & HP).
    unfold dbg_write, pdb_stdout; rewrite HS.
    destruct o; try discriminate; apply to_stream_w; intro ob; rewrite write_quiet; reflexivity.
  Qed.

  Lemma dstep_w : forall st l,
    g_w (dstep st l) =
    match l, g_sys st with
    | LScript a s, Patched => org s (cbk a s (g_w st))
    | LDbgSysWrite n s, Patched => org s (cbk (Some n) s (g_w st))
    | _, _ => g_w st
    end.
  Proof.
    intros st l. destruct l; unfold dstep, cur_sys_write; destruct (g_sys st);
      rewrite ?dbg_write_w, ?to_stream_w by (intro ob; first [rewrite flush_quiet; reflexivity | apply readline_quiet]);
      reflexivity.
  Qed.

  Definition wstep (w : W) (l : label) : W := org (text_of l) (cbk (actor_of l) (text_of l) w).

  (** EXACT, no assumption on the debugger: the world after a run is that of the writes that REACH the patched
      sys.stdout, each through callback-then-original-write *)
  Lemma grun_w_gen : forall ls st,
    g_w (fold_left dstep ls st) = fold_left wstep (reaching_go ls (g_sys st) (g_saved st)) (g_w st).
  Proof.
    induction ls as [|l ls IH]; intro st; simpl; auto.
    rewrite IH, dstep_w.
    pose proof (f_equal fst (dstep_sw st l)) as E1. pose proof (f_equal snd (dstep_sw st l)) as E2.
    unfold g_sw in E1, E2. cbn [fst snd] in E1, E2. rewrite E1, E2.
    destruct l; cbn [fst snd]; try reflexivity; destruct (g_sys st); reflexivity.
  Qed.

  Lemma grun_w_reaching : forall w ls, g_w (grun w ls) = fold_left wstep (reaching ls) w.
  Proof. intros. unfold grun. rewrite grun_w_gen. reflexivity. Qed.

  Lemma reaching_clean : forall ls sv, no_sys_write ls -> no_swap ls -> reaching_go ls Patched sv = script_writes ls.
  Proof.
    unfold no_sys_write, no_swap.
    induction ls as [|l ls IH]; intros sv H1 H2; simpl in *; auto.
    destruct l; simpl in *; try discriminate; try (apply IH; assumption).
    rewrite IH by assumption. reflexivity.
  Qed.

  Lemma grun_w : forall w ls, no_sys_write ls -> no_swap ls ->
    g_w (grun w ls) = fold_left wstep (script_writes ls) w.
  Proof. intros. rewrite grun_w_reaching. unfold reaching. rewrite reaching_clean by assumption. reflexivity. Qed.

  Lemma script_writes_erase : forall ls, script_writes (erase_dbg ls) = script_writes ls.
  Proof. induction ls as [|[] ls IH]; simpl; auto. rewrite IH; reflexivity. Qed.

  Lemma erase_clean : forall ls, no_sys_write (erase_dbg ls) /\ no_swap (erase_dbg ls).
  Proof.
    unfold no_sys_write, no_swap. induction ls as [|[] ls [IH1 IH2]]; simpl; auto.
  Qed.

  (** NON-INTERFERENCE: erasing every label of the debugger leaves the world unchanged *)
  Lemma grun_noninterference : forall w ls, no_sys_write ls -> no_swap ls ->
    g_w (grun w (erase_dbg ls)) = g_w (grun w ls).
  Proof.
    intros w ls H1 H2. destruct (erase_clean ls) as [E1 E2].
    rewrite !grun_w by assumption. rewrite script_writes_erase. reflexivity.
  Qed.

  Lemma grun_snoc : forall w ls l, grun w (ls ++ [l]) = dstep (grun w ls) l.
  Proof. intros. unfold grun. rewrite fold_left_app. reflexivity. Qed.

  Lemma grun_sys_patched : forall w ls, no_swap ls -> g_sw (grun w ls) = (Patched, fun _ => Patched).
  Proof.
    intros w ls NS. induction ls as [|l ls IH] using rev_ind; [reflexivity|].
    unfold no_swap in NS. rewrite forallb_app in NS. apply andb_prop in NS. destruct NS as [NS NL].
    rewrite grun_snoc, dstep_sw. destruct l; try discriminate NL; exact (IH NS).
  Qed.

  (** History functions (of the label list alone): what the debugger of
      trace n has written since its last ACCEPTED readline, the texts handed to the prompt
      function for n, the commands returned to n *)
  Definition dbg_hstep (n : Z) (acc : list text * text * list text) (l : dlabel) : list text * text * list text :=
    let '(ps, pend, cs) := acc in
    match l with
    | LDbgWrite m s => if Z.eqb m n then (ps, pend ++ s, cs) else acc
    | LDbgReadline m c =>
        if Z.eqb m n then (if accepts (VText prompt) pend then (ps ++ [pend], [], cs ++ [c]) else acc) else acc
    | _ => acc
    end.
  Definition dbg_hist (n : Z) (ls : list dlabel) := fold_left (dbg_hstep n) ls ([], [], []).
  Definition prompts_hist (n : Z) (ls : list dlabel) : list text := fst (fst (dbg_hist n ls)).
  Definition pending (n : Z) (ls : list dlabel) : text := snd (fst (dbg_hist n ls)).
  Definition cmds_hist (n : Z) (ls : list dlabel) : list text := snd (dbg_hist n ls).

  Definition for_trace (n : Z) (l : list (Z * text)) : list text :=
    map snd (filter (fun p => Z.eqb (fst p) n) l).

  Lemma for_trace_snoc : forall n l m t,
    for_trace n (l ++ [(m, t)]) = if Z.eqb m n then for_trace n l ++ [t] else for_trace n l.
  Proof.
    intros. unfold for_trace. rewrite filter_app, map_app. simpl.
    destruct (Z.eqb m n); simpl; auto using app_nil_r.
  Qed.

  Lemma dbg_hist_snoc : forall n ls l, dbg_hist n (ls ++ [l]) = dbg_hstep n (dbg_hist n ls) l.
  Proof. intros. unfold dbg_hist. rewrite fold_left_app. reflexivity. Qed.

  Definition good (x0 : string) (st : gstate) (ls : list dlabel) : Prop :=
    forall n,
      g_objs st (Some n) x0 = mkS (VText prompt) VPromptFn (VText (pending n ls)) /\
      for_trace n (g_prompts st) = prompts_hist n ls /\
      for_trace n (g_cmds st) = cmds_hist n ls.

  Lemma key_some_eqb : forall n m, key_eqb (Some n) (Some m) = Z.eqb m n.
  Proof. intros. simpl. apply Z.eqb_sym. Qed.

  (** the test of [set_obj], for the object of trace m looked up by trace n *)
  Lemma set_obj_test : forall n m x, key_eqb (Some n) (Some m) && String.eqb x x = Z.eqb m n.
  Proof. intros. rewrite String.eqb_refl, andb_true_r. apply key_some_eqb. Qed.

  (** Induction on the run from its end.  A label of trace m touches only the StdInOut object of m, whose state
      the invariant gives for m (so the method's spec applies), and appends only to m's prompts and commands:
      for n = m the history function makes the same step, for n <> m neither side moves. *)
  Lemma grun_good : forall x0,
    pdb_streams prompt = Some (SelfStdio x0, SelfStdio x0) ->
    obj_of_stream prompt (SelfStdio x0) = Some (mkS (VText prompt) VPromptFn (VText [])) ->
    forall w ls, no_swap ls -> good x0 (grun w ls) ls.
  Proof.
    intros x0 HS HO w ls. induction ls as [|l ls IH] using rev_ind; intro NS.
    - intro n. unfold grun. cbn [fold_left]. unfold ginit. cbn [g_objs g_prompts g_cmds]. unfold init_obj.
      rewrite HO. repeat split; reflexivity.
    - unfold no_swap in NS. rewrite forallb_app in NS. apply andb_prop in NS. destruct NS as [NS NL].
      specialize (IH NS).
      assert (SY : g_sys (grun w ls) = Patched) by exact (f_equal fst (grun_sys_patched w ls NS)).
      intro n. rewrite grun_snoc.
      unfold prompts_hist, pending, cmds_hist. rewrite dbg_hist_snoc.
      destruct (IH n) as (On & Pn & Cn).
      unfold prompts_hist, pending, cmds_hist in *.
      destruct (dbg_hist n ls) as [[ps pend] cs] eqn:Hn. simpl in On, Pn, Cn.
      destruct l as [a s|m s|m|m c|m s|m|m]; unfold dstep; try discriminate NL.
      5: { (* the debugger writes to the patched sys.stdout: nothing of the stream objects changes *)
           unfold cur_sys_write. rewrite SY. simpl. repeat split; auto. }
      + (* the script writes: nothing of the debugger's changes *)
        unfold cur_sys_write. rewrite SY. simpl. repeat split; auto.
      + unfold dbg_write, pdb_stdout; rewrite HS. simpl to_stream. unfold on_obj.
        destruct (IH m) as (Om & _). rewrite Om, write_spec. simpl.
        rewrite (set_obj_test n m).
        destruct (Z.eqb_spec m n) as [->|Hmn].
        * unfold pending in *. rewrite Hn. simpl. repeat split; auto.
        * repeat split; auto.
      + unfold pdb_stdout; rewrite HS. simpl to_stream. unfold on_obj.
        destruct (IH m) as (Om & _). rewrite flush_spec. simpl.
        rewrite (set_obj_test n m).
        destruct (Z.eqb_spec m n) as [->|Hmn]; repeat split; auto.
      + unfold pdb_stdin; rewrite HS. simpl to_stream. unfold on_obj.
        destruct (IH m) as (Om & _). rewrite Om.
        assert (Ep : pending n ls = pend) by (unfold pending; rewrite Hn; reflexivity).
        destruct (accepts (VText prompt) (pending m ls)) eqn:A.
        * rewrite readline_spec_ok by exact A. simpl.
          rewrite !for_trace_snoc, (set_obj_test n m).
          destruct (Z.eqb_spec m n) as [->|Hmn].
          -- rewrite Ep in A. rewrite A. simpl. repeat split; congruence.
          -- repeat split; auto.
        * rewrite readline_spec_refused by exact A. simpl.
          rewrite (set_obj_test n m).
          destruct (Z.eqb_spec m n) as [->|Hmn].
          -- rewrite Ep in *. rewrite A. simpl. repeat split; auto.
          -- repeat split; auto.
  Qed.

  (** the texts handed to the prompt function for trace n, and the commands returned to its
      Pdb, are those of the history of n's debugger ALONE; the object holds what is pending *)
  Lemma grun_prompts : forall w ls n, no_swap ls ->
    for_trace n (g_prompts (grun w ls)) = prompts_hist n ls /\
    for_trace n (g_cmds (grun w ls)) = cmds_hist n ls.
  Proof.
    intros w ls n NS. destruct (pdb_streams_own prompt) as (x0 & HS & HO).
    destruct (grun_good x0 HS HO w ls NS n) as (_ & P & C). split; assumption.
  Qed.
End TwoSink.

Lemma dbg_writes_of_app : forall n a b, dbg_writes_of n (a ++ b) = dbg_writes_of n a ++ dbg_writes_of n b.
Proof.
  induction a as [|[] a IH]; intro b; simpl; auto.
  destruct (Z.eqb n0 n); rewrite IH, ?app_assoc; reflexivity.
Qed.

(** nothing the debugger of n wrote is lost, duplicated, reordered or mixed with another trace's:
    the prompt texts handed over for n, followed by what is pending, are exactly n's writes;
    and every text handed to the prompt function passed the prompt_end test *)
Lemma dbg_hist_inv : forall prompt n ls,
  List.concat (prompts_hist prompt n ls) ++ pending prompt n ls = dbg_writes_of n ls /\
  Forall (fun t => accepts (VText prompt) t = true) (prompts_hist prompt n ls).
Proof.
  intros prompt n ls. unfold prompts_hist, pending.
  induction ls as [|l ls [IH1 IH2]] using rev_ind; [split; [reflexivity | constructor]|].
  rewrite dbg_hist_snoc, dbg_writes_of_app.
  destruct (dbg_hist prompt n ls) as [[ps pend] cs]. simpl in IH1, IH2.
  destruct l as [a s|m s|m|m c|m s|m|m]; simpl; rewrite ?app_nil_r; auto.
  - destruct (Z.eqb m n); simpl; rewrite ?app_nil_r; auto. rewrite app_assoc, IH1. auto.
  - destruct (Z.eqb m n); simpl; auto.
    destruct (accepts (VText prompt) pend) eqn:A; simpl; auto.
    rewrite concat_app. simpl. rewrite !app_nil_r. split; [exact IH1 | apply Forall_app; auto].
Qed.

Lemma prompt_text_conserved : forall prompt n ls,
  List.concat (prompts_hist prompt n ls) ++ pending prompt n ls = dbg_writes_of n ls.
Proof. intros. apply dbg_hist_inv. Qed.

Lemma prompts_accepted : forall prompt n ls,
  Forall (fun t => accepts (VText prompt) t = true) (prompts_hist prompt n ls).
Proof. intros. apply dbg_hist_inv. Qed.

(** what the debugger of n wrote since its last readline; its writes cut at its readlines *)
Definition sstep (n : Z) (acc : text) (l : dlabel) : text :=
  match l with
  | LDbgWrite m s => if Z.eqb m n then acc ++ s else acc
  | LDbgReadline m _ => if Z.eqb m n then [] else acc
  | _ => acc
  end.
Definition since (n : Z) (ls : list dlabel) : text := fold_left (sstep n) ls [].

Fixpoint segs_go (n : Z) (ls : list dlabel) (acc : text) : list text :=
  match ls with
  | [] => []
  | LDbgReadline m _ :: r => if Z.eqb m n then acc :: segs_go n r [] else segs_go n r acc
  | l :: r => segs_go n r (sstep n acc l)
  end.
Definition segments (n : Z) (ls : list dlabel) : list text := segs_go n ls [].

(** Pdb's behaviour (cmd.Cmd.cmdloop writes self.prompt immediately before it reads): whenever the
    debugger of n reads, what it wrote since its last read ends with the prompt *)
Fixpoint pdb_like_go (prompt : text) (n : Z) (ls : list dlabel) (acc : text) : bool :=
  match ls with
  | [] => true
  | LDbgReadline m _ :: r =>
      if Z.eqb m n then accepts (VText prompt) acc && pdb_like_go prompt n r [] else pdb_like_go prompt n r acc
  | l :: r => pdb_like_go prompt n r (sstep n acc l)
  end.
Definition pdb_like (prompt : text) (n : Z) (ls : list dlabel) : bool := pdb_like_go prompt n ls [].

Lemma hist_pdb_like_gen : forall prompt n ls ps pend cs,
  pdb_like_go prompt n ls pend = true ->
  fst (fold_left (dbg_hstep prompt n) ls (ps, pend, cs)) = (ps ++ segs_go n ls pend, fold_left (sstep n) ls pend).
Proof.
  induction ls as [|l ls IH]; intros ps pend cs H; simpl in *.
  - rewrite app_nil_r. reflexivity.
  - destruct l as [a s|m s|m|m c|m s|m|m]; simpl in *; auto.
    + destruct (Z.eqb m n); auto.
    + destruct (Z.eqb m n); auto.
      apply andb_prop in H. destruct H as [A H]. rewrite A.
      rewrite IH by exact H. rewrite <- app_assoc. reflexivity.
Qed.

(** under that behaviour the texts handed to the prompt function for n are exactly n's writes cut
    at n's readlines: each prompt text is what n's debugger wrote since its last readline *)
Lemma prompts_since_last_readline : forall prompt n ls,
  pdb_like prompt n ls = true ->
  prompts_hist prompt n ls = segments n ls /\ pending prompt n ls = since n ls.
Proof.
  intros prompt n ls H. unfold prompts_hist, pending, dbg_hist, segments, since.
  rewrite (hist_pdb_like_gen prompt n ls [] [] [] H). split; reflexivity.
Qed.

Definition drun (prompt : text) (ls : list dlabel) : gstate (buf * world) :=
  grun (buf * world) the_callback org_write prompt init ls.

Definition d_events (prompt : text) (ls : list dlabel) : list (pykey * text) := w_events (snd (g_w _ (drun prompt ls))).
Definition d_real (prompt : text) (ls : list dlabel) : list text := w_real (snd (g_w _ (drun prompt ls))).
Definition d_prompts (prompt : text) (n : Z) (ls : list dlabel) : list text := for_trace n (g_prompts _ (drun prompt ls)).
Definition d_cmds (prompt : text) (n : Z) (ls : list dlabel) : list text := for_trace n (g_cmds _ (drun prompt ls)).

Lemma model_fold : forall ws st,
  fold_left (wstep (buf * world) the_callback org_write) ws st = fold_left step ws st.
Proof.
  induction ws as [|[a s] ws IH]; intro st; simpl; auto.
Qed.

(** EXACT, with no assumption on what the debugger does: the capture state after ANY interleaving is that of
    Stdout/Model.v run on the writes that reach the patched sys.stdout ([reaching]: script writes made while
    sys.stdout is not swapped, AND the debugger's own writes to sys.stdout) *)
Lemma drun_is_model_reaching : forall prompt ls, g_w _ (drun prompt ls) = run (reaching ls).
Proof. intros. unfold drun. rewrite grun_w_reaching, model_fold. reflexivity. Qed.

(** when the debugger writes only to the stdout it was constructed with and never swaps sys.stdout, those are the
    script's writes *)
Lemma drun_is_model : forall prompt ls, no_sys_write ls -> no_swap ls -> g_w _ (drun prompt ls) = run (script_writes ls).
Proof. intros. unfold drun. rewrite grun_w by assumption. rewrite model_fold. reflexivity. Qed.

Lemma debugger_text_never_reported : forall prompt ls, no_sys_write ls -> no_swap ls ->
  d_events prompt ls = d_events prompt (erase_dbg ls) /\ d_events prompt ls = events (script_writes ls).
Proof.
  intros prompt ls H1 H2. destruct (erase_clean ls) as [E1 E2]. unfold d_events.
  rewrite !drun_is_model by assumption. rewrite script_writes_erase. split; reflexivity.
Qed.

Lemma reported_is_script_text : forall prompt ls n, no_sys_write ls -> no_swap ls -> n <> 0 ->
  reported_of (Some n) (d_events prompt ls) = upto_last_nl (writes_of (Some n) (script_writes ls)).
Proof.
  intros prompt ls n H1 H2 Hn. destruct (debugger_text_never_reported prompt ls H1 H2) as (_ & E). rewrite E.
  apply model_upto; exact Hn.
Qed.

Lemma real_stdout_gets_everything : forall prompt ls, no_sys_write ls -> no_swap ls ->
  d_real prompt ls = map text_of (script_writes ls) /\ d_real prompt ls = real (script_writes ls).
Proof.
  intros. unfold d_real. rewrite drun_is_model by assumption. fold (real (script_writes ls)). split; [apply real_all|reflexivity].
Qed.

(** without the assumptions: what is reported and what the real stdout receives *)
Lemma reported_and_real_exact : forall prompt ls,
  d_events prompt ls = events (reaching ls) /\ d_real prompt ls = map text_of (reaching ls).
Proof.
  intros. unfold d_events, d_real. rewrite drun_is_model_reaching. split; [reflexivity|].
  fold (real (reaching ls)). apply real_all.
Qed.

(** [real_stdout_gets_everything], whatever the callback does with a state of its own *)
Section AnyCallback.
  Variable C : Type.
  Variable cb : pykey -> text -> C -> C.
  Definition cbk_any (a : pykey) (t : text) (w : C * list text) : C * list text := (cb a t (fst w), snd w).
  Definition org_any (t : text) (w : C * list text) : C * list text := (fst w, snd w ++ [t]).

  Lemma real_any_callback : forall prompt c0 ls, no_sys_write ls -> no_swap ls ->
    snd (g_w _ (grun (C * list text) cbk_any org_any prompt (c0, []) ls)) = map text_of (script_writes ls).
  Proof.
    intros. rewrite grun_w by assumption.
    assert (G : forall ws w, snd (fold_left (wstep _ cbk_any org_any) ws w) = snd w ++ map text_of ws).
    { induction ws as [|l ws IH]; intro w; simpl; [rewrite app_nil_r; reflexivity|].
      rewrite IH. simpl. rewrite <- app_assoc. reflexivity. }
    rewrite G. reflexivity.
  Qed.
End AnyCallback.

Lemma prompt_text_is_debugger_text : forall prompt ls n, no_swap ls ->
  d_prompts prompt n ls = prompts_hist prompt n ls /\ d_cmds prompt n ls = cmds_hist prompt n ls.
Proof. intros. unfold d_prompts, d_cmds, drun. apply grun_prompts; assumption. Qed.

Lemma prompt_text_since_last_readline : forall prompt ls n, no_swap ls ->
  pdb_like prompt n ls = true -> d_prompts prompt n ls = segments n ls.
Proof.
  intros prompt ls n NS H. destruct (prompt_text_is_debugger_text prompt ls n NS) as (E & _). rewrite E.
  apply prompts_since_last_readline; exact H.
Qed.

(** the prompts of a trace do not depend on the script's writes or on the other traces' debuggers *)
Definition dbg_only (n : Z) (l : dlabel) : bool :=
  match l with LDbgWrite m _ | LDbgFlush m | LDbgReadline m _ => Z.eqb m n | _ => false end.

Lemma dbg_hist_only : forall prompt n ls acc,
  fold_left (dbg_hstep prompt n) (filter (dbg_only n) ls) acc = fold_left (dbg_hstep prompt n) ls acc.
Proof.
  induction ls as [|l ls IH]; intro acc; simpl; auto.
  destruct acc as [[ps pend] cs].
  destruct l as [a s|m s|m|m c|m s|m|m]; simpl; try apply IH;
    destruct (Z.eqb m n) eqn:E; simpl; rewrite ?E; apply IH.
Qed.

Lemma dbg_only_no_swap : forall n ls, no_swap (filter (dbg_only n) ls).
Proof.
  unfold no_swap. induction ls as [|l ls IH]; simpl; auto.
  destruct l; simpl; auto; destruct (Z.eqb n0 n); simpl; auto.
Qed.

Lemma prompts_independent : forall prompt ls n, no_swap ls ->
  d_prompts prompt n ls = d_prompts prompt n (filter (dbg_only n) ls).
Proof.
  intros prompt ls n NS. destruct (prompt_text_is_debugger_text prompt ls n NS) as (E & _).
  destruct (prompt_text_is_debugger_text prompt (filter (dbg_only n) ls) n (dbg_only_no_swap n ls)) as (E' & _).
  rewrite E, E'. unfold prompts_hist, dbg_hist. rewrite dbg_hist_only. reflexivity.
Qed.

(** The assumptions [no_sys_write] and [no_swap] are FALSE of CPython's pdb:
    witnesses (both reproduced against the unchanged /repo by harness/props/c13.py) *)

Definition P_PDB : text := txt [40; 80; 100; 98; 41; 32].          (* "(Pdb) " *)

(** `help pdb`: pdb.do_help -> pydoc.pager -> sys.stdout.write(<the module documentation>): debugger text written
    under trace 1 reaches the patched write and is REPORTED as output of trace 1 (and erasing it changes the report) *)
Definition ex_help_pdb : list dlabel :=
  [LDbgWrite 1 (txt [40; 80; 100; 98; 41; 32]); LDbgReadline 1 (txt [104; 101; 108; 112; 32; 112; 100; 98]);
   LDbgSysWrite 1 (txt [10; 84; 104; 101; 32; 80; 121; 116; 104; 111; 110; 32; 68; 101; 98; 117; 103; 103; 101; 114; 10]);
   LScript (Some 1) (txt [104; 105; 10])].

Lemma refuted_help_pdb :
  no_swap ex_help_pdb /\
  d_events P_PDB ex_help_pdb =
    [(Some 1, txt [10; 84; 104; 101; 32; 80; 121; 116; 104; 111; 110; 32; 68; 101; 98; 117; 103; 103; 101; 114; 10]);
     (Some 1, txt [104; 105; 10])] /\
  d_events P_PDB (erase_dbg ex_help_pdb) = [(Some 1, txt [104; 105; 10])] /\
  d_events P_PDB ex_help_pdb <> d_events P_PDB (erase_dbg ex_help_pdb).
Proof. vm_compute. repeat split; try reflexivity. discriminate. Qed.

(** `!import time; time.sleep(0.6)` at a prompt of trace 1 while the thread of trace 2 prints: Pdb.default binds
    sys.stdout to trace 1's StdInOut process-wide; trace 2's line goes into trace 1's PROMPT TEXT and neither into
    the report nor to the real stdout *)
Definition ex_bang_statement : list dlabel :=
  [LDbgWrite 1 (txt [40; 80; 100; 98; 41; 32]); LDbgReadline 1 (txt [33; 115; 108; 101; 101; 112]);
   LSwapOn 1; LScript (Some 2) (txt [116; 105; 99; 107; 10]); LSwapOff 1;
   LDbgWrite 1 (txt [40; 80; 100; 98; 41; 32]); LDbgReadline 1 (txt [99]);
   LScript (Some 2) (txt [116; 111; 99; 107; 10])].

Lemma refuted_bang_statement :
  no_sys_write ex_bang_statement /\
  script_writes ex_bang_statement = [Write (Some 2) (txt [116; 105; 99; 107; 10]); Write (Some 2) (txt [116; 111; 99; 107; 10])] /\
  d_real P_PDB ex_bang_statement = [txt [116; 111; 99; 107; 10]] /\
  d_events P_PDB ex_bang_statement = [(Some 2, txt [116; 111; 99; 107; 10])] /\
  d_prompts P_PDB 1 ex_bang_statement =
    [P_PDB; txt [116; 105; 99; 107; 10; 40; 80; 100; 98; 41; 32]] /\
  d_real P_PDB ex_bang_statement <> map text_of (script_writes ex_bang_statement).
Proof. vm_compute. repeat split; try reflexivity. discriminate. Qed.

Lemma never_reported_refuted_help_pdb :
  exists prompt ls, no_swap ls /\ d_events prompt ls <> d_events prompt (erase_dbg ls) /\
                    exists n s, In (LDbgSysWrite n s) ls /\ In (Some n, s) (d_events prompt ls).
Proof.
  exists P_PDB, ex_help_pdb.
  destruct refuted_help_pdb as (A & B & _ & D). split; [exact A|]. split; [exact D|].
  do 2 eexists. split; [simpl; eauto | rewrite B; simpl; eauto].
Qed.

Lemma real_stdout_refuted_bang_statement :
  exists prompt ls, no_sys_write ls /\ d_real prompt ls <> map text_of (script_writes ls) /\
                    exists a s, In (LScript (Some a) s) ls /\ ~ In s (d_real prompt ls) /\
                                ~ In (Some a, s) (d_events prompt ls).
Proof.
  exists P_PDB, ex_bang_statement.
  destruct refuted_bang_statement as (A & _ & R & E & _ & D). split; [exact A|]. split; [exact D|].
  exists 2, (txt [116; 105; 99; 107; 10]). split; [simpl; auto 10|]. rewrite R, E. split; simpl; intros [H|[]]; discriminate H.
Qed.

(** trace 1 prints 'a' ; its debugger prints a location and the prompt; trace 2 prints 'x\n'; the
    debugger of 2 prints; 1 reads 'next'; the script finishes its line 'b\n'; debugger 1 prints
    command output, the prompt, reads; debugger 2 prompts and reads *)
Definition ex_dbg : list dlabel :=
  [LScript (Some 1) (txt [97]);
   LDbgWrite 1 (txt [62; 32; 102; 40; 49; 41; 10]); LDbgWrite 1 P_PDB; LDbgFlush 1;
   LScript (Some 2) (txt [120; 10]);
   LDbgWrite 2 (txt [62; 32; 103; 10]);
   LDbgReadline 1 (txt [110]);
   LScript (Some 1) (txt [98; 10]);
   LDbgWrite 1 (txt [52; 50; 10]); LDbgWrite 1 P_PDB; LDbgReadline 1 (txt [99]);
   LDbgWrite 2 P_PDB; LDbgReadline 2 (txt [115])].

Lemma ex_dbg_runs :
  d_events P_PDB ex_dbg = [(Some 2, txt [120; 10]); (Some 1, txt [97; 98; 10])] /\
  d_real P_PDB ex_dbg = [txt [97]; txt [120; 10]; txt [98; 10]] /\
  d_prompts P_PDB 1 ex_dbg = [txt [62; 32; 102; 40; 49; 41; 10; 40; 80; 100; 98; 41; 32]; txt [52; 50; 10; 40; 80; 100; 98; 41; 32]] /\
  d_prompts P_PDB 2 ex_dbg = [txt [62; 32; 103; 10; 40; 80; 100; 98; 41; 32]] /\
  d_cmds P_PDB 1 ex_dbg = [txt [110]; txt [99]] /\
  pdb_like P_PDB 1 ex_dbg = true /\ pdb_like P_PDB 2 ex_dbg = true /\
  d_events P_PDB (erase_dbg ex_dbg) = d_events P_PDB ex_dbg.
Proof. vm_compute. repeat split; reflexivity. Qed.

(** CustomizedPdb defines only __init__/_cmdloop/cmdloop/set_continue (the translator refuses any other member:
    an override of do_* / message / default could print anywhere), and the calls these make are Pdb's own entry
    points, the cmdloop hook and logging -- none of them writes *)
Definition harmless_callee (c : string) : bool :=
  existsb (String.eqb c)
    ["super.__init__"; "super.cmdloop"; "self.cmdloop"; "self._cmdloop_hook"; "self._set_stopinfo"; "getLogger"; "logger"]%string.

Lemma pdb_overrides_harmless :
  forallb (fun m => existsb (String.eqb (fst m)) ["__init__"; "_cmdloop"; "cmdloop"; "set_continue"]%string
                    && forallb harmless_callee (snd m)) pdb_override_calls = true.
Proof. vm_compute. reflexivity. Qed.

(** stated last, so that a more specific obligation above fails first *)
(** the stream that is wrapped is sys.stdout, with the caller's callback; nothing else in the child's
    code mentions print / sys.stdout / sys.__stdout__ *)
Lemma peek_target_spec :
  peek_stdout_target = SysStdout /\ peek_stdout_passes_callback = true /\ other_stdout_uses = [].
Proof. repeat split; reflexivity. Qed.

(** Helpers for the generated case files
    (harness/props/c13.py drives the REAL Factory / CustomizedPdb / StdInOut / peek_stdout_by_key with the
    same interleavings and compares) *)
Definition DS (a : pykey) (l : list Z) : dlabel := LScript a (txt l).
Definition DW (n : Z) (l : list Z) : dlabel := LDbgWrite n (txt l).
Definition DF (n : Z) : dlabel := LDbgFlush n.
Definition DR (n : Z) (l : list Z) : dlabel := LDbgReadline n (txt l).
Definition DSW (n : Z) (l : list Z) : dlabel := LDbgSysWrite n (txt l).
Definition DON (n : Z) : dlabel := LSwapOn n.
Definition DOFF (n : Z) : dlabel := LSwapOff n.

Definition keyed (l : list (Z * text)) : calls := map (fun p => (Some (fst p), snd p)) l.

(** events, real stdout (concatenated), prompt-function calls, commands returned *)
Definition two_run (ls : list dlabel) : (calls * list text) * (calls * calls) :=
  let st := drun P_PDB ls in
  ((w_events (snd (g_w _ st)), [List.concat (w_real (snd (g_w _ st)))]),
   (keyed (g_prompts _ st), keyed (g_cmds _ st))).

Definition two_eqb (a b : (calls * list text) * (calls * calls)) : bool :=
  obs_eqb (fst a) (fst b) && calls_eqb (fst (snd a)) (fst (snd b)) && calls_eqb (snd (snd a)) (snd (snd b)).
