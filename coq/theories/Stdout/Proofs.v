(** Proofs about the model of stdout capture (Stdout/Model.v over the GENERATED Gen/PeekFuns.v)
    against the history functions of Stdout/Spec.v.  [rlbk_spec], [assign_key_spec] and [step_spec] are the only
    lemmas that open Gen/PeekFuns.v: one write is [flushing] (a traced key) or [dropping] (no key).  [run_hist] ties the
    buffer and the events of a traced key to the fold [hist] over the writes, [hist_inv] is the invariant of that fold;
    the [model_*] statements used by Props/C13.v are read off these two. *)
From NL Require Import Stdout.Spec.
From Coq Require Import Lia.
Open Scope Z_scope.

Lemma ch_eqb_refl c : ch_eqb c c = true.
Proof. destruct c; simpl; auto using Z.eqb_refl. Qed.

Lemma key_eqb_eq a b : key_eqb a b = true <-> a = b.
Proof. destruct a, b; simpl; rewrite ?Z.eqb_eq; split; congruence. Qed.

Lemma key_eqb_refl a : key_eqb a a = true.
Proof. apply key_eqb_eq; reflexivity. Qed.

Lemma key_eqb_neq a b : a <> b -> key_eqb a b = false.
Proof. rewrite <- key_eqb_eq. destruct (key_eqb a b); intuition congruence. Qed.

Lemma key_eqb_sym a b : key_eqb a b = key_eqb b a.
Proof. destruct a, b; simpl; auto using Z.eqb_sym. Qed.

Lemma dd_get_remove b k k' :
  dd_get (dd_remove b k) k' = if key_eqb k k' then [] else dd_get b k'.
Proof.
  induction b as [|[a v] r IH]; simpl.
  - destruct (key_eqb k k'); reflexivity.
  - destruct (key_eqb a k) eqn:E.
    + rewrite IH. apply key_eqb_eq in E; subst a.
      destruct (key_eqb k k'); reflexivity.
    + simpl. rewrite IH.
      destruct (key_eqb a k') eqn:E'; auto.
      apply key_eqb_eq in E'; subst a. rewrite key_eqb_sym, E. reflexivity.
Qed.

Lemma dd_get_set b k v k' :
  dd_get (dd_set b k v) k' = if key_eqb k k' then v else dd_get b k'.
Proof.
  unfold dd_set; simpl. rewrite dd_get_remove.
  destruct (key_eqb k k'); reflexivity.
Qed.

Local Arguments dd_set : simpl never.

Lemma traced_truthy k : traced k -> truthy_key k = true.
Proof. intros (n & -> & Hn); simpl. destruct (Z.eqb_spec n 0); auto; contradiction. Qed.

Lemma traced_some n : n <> 0 -> traced (Some n).
Proof. exists n; auto. Qed.

Lemma ends_nl_nil : ends_nl [] = false.
Proof. reflexivity. Qed.

Lemma ends_nl_snoc x c : ends_nl (x ++ [c]) = match c with NL => true | Other _ => false end.
Proof.
  unfold ends_nl, str_endswith. rewrite <- !rev_alt, rev_app_distr. simpl. destruct c; reflexivity.
Qed.

Lemma ends_nl_cons c r : r <> [] -> ends_nl (c :: r) = ends_nl r.
Proof.
  intro H. destruct (exists_last H) as (x & d & ->).
  change (c :: x ++ [d]) with ((c :: x) ++ [d]). rewrite !ends_nl_snoc. reflexivity.
Qed.

Lemma ends_nl_spec s : ends_nl s = true -> exists body, s = body ++ [NL].
Proof.
  intro H. destruct s as [|c s]. { discriminate. }
  assert (N : c :: s <> []) by discriminate.
  destruct (exists_last N) as (y & d & E). rewrite E in *.
  rewrite ends_nl_snoc in H. destruct d; try discriminate. eauto.
Qed.

Lemma ends_nl_app x s : ends_nl s = true -> ends_nl (x ++ s) = true.
Proof. intro H. apply ends_nl_spec in H as (b & ->). rewrite app_assoc. apply ends_nl_snoc. Qed.

Lemma has_nl_app a b : has_nl (a ++ b) = has_nl a || has_nl b.
Proof. induction a as [|[|n] a IH]; simpl; auto. Qed.

Lemma ends_has_nl s : ends_nl s = true -> has_nl s = true.
Proof.
  intro H. apply ends_nl_spec in H as (b & ->). rewrite has_nl_app; simpl. apply orb_true_r.
Qed.

Lemma upto_no_nl q : has_nl q = false -> upto_last_nl q = [].
Proof.
  induction q as [|[|n] q IH]; simpl; intro H; try discriminate; auto.
  rewrite IH; auto.
Qed.

Lemma upto_decomp t :
  exists q, t = upto_last_nl t ++ q /\ has_nl q = false /\
            (upto_last_nl t = [] \/ ends_nl (upto_last_nl t) = true).
Proof.
  induction t as [|c r (q & E & Hq & Hu)]; simpl.
  - exists []; auto.
  - destruct (upto_last_nl r) as [|d u] eqn:U.
    + simpl in E. subst q. destruct c.
      * exists r; repeat split; auto.
      * exists (Other n :: r); repeat split; auto.
    + exists q. split; [simpl; f_equal; exact E|]. split; auto.
      right. rewrite ends_nl_cons by discriminate.
      destruct Hu as [Hu|Hu]; [discriminate|exact Hu].
Qed.

Lemma upto_unique p q :
  (p = [] \/ ends_nl p = true) -> has_nl q = false -> upto_last_nl (p ++ q) = p.
Proof.
  intros Hp Hq. induction p as [|c p IH]; simpl.
  - apply upto_no_nl; auto.
  - destruct Hp as [Hp|Hp]; [discriminate|].
    destruct p as [|d p].
    + simpl. rewrite (upto_no_nl q Hq).
      change [c] with ([] ++ [c]) in Hp. rewrite ends_nl_snoc in Hp. destruct c; try discriminate; reflexivity.
    + rewrite ends_nl_cons in Hp by discriminate.
      rewrite IH by auto. reflexivity.
Qed.

Lemma upto_iff p q :
  (p = [] \/ ends_nl p = true) ->
  (upto_last_nl (p ++ q) = p <-> has_nl q = false).
Proof.
  intro Hp; split; [|apply upto_unique; auto].
  intro E. destruct (upto_decomp (p ++ q)) as (q' & D & Hq' & _).
  rewrite E in D. apply app_inv_head in D. subst; auto.
Qed.

Lemma upto_split t : t = upto_last_nl t ++ after_last_nl t.
Proof.
  destruct (upto_decomp t) as (q & E & _). unfold after_last_nl.
  remember (upto_last_nl t) as u. clear Hequ. subst t.
  rewrite skipn_app, skipn_all, Nat.sub_diag. reflexivity.
Qed.

Lemma after_no_nl t : has_nl (after_last_nl t) = false.
Proof.
  destruct (upto_decomp t) as (q & E & Hq & _).
  pose proof (upto_split t) as S. rewrite E in S at 1. apply app_inv_head in S. congruence.
Qed.

Lemma upto_nonempty t : has_nl t = true -> upto_last_nl t <> [].
Proof.
  intros H E. pose proof (upto_split t) as S. rewrite E in S; simpl in S.
  rewrite S, after_no_nl in H. discriminate.
Qed.

Lemma upto_ends t : has_nl t = true -> ends_nl (upto_last_nl t) = true.
Proof.
  intro H. destruct (upto_decomp t) as (_ & _ & _ & [E|E]); auto.
  apply upto_nonempty in H. contradiction.
Qed.

Lemma upto_length t : (length (upto_last_nl t) <= length t)%nat.
Proof. rewrite (upto_split t) at 2. rewrite app_length. lia. Qed.

Lemma str_contains_nl s : str_contains [NL] s = has_nl s.
Proof.
  induction s as [|c s IH]; auto.
  simpl. rewrite IH. destruct c; reflexivity.
Qed.

(** rindex of NL, by the scan of Prim.v *)
Lemma rindex_go_nl t : forall i best,
  rindex_go t [NL] i best =
  if has_nl t then i + Z.of_nat (length (upto_last_nl t)) - 1 else best.
Proof.
  induction t as [|c r IH]; intros i best; simpl; auto.
  rewrite IH. destruct (has_nl r) eqn:Hr.
  - pose proof (upto_nonempty r Hr) as N.
    destruct (upto_last_nl r) as [|d u] eqn:U; [contradiction|].
    destruct c; cbv iota; cbn [length]; lia.
  - rewrite (upto_no_nl r Hr). destruct c; simpl; auto. lia.
Qed.

Lemma rindex_nl t : has_nl t = true ->
  str_rindex t [NL] + 1 = Z.of_nat (length (upto_last_nl t)).
Proof. intro H. unfold str_rindex. rewrite rindex_go_nl, H. lia. Qed.

Lemma py_index_nat len n : (n <= len)%nat -> py_index (Z.of_nat len) (Z.of_nat n) = n.
Proof.
  intro H. unfold py_index. replace (Z.of_nat n <? 0) with false by (symmetry; apply Z.ltb_ge; lia).
  rewrite Z.min_l by lia. apply Nat2Z.id.
Qed.

Lemma slice_from t n : (n <= length t)%nat -> str_slice t (Some (Z.of_nat n)) None = skipn n t.
Proof.
  intro H. unfold str_slice. rewrite py_index_nat by exact H. apply firstn_all2. rewrite skipn_length. lia.
Qed.

Lemma slice_to t n : (n <= length t)%nat -> str_slice t None (Some (Z.of_nat n)) = firstn n t.
Proof. intro H. unfold str_slice. rewrite py_index_nat by exact H. rewrite Nat.sub_0_r. reflexivity. Qed.

Lemma firstn_upto t : firstn (length (upto_last_nl t)) t = upto_last_nl t.
Proof.
  rewrite (upto_split t) at 2. rewrite firstn_app, Nat.sub_diag, firstn_all. simpl. apply app_nil_r.
Qed.

Lemma dd_remove_idem b k : dd_remove (dd_remove b k) k = dd_remove b k.
Proof.
  induction b as [|[a v] r IH]; simpl; auto.
  destruct (key_eqb a k) eqn:E; simpl; rewrite ?E, IH; auto.
Qed.

(** the buffer after a flush: `rest` is kept under k only when non-empty *)
Definition keep_rest (b : buf) (k : pykey) (r : text) : buf :=
  if truthy_text r then dd_set (dd_remove b k) k r else dd_remove b k.

Lemma keep_rest_get b k r k' :
  dd_get (keep_rest b k r) k' = if key_eqb k k' then r else dd_get b k'.
Proof.
  unfold keep_rest. destruct r as [|c r]; simpl truthy_text; cbv iota.
  - rewrite dd_get_remove. reflexivity.
  - rewrite dd_get_set, dd_get_remove. destruct (key_eqb k k'); reflexivity.
Qed.

Lemma rlbk_spec {W} (cb : pykey -> text -> W -> W) k s b w :
  read_lines_by_key cb k s (b, w) =
  if has_nl s
  then (keep_rest b k (after_last_nl (dd_get b k ++ s)), cb k (upto_last_nl (dd_get b k ++ s)) w)
  else (dd_set b k (dd_get b k ++ s), w).
Proof.
  unfold read_lines_by_key, dd_pop, str_add. cbv beta iota zeta.
  rewrite str_contains_nl. destruct (has_nl s) eqn:Hs; cbv beta iota zeta delta [negb]; auto.
  rewrite dd_get_set, key_eqb_refl.
  set (t := dd_get b k ++ s).
  assert (Ht : has_nl t = true) by (unfold t; rewrite has_nl_app, Hs; apply orb_true_r).
  assert (R : dd_remove (dd_set b k t) k = dd_remove b k).
  { unfold dd_set. simpl. rewrite key_eqb_refl. apply dd_remove_idem. }
  rewrite R, (rindex_nl t Ht).
  rewrite slice_from, slice_to by apply upto_length.
  rewrite firstn_upto. fold (after_last_nl t). unfold keep_rest.
  destruct (truthy_text (after_last_nl t)); reflexivity.
Qed.

(** Stated as two cases that overlap nowhere but are not each other's negation, and proved so that each case is
    closed by whichever disjunct computes: the proof then also goes through for equivalent forms of the key test
    in the source (e.g. `is not None`).  [step_spec] inherits the shape. *)
Lemma assign_key_spec {W} (a : pykey) (cb : pykey -> text -> W -> W) s w :
  (truthy_key a = false /\ assign_key (fun _ => a) cb s w = w) \/
  (a <> None /\ assign_key (fun _ => a) cb s w = cb a s w).
Proof.
  unfold assign_key. destruct a as [n|]; simpl.
  - destruct (Z.eqb_spec n 0) as [->|Hn]; simpl;
      first [ right; split; [discriminate | reflexivity] | left; split; reflexivity ].
  - first [ left; split; reflexivity | right; split; [discriminate | reflexivity] ].
Qed.

Lemma assign_key_traced {W} (a : pykey) (cb : pykey -> text -> W -> W) s w :
  truthy_key a = true -> assign_key (fun _ => a) cb s w = cb a s w.
Proof.
  intro T. destruct (assign_key_spec a cb s w) as [(F & _)|(_ & E)]; [congruence|exact E].
Qed.

Lemma assign_key_none {W} (cb : pykey -> text -> W -> W) s w :
  assign_key (fun _ => None) cb s w = w.
Proof.
  destruct (assign_key_spec None cb s w) as [(_ & E)|(N & _)]; [exact E|contradiction].
Qed.

Definition flushing (a : pykey) (s : text) (st : buf * world) : buf * world :=
  let t := dd_get (fst st) a ++ s in
  if has_nl s
  then (keep_rest (fst st) a (after_last_nl t),
        mkWorld (w_events (snd st) ++ [(a, upto_last_nl t)]) (w_real (snd st) ++ [s]))
  else (dd_set (fst st) a t,
        mkWorld (w_events (snd st)) (w_real (snd st) ++ [s])).

Definition dropping (s : text) (st : buf * world) : buf * world :=
  (fst st, mkWorld (w_events (snd st)) (w_real (snd st) ++ [s])).

Lemma step_spec st a s :
  (truthy_key a = false /\ step st (Write a s) = dropping s st) \/
  (a <> None /\ step st (Write a s) = flushing a s st).
Proof.
  destruct st as [b w]. unfold step, peek_write.
  destruct (assign_key_spec a (read_lines_by_key (on_write_stdout (fun _ => a))) s (b, w))
    as [(F & E)|(N & E)]; rewrite E.
  - left; split; auto.
  - right; split; auto. rewrite rlbk_spec. unfold flushing, org_write, on_write_stdout; simpl.
    destruct (has_nl s); reflexivity.
Qed.

Lemma step_traced st a s : truthy_key a = true -> step st (Write a s) = flushing a s st.
Proof.
  intro T. destruct (step_spec st a s) as [(F & _)|(_ & E)]; [congruence|exact E].
Qed.

Lemma step_none st s : step st (Write None s) = dropping s st.
Proof.
  destruct (step_spec st None s) as [(_ & E)|(N & _)]; [exact E|contradiction].
Qed.

Lemma run_snoc ws l : run (ws ++ [l]) = step (run ws) l.
Proof. unfold run. rewrite fold_left_app. reflexivity. Qed.

Lemma hist_snoc k ws l : hist k (ws ++ [l]) = hstep k (hist k ws) l.
Proof. unfold hist. rewrite fold_left_app. reflexivity. Qed.

Lemma pieces_of_app k a b : pieces_of k (a ++ b) = pieces_of k a ++ pieces_of k b.
Proof.
  induction a as [|[x s] a IH]; simpl; auto.
  destruct (key_eqb x k); simpl; rewrite IH; reflexivity.
Qed.

Lemma writes_of_app k a b : writes_of k (a ++ b) = writes_of k a ++ writes_of k b.
Proof.
  induction a as [|[x s] a IH]; simpl; auto.
  destruct (key_eqb x k); rewrite IH, ?app_assoc; reflexivity.
Qed.

Lemma real_all ws : real ws = map text_of ws.
Proof.
  unfold real. induction ws as [|[a s] ws IH] using rev_ind; auto.
  rewrite run_snoc, map_app.
  destruct (step_spec (run ws) a s) as [(_ & E)|(_ & E)]; rewrite E.
  - unfold dropping; simpl. rewrite IH; reflexivity.
  - unfold flushing; destruct (has_nl s); simpl; rewrite IH; reflexivity.
Qed.

Lemma events_wf ws :
  Forall (fun e => fst e <> None /\ ends_nl (snd e) = true) (events ws).
Proof.
  unfold events. induction ws as [|[a s] ws IH] using rev_ind.
  - constructor.
  - rewrite run_snoc.
    destruct (step_spec (run ws) a s) as [(_ & E)|(N & E)]; rewrite E.
    + exact IH.
    + unfold flushing; destruct (has_nl s) eqn:En; simpl; auto.
      apply Forall_app; split; auto. constructor; auto. simpl; split; auto.
      apply upto_ends. rewrite has_nl_app, En. apply orb_true_r.
Qed.

Lemma run_hist ws k :
  traced k ->
  dd_get (buffer_of ws) k = unflushed k ws /\
  pieces_of k (events ws) = pieces_hist k ws.
Proof.
  intro T. apply traced_truthy in T.
  unfold buffer_of, events, unflushed, pieces_hist.
  induction ws as [|[a s] ws (IHb & IHe)] using rev_ind; auto.
  rewrite run_snoc, hist_snoc. unfold hstep.
  destruct (step_spec (run ws) a s) as [(F & E)|(N & E)]; rewrite E.
  - assert (key_eqb a k = false) as ->.
    { apply key_eqb_neq; intro; subst; congruence. }
    unfold dropping; simpl; auto.
  - unfold flushing.
    destruct (has_nl s); cbn [fst snd w_events];
      rewrite ?keep_rest_get, ?dd_get_set, ?pieces_of_app; cbn [pieces_of];
      destruct (key_eqb a k) eqn:Ek; rewrite ?app_nil_r; auto;
      apply key_eqb_eq in Ek; subst a; rewrite IHb, IHe; auto.
Qed.

Lemma hist_inv k ws :
  concat (pieces_hist k ws) ++ unflushed k ws = writes_of k ws /\
  Forall (fun p => ends_nl p = true) (pieces_hist k ws) /\ has_nl (unflushed k ws) = false.
Proof.
  unfold pieces_hist, unflushed.
  induction ws as [|[a s] ws (IH1 & IH2 & IH3)] using rev_ind; [repeat constructor|].
  rewrite hist_snoc, writes_of_app; simpl. rewrite app_nil_r.
  destruct (key_eqb a k); [|rewrite app_nil_r; auto].
  rewrite <- IH1. destruct (has_nl s) eqn:E; simpl.
  - split; [|split].
    + rewrite concat_app; simpl. rewrite app_nil_r, <- !app_assoc. f_equal. symmetry. apply upto_split.
    + apply Forall_app; split; auto. constructor; auto. apply upto_ends. rewrite has_nl_app, E. apply orb_true_r.
    + apply after_no_nl.
  - rewrite app_assoc, has_nl_app, IH3, E. auto.
Qed.

Lemma concat_ends l :
  Forall (fun p => ends_nl p = true) l -> concat l = [] \/ ends_nl (concat l) = true.
Proof.
  induction l as [|p l IH] using rev_ind; auto.
  intro F. apply Forall_app in F as (_ & F). inversion F; subst.
  right. rewrite concat_app; simpl. rewrite app_nil_r. apply ends_nl_app; auto.
Qed.

Lemma hist_only_gen k ws acc : fold_left (hstep k) (only k ws) acc = fold_left (hstep k) ws acc.
Proof.
  revert acc. induction ws as [|[a s] ws IH]; intro acc; simpl; auto.
  destruct (key_eqb a k) eqn:E; simpl; rewrite ?E, IH; reflexivity.
Qed.

Lemma hist_only k ws : hist k (only k ws) = hist k ws.
Proof. apply hist_only_gen. Qed.

Lemma model_pieces_end ws k line :
  In (k, line) (events ws) -> k <> None /\ exists body, line = body ++ [NL].
Proof.
  intro I. pose proof (events_wf ws) as F. rewrite Forall_forall in F.
  destruct (F _ I) as (N & E). split; auto. apply ends_nl_spec; auto.
Qed.

Lemma model_untraced_dropped ws line : ~ In (None, line) (events ws).
Proof. intro I. apply model_pieces_end in I as (N & _). contradiction. Qed.

Lemma model_exactly_once ws n :
  n <> 0 ->
  reported_of (Some n) (events ws) ++ unflushed (Some n) ws = writes_of (Some n) ws.
Proof.
  intro Hn. pose proof (traced_some n Hn) as T.
  unfold reported_of. destruct (run_hist ws _ T) as (_ & ->). apply hist_inv.
Qed.

Lemma model_prefix ws n :
  n <> 0 -> exists rest, writes_of (Some n) ws = reported_of (Some n) (events ws) ++ rest.
Proof. intro Hn. eexists. symmetry. apply model_exactly_once; auto. Qed.

Lemma model_reported_ends ws n :
  n <> 0 ->
  reported_of (Some n) (events ws) = [] \/ ends_nl (reported_of (Some n) (events ws)) = true.
Proof.
  intro Hn. pose proof (traced_some n Hn) as T.
  unfold reported_of. destruct (run_hist ws _ T) as (_ & ->).
  apply concat_ends, hist_inv.
Qed.

Lemma model_pending_no_nl ws n : has_nl (unflushed (Some n) ws) = false.
Proof. apply hist_inv. Qed.

Lemma model_upto ws n :
  n <> 0 ->
  reported_of (Some n) (events ws) = upto_last_nl (writes_of (Some n) ws).
Proof.
  intro Hn. rewrite <- (model_exactly_once ws n Hn). symmetry.
  apply upto_unique; [apply model_reported_ends; auto | apply hist_inv].
Qed.

Lemma model_interleaving ws n :
  n <> 0 ->
  pieces_of (Some n) (events ws) = pieces_of (Some n) (events (only (Some n) ws)).
Proof.
  intro Hn. pose proof (traced_some n Hn) as T.
  destruct (run_hist ws _ T) as (_ & ->).
  destruct (run_hist (only (Some n) ws) _ T) as (_ & ->).
  unfold pieces_hist. rewrite hist_only. reflexivity.
Qed.

Lemma model_pending ws n :
  n <> 0 -> dd_get (buffer_of ws) (Some n) = unflushed (Some n) ws.
Proof. intro Hn. apply run_hist, traced_some, Hn. Qed.
