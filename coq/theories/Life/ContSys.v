(** C16 tie, whole histories on the REGENERATED code: a small task-pool system whose every
    step is [exec] (Life/ContTie.v) on a program of Gen/ContinuousSkel.v, with the scheduler
    as a label list, and the invariant

        coherent  /\  flag = (counter > 0) unless closed (then off)
                  /\  counter = number of registered Continue plugins (>= once closed)

    proved by induction over ALL label lists.  It replaces, for the flag, the rely
    hypothesis of [flag_requested] and the constant-environment hypotheses of [tie_refuse]:
    here the environment of a request IS the rest of the system.

    A request is two steps.  [LEnter t]: task t runs `_requested` up to its `yield`; the
    state at the yield is what [exec] hands to the body ([requested_all_env]), obtained by
    running the whole generator with a body that returns at once ([env_pass]; lemma
    [enter_state]).  The pool remembers the state and frame the generator was started in.
    [LExit t r own]: the body of t's request returns ([r = None]) or raises ([Some x], any
    class): the WHOLE generator is run from the state it was really started in, in the
    environment "meanwhile the rest of the system has turned the shared state into the
    current one, then the body ends with r" ([env_at]).  The other steps: the
    on_start_run hooks of a run ([LArm]), its on_finished hooks ([LFinished]),
    Continuous.close ([LClose], once: Nextline.close is guarded), and anything else that
    appends events that are not publications of the flag ([LOther]).

    What is NOT in this system (it is in Life/Model.v and its co-simulation): which of these
    steps are possible when -- the lifecycle lock, the state machine, the refusal rule. *)
From Coq Require Import List ZArith Bool Arith Lia.
From NL Require Import Life.Model Life.Hist Life.ContFlag Life.ContTie.
Import ListNotations.
Open Scope Z_scope.

Record sys := mkSys {
  y_sh : shared;
  y_pend : list (nat * (shared * frame))      (* requests suspended at the yield *)
}.

Inductive slabel :=
| LEnter (t : nat) (ctx : option nat)
| LExit (t : nat) (r : option exc) (own : bool)
| LArm (requested : bool) (owner : nat)
| LFinished
| LClose
| LOther (evs : list event).

Definition env_pass : env := mkEnv (fun _ => None) (fun _ _ x => x) false.
Definition env_at (cur : shared) (r : option exc) (own : bool) : env :=
  mkEnv (fun c => match c with CBody => r | _ => None end) (fun _ _ _ => cur) own.

Fixpoint find_pend (l : list (nat * (shared * frame))) (t : nat) : option (shared * frame) :=
  match l with
  | [] => None
  | (t', x) :: r => if Nat.eqb t t' then Some x else find_pend r t
  end.
Fixpoint remove_pend (l : list (nat * (shared * frame))) (t : nat) : list (nat * (shared * frame)) :=
  match l with
  | [] => []
  | (t', x) :: r => if Nat.eqb t t' then r else (t', x) :: remove_pend r t
  end.

Definition not_flag (ev : event) : bool := match ev with EvPub (PCont _) => false | _ => true end.

Definition on_finished_all (sh : shared) : shared :=
  fold_left (fun s x => snd (fst (exec (prog MOnFinished) env_pass None s (plugin_frame x None))))
            (cont_plugins (sh_m sh)) sh.

Definition sstep (y : sys) (l : slabel) : sys :=
  match l with
  | LEnter t ctx =>
      match find_pend (y_pend y) t with
      | Some _ => y                                   (* t is suspended in the body of its request *)
      | None =>
          let fr := mkFr t false ctx None None [] 0 in
          let '(o, sh', _) := exec (prog MRequested) env_pass None (y_sh y) fr in
          match o with
          | Fin => mkSys sh' (y_pend y ++ [(t, (y_sh y, fr))])
          | _ => mkSys sh' (y_pend y)                  (* publish(True) raised: the item is closed *)
          end
      end
  | LExit t r own =>
      match find_pend (y_pend y) t with
      | None => y
      | Some (sh0, fr) =>
          let '(_, sh', _) := exec (prog MRequested) (env_at (y_sh y) r own) None sh0 fr in
          mkSys sh' (remove_pend (y_pend y) t)
      end
  | LArm requested owner =>
      let sh := y_sh y in
      mkSys (set_m sh (set_cont_plugins (sh_m sh)
               (map (fun x => (fst x, fr_started (snd (exec (prog MOnStartRun) env_pass None sh
                                                            (plugin_frame x (run_ctx requested owner))))))
                    (cont_plugins (sh_m sh)))))
            (y_pend y)
  | LFinished => mkSys (on_finished_all (y_sh y)) (y_pend y)
  | LClose =>
      if sh_item (y_sh y) then y
      else mkSys (snd (fst (exec (prog MClose) env_pass None (y_sh y) (mkFr 0 false None None None [] 0)))) (y_pend y)
  | LOther evs =>
      let m := sh_m (y_sh y) in
      mkSys (set_m (y_sh y) (set_trace m (filter not_flag evs ++ trace m))) (y_pend y)
  end.

Definition srun (y : sys) (ls : list slabel) : sys := fold_left sstep ls y.

(** Continuous.__init__ then Continuous.start on a fresh object *)
Definition sys_init (a b : Z) (c d : bool) : sys :=
  let fr := mkFr 0 false None None None [] 0 in
  let sh0 := snd (fst (exec (prog MInit) env_pass None (mkSh (init_state a b c d) 0 false) fr)) in
  mkSys (snd (fst (exec (prog MStart) env_pass None sh0 fr))) [].

Definition J (sh : shared) : Prop :=
  coherent sh /\ flag_inv sh /\
  (if cont_closed (sh_m sh) then Z.of_nat (length (cont_plugins (sh_m sh))) <= sh_cnt sh
   else sh_cnt sh = Z.of_nat (length (cont_plugins (sh_m sh)))).

Definition SInv (y : sys) : Prop :=
  J (y_sh y) /\
  forall t sh0 fr, In (t, (sh0, fr)) (y_pend y) ->
                   coherent sh0 /\ cont_closed (sh_m sh0) = false /\ fr_me fr = t.

Lemma env_at_ok cur r own : coherent cur -> env_ok (env_at cur r own).
Proof. intros H c v sh _. exact H. Qed.

Lemma env_pass_ok : env_ok env_pass.
Proof. intros c v sh H. exact H. Qed.

Lemma enter_state : forall sh fr,
  coherent sh -> cont_closed (sh_m sh) = false ->
  exec (prog MRequested) env_pass None sh fr =
  (Fin, mkSh (entry_m (sh_m sh) (fr_me fr)) (sh_cnt sh + 1) false, after_with fr).
Proof. intros sh fr Hco Hcl. rewrite (requested_all_env env_pass None sh fr env_pass_ok Hco Hcl). reflexivity. Qed.

Lemma J_entry sh t : J sh -> cont_closed (sh_m sh) = false ->
  J (mkSh (entry_m (sh_m sh) t) (sh_cnt sh + 1) false).
Proof.
  intros (Hco & Hfl & Hn) Hcl. rewrite Hcl in Hn. split; [ | split].
  - unfold coherent. simpl. symmetry. exact Hcl.
  - apply (flag_entry sh t Hcl). lia.
  - simpl. change (cont_closed (publish (sh_m sh) (PCont true))) with (cont_closed (sh_m sh)). rewrite Hcl.
    rewrite app_length. simpl. lia.
Qed.

Lemma J_closed_entry sh : J sh -> sh_item sh = true -> J (set_cnt sh (sh_cnt sh + 1)).
Proof.
  intros (Hco & Hfl & Hn) Hit. unfold coherent in Hco. rewrite Hit in Hco.
  split; [ | split].
  - unfold coherent. simpl. rewrite Hit. exact Hco.
  - unfold flag_inv in *. simpl. rewrite <- Hco in *. exact Hfl.
  - simpl. rewrite <- Hco in *. lia.
Qed.

Lemma J_unreg_disable sh t b : J sh -> has_plugin (sh_m sh) t b = true ->
  J (disable_sh (set_m sh (unreg_m (sh_m sh) t b))).
Proof.
  intros (Hco & Hfl & Hn) Hhas. destruct (unreg_disable sh t b Hhas) as (Ec & El & Ecl & Eit).
  split; [ | split].
  - unfold coherent. rewrite Eit, Ecl. exact Hco.
  - apply flag_disable, flag_unreg. exact Hfl.
  - rewrite Ecl. destruct (cont_closed (sh_m sh)); lia.
Qed.

Lemma J_close sh : J sh -> sh_item sh = false -> J (close_sh sh).
Proof.
  intros (Hco & Hfl & Hn) Hit. unfold coherent in Hco. rewrite Hit in Hco.
  split; [ | split].
  - destruct sh as [m n it]. unfold coherent, close_sh. simpl. destruct (n >? 0); destruct m; reflexivity.
  - apply flag_close; [exact Hfl | symmetry; exact Hco].
  - rewrite <- Hco in Hn. destruct sh as [m n it]. unfold close_sh. simpl in *.
    destruct (n >? 0); destruct m; simpl in *; lia.
Qed.

Lemma enabled_other evs tr : enabled_of (filter not_flag evs ++ tr) = enabled_of tr.
Proof.
  induction evs as [ | ev evs IH]; simpl; [reflexivity | ].
  destruct ev as [ | | p | ]; simpl; try exact IH. destruct p; simpl; exact IH.
Qed.

Lemma J_other sh evs : J sh -> J (set_m sh (set_trace (sh_m sh) (filter not_flag evs ++ trace (sh_m sh)))).
Proof.
  intros (Hco & Hfl & Hn). split; [ | split].
  - exact Hco.
  - unfold flag_inv in *. simpl. rewrite enabled_other. exact Hfl.
  - exact Hn.
Qed.

Lemma J_plugins_map sh (f : nat * bool -> nat * bool) : J sh ->
  J (set_m sh (set_cont_plugins (sh_m sh) (map f (cont_plugins (sh_m sh))))).
Proof.
  intros (Hco & Hfl & Hn). split; [ | split].
  - exact Hco.
  - exact Hfl.
  - simpl. rewrite map_length. exact Hn.
Qed.

Lemma J_on_finished sh x : J sh ->
  J (snd (fst (exec (prog MOnFinished) env_pass None sh (plugin_frame x None)))).
Proof.
  intros HJ. destruct HJ as (Hco & Hrest). rewrite (on_finished_exec env_pass None sh _ Hco).
  cbn [plugin_frame fr_started fr_me].
  destruct (snd x); [ | exact (conj Hco Hrest)].
  destruct (has_plugin (sh_m sh) (fst x) true) eqn:Eh; cbn [fst snd]; [ | exact (conj Hco Hrest)].
  apply J_unreg_disable; [exact (conj Hco Hrest) | exact Eh].
Qed.

Lemma J_on_finished_all sh : J sh -> J (on_finished_all sh).
Proof.
  unfold on_finished_all. generalize (cont_plugins (sh_m sh)). intros l. revert sh.
  induction l as [ | x l IH]; intros sh HJ; simpl; [exact HJ | ].
  apply IH. apply J_on_finished. exact HJ.
Qed.

Lemma find_pend_in l t x : find_pend l t = Some x -> In (t, x) l.
Proof.
  induction l as [ | [t' y] l IH]; simpl; [discriminate | ]. destruct (Nat.eqb t t') eqn:E.
  - intros H. inversion H. subst. apply Nat.eqb_eq in E. subst. left. reflexivity.
  - intros H. right. apply IH. exact H.
Qed.

Lemma remove_pend_in l t e : In e (remove_pend l t) -> In e l.
Proof.
  induction l as [ | [t' y] l IH]; simpl; [tauto | ]. destruct (Nat.eqb t t').
  - intros H. right. exact H.
  - intros [H | H]; [left; exact H | right; apply IH; exact H].
Qed.

Theorem SInv_step : forall y l, SInv y -> SInv (sstep y l).
Proof.
  intros [sh pend] l [HJ HP]. cbn [y_sh y_pend] in HJ, HP.
  destruct l as [t ctx | t r own | rq ow | | | evs]; unfold sstep; cbn [y_sh y_pend].
  - (* LEnter *)
    destruct (find_pend pend t) eqn:Ef; [split; assumption | ].
    assert (HJ0 := HJ). destruct HJ as (Hco & _).
    destruct (cont_closed (sh_m sh)) eqn:Ec.
    + assert (Hit : sh_item sh = true) by (rewrite Hco; exact Ec).
      rewrite (requested_closed env_pass None sh _ Hit). split; cbn [y_sh y_pend].
      * apply J_closed_entry; [exact HJ0 | exact Hit].
      * exact HP.
    + rewrite (enter_state sh _ Hco Ec). split; cbn [y_sh y_pend fr_me].
      * apply J_entry; [exact HJ0 | exact Ec].
      * intros u sh0 fr Hin. apply in_app_or in Hin. destruct Hin as [Hin | [Hin | []]].
        -- apply (HP u). exact Hin.
        -- inversion Hin. subst. repeat split; [exact Hco | exact Ec].
  - (* LExit *)
    destruct (find_pend pend t) as [[sh0 fr] | ] eqn:Ef; [ | split; assumption].
    destruct (HP t sh0 fr (find_pend_in _ _ _ Ef)) as (Hco0 & Hcl0 & Hme).
    destruct HJ as (Hco & Hrest).
    rewrite (requested_all_env (env_at sh r own) None sh0 fr (env_at_ok sh r own Hco) Hco0 Hcl0).
    cbv zeta. cbn [env_at e_exc e_interf e_own_started].
    assert (Hpool : forall u sh1 fr1, In (u, (sh1, fr1)) (remove_pend pend t) ->
                    coherent sh1 /\ cont_closed (sh_m sh1) = false /\ fr_me fr1 = u).
    { intros u sh1 fr1 H. apply (HP u). apply (remove_pend_in _ _ _ H). }
    destruct r as [[ | | ] | ]; cbv beta iota zeta;
      try (split; [exact (conj Hco Hrest) | exact Hpool]);
      (destruct (has_plugin (sh_m sh) (fr_me fr) own) eqn:Eh; cbv beta iota zeta;
       [split; [apply J_unreg_disable; [exact (conj Hco Hrest) | exact Eh] | exact Hpool]
       | split; [exact (conj Hco Hrest) | exact Hpool]]).
  - (* LArm *) split; [apply J_plugins_map; exact HJ | exact HP].
  - (* LFinished *) split; [apply J_on_finished_all; exact HJ | exact HP].
  - (* LClose *)
    destruct (sh_item sh) eqn:Eit; [split; assumption | ].
    rewrite (close_exec env_pass None sh _ Eit). split; [apply J_close; assumption | exact HP].
  - (* LOther *) split; [apply J_other; exact HJ | exact HP].
Qed.

Lemma SInv_init a b c d : SInv (sys_init a b c d).
Proof.
  unfold sys_init. rewrite init_exec. cbn [fst snd]. rewrite start_exec by reflexivity. cbn [fst snd].
  split; simpl.
  - split; [reflexivity | split; reflexivity].
  - intros t sh0 fr [].
Qed.

Theorem SInv_reachable : forall a b c d ls, SInv (srun (sys_init a b c d) ls).
Proof.
  intros a b c d ls. unfold srun. generalize (SInv_init a b c d). generalize (sys_init a b c d).
  induction ls as [ | l ls IH]; intros y H; simpl; [exact H | ]. apply IH. apply SInv_step. exact H.
Qed.

(** for every schedule: while open, the published flag is true exactly when a Continue plugin
    is registered (= a request is pending or its run in progress) and the counter is their
    number; once closed the flag is off *)
Theorem sys_flag : forall a b c d ls,
  let sh := y_sh (srun (sys_init a b c d) ls) in
  coherent sh /\
  (cont_closed (sh_m sh) = false ->
     sh_cnt sh = Z.of_nat (length (cont_plugins (sh_m sh))) /\
     enabled_of (trace (sh_m sh)) = Some (nonempty (cont_plugins (sh_m sh)))) /\
  (cont_closed (sh_m sh) = true -> enabled_of (trace (sh_m sh)) = Some false).
Proof.
  intros a b c d ls sh. destruct (SInv_reachable a b c d ls) as ((Hco & Hfl & Hn) & _). fold sh in Hco, Hfl, Hn.
  split; [exact Hco | ]. unfold flag_inv in Hfl. split; intros Hc; rewrite Hc in *.
  - split; [exact Hn | ]. rewrite Hfl, Hn, gt0_nonempty. reflexivity.
  - exact Hfl.
Qed.

(** non-vacuity: two requests refused in FIFO order (the history of seed C16-1), then one
    accepted, armed and finished, then close *)
Example sys_example :
  let y1 := srun (sys_init 7 1 true false)
              [LEnter 1 None; LEnter 2 None; LExit 1 (Some XOrdinary) false; LExit 2 (Some XOrdinary) false] in
  let y2 := srun y1 [LEnter 3 None; LArm true 3; LExit 3 None false] in
  let y3 := srun y2 [LFinished; LEnter 4 None; LClose; LExit 4 (Some XBaseOnly) false] in
  (rev (cpubs (trace (sh_m (y_sh y1)))) = [false; true; true; true; false] /\ cont_plugins (sh_m (y_sh y1)) = [] /\ sh_cnt (y_sh y1) = 0) /\
  (cont_plugins (sh_m (y_sh y2)) = [(3%nat, true)] /\ sh_cnt (y_sh y2) = 1 /\ enabled_of (trace (sh_m (y_sh y2))) = Some true) /\
  (rev (cpubs (trace (sh_m (y_sh y3)))) = [false; true; true; true; false; true; false; true; false] /\
   cont_plugins (sh_m (y_sh y3)) = [] /\ sh_cnt (y_sh y3) = 0 /\ sh_item (y_sh y3) = true /\ y_pend y3 = []).
Proof. vm_compute. repeat split; reflexivity. Qed.
