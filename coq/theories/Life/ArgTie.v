(** Tie of the RunArgComposer part of Life/Model.v to the source.

    Gen/ArgComposer.v is regenerated on every run by translate/arg_composer.py: a transcription into
    Gallina of RunArgComposer.init / start / reset / compose_run_arg (argument.py), RunNoCounter
    (count.py), the option records and their defaults (types.py, spawned/types.py), the option
    records built by Nextline(...) / Nextline.reset(...) (main.py) and what the registrars publish
    (run_no.py, run_info.py, script.py).

    This file proves, for ALL states and ALL option records, that the functions the model uses
    ([init_state], [initialize_run], [enter_start], [enter_reset], [apply_rest]) are the generated
    functions read through the obvious representation ([get_comp] / [put_comp]: the model keeps the
    four composer fields; the file name is the constant SCRIPT_FILE_NAME, which the generated
    functions are shown never to change).  So every theorem about [run_labels] (Life/Numbering.v,
    Props/C14.v) is a theorem about the transcribed code; corollaries at the end state the C14
    facts directly on the generated functions. *)
From Coq Require Import List ZArith Bool String Lia.
From NL Require Import Life.Model Life.Hist Life.NumKind Life.Numbering Gen.ArgComposer.
Import ListNotations.
Open Scope Z_scope.

Definition get_comp (s : state) : Composer :=
  Composer_mk (c_next s) (c_stmt s) SCRIPT_FILE_NAME (c_threads s) (c_modules s).

Definition put_comp (s : state) (c : Composer) : state :=
  set_c_modules (set_c_threads (set_c_next (set_c_stmt s (a_statement c)) (a_run_no_count c)) (a_trace_threads c)) (a_trace_modules c).

Definition ropts (o : opts) : ResetOptions :=
  Nextline_reset_options (o_stmt o) (o_start o) (o_threads o) (o_modules o).

Definition cfields_of (c : Composer) : Z * Z * bool * bool :=
  (a_statement c, a_run_no_count c, a_trace_threads c, a_trace_modules c).

Definition composer_of (f : Z * Z * bool * bool) : Composer :=
  match f with (a, b, x, y) => Composer_mk b a SCRIPT_FILE_NAME x y end.

Definition runarg_of (r : RunArg) : runarg :=
  mkRunArg (rg_run_no r) (rg_statement r) (rg_trace_threads r) (rg_trace_modules r).

Definition arg_of (r : runarg) : RunArg :=
  {| rg_run_no := ra_no r; rg_statement := ra_stmt r; rg_filename := Some SCRIPT_FILE_NAME;
     rg_trace_threads := ra_threads r; rg_trace_modules := ra_modules r |}.

Lemma put_get s : put_comp s (get_comp s) = s.
Proof. destruct s; reflexivity. Qed.

Lemma get_put s c : get_comp (put_comp s c) = set_filename c SCRIPT_FILE_NAME.
Proof. destruct s, c; reflexivity. Qed.

Lemma comp_get s : cfields_of (get_comp s) = comp s.
Proof. reflexivity. Qed.

Lemma composer_of_comp s : composer_of (comp s) = get_comp s.
Proof. reflexivity. Qed.

(** publications of the built-in plugins -> publications of the model.  The model does not track
    the topic `script_file_name`: what is published there must be the constant SCRIPT_FILE_NAME (then it
    decodes to nothing).  A publication this table does not know, or an assert that fails in the
    registrar ([None]), makes the whole list undecodable, which no lemma below survives. *)
Definition decode (p : string * pubval) : option (list pub) :=
  match p with
  | (topic, PvStmt x) => if String.eqb topic "statement" then Some [PStatement x] else None
  | (topic, PvStr f) => if String.eqb topic "script_file_name" then (if String.eqb f SCRIPT_FILE_NAME then Some [] else None) else None
  | (topic, PvInt n) => if String.eqb topic "run_no" then Some [PRunNo n] else None
  | (topic, PvRunInfo r) =>
      if String.eqb topic "run_info" then
        match ri_script r with
        | Some x => if String.eqb (ri_state r) "initialized" then Some [PRunInfo (ri_run_no r) RInitialized x None] else None
        | None => None
        end
      else None
  end.

Fixpoint decode_all (l : list (string * pubval)) : option (list pub) :=
  match l with
  | [] => Some []
  | p :: r => match decode p, decode_all r with Some a, Some b => Some (a ++ b) | _, _ => None end
  end.

(** the outcome of a registrar: [None] = AssertionError *)
Definition decode_res (r : option (list (string * pubval))) : option (list pub) :=
  match r with Some l => decode_all l | None => None end.

Definition pubs_of (r : option (list (string * pubval))) : list pub :=
  match decode_res r with Some ps => ps | None => [] end.

Definition publish_all (s : state) (ps : list pub) : state := fold_left publish ps s.

(** ScriptRegistrar.on_change_script does not read the context; given the composer's file name it publishes
    the script (and the file name, which the model does not track) *)
Lemma tie_script_registrar : forall cx x,
  decode_res (ScriptRegistrar_on_change_script cx x SCRIPT_FILE_NAME) = Some [PStatement x].
Proof. reflexivity. Qed.

Lemma tie_run_no_registrar : forall ra,
  decode_res (RunNoRegistrar_on_initialize_run (HookContext_mk (Some ra))) = Some [PRunNo (rg_run_no ra)].
Proof. reflexivity. Qed.

Lemma tie_run_info_registrar : forall ra,
  decode_res (RunInfoRegistrar_on_initialize_run (HookContext_mk (Some ra)) true)
  = Some [PRunInfo (rg_run_no ra) RInitialized (rg_statement ra) None].
Proof. reflexivity. Qed.

(** [true]: the answer of isinstance(context.run_arg.statement, str) -- the statement of the model is a
    script string *)
Lemma tie_registrars : forall ra cx x,
  decode_res (ScriptRegistrar_on_change_script cx x SCRIPT_FILE_NAME) = Some [PStatement x] /\
  decode_res (RunNoRegistrar_on_initialize_run (HookContext_mk (Some ra))) = Some [PRunNo (rg_run_no ra)] /\
  decode_res (RunInfoRegistrar_on_initialize_run (HookContext_mk (Some ra)) true)
    = Some [PRunInfo (rg_run_no ra) RInitialized (rg_statement ra) None].
Proof. intros ra cx x. exact (conj (tie_script_registrar cx x) (conj (tie_run_no_registrar ra) (tie_run_info_registrar ra))). Qed.

(** their asserts (`assert context.run_arg`): without a run_arg they raise and publish nothing; the model
    calls on_initialize_run only right after storing run_arg ([gen_initialize_run], below) *)
Lemma registrars_assert : forall b,
  RunNoRegistrar_on_initialize_run (HookContext_mk None) = None /\
  RunInfoRegistrar_on_initialize_run (HookContext_mk None) b = None.
Proof. intros b. split; reflexivity. Qed.

Theorem tie_init : forall stmt start th md,
  get_comp (init_state stmt start th md) = RunArgComposer_init (Nextline_init_options stmt start th md).
Proof. reflexivity. Qed.

Theorem tie_init_state : forall stmt start th md,
  init_state stmt start th md
  = put_comp (init_state 0 0 false false) (RunArgComposer_init (Nextline_init_options stmt start th md)).
Proof. reflexivity. Qed.

Definition gen_initialize_run (s : state) : state :=
  let '(ra, c) := RunArgComposer_compose_run_arg (get_comp s) in
  let s2 := set_run_arg (put_comp s c) (Some (runarg_of ra)) in
  let cx := HookContext_mk (Some ra) in
  let s3 := publish_all s2 (pubs_of (RunNoRegistrar_on_initialize_run cx) ++ pubs_of (RunInfoRegistrar_on_initialize_run cx true)) in
  log_hook s3 HInitRun (Some (rg_statement ra)) None.

Theorem tie_initialize_run : forall s, initialize_run s = gen_initialize_run s.
Proof. intros s. destruct s; reflexivity. Qed.

Definition gen_hook_script (s : state) (h : hookcall) : state :=
  match h with
  | OnChangeScript x f =>
    log_hook (publish_all s (pubs_of (ScriptRegistrar_on_change_script (HookContext_mk (option_map arg_of (run_arg s))) x f)))
             HChangeScript (Some x) None
  end.

Definition gen_enter_start (s : state) (t : nat) (c : call) : option state :=
  match st_fsm s with
  | Created =>
    let s1 := log_hook s HStart None None in
    match RunArgComposer_start (get_comp s1) with
    | Await c' h _ => Some (set_pc (gen_hook_script (put_comp s1 c') h) t c S_G1)
    | Ret _ | Raise _ => None        (* not what the model does *)
    end
  | _ => Some (refuse s t c)
  end.

Theorem tie_enter_start : forall s t c, Some (enter_start s t c) = gen_enter_start s t c.
Proof. intros s t c. unfold enter_start, gen_enter_start. destruct s as [f]; destruct f; reflexivity. Qed.

(** after the gate of on_change_script, start does nothing more (the model goes on with
    initialize_run on the state as it is) *)
Theorem tie_start_resume : forall c,
  exists k, RunArgComposer_start c = Await c (OnChangeScript (a_statement c) (a_filename c)) k /\
            forall c', k c' = Ret c'.
Proof. intros c. eexists. split; [reflexivity | reflexivity]. Qed.

Definition gen_enter_reset (s : state) (t : nat) (o : opts) : option state :=
  match st_fsm s with
  | Initialized | Finished =>
    let s1 := log_hook s HReset (o_stmt o) (o_start o) in
    match RunArgComposer_reset (get_comp s1) (ropts o) with
    | Await c h _ => Some (set_pc (gen_hook_script (put_comp s1 c) h) t (CReset o) Z_G1)
    | Ret c => Some (set_pc (put_comp s1 c) t (CReset o) Z_G1b)
    | Raise _ => None                (* the model's reset hook never raises *)
    end
  | _ => Some (refuse s t (CReset o))
  end.

Theorem tie_enter_reset : forall s t o, Some (enter_reset s t o) = gen_enter_reset s t o.
Proof.
  intros s t o. unfold enter_reset, gen_enter_reset.
  (* the options are read only in the two states that accept a reset, and beyond the statement
     only when none is given (otherwise the rest waits behind the gate of on_change_script) *)
  destruct s as [f]; destruct f; try reflexivity;
    (destruct o as [[x|] n b m]; [reflexivity | destruct n, b, m; reflexivity]).
Qed.

(** the continuation of the reset that was suspended in state [s0], resumed in state [s] *)
Definition gen_resume_reset (s0 s : state) (o : opts) : option state :=
  match RunArgComposer_reset (get_comp s0) (ropts o) with
  | Await _ _ k => match k (get_comp s) with Ret c => Some (put_comp s c) | _ => None end
  | _ => None
  end.

(** the step at Z_G1 (the model is at Z_G1 only with a statement given) *)
Theorem tie_resume_reset : forall s0 s o, o_stmt o <> None -> Some (apply_rest s o) = gen_resume_reset s0 s o.
Proof.
  intros s0 s o H. unfold apply_rest, gen_resume_reset.
  destruct o as [[x|] [n|] [b|] [m|]]; try (exfalso; apply H; reflexivity); destruct s; reflexivity.
Qed.

(** a method run to its end when nothing else touches the composer while it is suspended *)
Fixpoint finish (r : susp) : Composer :=
  match r with Ret c => c | Raise c => c | Await c _ k => finish (k c) end.

Fixpoint hooks_in (r : susp) : list hookcall :=
  match r with Ret _ | Raise _ => [] | Await c h k => h :: hooks_in (k c) end.

Fixpoint raises (r : susp) : bool :=
  match r with Ret _ => false | Raise _ => true | Await c _ k => raises (k c) end.

(** the composer that is left when the awaited hook raises, or the task is cancelled while suspended there.
    The translator refuses `try` / `with` in these methods, so nothing of the method runs after that point. *)
Definition interrupted_at_hook (r : susp) : option Composer :=
  match r with Await c _ _ => Some c | Ret _ | Raise _ => None end.

Definition model_reset (s : state) (o : opts) : state :=
  apply_rest (match o_stmt o with Some x => set_c_stmt s x | None => s end) o.

Theorem tie_reset_whole : forall s o,
  model_reset s o = put_comp s (finish (RunArgComposer_reset (get_comp s) (ropts o))).
Proof.
  intros s o. unfold model_reset, apply_rest.
  destruct o as [[x|] [n|] [b|] [m|]]; destruct s; reflexivity.
Qed.

Theorem tie_reset_merged : forall c o,
  cfields_of (finish (RunArgComposer_reset (composer_of c) (ropts o))) = merged c o.
Proof. intros [[[a b] x] y] o. destruct o as [[x'|] [n|] [b'|] [m|]]; reflexivity. Qed.

(** neither start nor reset contains an assert that can fail: they raise only if the awaited hook does *)
Theorem never_raises : forall c o,
  raises (RunArgComposer_reset c o) = false /\ raises (RunArgComposer_start c) = false /\
  (forall c1 k, RunArgComposer_reset c o = Await (set_statement c (dflt (a_statement c) (ro_statement o)))
                                             (OnChangeScript (dflt (a_statement c) (ro_statement o)) (a_filename c)) k ->
                raises (k c1) = false).
Proof.
  intros c o. destruct o as [[x|] [n|] [b|] [m|]]; destruct c; repeat split; try reflexivity;
    intros c1 k H; try discriminate H; injection H as <-; reflexivity.
Qed.

(** NOT in the model (it has no label for a raising hook or a cancellation; DESIGN 6.1 excludes raising plugins):
    if on_change_script raises inside reset, or the task is cancelled there, the composer keeps the new
    statement and NONE of the other options -- the exception propagates out of reset() *)
Theorem reset_interrupted_at_hook : forall c o,
  interrupted_at_hook (RunArgComposer_reset c o) = option_map (set_statement c) (ro_statement o).
Proof. intros c o. destruct o as [[x|] [n|] [b|] [m|]]; reflexivity. Qed.

(** a reset applies exactly the options that were given and nothing else (an option that is None
    leaves the attribute alone, an option that is given -- False and 0 included -- replaces it; the file
    name never changes) *)
Theorem reset_exact : forall c o,
  let c' := finish (RunArgComposer_reset c o) in
  a_statement c' = dflt (a_statement c) (ro_statement o) /\
  a_run_no_count c' = dflt (a_run_no_count c) (ro_run_no_start_from o) /\
  a_trace_threads c' = dflt (a_trace_threads c) (ro_trace_threads o) /\
  a_trace_modules c' = dflt (a_trace_modules c) (ro_trace_modules o) /\
  a_filename c' = a_filename c.
Proof. intros c o. destruct o as [[x|] [n|] [b|] [m|]]; destruct c; repeat split; reflexivity. Qed.

(** where the nested hook call sits: on_change_script is awaited iff a statement is given, with that
    statement, when ONLY the statement has been stored; everything else is applied after it, to the
    composer as it is then *)
Theorem reset_hook_position : forall c o,
  match ro_statement o with
  | Some x => exists k, RunArgComposer_reset c o = Await (set_statement c x) (OnChangeScript x (a_filename c)) k /\
                        forall c1, exists c2, k c1 = Ret c2 /\
                          a_statement c2 = a_statement c1 /\
                          a_run_no_count c2 = dflt (a_run_no_count c1) (ro_run_no_start_from o) /\
                          a_trace_threads c2 = dflt (a_trace_threads c1) (ro_trace_threads o) /\
                          a_trace_modules c2 = dflt (a_trace_modules c1) (ro_trace_modules o) /\
                          a_filename c2 = a_filename c1
  | None => exists c2, RunArgComposer_reset c o = Ret c2
  end.
Proof.
  intros c o. destruct o as [[x|] [n|] [b|] [m|]]; cbn [ro_statement];
    try (eexists; reflexivity);
    (eexists; split; [reflexivity | intros c1; eexists; split; [reflexivity | destruct c1; repeat split; reflexivity]]).
Qed.

Theorem reset_no_options_is_identity : forall c,
  finish (RunArgComposer_reset c ResetOptions_defaults) = c /\ hooks_in (RunArgComposer_reset c ResetOptions_defaults) = [].
Proof. intros c. destruct c; split; reflexivity. Qed.

Lemma fst_compose : forall c, rg_run_no (fst (RunArgComposer_compose_run_arg c)) = a_run_no_count c.
Proof. intros c. destruct c; reflexivity. Qed.

Lemma snd_compose : forall c, snd (RunArgComposer_compose_run_arg c) = set_run_no_count c (a_run_no_count c + 1).
Proof. intros c. destruct c; reflexivity. Qed.

Theorem compose_one : forall c,
  let '(ra, c') := RunArgComposer_compose_run_arg c in
  rg_run_no ra = a_run_no_count c /\ rg_statement ra = a_statement c /\ rg_filename ra = Some (a_filename c) /\
  rg_trace_threads ra = a_trace_threads c /\ rg_trace_modules ra = a_trace_modules c /\
  c' = set_run_no_count c (a_run_no_count c + 1).
Proof. intros c. destruct c; repeat split; reflexivity. Qed.

Fixpoint compose_n (n : nat) (c : Composer) : list Z * Composer :=
  match n with
  | O => ([], c)
  | S m => let '(ra, c1) := RunArgComposer_compose_run_arg c in
           let '(l, c2) := compose_n m c1 in (rg_run_no ra :: l, c2)
  end.

Lemma compose_n_spec : forall n c,
  compose_n n c = (map (fun i => a_run_no_count c + Z.of_nat i) (seq 0 n), set_run_no_count c (a_run_no_count c + Z.of_nat n)).
Proof.
  induction n as [|n IH]; intros c.
  - simpl. rewrite Z.add_0_r. destruct c; reflexivity.
  - (* one call leaves the counter at +1, so the n further numbers are the sequence shifted by one *)
    cbn [compose_n]. pose proof (fst_compose c) as H1. pose proof (snd_compose c) as H2.
    destruct (RunArgComposer_compose_run_arg c) as [ra c1]. cbn [fst snd] in H1, H2. subst c1.
    rewrite IH, H1. cbn [seq map]. rewrite <- seq_shift, map_map, Z.add_0_r. f_equal.
    + f_equal. apply map_ext; intros i. cbn -[Z.of_nat Z.add]. lia.
    + unfold set_run_no_count. cbn -[Z.of_nat Z.add]. f_equal. lia.
Qed.

Theorem numbers_consecutive : forall n c,
  fst (compose_n n c) = map (fun i => a_run_no_count c + Z.of_nat i) (seq 0 n).
Proof. intros. rewrite compose_n_spec. reflexivity. Qed.

Theorem numbers_from_init : forall n io,
  fst (compose_n n (RunArgComposer_init io)) = map (fun i => io_run_no_start_from io + Z.of_nat i) (seq 0 n).
Proof. intros. rewrite numbers_consecutive. reflexivity. Qed.

Lemma numbers_after_reset : forall n c o,
  fst (compose_n n (finish (RunArgComposer_reset c o)))
  = map (fun i => dflt (a_run_no_count c) (ro_run_no_start_from o) + Z.of_nat i) (seq 0 n).
Proof.
  intros n c o. rewrite numbers_consecutive.
  destruct (reset_exact c o) as (_ & E & _). cbv zeta in E. rewrite E. reflexivity.
Qed.

Theorem numbers_after_restart : forall n c o start,
  ro_run_no_start_from o = Some start ->
  fst (compose_n n (finish (RunArgComposer_reset c o))) = map (fun i => start + Z.of_nat i) (seq 0 n).
Proof. intros n c o start H. rewrite numbers_after_reset, H. reflexivity. Qed.

Theorem numbers_after_plain_reset : forall n c o,
  ro_run_no_start_from o = None ->
  fst (compose_n n (finish (RunArgComposer_reset c o))) = map (fun i => a_run_no_count c + Z.of_nat i) (seq 0 n).
Proof. intros n c o H. rewrite numbers_after_reset, H. reflexivity. Qed.

(** defaults: Nextline(statement) numbers from 1 with thread and module tracing off, as InitOptions
    itself; Nextline.reset() without arguments is ResetOptions(), every option None *)
Theorem tie_defaults :
  (forall stmt, Nextline_init_options stmt Nextline_init_default_run_no_start_from
                  Nextline_init_default_trace_threads Nextline_init_default_trace_modules
                = InitOptions_defaults stmt) /\
  (forall stmt, cfields_of (RunArgComposer_init (InitOptions_defaults stmt)) = (stmt, 1, false, false)) /\
  Nextline_reset_options Nextline_reset_default_statement Nextline_reset_default_run_no_start_from
    Nextline_reset_default_trace_threads Nextline_reset_default_trace_modules = ResetOptions_defaults /\
  ResetOptions_defaults = ResetOptions_kw None None None None /\
  RunNoCounter_default_start = 1.
Proof. repeat split; reflexivity. Qed.

(** the arguments of Nextline(...) / Nextline.reset(...) reach the records un-crossed *)
Theorem tie_option_wiring :
  (forall a b c d, Nextline_init_options a b c d = InitOptions_kw a b c d) /\
  (forall a b c d, Nextline_reset_options a b c d = ResetOptions_kw a b c d).
Proof. split; reflexivity. Qed.

(** [C14_reset_atomic] (Props/C14.v) read on the generated functions: when reset(o) returns
    normally, [run_arg] is what the transcribed compose_run_arg makes of the transcribed reset
    applied to the composer as it was when this reset began *)
Lemma ra_of_merged_gen : forall c o,
  ra_of (merged c o)
  = runarg_of (fst (RunArgComposer_compose_run_arg (finish (RunArgComposer_reset (composer_of c) (ropts o))))).
Proof.
  intros c o. rewrite <- tie_reset_merged.
  destruct (finish (RunArgComposer_reset (composer_of c) (ropts o))); reflexivity.
Qed.

Theorem reset_atomic_gen : forall stmt start th md ls l t o,
  let s := run_labels (init_state stmt start th md) ls in
  let s' := step s l in
  In (EvRet t (CReset o) ROk) (appended s s') ->
  st_fsm s' = Initialized /\
  run_arg s' = Some (runarg_of (fst (RunArgComposer_compose_run_arg
                 (finish (RunArgComposer_reset (composer_of (fst (snapshot stmt start th md ls))) (ropts o)))))).
Proof.
  intros stmt start th md ls l t o s s' H.
  destruct (thm_reset_ok stmt start th md ls l t o H) as (A & B & _).
  split; [exact A|]. subst s s'. rewrite B, ra_of_merged_gen. reflexivity.
Qed.

(** non-vacuity / the difference the translation must show: `is not None` applies an explicit False *)
Example reset_false_is_applied :
  a_trace_threads (finish (RunArgComposer_reset (Composer_mk 3 1 SCRIPT_FILE_NAME true true)
                                                 (ResetOptions_kw None None (Some false) None))) = false /\
  fst (compose_n 3 (finish (RunArgComposer_reset (Composer_mk 3 1 SCRIPT_FILE_NAME true true)
                                                  (ResetOptions_kw (Some 2) (Some 3) None None)))) = [3; 4; 5].
Proof. split; reflexivity. Qed.
