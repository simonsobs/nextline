(** C14: run numbers and the script on display.  Invariants of the lifecycle
    model proved from the step classification of Life/NumKind.v, and the
    history theorems stated in Props/C14.v. *)
From NL Require Import Life.Model Life.LockInv Life.FsmInv Life.Hist Life.NumKind.
From Coq Require Import Lia.
Open Scope Z_scope.

(** functions of the trace (newest first) *)

(** run number carried by the latest on_initialize_run record *)
Fixpoint t_init (tr : list event) : option Z :=
  match tr with
  | [] => None
  | EvHook r :: rest => match h_hook r with HInitRun => h_runno r | _ => t_init rest end
  | _ :: rest => t_init rest
  end.

(** [run_no_start_from] of the reset records newer than the latest on_initialize_run *)
Fixpoint resets_since (tr : list event) : list (option Z) :=
  match tr with
  | [] => []
  | EvHook r :: rest =>
    match h_hook r with
    | HInitRun => []
    | HReset => h_start r :: resets_since rest
    | _ => resets_since rest
    end
  | _ :: rest => resets_since rest
  end.

Fixpoint t_stmt (tr : list event) : option Z :=
  match tr with
  | [] => None
  | EvPub (PStatement x) :: _ => Some x
  | _ :: rest => t_stmt rest
  end.

(** latest published run info: number, phase, statement *)
Fixpoint t_info (tr : list event) : option (Z * rphase * Z) :=
  match tr with
  | [] => None
  | EvPub (PRunInfo n ph x _) :: _ => Some (n, ph, x)
  | _ :: rest => t_info rest
  end.

Fixpoint t_info0 (tr : list event) : option (Z * Z) :=
  match tr with
  | [] => None
  | EvPub (PRunInfo n RInitialized x _) :: _ => Some (n, x)
  | _ :: rest => t_info0 rest
  end.

Fixpoint all_suffix (P : event -> list event -> Prop) (tr : list event) : Prop :=
  match tr with
  | [] => True
  | e :: r => P e r /\ all_suffix P r
  end.

Lemma all_suffix_split P tr : all_suffix P tr -> forall a e b, tr = a ++ e :: b -> P e b.
Proof.
  intros H a. revert tr H. induction a as [|x a IH]; intros tr H e b ->; simpl in H.
  - tauto.
  - destruct H as [_ H]. eapply IH; eauto.
Qed.

Lemma all_suffix_ext (P : event -> list event -> Prop) (Q : event -> Prop) tr tr' :
  (forall e prev, Q e -> P e prev) -> ext Q tr tr' -> all_suffix P tr -> all_suffix P tr'.
Proof. intros HQ Hx H. induction Hx; simpl; auto. Qed.

Lemma history_split s h1 e h2 : history s = h1 ++ e :: h2 -> trace s = rev h2 ++ e :: rev h1.
Proof.
  unfold history. intros H. rewrite <- (rev_involutive (trace s)), H, rev_app_distr. simpl.
  rewrite <- app_assoc. reflexivity.
Qed.

Lemma all_suffix_history P s : all_suffix P (trace s) ->
  forall h1 e h2, history s = h1 ++ e :: h2 -> P e (rev h1).
Proof. intros H h1 e h2 Hh. eapply all_suffix_split; eauto. apply history_split. exact Hh. Qed.

Definition plain_ev (e : event) : Prop :=
  match e with
  | EvHook r => match h_hook r with HInitRun | HStartRun | HEndRun => False | _ => True end
  | EvPub (PRunNo _) | EvPub (PRunInfo _ _ _ _) => False
  | _ => True
  end.

Definition noir_ev (e : event) : Prop :=
  match e with EvHook r => h_hook r <> HInitRun /\ h_hook r <> HReset | _ => True end.

Lemma quiet_plain cs e : quiet_ev cs e -> plain_ev e.
Proof.
  destruct e as [| r | p |]; simpl; auto.
  - destruct (h_hook r); auto.
  - destruct p; auto.
Qed.
Lemma quiet_noir cs e : quiet_ev cs e -> noir_ev e.
Proof.
  destruct e as [| r | p |]; simpl; auto.
  destruct (h_hook r); try contradiction; split; discriminate.
Qed.

Lemma quiet_ext_plain cs tr tr' : ext (quiet_ev cs) tr tr' -> ext plain_ev tr tr'.
Proof. apply ext_weaken, quiet_plain. Qed.
Lemma quiet_ext_noir cs tr tr' : ext (quiet_ev cs) tr tr' -> ext noir_ev tr tr'.
Proof. apply ext_weaken, quiet_noir. Qed.
Lemma call_ext_quiet cs tr tr' : ext call_ev tr tr' -> ext (quiet_ev cs) tr tr'.
Proof. apply ext_weaken, call_quiet. Qed.
Lemma call_ext_plain tr tr' : ext call_ev tr tr' -> ext plain_ev tr tr'.
Proof. intros H. exact (quiet_ext_plain 0 _ _ (call_ext_quiet 0 _ _ H)). Qed.
Lemma call_ext_noir tr tr' : ext call_ev tr tr' -> ext noir_ev tr tr'.
Proof. intros H. exact (quiet_ext_noir 0 _ _ (call_ext_quiet 0 _ _ H)). Qed.

Lemma plain_t_init tr tr' : ext plain_ev tr tr' -> t_init tr' = t_init tr.
Proof. apply ext_same. intros [| r | |] tr0 He; simpl in *; auto. destruct (h_hook r); auto; contradiction. Qed.
Lemma plain_t_info tr tr' : ext plain_ev tr tr' -> t_info tr' = t_info tr.
Proof. apply ext_same. intros [| | [] |] tr0 He; simpl in *; auto; contradiction. Qed.
Lemma plain_t_info0 tr tr' : ext plain_ev tr tr' -> t_info0 tr' = t_info0 tr.
Proof. apply ext_same. intros [| | [] |] tr0 He; simpl in *; auto; contradiction. Qed.
Lemma noir_t_init tr tr' : ext noir_ev tr tr' -> t_init tr' = t_init tr.
Proof. apply ext_same. intros [| r | |] tr0 He; simpl in *; auto. destruct (h_hook r); auto; destruct He; congruence. Qed.
Lemma noir_resets tr tr' : ext noir_ev tr tr' -> resets_since tr' = resets_since tr.
Proof. apply ext_same. intros [| r | |] tr0 He; simpl in *; auto. destruct (h_hook r); auto; destruct He; congruence. Qed.
Lemma call_t_stmt tr tr' : ext call_ev tr tr' -> t_stmt tr' = t_stmt tr.
Proof. apply ext_same. intros [] tr0 He; simpl in *; auto; contradiction. Qed.

Lemma quiet_t_init cs tr tr' : ext (quiet_ev cs) tr tr' -> t_init tr' = t_init tr.
Proof. intros H. exact (plain_t_init _ _ (quiet_ext_plain _ _ _ H)). Qed.
Lemma quiet_resets cs tr tr' : ext (quiet_ev cs) tr tr' -> resets_since tr' = resets_since tr.
Proof. intros H. exact (noir_resets _ _ (quiet_ext_noir _ _ _ H)). Qed.
Lemma quiet_t_info cs tr tr' : ext (quiet_ev cs) tr tr' -> t_info tr' = t_info tr.
Proof. intros H. exact (plain_t_info _ _ (quiet_ext_plain _ _ _ H)). Qed.
Lemma quiet_t_info0 cs tr tr' : ext (quiet_ev cs) tr tr' -> t_info0 tr' = t_info0 tr.
Proof. intros H. exact (plain_t_info0 _ _ (quiet_ext_plain _ _ _ H)). Qed.

Lemma quiet_t_stmt cs tr tr' : ext (quiet_ev cs) tr tr' -> t_stmt tr' = t_stmt tr \/ t_stmt tr' = Some cs.
Proof.
  induction 1 as [|e tr' He _ IH]; auto. destruct e as [| | p |]; simpl; auto.
  destruct p; simpl in He; auto. right. congruence.
Qed.

Definition midv (v : option (call * nat)) : bool :=
  match v with Some (_, 2%nat) | Some (_, 3%nat) => true | _ => false end.

(** a reset is between enter_reset and reset_reinit *)
Definition reset_mid (s : state) : bool := midv (hview s).

Definition compA (s : state) (ra : runarg) : Prop :=
  ra_stmt ra = c_stmt s /\ ra_threads ra = c_threads s /\ ra_modules ra = c_modules s /\ c_next s = ra_no ra + 1.

(** the latest on_initialize_run record and the latest run infos are those of [run_arg] *)
Definition I1 (s : state) : Prop := forall ra, run_arg s = Some ra ->
  t_init (trace s) = Some (ra_no ra) /\ t_info0 (trace s) = Some (ra_no ra, ra_stmt ra) /\
  exists ph, t_info (trace s) = Some (ra_no ra, ph, ra_stmt ra).

(** the counter is one past the latest initialisation unless a reset record since then asked for its value;
    the start option of a reset whose statement is applied and the rest not yet is in such a record *)
Definition NC (s : state) : Prop := forall n, t_init (trace s) = Some n ->
  (c_next s = n + 1 \/ In (Some (c_next s)) (resets_since (trace s))) /\
  (forall o k, hview s = Some (CReset o, 2%nat) -> o_start o = Some k -> In (Some k) (resets_since (trace s))).

(** the statement on display is the composer's, or nothing was initialised yet *)
Definition SD (s : state) : Prop :=
  t_stmt (trace s) = Some (c_stmt s) \/ (t_init (trace s) = None /\ hview s = None).

(** [ni_A]: outside a reset [run_arg] is what the composer holds; [ni_N0]: until the first initialisation
    the counter is the configured start; the other three are [SD], [I1], [NC] above *)
Record NI (start : Z) (s : state) : Prop := mkNI {
  ni_A : forall ra, run_arg s = Some ra -> reset_mid s = false -> compA s ra;
  ni_SD : SD s;
  ni_N0 : t_init (trace s) = None ->
          pre_init (st_fsm s) /\ c_next s = start /\ (hview s = None \/ exists c, hview s = Some (c, 1%nat));
  ni_I1 : I1 s;
  ni_NC : NC s
}.

Lemma NI_init a b c d : NI b (init_state a b c d).
Proof.
  constructor; simpl; try discriminate.
  - right. auto.
  - intros _. repeat split; auto. left. reflexivity.
Qed.

(** the cases of [kind s s'] in the order of its constructors.  Names: [Ec] the composer ([Ecs Ecn Ect Ecm]
    field by field), [Er] run_arg, [Ev]/[Ev'] the holder's view before / after, [Ef] the lifecycle state,
    [Hx]/[Ht] the trace *)
Ltac kinds HK :=
  destruct HK as [Ec Er Ev Hp Hx | Ec Er Ef Ev Hx | c r tr1 Ec Er Ev Ev' Ef Hx Hr Ht
                  | ra0 Era Ev Ec Er Ef Ht
                  | o x r pre Ev Hfs Ef Er Hx Eo Ec Ev' Hr Ht | o pre Ev Hfs Ef Er Hx Eo Ec Ev' Ht
                  | o Ev Ev' Ec Er Ef Ht
                  | t o Ev Ev' Ec Er Ef Ht | t o pre Ev Ev' Ec Er Ef Hx Ht
                  | ra0 Era Ef Ec Er Ev Ef' Ht | ra0 oc Era Ef Ec Er Ev Ef' Ht];
  destruct (comp_eq4 _ _ _ _ _ Ec) as (Ecs & Ecn & Ect & Ecm).

(** the records of on_initialize_run / on_start_run / on_end_run and the run publications come in the
    blocks of [K_init], [K_start_run], [K_end_run]; every other step appends plain events only and keeps
    [run_arg] (or clears it: [K_finish]) *)
Lemma kind_plain s s' : kind s s' ->
  (ext plain_ev (trace s) (trace s') /\ (run_arg s' = run_arg s \/ run_arg s' = None))
  \/ (exists ra, ra = mkRunArg (c_next s) (c_stmt s) (c_threads s) (c_modules s) /\ run_arg s' = Some ra /\
                  trace s' = init_block ra ++ trace s)
  \/ (exists ra, run_arg s = Some ra /\ st_fsm s = Running /\ run_arg s' = run_arg s /\
                  trace s' = EvHook (mkHook HStartRun Running (Some (ra_no ra)) (Some (ra_stmt ra)) None)
                             :: EvPub (PRunInfo (ra_no ra) RRunning (ra_stmt ra) None) :: trace s)
  \/ (exists ra oc, run_arg s = Some ra /\ st_fsm s = Running /\ run_arg s' = run_arg s /\
                     trace s' = EvHook (mkHook HEndRun Running (Some (ra_no ra)) None None)
                                :: EvPub (PRunInfo (ra_no ra) RFinished (ra_stmt ra) (Some oc)) :: trace s).
Proof.
  intros HK. kinds HK.
  - (* K_quiet *) left. eauto using quiet_ext_plain.
  - (* K_finish *) left. eauto using quiet_ext_plain.
  - (* K_start_enter *) left. split; auto. rewrite Ht.
    apply ext_cons; [simpl; rewrite Hr; exact I|]. apply ext_cons; [exact I|]. eauto using quiet_ext_plain.
  - (* K_init *) right; left. eauto.
  - (* K_reset_stmt *) left. split; auto. rewrite Ht.
    apply ext_cons; [simpl; rewrite Hr; exact I|]. do 2 (apply ext_cons; [exact I|]). apply call_ext_plain, Hx.
  - (* K_reset_plain *) left. split; auto. rewrite Ht. apply ext_cons; [exact I|]. apply call_ext_plain, Hx.
  - (* K_apply *) left. rewrite Ht. split; auto. constructor.
  - (* K_return *) left. rewrite Ht. split; auto. apply ext_cons; [exact I | constructor].
  - (* K_refused *) left. rewrite Ht. split; auto. apply ext_cons; [exact I|]. apply call_ext_plain, Hx.
  - (* K_start_run *) right; right; left. eauto 6.
  - (* K_end_run *) right; right; right. eauto 7.
Qed.

Section Step.
Variable start : Z.
Variables s s' : state.
Hypothesis HK : kind s s'.
Hypothesis HN : NI start s.

Lemma inited : st_fsm s = Initialized \/ st_fsm s = Finished \/ st_fsm s = Running -> t_init (trace s) <> None.
Proof. intros Hf H. destruct (ni_N0 _ _ HN H) as ([P|P] & _); destruct Hf as [Q|[Q|Q]]; congruence. Qed.

Lemma A_step ra : run_arg s' = Some ra -> reset_mid s' = false -> compA s' ra.
Proof.
  pose proof (ni_A _ _ HN) as A. unfold reset_mid, compA in *. intros Hra Hm.
  assert (Hq : run_arg s' = run_arg s -> midv (hview s) = false -> comp s' = comp s -> compA s' ra).
  { intros Er Hv Ec. unfold compA. destruct (comp_eq4 _ _ _ _ _ Ec) as (-> & -> & -> & ->). apply A; congruence. }
  kinds HK; rewrite ?Ev' in Hm; try discriminate Hm.
  - (* K_quiet *) apply Hq; congruence.
  - (* K_finish *) congruence.
  - (* K_start_enter *) apply Hq; auto. rewrite Ev. reflexivity.
  - (* K_init *) rewrite Er in Hra. inversion Hra; subst ra ra0. rewrite Ecs, Ecn, Ect, Ecm. simpl. repeat split; auto; lia.
  - (* K_return *) apply Hq; auto. rewrite Ev. reflexivity.
  - (* K_refused *) apply Hq; auto. rewrite Ev. reflexivity.
  - (* K_start_run *) apply Hq; congruence.
  - (* K_end_run *) apply Hq; congruence.
Qed.

Lemma SD_step : SD s'.
Proof.
  pose proof (ni_SD _ _ HN) as J. unfold SD in J.
  assert (Hq : c_stmt s' = c_stmt s -> hview s' = hview s -> ext (quiet_ev (c_stmt s)) (trace s) (trace s') -> SD s').
  { intros E1 Ev Hx. unfold SD. rewrite E1, Ev, (quiet_t_init _ _ _ Hx).
    destruct (quiet_t_stmt _ _ _ Hx) as [E|E]; [rewrite E; exact J | left; exact E]. }
  kinds HK; auto; unfold SD; rewrite Ecs, Ht; simpl; auto.
  - (* K_init *) destruct J as [J|[_ J]]; auto. destruct Ev as [[[c Ev] _] | (o & Ev & _)]; congruence.
  - (* K_reset_plain *) rewrite (call_t_stmt _ _ Hx). destruct J as [J|[J _]]; auto. exfalso. apply inited; tauto.
  - (* K_apply *) destruct J as [J|[_ J]]; auto. congruence.
  - (* K_return *) destruct J as [J|[_ J]]; auto. congruence.
  - (* K_refused *)
    rewrite Ev', (call_t_stmt _ _ Hx), (quiet_t_init 0 _ _ (call_ext_quiet 0 _ _ Hx)). destruct J as [J|[J _]]; auto.
  - (* K_start_run *) destruct J as [J|[J _]]; auto. exfalso. apply inited; auto.
  - (* K_end_run *) destruct J as [J|[J _]]; auto. exfalso. apply inited; auto.
Qed.

Lemma N0_step : t_init (trace s') = None ->
  pre_init (st_fsm s') /\ c_next s' = start /\ (hview s' = None \/ exists c, hview s' = Some (c, 1%nat)).
Proof.
  pose proof (ni_N0 _ _ HN) as N0.
  kinds HK; rewrite ?Ht; simpl; rewrite ?Hr, ?(quiet_t_init _ _ _ Hx), ?(plain_t_init _ _ (call_ext_plain _ _ Hx));
    try discriminate; intros H; try (exfalso; apply inited; tauto).
  - (* K_quiet *) destruct (N0 H) as (P & Q & R). rewrite Ev, Ecn. auto.
  - (* K_start_enter *) destruct (N0 H) as (P & Q & R). rewrite Ef, Ecn. repeat split; auto. right. eauto.
  - (* K_apply *) destruct (N0 H) as (_ & _ & [R|[c R]]); congruence.
  - (* K_return *) destruct (N0 H) as (_ & _ & [R|[c R]]); congruence.
  - (* K_refused *) destruct (N0 H) as (P & Q & R). rewrite Ef, Ecn. auto.
Qed.

Lemma I1_step : I1 s'.
Proof.
  pose proof (ni_I1 _ _ HN) as HI. intros ra Hra.
  destruct (kind_plain _ _ HK) as [(Hx & [Er | Er]) | [(ra0 & Era & Er & Ht) | [(ra0 & Era & Ef & Er & Ht) | (ra0 & oc & Era & Ef & Er & Ht)]]];
    rewrite Er in Hra.
  - rewrite (plain_t_init _ _ Hx), (plain_t_info0 _ _ Hx), (plain_t_info _ _ Hx). apply HI, Hra.
  - discriminate Hra.
  - inversion Hra; subst ra. rewrite Ht. simpl. repeat split; eauto.
  - rewrite Era in Hra. inversion Hra; subst ra0. destruct (HI _ Era) as (A1 & A2 & _).
    rewrite Ht. simpl. repeat split; eauto.
  - rewrite Era in Hra. inversion Hra; subst ra0. destruct (HI _ Era) as (A1 & A2 & _).
    rewrite Ht. simpl. repeat split; eauto.
Qed.

Lemma NC_step : NC s'.
Proof.
  pose proof (ni_NC _ _ HN) as HC.
  assert (Hq : c_next s' = c_next s -> (forall o, hview s' = Some (CReset o, 2%nat) -> hview s = hview s') ->
               ext noir_ev (trace s) (trace s') -> NC s').
  { intros E2 Ev Hx n. rewrite (noir_t_init _ _ Hx), (noir_resets _ _ Hx), E2. intros Hn.
    destruct (HC n Hn) as (C1 & C2). split; auto. intros o k Hv. apply C2. rewrite (Ev _ Hv). exact Hv. }
  assert (Hf : c_next s' = c_next s -> (forall o, hview s' <> Some (CReset o, 2%nat)) \/ hview s = hview s' ->
               forall new, trace s' = new ++ trace s -> Forall noir_ev new -> NC s').
  { intros E2 Ev new Ht Hnew. apply Hq; auto.
    - intros o Hv. destruct Ev as [Ev | Ev]; [destruct (Ev o Hv) | exact Ev].
    - rewrite Ht. clear Ht. induction Hnew; simpl; constructor; auto. }
  assert (Hc : forall pre, ext call_ev (trace s) pre -> t_init pre = t_init (trace s) /\ resets_since pre = resets_since (trace s))
    by (intros pre Hx; split; [apply noir_t_init | apply noir_resets]; apply call_ext_noir, Hx).
  kinds HK.
  - (* K_quiet *) apply Hq; eauto using quiet_ext_noir.
  - (* K_finish *) apply Hq; eauto using quiet_ext_noir.
  - (* K_start_enter *) apply Hq; auto. { intros o Hv. congruence. }
    rewrite Ht. apply ext_cons; [simpl; rewrite Hr; split; discriminate|]. apply ext_cons; [exact I|].
    eauto using quiet_ext_noir.
  - (* K_init *) intros n. rewrite Ht, Era, Ecn. simpl. intros Hn. inversion Hn; subst n. split; [left; reflexivity|].
    intros o k Hv. destruct Ev as [[_ Ev] | (o' & _ & Ev)]; congruence.
  - (* K_reset_stmt *) destruct (Hc _ Hx) as (E1 & E2).
    intros n. rewrite Ht, Ecn, Ev'. simpl. rewrite Hr. simpl. rewrite E1, E2. intros Hn.
    destruct (HC n Hn) as (C1 & _). split; [tauto|].
    intros o0 k Hv Hk. inversion Hv; subst o0. left. exact Hk.
  - (* K_reset_plain *) destruct (Hc _ Hx) as (E1 & E2).
    intros n. rewrite Ht, Ecn, Ev'. simpl. rewrite E1, E2. intros Hn.
    destruct (HC n Hn) as (C1 & _). split; [|intros o0 k Hv; discriminate Hv].
    destruct (o_start o) as [k|]; simpl; auto. tauto.
  - (* K_apply *) intros n. rewrite Ht, Ecn, Ev'. intros Hn.
    destruct (HC n Hn) as (C1 & C2). split; [|intros o0 k Hv; discriminate Hv].
    destruct (o_start o) as [k|] eqn:Eo; simpl; auto. right. eapply C2; eauto.
  - (* K_return *) apply (Hf Ecn) with (new := [EvRet t (CReset o) ROk]);
      [left; intros o0 Hv; congruence | exact Ht | repeat constructor].
  - (* K_refused *) destruct (ext_app _ _ _ Hx) as (np & -> & Hnp).
    apply (Hf Ecn) with (new := EvRet t (CReset o) RMachineError :: np); [left; intros o0 Hv; congruence | exact Ht |].
    constructor; [exact I|]. eapply Forall_impl; [|exact Hnp]. intros e He. exact (quiet_noir 0 e (call_quiet 0 e He)).
  - (* K_start_run *) refine (Hf Ecn _ [_; _] Ht _); [right; congruence | repeat constructor; discriminate].
  - (* K_end_run *) refine (Hf Ecn _ [_; _] Ht _); [right; congruence | repeat constructor; discriminate].
Qed.

Lemma NI_kind : NI start s'.
Proof. constructor; [apply A_step | apply SD_step | apply N0_step | apply I1_step | apply NC_step]. Qed.
End Step.

Theorem NI_step start s l : LkS s -> FI s -> NI start s -> NI start (step s l).
Proof. intros HL HF. apply NI_kind, step_kind; auto. Qed.

Theorem NI_reachable a b c d ls : NI b (run_labels (init_state a b c d) ls).
Proof.
  unfold run_labels.
  generalize (LkS_init a b c d) (FI_init a b c d) (NI_init a b c d). generalize (init_state a b c d).
  induction ls as [|l ls IH]; intros s HL HF HN; simpl; auto.
  apply IH; [apply LkS_step | apply FI_step | apply NI_step]; auto.
Qed.

(** what must follow a run-number publication / an `initialized` run info *)
Definition P_block (e : event) (prev : list event) : Prop :=
  match prev with
  | EvPub (PRunNo k) :: _ => exists x, e = EvPub (PRunInfo k RInitialized x None)
  | EvPub (PRunInfo k RInitialized x _) :: _ =>
    exists r, e = EvHook r /\ h_hook r = HInitRun /\ h_runno r = Some k /\ h_stmt r = Some x
  | _ => True
  end.

Definition top_ok (tr : list event) : Prop :=
  match tr with
  | EvPub (PRunNo _) :: _ => False
  | EvPub (PRunInfo _ RInitialized _ _) :: _ => False
  | _ => True
  end.

(** what the records of on_initialize_run / on_start_run / on_end_run and the later run infos carry *)
Definition PH (start : Z) (e : event) (prev : list event) : Prop :=
  P_block e prev /\
  match e with
  | EvHook r =>
    match h_hook r with
    | HInitRun =>
      (forall m, h_runno r = Some m ->
                 match t_init prev with
                 | Some n => m = n + 1 \/ In (Some m) (resets_since prev)
                 | None => m = start
                 end) /\
      exists n x rest, h_runno r = Some n /\ h_stmt r = Some x /\
                       prev = EvPub (PRunInfo n RInitialized x None) :: EvPub (PRunNo n) :: rest
    | HStartRun =>
      exists n x, h_runno r = Some n /\ h_stmt r = Some x /\ t_stmt prev = Some x /\ t_init prev = Some n /\
                  t_info0 prev = Some (n, x) /\ t_info prev = Some (n, RRunning, x)
    | HEndRun => exists n, h_runno r = Some n /\ t_init prev = Some n
    | _ => True
    end
  | EvPub (PRunInfo k ph _ _) => ph <> RInitialized -> t_init prev = Some k
  | _ => True
  end.

Definition HI (start : Z) (tr : list event) : Prop := all_suffix (PH start) tr /\ top_ok tr.

Lemma top_block e prev : top_ok prev -> P_block e prev.
Proof.
  unfold top_ok, P_block. destruct prev as [|[| |p|] rest]; auto. destruct p; auto; try contradiction.
  destruct ph; auto; contradiction.
Qed.

Lemma HI_cons start e tr : plain_ev e -> HI start tr -> HI start (e :: tr).
Proof.
  intros He [IA IT]. repeat split; auto using top_block.
  - destruct e as [| r | [] |]; simpl in *; auto; try contradiction. destruct (h_hook r); auto; contradiction.
  - destruct e as [| | [] |]; simpl in *; auto; contradiction.
Qed.

Lemma HI_ext start tr tr' : ext plain_ev tr tr' -> HI start tr -> HI start tr'.
Proof. intros Hx H. induction Hx; auto using HI_cons. Qed.

Lemma running_not_mid s : FI s -> st_fsm s = Running -> reset_mid s = false.
Proof.
  intros HF Hr. unfold reset_mid. destruct (hview s) as [[c k]|] eqn:Ev; auto.
  pose proof (hview_fsm _ _ _ HF Ev) as H.
  destruct k as [|[|[|[|k]]]]; simpl; auto; destruct H; congruence.
Qed.

Lemma HI_kind start s s' :
  FI s -> NI start s -> kind s s' -> HI start (trace s) -> HI start (trace s').
Proof.
  intros HF [A J N0 I1' NC'] HK H. unfold SD in J.
  destruct (kind_plain _ _ HK) as [(Hx & _) | [(ra0 & Era & Er & Ht) | [(ra0 & Era & Ef & Er & Ht) | (ra0 & oc & Era & Ef & Er & Ht)]]];
    [exact (HI_ext _ _ _ Hx H) | | |]; rewrite Ht; destruct H as [IA IT].
  - (* initialize_run *)
    rewrite Era. split; [|exact I]. repeat split; auto using top_block; simpl; eauto 7; try congruence.
    intros m Hm. inversion Hm; subst m.
    destruct (t_init (trace s)) as [n|] eqn:En; [apply (NC' n En) | apply (N0 eq_refl)].
  - (* on_start_run: the composer's statement is the one on display and the one of [run_arg] *)
    destruct (I1' _ Era) as (B1 & B2 & _).
    destruct (A _ Era (running_not_mid _ HF Ef)) as (A1 & _).
    assert (Js : t_stmt (trace s) = Some (ra_stmt ra0)) by (destruct J as [J|[J _]]; congruence).
    split; [|exact I]. repeat split; auto using top_block; simpl; eauto 8.
  - (* on_end_run *)
    destruct (I1' _ Era) as (B1 & _).
    split; [|exact I]. repeat split; auto using top_block; simpl; eauto.
Qed.

Theorem HI_reachable a b c d ls : HI b (trace (run_labels (init_state a b c d) ls)).
Proof.
  assert (G : forall s, LkS s -> FI s -> NI b s -> HI b (trace s) ->
              HI b (trace (fold_left step ls s))).
  { induction ls as [|l ls IH]; intros s HL HF HN H; simpl; auto.
    apply IH; [apply LkS_step | apply FI_step | apply NI_step | ]; auto.
    eapply HI_kind; eauto. apply step_kind; auto. }
  apply G; [apply LkS_init | apply FI_init | apply NI_init | split; simpl; auto].
Qed.

Lemma in_appended s s' new e : trace s' = new ++ trace s -> (In e (appended s s') <-> In e new).
Proof. intros E. rewrite (appended_ext _ _ _ E). symmetry. apply in_rev. Qed.

Definition reset_of (e : event) : option hookrec :=
  match e with
  | EvHook r => match h_hook r with HReset => Some r | _ => None end
  | _ => None
  end.

Fixpoint find_reset (l : list event) : option hookrec :=
  match l with
  | [] => None
  | e :: r => match reset_of e with Some x => Some x | None => find_reset r end
  end.

Lemma find_reset_app_none l1 l2 : (forall e, In e l1 -> reset_of e = None) -> find_reset (l1 ++ l2) = find_reset l2.
Proof.
  induction l1 as [|e l1 IH]; intros H; simpl; auto.
  rewrite (H e (or_introl eq_refl)). apply IH. intros e' Hin. apply H. right. exact Hin.
Qed.

Lemma find_reset_none l : (forall e, In e l -> reset_of e = None) -> find_reset l = None.
Proof. intros H. rewrite <- (app_nil_r l). rewrite find_reset_app_none; auto. Qed.

Lemma plain_or_reset_none e : plain_ev e -> (forall r, e = EvHook r -> h_hook r <> HReset) -> reset_of e = None.
Proof.
  intros _ H. destruct e as [| r | |]; simpl; auto. specialize (H r eq_refl). destruct (h_hook r); auto; congruence.
Qed.

Lemma quiet_reset_of cs e : quiet_ev cs e -> reset_of e = None.
Proof. destruct e as [| r | |]; simpl; auto. destruct (h_hook r); auto; contradiction. Qed.
Lemma call_reset_of e : call_ev e -> reset_of e = None.
Proof. destruct e; simpl; auto; contradiction. Qed.

Lemma ext_appended (P : event -> Prop) s s' :
  ext P (trace s) (trace s') -> forall e, In e (appended s s') -> P e.
Proof.
  intros Hx e Hin. destruct (ext_app _ _ _ Hx) as (new & E & Hf).
  apply (in_appended _ _ _ _ E) in Hin. rewrite Forall_forall in Hf. auto.
Qed.

Lemma ext_find_reset s s' :
  ext (fun e => reset_of e = None) (trace s) (trace s') -> find_reset (appended s s') = None.
Proof. intros Hx. apply find_reset_none. exact (ext_appended _ _ _ Hx). Qed.

Notation cfields := (Z * Z * bool * bool)%type.
Definition ghost := (cfields * option hookrec)%type.

Definition merged (c : cfields) (o : opts) : cfields :=
  match c with (a, b, x, y) => (dflt a (o_stmt o), dflt b (o_start o), dflt x (o_threads o), dflt y (o_modules o)) end.
Definition merged_stmt (c : cfields) (o : opts) : cfields :=
  match c with (a, b, x, y) => (dflt a (o_stmt o), b, x, y) end.
Definition ra_of (c : cfields) : runarg := match c with (a, b, x, y) => mkRunArg b a x y end.

(** the composer as it was just before the step that logged the latest reset record, and that record *)
Definition gnext (s s' : state) (g : ghost) : ghost :=
  match find_reset (appended s s') with Some r => (comp s, Some r) | None => g end.

Definition gstep (sg : state * ghost) (l : label) : state * ghost :=
  let s' := step (fst sg) l in (s', gnext (fst sg) s' (snd sg)).

Definition grun (sg : state * ghost) (ls : list label) : state * ghost := fold_left gstep ls sg.

Lemma grun_fst ls : forall sg, fst (grun sg ls) = run_labels (fst sg) ls.
Proof. induction ls as [|l ls IH]; intros sg; simpl; auto. change (fst (grun (gstep sg l) ls) = run_labels (step (fst sg) l) ls). rewrite IH. reflexivity. Qed.

Definition snapshot (stmt start : Z) (th md : bool) (ls : list label) : ghost :=
  snd (grun (init_state stmt start th md, (comp (init_state stmt start th md), None)) ls).

Definition ZG (s : state) (g : ghost) : Prop :=
  forall o k, hview s = Some (CReset o, k) -> (2 <= k)%nat ->
  (exists r, snd g = Some r /\ h_hook r = HReset /\ h_stmt r = o_stmt o /\ h_start r = o_start o) /\
  match k with
  | 2%nat => comp s = merged_stmt (fst g) o
  | 3%nat => comp s = merged (fst g) o
  | _ => run_arg s = Some (ra_of (merged (fst g) o))
  end.

Lemma ZG_kind s s' g : FI s -> kind s s' -> ZG s g -> ZG s' (gnext s s' g).
Proof.
  intros HF HK Z. unfold gnext.
  (* no reset record among the new events and the holder stays where it is: nothing to show *)
  assert (Hq : hview s' = hview s -> comp s' = comp s -> run_arg s' = run_arg s -> ZG s' g).
  { intros Ev Ec Er o k Hv Hk. rewrite Ev in Hv. destruct (Z o k Hv Hk) as (Z1 & Z2). split; auto.
    rewrite Ec, Er. exact Z2. }
  assert (Hcalls : forall pre l, ext call_ev (trace s) pre -> trace s' = l ++ pre ->
            find_reset (appended s s') = find_reset (rev l)).
  { intros pre l Hx Ht. destruct (ext_app _ _ _ Hx) as (np & -> & Hfp). rewrite app_assoc in Ht.
    rewrite (appended_ext _ _ _ Ht), rev_app_distr. apply find_reset_app_none.
    intros e Hin. apply call_reset_of. rewrite Forall_forall in Hfp. apply Hfp, in_rev, Hin. }
  (* except in [K_reset_stmt] / [K_reset_plain] the new events ([Ht], above quiet or call events [Hx]) hold no reset record *)
  kinds HK;
    try (rewrite ext_find_reset
           by (rewrite ?Ht; repeat (apply ext_cons; [simpl; rewrite ?Hr; reflexivity|]);
               eauto using ext_nil, ext_weaken, quiet_reset_of, call_reset_of));
    intros o0 k Hv Hk.
  - (* K_quiet *) apply Hq; auto.
  - (* K_finish: not while a reset holds the lock *)
    rewrite Ev in Hv. pose proof (hview_fsm _ _ _ HF Hv) as Hf.
    destruct k as [|[|[|[|k]]]]; try lia; try (destruct Hf; congruence); congruence.
  - (* K_start_enter *) rewrite Ev' in Hv. inversion Hv; subst. lia.
  - (* K_init, inside a reset: [run_arg] is built from the composer, which is [merged] by now *)
    destruct Ev as [[_ Ev] | (o' & Ev & Ev')]; [congruence|].
    rewrite Ev' in Hv. inversion Hv; subst o' k. destruct (Z o0 3%nat Ev) as (Z1 & Z2); [lia|]. split; auto.
    rewrite Er, Era. f_equal. destruct (fst g) as [[[a b] x0] y]. simpl in *.
    destruct (comp_eq4 _ _ _ _ _ Z2) as (E1 & E2 & E3 & E4). congruence.
  - (* K_reset_stmt *)
    rewrite (Hcalls pre [_; _; _] Hx Ht). simpl.
    rewrite Ev' in Hv. inversion Hv; subst o0 k. split; [exists (reset_rec s o); simpl; auto|].
    simpl. rewrite Ec. unfold comp, merged_stmt. rewrite Eo. reflexivity.
  - (* K_reset_plain *)
    rewrite (Hcalls pre [_] Hx Ht). simpl.
    rewrite Ev' in Hv. inversion Hv; subst o0 k. split; [exists (reset_rec s o); simpl; auto|].
    simpl. rewrite Ec. unfold comp, merged, applied. rewrite Eo. reflexivity.
  - (* K_apply *)
    rewrite Ev' in Hv. inversion Hv; subst o0 k.
    destruct (Z o 2%nat Ev) as (Z1 & Z2); [lia|]. split; auto.
    rewrite Ec. unfold applied. destruct (fst g) as [[[a b] x0] y]. simpl in *.
    destruct (comp_eq4 _ _ _ _ _ Z2) as (E1 & E2 & E3 & E4). congruence.
  - (* K_return *) congruence.
  - (* K_refused *) congruence.
  - (* K_start_run *) apply Hq; auto.
  - (* K_end_run *) apply Hq; auto.
Qed.

Theorem ZG_reachable a b c d ls :
  ZG (run_labels (init_state a b c d) ls) (snapshot a b c d ls).
Proof.
  unfold snapshot.
  assert (G : forall ls sg, LkS (fst sg) -> FI (fst sg) -> ZG (fst sg) (snd sg) ->
              ZG (fst (grun sg ls)) (snd (grun sg ls))).
  { clear. induction ls as [|l ls IH]; intros sg HL HF Z; simpl; auto.
    change (ZG (fst (grun (gstep sg l) ls)) (snd (grun (gstep sg l) ls))).
    apply IH; simpl; [apply LkS_step | apply FI_step | apply ZG_kind; auto; apply step_kind]; auto. }
  change (run_labels (init_state a b c d) ls) with
    (run_labels (fst (init_state a b c d, (comp (init_state a b c d), @None hookrec))) ls).
  rewrite <- grun_fst.
  apply G; simpl; [apply LkS_init | apply FI_init |].
  intros o k Hv. discriminate.
Qed.

Definition no_init (l : list event) : Prop := forall r, In (EvHook r) l -> h_hook r <> HInitRun.
Definition is_init (e : event) (n : Z) : Prop := exists r, e = EvHook r /\ h_hook r = HInitRun /\ h_runno r = Some n.

Lemma t_init_app_noinit l tr : no_init l -> t_init (l ++ tr) = t_init tr.
Proof.
  induction l as [|e l IH]; intros H; simpl; auto.
  assert (H' : no_init l) by (intros r Hin; apply H; right; exact Hin).
  destruct e as [| r | |]; auto. pose proof (H r (or_introl eq_refl)) as Hr.
  destruct (h_hook r); auto; congruence.
Qed.

Lemma no_init_rev l : no_init l -> no_init (rev l).
Proof. intros H r Hin. apply H. apply in_rev. exact Hin. Qed.

Lemma resets_app_init l a n tr m : is_init a n ->
  In (Some m) (resets_since (l ++ a :: tr)) -> exists r, In (EvHook r) l /\ h_hook r = HReset /\ h_start r = Some m.
Proof.
  intros (ra & -> & Ha & _). induction l as [|e l IH]; simpl.
  - rewrite Ha. intros [].
  - intros Hin. destruct e as [| r | |]; try (destruct (IH Hin) as (r0 & H1 & H2); exists r0; auto; fail).
    destruct (h_hook r) eqn:Er; try (destruct (IH Hin) as (r0 & H1 & H2); exists r0; auto; fail).
    + destruct Hin.
    + destruct Hin as [Hin|Hin].
      * exists r. auto.
      * destruct (IH Hin) as (r0 & H1 & H2). exists r0. auto.
Qed.

Lemma rev_mid_split (h1 : list event) a mid : rev (h1 ++ a :: mid) = rev mid ++ a :: rev h1.
Proof. rewrite rev_app_distr. simpl. rewrite <- app_assoc. reflexivity. Qed.

Lemma history_split2 s h1 a mid e h2 :
  history s = h1 ++ a :: mid ++ e :: h2 -> history s = (h1 ++ a :: mid) ++ e :: h2.
Proof. intros ->. rewrite <- app_assoc. reflexivity. Qed.

Lemma t_init_after_init h1 a n mid : is_init a n -> no_init mid -> t_init (rev (h1 ++ a :: mid)) = Some n.
Proof.
  intros (ra & -> & Ha & Hn) Hm. rewrite rev_mid_split, t_init_app_noinit by (apply no_init_rev; exact Hm).
  simpl. rewrite Ha. exact Hn.
Qed.

Definition no_reset_ret (e : event) : Prop := match e with EvRet _ (CReset _) _ => False | _ => True end.

Lemma quiet_no_reset_ret cs e : quiet_ev cs e -> no_reset_ret e.
Proof. destruct e as [| | | t c r]; simpl; auto. Qed.
Lemma call_no_reset_ret e : call_ev e -> no_reset_ret e.
Proof. destruct e; simpl; auto; contradiction. Qed.

Lemma kind_events s s' : kind s s' ->
  (exists t o, hview s = Some (CReset o, 4%nat) /\ comp s' = comp s /\ run_arg s' = run_arg s /\
               st_fsm s' = st_fsm s /\ appended s s' = [EvRet t (CReset o) ROk])
  \/ (exists t o calls, comp s' = comp s /\ run_arg s' = run_arg s /\ Forall call_ev calls /\
                        appended s s' = calls ++ [EvRet t (CReset o) RMachineError])
  \/ (forall e, In e (appended s s') -> no_reset_ret e).
Proof.
  intros HK.
  assert (Hn : ext no_reset_ret (trace s) (trace s') -> forall e, In e (appended s s') -> no_reset_ret e)
    by apply ext_appended.
  assert (Hq : forall tr, ext (quiet_ev (c_stmt s)) (trace s) tr -> ext no_reset_ret (trace s) tr)
    by (intros tr; apply ext_weaken, quiet_no_reset_ret).
  assert (Hc : forall tr, ext call_ev (trace s) tr -> ext no_reset_ret (trace s) tr)
    by (intros tr; apply ext_weaken, call_no_reset_ret).
  kinds HK.
  - (* K_quiet *) auto.
  - (* K_finish *) auto.
  - (* K_start_enter *) right; right. apply Hn. rewrite Ht. do 2 (apply ext_cons; [exact I|]). auto.
  - (* K_init *) right; right. apply Hn. rewrite Ht. repeat (apply ext_cons; [exact I|]). constructor.
  - (* K_reset_stmt *) right; right. apply Hn. rewrite Ht. do 3 (apply ext_cons; [exact I|]). auto.
  - (* K_reset_plain *) right; right. apply Hn. rewrite Ht. apply ext_cons; [exact I | auto].
  - (* K_apply *) right; right. apply Hn. rewrite Ht. constructor.
  - (* K_return *) left. exists t, o. repeat split; auto. apply (appended_ext s s' [_] Ht).
  - (* K_refused *) right; left. destruct (ext_app _ _ _ Hx) as (n1 & E1 & F1). exists t, o, (rev n1). repeat split; auto.
    + apply Forall_rev. exact F1.
    + rewrite (appended_ext s s' (EvRet t (CReset o) RMachineError :: n1)); [reflexivity | rewrite Ht, E1; reflexivity].
  - (* K_start_run *) right; right. apply Hn. rewrite Ht. repeat (apply ext_cons; [exact I|]). constructor.
  - (* K_end_run *) right; right. apply Hn. rewrite Ht. repeat (apply ext_cons; [exact I|]). constructor.
Qed.

Definition latest_init_no (h : list event) : option Z := t_init (rev h).
Definition latest_statement (h : list event) : option Z := t_stmt (rev h).
Definition latest_run_info (h : list event) : option (Z * rphase * Z) := t_info (rev h).
Definition latest_initialized_info (h : list event) : option (Z * Z) := t_info0 (rev h).

Fixpoint init_nos (h : list event) : list Z :=
  match h with
  | [] => []
  | EvHook r :: rest =>
    match h_hook r, h_runno r with
    | HInitRun, Some n => n :: init_nos rest
    | _, _ => init_nos rest
    end
  | _ :: rest => init_nos rest
  end.

Section Theorems.
Variables (stmt start : Z) (th md : bool) (ls : list label).
Let s := run_labels (init_state stmt start th md) ls.

Let HL : LkS s. Proof. apply LkS_reachable. Qed.
Let HF : FI s. Proof. apply inv_reachable. Qed.
Let HN : NI start s. Proof. apply NI_reachable. Qed.
Let HH : HI start (trace s). Proof. apply HI_reachable. Qed.

Lemma PH_at h1 e h2 : history s = h1 ++ e :: h2 -> PH start e (rev h1).
Proof. apply all_suffix_history. apply HH. Qed.

Theorem thm_first_init h1 e n h2 :
  history s = h1 ++ e :: h2 -> is_init e n -> no_init h1 -> n = start.
Proof.
  intros Hh (r & -> & Hr & Hn) Hno. destruct (PH_at _ _ _ Hh) as (_ & P). simpl in P. rewrite Hr in P.
  destruct P as (Pc & _). specialize (Pc n Hn).
  rewrite <- (app_nil_r (rev h1)), t_init_app_noinit in Pc by (apply no_init_rev; exact Hno). exact Pc.
Qed.

Theorem thm_consecutive h1 a n mid b m h2 :
  history s = h1 ++ a :: mid ++ b :: h2 -> is_init a n -> is_init b m -> no_init mid ->
  m = n + 1 \/ exists r, In (EvHook r) mid /\ h_hook r = HReset /\ h_start r = Some m.
Proof.
  intros Hh Ha (rb & -> & Hrb & Hm) Hno.
  destruct (PH_at _ _ _ (history_split2 _ _ _ _ _ _ Hh)) as (_ & P). simpl in P. rewrite Hrb in P.
  destruct P as (Pc & _). specialize (Pc m Hm). rewrite (t_init_after_init _ _ _ _ Ha Hno) in Pc.
  destruct Pc as [Pc|Pc]; auto. right. rewrite rev_mid_split in Pc.
  destruct (resets_app_init _ _ _ _ _ Ha Pc) as (r & Hin & H1 & H2). exists r. split; auto.
  apply in_rev in Hin. exact Hin.
Qed.

Theorem thm_init_has_number h1 r h2 :
  history s = h1 ++ EvHook r :: h2 -> h_hook r = HInitRun ->
  exists n x h0, h_runno r = Some n /\ h_stmt r = Some x /\
                 h1 = h0 ++ [EvPub (PRunNo n); EvPub (PRunInfo n RInitialized x None)].
Proof.
  intros Hh Hr. destruct (PH_at _ _ _ Hh) as (_ & P). simpl in P. rewrite Hr in P.
  destruct P as (_ & n & x & rest & H1 & H2 & H3). exists n, x, (rev rest). repeat split; auto.
  rewrite <- (rev_involutive h1), H3. simpl. rewrite <- app_assoc. reflexivity.
Qed.

Theorem thm_executed h1 r h2 :
  history s = h1 ++ EvHook r :: h2 -> h_hook r = HStartRun ->
  exists n x, h_runno r = Some n /\ h_stmt r = Some x /\
    latest_statement h1 = Some x /\ latest_init_no h1 = Some n /\
    latest_initialized_info h1 = Some (n, x) /\ latest_run_info h1 = Some (n, RRunning, x).
Proof. intros Hh Hr. destruct (PH_at _ _ _ Hh) as (_ & P). simpl in P. rewrite Hr in P. exact P. Qed.

Theorem thm_carried_end h1 r h2 :
  history s = h1 ++ EvHook r :: h2 -> h_hook r = HEndRun ->
  exists n, h_runno r = Some n /\ latest_init_no h1 = Some n.
Proof. intros Hh Hr. destruct (PH_at _ _ _ Hh) as (_ & P). simpl in P. rewrite Hr in P. exact P. Qed.

Theorem thm_carried_info h1 k ph x res h2 :
  history s = h1 ++ EvPub (PRunInfo k ph x res) :: h2 -> ph <> RInitialized -> latest_init_no h1 = Some k.
Proof. intros Hh. exact (proj2 (PH_at _ _ _ Hh)). Qed.

Lemma next_exists h1 e h2 : history s = h1 ++ e :: h2 -> ~ top_ok (e :: rev h1) -> exists e' h3, h2 = e' :: h3.
Proof.
  intros Hh Hnt. destruct h2 as [|e' h3]; eauto. exfalso. apply Hnt.
  pose proof (history_split _ _ _ _ Hh) as Ht. simpl in Ht. rewrite <- Ht. apply HH.
Qed.

Lemma block_at h1 e e' h3 : history s = h1 ++ e :: e' :: h3 -> P_block e' (e :: rev h1).
Proof.
  intros Hh. assert (Hh' : history s = (h1 ++ [e]) ++ e' :: h3) by (rewrite <- app_assoc; exact Hh).
  destruct (PH_at _ _ _ Hh') as (Pb & _). rewrite rev_app_distr in Pb. exact Pb.
Qed.

Theorem thm_initialized_info_block h1 k x res h2 :
  history s = h1 ++ EvPub (PRunInfo k RInitialized x res) :: h2 ->
  exists r h3, h2 = EvHook r :: h3 /\ h_hook r = HInitRun /\ h_runno r = Some k /\ h_stmt r = Some x.
Proof.
  intros Hh. destruct (next_exists _ _ _ Hh) as (e' & h3 & ->); [simpl; auto|].
  pose proof (block_at _ _ _ _ Hh) as Pb. simpl in Pb. destruct Pb as (r & -> & H1 & H2 & H3). exists r, h3. auto.
Qed.

Theorem thm_run_no_block h1 k h2 :
  history s = h1 ++ EvPub (PRunNo k) :: h2 ->
  exists x r h3, h2 = EvPub (PRunInfo k RInitialized x None) :: EvHook r :: h3 /\
                 h_hook r = HInitRun /\ h_runno r = Some k /\ h_stmt r = Some x.
Proof.
  intros Hh. destruct (next_exists _ _ _ Hh) as (e' & h3 & ->); [simpl; auto|].
  pose proof (block_at _ _ _ _ Hh) as Pb. simpl in Pb. destruct Pb as (x & ->).
  assert (Hh' : history s = (h1 ++ [EvPub (PRunNo k)]) ++ EvPub (PRunInfo k RInitialized x None) :: h3)
    by (rewrite <- app_assoc; exact Hh).
  destruct (thm_initialized_info_block _ _ _ _ _ Hh') as (r & h4 & -> & H1 & H2 & H3).
  exists x, r, h4. auto.
Qed.
Theorem thm_reset_ok l t o :
  In (EvRet t (CReset o) ROk) (appended s (step s l)) ->
  st_fsm (step s l) = Initialized /\
  run_arg (step s l) = Some (ra_of (merged (fst (snapshot stmt start th md ls)) o)) /\
  exists r, snd (snapshot stmt start th md ls) = Some r /\ h_hook r = HReset /\
            h_stmt r = o_stmt o /\ h_start r = o_start o.
Proof.
  intros Hin. pose proof (ZG_reachable stmt start th md ls) as Z. fold s in Z.
  destruct (kind_events _ _ (step_kind s l HL HF)) as [(t0 & o0 & Hv & Ec & Er & Ef & Ha) | [(t0 & o0 & calls & _ & _ & Fc & Ha) | Hno]].
  - rewrite Ha in Hin. destruct Hin as [Hin|[]]. inversion Hin; subst t0 o0.
    destruct (Z o 4%nat Hv) as (Z1 & Z2); [lia|]. simpl in Z2.
    pose proof (hview_fsm _ _ _ HF Hv) as Hf. simpl in Hf. split; [congruence | split; [congruence | exact Z1]].
  - exfalso. rewrite Ha in Hin. apply in_app_or in Hin. destruct Hin as [Hin|[Hin|[]]]; [|discriminate].
    rewrite Forall_forall in Fc. apply (Fc _ Hin).
  - exfalso. apply (Hno _ Hin).
Qed.

Theorem thm_reset_options l t o :
  In (EvRet t (CReset o) ROk) (appended s (step s l)) ->
  exists ra, run_arg (step s l) = Some ra /\
    (forall x, o_stmt o = Some x -> ra_stmt ra = x) /\
    (forall n, o_start o = Some n -> ra_no ra = n) /\
    (forall b, o_threads o = Some b -> ra_threads ra = b) /\
    (forall b, o_modules o = Some b -> ra_modules ra = b).
Proof.
  intros Hin. destruct (thm_reset_ok l t o Hin) as (_ & Hr & _).
  eexists. split; [exact Hr|]. destruct (fst (snapshot stmt start th md ls)) as [[[a b] x] y]. simpl.
  repeat split; intros v Hv; rewrite Hv; reflexivity.
Qed.

Theorem thm_reset_refused l t o :
  In (EvRet t (CReset o) RMachineError) (appended s (step s l)) ->
  comp (step s l) = comp s /\ run_arg (step s l) = run_arg s /\
  forall e, In e (appended s (step s l)) -> e = EvRet t (CReset o) RMachineError \/ call_ev e.
Proof.
  intros Hin.
  destruct (kind_events _ _ (step_kind s l HL HF)) as [(t0 & o0 & Hv & Ec & Er & Ef & Ha) | [(t0 & o0 & calls & Ec & Er & Fc & Ha) | Hno]].
  - exfalso. rewrite Ha in Hin. destruct Hin as [Hin|[]]. discriminate.
  - rewrite Forall_forall in Fc. repeat split; auto. rewrite Ha in *. intros e He.
    apply in_app_or in Hin. destruct Hin as [Hin|[Hin|[]]]; [exfalso; apply (Fc _ Hin)|].
    inversion Hin; subst t0 o0. apply in_app_or in He. destruct He as [He|[He|[]]]; auto.
  - exfalso. apply (Hno _ Hin).
Qed.

Definition zmid (p : pc) : bool := match p with Z_G1 | Z_G1b | Z_WaitRunTask => true | _ => false end.

Theorem thm_no_run_during_reset t c p :
  find_task (tasks s) t = Some (c, p) -> zmid p = true -> forall x, runt s = Some x -> early x = false.
Proof.
  intros Hf Hz x Hx. destruct HF as [HP HS]. pose proof (HP _ _ _ Hf) as Hok.
  destruct (early x) eqn:He; auto. pose proof (sc_early _ _ _ _ _ _ HS x Hx He) as Hr. rewrite Hr in Hok.
  destruct p; simpl in Hz; try discriminate; simpl in Hok; discriminate.
Qed.

Lemma reset_mid_task : reset_mid s = true -> exists t c p, find_task (tasks s) t = Some (c, p) /\ zmid p = true.
Proof.
  unfold reset_mid, hview, hpc. destruct (holder s) as [t|]; [|discriminate].
  destruct (find_task (tasks s) t) as [[c p]|] eqn:Ef; [|discriminate].
  intros H. exists t, c, p. split; auto. destruct p; simpl in *; auto; discriminate.
Qed.

Theorem thm_composer ra :
  run_arg s = Some ra -> (forall t c p, find_task (tasks s) t = Some (c, p) -> zmid p = false) -> compA s ra.
Proof.
  intros Hra Hno. apply (ni_A _ _ HN); auto. destruct (reset_mid s) eqn:Em; auto.
  destruct (reset_mid_task Em) as (t & c & p & Hf & Hz). rewrite (Hno _ _ _ Hf) in Hz. discriminate.
Qed.

Theorem thm_composer_at_run_start ra x :
  runt s = Some x -> early x = true -> run_arg s = Some ra -> compA s ra.
Proof.
  intros Hx He Hra. apply (ni_A _ _ HN); auto. apply running_not_mid; auto.
  destruct HF as [_ HS]. eapply sc_early; eauto.
Qed.
End Theorems.

(** the statement "every PRunNo / PRunInfo publication between an on_initialize_run record and
    the next one carries the number of the former" is false of the model: the publications of an
    initialisation precede its hook record *)
Definition refute_ls : list label :=
  [Call 0 CStart; Step 0; Step 0; Step 0; Call 1 (CReset (mkOpts None None None None)); Step 1].

Definition refute_h1 : list event :=
  [EvCall 0 CStart; EvPub (PCont false); EvHook (mkHook HStart Created None None None); EvPub (PStatement 1);
   EvHook (mkHook HChangeScript Created None (Some 1) None); EvPub (PRunNo 1); EvPub (PRunInfo 1 RInitialized 1 None)].
Definition refute_mid : list event :=
  [EvPub (PState Initialized); EvHook (mkHook HChangeState Initialized (Some 1) None None); EvRet 0 CStart ROk;
   EvCall 1 (CReset (mkOpts None None None None)); EvHook (mkHook HReset Initialized (Some 1) None None)].
Definition refute_h2 : list event :=
  [EvPub (PRunInfo 2 RInitialized 1 None); EvHook (mkHook HInitRun Initialized (Some 2) (Some 1) None)].

Lemma carried_original_refuted :
  exists h1 a n mid k h2,
    history (run_labels (init_state 1 1 true false) refute_ls) = h1 ++ a :: mid ++ EvPub (PRunNo k) :: h2 /\
    is_init a n /\ no_init mid /\ k <> n.
Proof.
  exists refute_h1, (EvHook (mkHook HInitRun Initialized (Some 1) (Some 1) None)), 1, refute_mid, 2, refute_h2.
  split; [vm_compute; reflexivity|]. split; [|split; [|discriminate]].
  - eexists. split; [reflexivity|]. split; reflexivity.
  - intros r Hin. unfold refute_mid in Hin. simpl in Hin.
    destruct Hin as [Hin|[Hin|[Hin|[Hin|[Hin|[]]]]]]; try discriminate Hin; inversion Hin; subst r; discriminate.
Qed.
