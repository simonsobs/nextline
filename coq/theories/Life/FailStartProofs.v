(** Proofs about Life/FailStart.v, for EVERY oracle: the predicate is checked on each of the
    finitely many executions of the program ([outcomes], by computation) and every oracle's
    execution is one of them ([exec_in_outcomes]). *)
From Coq Require Import List Bool.
From NL Require Import Life.FailStart.
Import ListNotations.

Lemma program_flat : flat program = true.
Proof. vm_compute. reflexivity. Qed.

Lemma run_arg_withdrawn : forall o, run_arg_withdrawn_before_finished (trace o) = true.
Proof. apply forall_oracles. vm_compute. reflexivity. Qed.

Lemma no_hook_after_finished : forall o, nothing_after_finished (trace o) = true.
Proof. apply forall_oracles. vm_compute. reflexivity. Qed.

Lemma end_run_iff_all_returned : forall o, end_run_iff (trace o) = true.
Proof. apply forall_oracles. vm_compute. reflexivity. Qed.

Lemma process_awaited_partial : forall o, process_awaited_if_started (trace o) = true.
Proof. apply forall_oracles. vm_compute. reflexivity. Qed.

(** on_start_run raises (the third await, after the user context's entry and the spawn): the process
    was spawned and is never awaited *)
Lemma process_awaited_refuted :
  exists o, returned Spawn (trace o) = true /\ called AwaitProcess (trace o) = false /\
            run_arg_withdrawn_before_finished (trace o) = true.
Proof. exists [false; false; true]. vm_compute. repeat split. Qed.

Lemma monitor_always_closed : forall o, monitor_closed (trace o) = true.
Proof. apply forall_oracles. vm_compute. reflexivity. Qed.
