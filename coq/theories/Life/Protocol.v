(** The hook protocol of a run and the run-record (`run_info`) protocol, as
    functions of the history alone, and the invariant tying them to the state
    of the lifecycle model in every reachable state (every label sequence).

    Only four hooks and the [PRunInfo] publications matter here
    ([relevant]); [core_of s] is the part of the state the protocols depend on
    (scalars + the relevant events).  [cls_step] classifies every step of the
    model: it either leaves the core alone or is one of the eleven abstract
    transitions [astep].  The invariant [AInv] is then proved on [astep]. *)
From NL Require Import Life.Model Life.LockInv Life.FsmInv Life.Hist.
From Coq Require Import Lia.

(** the run protocol over hook records (chronological) *)
Inductive pst := PN | PI (n : Z) | PS (n : Z) | PE (n : Z) | PF | PBad.

Definition pstep (p : pst) (h : hookrec) : pst :=
  match h_hook h with
  | HInitRun =>
    match h_runno h, p with
    | Some n, (PN | PI _ | PF) => PI n
    | _, _ => PBad
    end
  | HStartRun =>
    match h_runno h, p with
    | Some n, PI m => if Z.eqb n m then PS n else PBad
    | _, _ => PBad
    end
  | HEndRun =>
    match h_runno h, h_fsm h, p with
    | Some n, Running, PS m => if Z.eqb n m then PE n else PBad
    | _, _, _ => PBad
    end
  | HFinished =>
    match h_runno h, h_fsm h, p with
    | None, Finished, PE _ => PF
    | _, _, _ => PBad
    end
  | _ => p
  end.

Definition proto (l : list hookrec) : pst := fold_left pstep l PN.

(** the run record over publications (chronological) *)
Inductive qst := QN | QI (n st : Z) | QR (n st : Z) | QF (n st : Z) (o : outcome) | QBad.

Definition qstep (q : qst) (p : pub) : qst :=
  match p with
  | PRunInfo n RInitialized st None =>
    match q with QN | QI _ _ | QF _ _ _ => QI n st | _ => QBad end
  | PRunInfo n RRunning st None =>
    match q with
    | QI m st' => if Z.eqb n m && Z.eqb st st' then QR n st else QBad
    | _ => QBad
    end
  | PRunInfo n RFinished st (Some o) =>
    match q with
    | QR m st' => if Z.eqb n m && Z.eqb st st' then QF n st o else QBad
    | _ => QBad
    end
  | PRunInfo _ _ _ _ => QBad
  | _ => q
  end.

Definition rinfo (l : list pub) : qst := fold_left qstep l QN.

Definition last_result (l : list pub) : option outcome :=
  fold_left (fun acc p => match p with PRunInfo _ RFinished _ r => r | _ => acc end) l None.

(** the run-number / run-argument window of C12 *)
Definition window_ok (h : hookrec) : Prop :=
  match h_hook h with
  | HInitRun | HStartRun | HEndRun => h_runno h <> None
  | HFinished => h_runno h = None
  | _ => True
  end.

Lemma pstep_bad h : pstep PBad h = PBad.
Proof. unfold pstep. destruct (h_hook h), (h_runno h), (h_fsm h); reflexivity. Qed.

Lemma proto_from_bad l : fold_left pstep l PBad = PBad.
Proof. induction l as [|h l IH]; simpl; auto. rewrite pstep_bad. exact IH. Qed.

Lemma qstep_bad p : qstep QBad p = QBad.
Proof. destruct p as [| n ph st r | | | | |]; simpl; auto. destruct ph, r; reflexivity. Qed.

Lemma rinfo_from_bad l : fold_left qstep l QBad = QBad.
Proof. induction l as [|h l IH]; simpl; auto. rewrite qstep_bad. exact IH. Qed.

Lemma proto_prefix l1 l2 : proto (l1 ++ l2) <> PBad -> proto l1 <> PBad.
Proof.
  unfold proto. rewrite fold_left_app. intros H E. rewrite E, proto_from_bad in H. auto.
Qed.

Lemma rinfo_prefix l1 l2 : rinfo (l1 ++ l2) <> QBad -> rinfo l1 <> QBad.
Proof.
  unfold rinfo. rewrite fold_left_app. intros H E. rewrite E, rinfo_from_bad in H. auto.
Qed.

Lemma pstep_window p h : pstep p h <> PBad -> window_ok h.
Proof.
  unfold pstep, window_ok. destruct (h_hook h); auto; destruct (h_runno h); auto; try discriminate;
    intros H; exfalso; apply H; destruct (h_fsm h); reflexivity.
Qed.

Lemma proto_window_from l : forall p, fold_left pstep l p <> PBad -> Forall window_ok l.
Proof.
  induction l as [|h l IH]; intros p H; constructor.
  - apply (pstep_window p). intros E. simpl in H. rewrite E, proto_from_bad in H. auto.
  - eapply IH. exact H.
Qed.

Lemma proto_window l : proto l <> PBad -> Forall window_ok l.
Proof. apply proto_window_from. Qed.

(** the protocols as recursive functions of the trace (newest first) *)
Definition pstep_ev (p : pst) (e : event) : pst := match e with EvHook h => pstep p h | _ => p end.
Definition qstep_ev (q : qst) (e : event) : qst := match e with EvPub x => qstep q x | _ => q end.
Definition lstep_ev (a : option outcome) (e : event) : option outcome :=
  match e with EvPub (PRunInfo _ RFinished _ r) => r | _ => a end.

Fixpoint ptr (tr : list event) : pst := match tr with [] => PN | e :: r => pstep_ev (ptr r) e end.
Fixpoint qtr (tr : list event) : qst := match tr with [] => QN | e :: r => qstep_ev (qtr r) e end.
Fixpoint ltr (tr : list event) : option outcome := match tr with [] => None | e :: r => lstep_ev (ltr r) e end.

Lemma proto_ptr tr : proto (hooks_of (rev tr)) = ptr tr.
Proof.
  induction tr as [|e tr IH]; simpl; auto.
  rewrite hooks_of_app. unfold proto in *. rewrite fold_left_app, IH.
  destruct e; reflexivity.
Qed.

Lemma rinfo_qtr tr : rinfo (pubs_of (rev tr)) = qtr tr.
Proof.
  induction tr as [|e tr IH]; simpl; auto.
  rewrite pubs_of_app. unfold rinfo in *. rewrite fold_left_app, IH.
  destruct e; reflexivity.
Qed.

Lemma last_result_ltr tr : last_result (pubs_of (rev tr)) = ltr tr.
Proof.
  induction tr as [|e tr IH]; simpl; auto.
  rewrite pubs_of_app. unfold last_result in *. rewrite fold_left_app, IH.
  destruct e; reflexivity.
Qed.

Definition relevant (e : event) : bool :=
  match e with
  | EvHook h => match h_hook h with HInitRun | HStartRun | HEndRun | HFinished => true | _ => false end
  | EvPub (PRunInfo _ _ _ _) => true
  | _ => false
  end.

Fixpoint rel (tr : list event) : list event :=
  match tr with
  | [] => []
  | e :: r => if relevant e then e :: rel r else rel r
  end.

Lemma rel_cont_off s0 tr : rel (cont_off_events s0 ++ tr) = rel tr.
Proof. unfold cont_off_events. destruct (cont_plugins s0); reflexivity. Qed.

Lemma irrelevant_steps e : relevant e = false ->
  (forall p, pstep_ev p e = p) /\ (forall q, qstep_ev q e = q) /\ (forall a, lstep_ev a e = a).
Proof.
  destruct e as [t c|h|p|t c r]; simpl; intros H; repeat split; auto.
  - intros p. unfold pstep. destruct (h_hook h); auto; discriminate.
  - destruct p; auto; discriminate.
  - destruct p; auto; discriminate.
Qed.

Lemma ptr_rel tr : ptr (rel tr) = ptr tr.
Proof.
  induction tr as [|e tr IH]; simpl; auto. destruct (relevant e) eqn:E; simpl; rewrite IH; auto.
  symmetry. apply (irrelevant_steps e E).
Qed.

Lemma qtr_rel tr : qtr (rel tr) = qtr tr.
Proof.
  induction tr as [|e tr IH]; simpl; auto. destruct (relevant e) eqn:E; simpl; rewrite IH; auto.
  symmetry. apply (irrelevant_steps e E).
Qed.

Lemma ltr_rel tr : ltr (rel tr) = ltr tr.
Proof.
  induction tr as [|e tr IH]; simpl; auto. destruct (relevant e) eqn:E; simpl; rewrite IH; auto.
  symmetry. apply (irrelevant_steps e E).
Qed.

Record core := mkCore {
  k_fsm : fsm; k_runt : option rpc; k_rf : option bool; k_alive : nat; k_pe : option outcome;
  k_ra : option runarg; k_ex : option outcome; k_sev : bool; k_rel : list event }.

Definition core_of (s : state) : core :=
  mkCore (st_fsm s) (runt s) (run_finished s) (alive s) (pending_exit s) (run_arg s) (exited_proc s)
         (started_ev s) (rel (trace s)).

Definition ScalK (k : core) : Prop := Scal (k_fsm k) (k_runt k) (k_rf k) (k_alive k) (k_pe k) (k_ra k).

Lemma FI_ScalK s : FI s -> ScalK (core_of s).
Proof. intros [_ H]. exact H. Qed.

Lemma core_fields s s' : core_of s' = core_of s ->
  st_fsm s' = st_fsm s /\ runt s' = runt s /\ run_finished s' = run_finished s /\ alive s' = alive s /\
  pending_exit s' = pending_exit s /\ run_arg s' = run_arg s /\ exited_proc s' = exited_proc s /\
  started_ev s' = started_ev s /\ rel (trace s') = rel (trace s).
Proof. unfold core_of. intros E. inversion E. repeat split; reflexivity. Qed.

Definition hook_ev (h : hook) (f : fsm) (n : option Z) (st : option Z) : event := EvHook (mkHook h f n st None).

(** the transitions of the API calls that touch the core (labels [Call], [Step]) *)
Inductive aapi : core -> core -> Prop :=
| a_init f rf al pe ra ex sv rl a :         (* Callback.initialize_run (start / reset) *)
    aapi (mkCore f None rf al pe ra ex sv rl)
         (mkCore Initialized None rf al pe (Some a) ex sv
                 (hook_ev HInitRun Initialized (Some (ra_no a)) (Some (ra_stmt a))
                  :: EvPub (PRunInfo (ra_no a) RInitialized (ra_stmt a) None) :: rl))
| a_run r rf al pe ra ex sv rl :            (* an accepted run request: Callback.start_run *)
    aapi (mkCore Initialized r rf al pe ra ex sv rl)
         (mkCore Running (Some RT_New) (Some false) al pe ra ex false rl)
| a_closed f rf al pe ra ex sv rl :         (* the trigger `close`, with no run task *)
    f <> Running ->
    aapi (mkCore f None rf al pe ra ex sv rl) (mkCore Closed None rf al pe ra ex sv rl).

(** the transitions of the run task (label [StepRun]) *)
Inductive arun : core -> core -> Prop :=
| a_new f rf al pe a ex sv rl :             (* the process gets created *)
    arun (mkCore f (Some RT_New) rf al pe (Some a) ex sv rl)
         (mkCore f (Some RT_Created) rf (S al) pe (Some a) None sv rl)
| a_created f rf al pe a ex sv rl :         (* on_start_run *)
    arun (mkCore f (Some RT_Created) rf al pe (Some a) ex sv rl)
         (mkCore f (Some RT_G_start) rf al pe (Some a) ex sv
                 (hook_ev HStartRun f (Some (ra_no a)) (Some (ra_stmt a))
                  :: EvPub (PRunInfo (ra_no a) RRunning (ra_stmt a) None) :: rl))
| a_gstart f rf al pe ra ex sv rl :         (* started.set() *)
    arun (mkCore f (Some RT_G_start) rf al pe ra ex sv rl) (mkCore f (Some RT_WaitChild) rf al pe ra ex true rl)
| a_wait f rf al o a ex sv rl :             (* the child has exited: on_end_run *)
    arun (mkCore f (Some RT_WaitChild) rf al (Some o) (Some a) ex sv rl)
         (mkCore f (Some RT_G_end) rf al None (Some a) (Some o) sv
                 (hook_ev HEndRun f (Some (ra_no a)) None
                  :: EvPub (PRunInfo (ra_no a) RFinished (ra_stmt a) (Some o)) :: rl))
| a_end rf al pe ra ex sv rl :              (* Callback._finish: the trigger `finish`, on_finished *)
    arun (mkCore Running (Some RT_G_end) rf al pe ra ex sv rl)
         (mkCore Finished (Some RT_G_fin) rf al pe None ex true
                 (hook_ev HFinished Finished None None :: rl))
| a_fin f rf al pe ra ex sv rl :
    arun (mkCore f (Some RT_G_fin) rf al pe ra ex sv rl) (mkCore f (Some RT_G_cs) rf al pe ra ex sv rl)
| a_cs f rf al pe ra ex sv rl :             (* `finally: _run_finished.set()`, the task ends *)
    arun (mkCore f (Some RT_G_cs) rf al pe ra ex sv rl) (mkCore f None (Some true) al pe ra ex sv rl).

(** the environment (label [ChildExit o]) *)
Inductive aenv (o : outcome) : core -> core -> Prop :=
| a_child f r rf al pe ra ex sv rl :        (* the child process exits *)
    aenv o (mkCore f r rf (S al) pe ra ex sv rl) (mkCore f r rf al (Some o) ra ex sv rl).

Definition astep (k k' : core) : Prop := aapi k k' \/ arun k k' \/ exists o, aenv o k k'.

Definition cls (R : core -> core -> Prop) (s s' : state) : Prop :=
  core_of s' = core_of s \/ R (core_of s) (core_of s').

Ltac core_simpl :=
  unfold core_of; simpl;
  rewrite ?ar_fsm, ?ar_runt, ?ar_rf, ?ar_alive, ?ar_pe, ?ar_ra, ?ar_ex, ?ar_trace,
          ?rl_fsm, ?rl_runt, ?rl_rf, ?rl_alive, ?rl_pe, ?rl_ra, ?rl_ex, ?rl_trace, ?rl_sev, ?ar_sev; simpl;
  rewrite ?rel_cont_off.

Lemma core_release s : core_of (release s) = core_of s.
Proof. core_simpl. reflexivity. Qed.

Lemma rel_only_cont new : (forall e, In e new -> exists b, e = EvPub (PCont b)) -> forall tr, rel (new ++ tr) = rel tr.
Proof.
  induction new as [|e new IH]; intros H tr; simpl; auto.
  destruct (H e (or_introl eq_refl)) as (b & ->). simpl. apply IH. intros; apply H; right; assumption.
Qed.

Lemma core_cont_finished n s : core_of (cont_finished s n) = core_of s.
Proof.
  destruct (cont_finished_adds n s) as (cp & new & -> & H). unfold core_of. simpl.
  rewrite (rel_only_cont _ H). reflexivity.
Qed.

Lemma cls_refl R s : cls R s s.
Proof. left. reflexivity. Qed.

Lemma cls_pre R s s1 s' : core_of s1 = core_of s -> cls R s1 s' -> cls R s s'.
Proof. unfold cls. intros E. rewrite E. auto. Qed.

Ltac quiet := left; core_simpl; reflexivity.

Lemma cls_refuse s t c : cls aapi s (refuse s t c).
Proof.
  unfold refuse. destruct (is_cont c); [destruct (cont_closed (release s))|]; quiet.
Qed.

Lemma cls_close_enter_closed s t : runt s = None -> st_fsm s <> Running -> cls aapi s (close_enter_closed s t).
Proof.
  intros Hr Hf. right. core_simpl. rewrite Hr. apply a_closed. exact Hf.
Qed.

Lemma cls_close_trigger s t : ScalK (core_of s) -> st_fsm s <> Running -> cls aapi s (close_trigger s t).
Proof.
  intros HS Hnr. unfold close_trigger. destruct (st_fsm s) eqn:Ef.
  - eapply cls_pre; [|apply cls_close_enter_closed].
    + core_simpl. reflexivity.
    + simpl. eapply Scal_idle; [exact HS | |]; simpl; rewrite Ef; discriminate.
    + simpl. rewrite Ef. discriminate.
  - apply cls_close_enter_closed; [|rewrite Ef; discriminate].
    eapply Scal_idle; [exact HS | |]; simpl; rewrite Ef; discriminate.
  - congruence.
  - destruct (runt s) eqn:Er; [quiet|]. apply cls_close_enter_closed; auto. rewrite Ef. discriminate.
  - quiet.
Qed.

Lemma cls_enter_close s t : ScalK (core_of s) -> cls aapi s (enter_close s t).
Proof.
  intros HS. unfold enter_close.
  assert (E : core_of (publish s PEndAll) = core_of s) by reflexivity.
  assert (HS1 : ScalK (core_of (publish s PEndAll))) by (rewrite E; exact HS).
  destruct (st_fsm (publish s PEndAll)) eqn:Ef;
    try (eapply cls_pre; [exact E | apply cls_close_trigger; [exact HS1 | rewrite Ef; discriminate]]).
  destruct (Scal_running_not_none _ _ _ _ _ _ HS1 Ef) as (x & Hr & He & Hrf). simpl in Hrf.
  simpl. rewrite Hrf. quiet.
Qed.

Lemma cls_enter s t c part2 : ScalK (core_of s) -> cls aapi s (enter s t c part2).
Proof.
  intros HS. unfold enter.
  assert (Hrun : forall c, cls aapi s (enter_run s t c)).
  { intros c0. unfold enter_run. destruct (st_fsm s) eqn:Ef; try apply cls_refuse.
    right. core_simpl. rewrite Ef. apply a_run. }
  assert (Hstart : forall c, cls aapi s (enter_start s t c)).
  { intros c0. unfold enter_start. destruct (st_fsm s) eqn:Ef; try apply cls_refuse. quiet. }
  destruct c; auto using cls_refl.
  - unfold enter_reset. destruct (st_fsm s) eqn:Ef; try apply cls_refuse; destruct (o_stmt o); quiet.
  - destruct part2; [apply cls_enter_close; auto | apply Hstart].
Qed.

Lemma cls_acquire s t c part2 : ScalK (core_of s) -> cls aapi s (acquire s t c part2).
Proof.
  intros HS. apply acquire_cases; [intros _ _ | intros _; quiet].
  eapply cls_pre; [|apply cls_enter].
  - reflexivity.
  - exact HS.
Qed.

Lemma cls_acquire_pre s s1 t c part2 :
  ScalK (core_of s) -> core_of s1 = core_of s -> cls aapi s (acquire s1 t c part2).
Proof. intros HS E. eapply cls_pre; [exact E|]. apply cls_acquire. rewrite E. exact HS. Qed.

Lemma cls_do_call s t c : FI s -> cls aapi s (do_call s t c).
Proof.
  intros HF. pose proof (FI_ScalK _ HF) as HS. unfold do_call.
  destruct (find_task (tasks s) t); [apply cls_refl|].
  destruct c; cbn [nl_started nl_closed cont_closed running_process send_command set_trace].
  - destruct (nl_started s); [quiet|]. apply cls_acquire_pre; auto.
  - apply cls_acquire_pre; auto.
  - apply cls_acquire_pre; auto.
  - destruct (nl_closed s); [quiet|]. simpl. destruct (nl_started s); apply cls_acquire_pre; auto.
  - destruct (cont_closed s); [quiet|]. apply cls_acquire_pre; auto.
  - destruct (cont_closed s); [quiet|]. apply cls_acquire_pre; auto.
  - apply cls_acquire_pre; auto.
  - destruct (running_process s); quiet.
  - destruct (send_command s); quiet.
Qed.

Lemma cls_reinit s t c p : runt s = None -> cls aapi s (set_pc (initialize_run (set_st_fsm s Initialized)) t c p).
Proof.
  intros Hr. right. core_simpl. rewrite Hr.
  apply (a_init _ _ _ _ _ _ _ _ (mkRunArg (c_next s) (c_stmt s) (c_threads s) (c_modules s))).
Qed.

Lemma cls_do_step s t : LkS s -> FI s -> cls aapi s (do_step s t).
Proof.
  intros HL HF. pose proof (FI_ScalK _ HF) as HS. unfold do_step.
  destruct (find_task (tasks s) t) as [[c p]|] eqn:Ef; [|apply cls_refl].
  pose proof HF as [HP HS0].
  pose proof (HP _ _ _ Ef) as Hok.
  pose proof (lk_compat _ _ _ HL _ _ _ Ef) as Hc.
  destruct p; simpl in Hok; try apply cls_refl; try (apply cls_enter; exact HS).
  - (* S_G1 *)
    destruct (st_fsm s) eqn:Efs; try discriminate. apply cls_reinit.
    eapply Scal_idle; [exact HS0 | |]; rewrite ?Efs; discriminate.
  - quiet.
  - (* S_G3 *)
    destruct c; try quiet. apply cls_acquire_pre; auto. apply core_release.
  - destruct (started_ev s); [quiet | apply cls_refl].
  - destruct c; quiet.
  - destruct c; try apply cls_refl. quiet.
  - (* Z_G1b *)
    unfold reset_reinit. destruct (st_fsm s) eqn:Efs; try discriminate.
    + apply cls_reinit. eapply Scal_idle; [exact HS0 | |]; rewrite ?Efs; discriminate.
    + destruct (runt s) eqn:Er; [quiet | apply cls_reinit; exact Er].
  - (* Z_WaitRunTask *)
    destruct (runt s) eqn:Er; [apply cls_refl | apply cls_reinit; exact Er].
  - quiet.
  - quiet.
  - (* C_WaitRunFinished *)
    destruct (run_finished s) as [[|]|] eqn:Erf; try apply cls_refl.
    apply cls_close_trigger; auto. intros Hr.
    destruct (Scal_running_not_none _ _ _ _ _ _ HS0 Hr) as (x & _ & _ & E). congruence.
  - (* C_WaitRunTask *)
    destruct (runt s) eqn:Er; [apply cls_refl|].
    destruct (st_fsm s) eqn:Efs; try discriminate.
    apply cls_close_enter_closed; auto. rewrite Efs. discriminate.
  - quiet.
  - quiet.
  - destruct (run_finished s) as [[|]|]; try apply cls_refl. quiet.
  - quiet.
Qed.

Lemma arun_run_finish s s0 :
  st_fsm s = Running -> runt s = Some RT_G_end -> core_of s = core_of s0 ->
  arun (core_of s0) (core_of (run_finish s)).
Proof.
  intros Hf Hr E. rewrite <- E. unfold run_finish. simpl. rewrite Hf.
  unfold core_of at 2. simpl.
  match goal with |- context [cont_finished ?y ?n] =>
    destruct (core_fields _ _ (core_cont_finished n y)) as (E1 & E2 & E3 & E4 & E5 & E6 & E7 & E8 & E9) end.
  rewrite E1, E3, E4, E5, E6, E7, E8, E9. simpl.
  unfold core_of. rewrite Hf, Hr. apply a_end.
Qed.

(** [StepRun] is a no-op only when there is no run task or it waits for the child / for
    the state notification of the run() call (assumption F); otherwise it is a transition *)
Lemma step_run_cases s : FI s ->
  (do_step_run s = s /\
   (runt s = None \/ (runt s = Some RT_WaitChild /\ (run_call_pending s = true \/ pending_exit s = None))))
  \/ arun (core_of s) (core_of (do_step_run s)).
Proof.
  intros HF. pose proof HF as [HP HS]. unfold do_step_run.
  destruct (runt s) as [x|] eqn:Er; [|left; auto].
  assert (Hra : early x = true -> st_fsm s = Running /\ exists a, run_arg s = Some a).
  { intros He. assert (Hf : st_fsm s = Running) by (eapply sc_early; eauto). split; auto.
    destruct (run_arg s) as [a|] eqn:Era; eauto. exfalso. apply (sc_ra _ _ _ _ _ _ HS); auto. }
  destruct x.
  - destruct Hra as (Hf & a & Era); auto. rewrite Era.
    right. core_simpl. rewrite Er, Era. apply a_new.
  - destruct Hra as (Hf & a & Era); auto. simpl. rewrite Era.
    right. core_simpl. rewrite Er, Era. apply a_created.
  - right. core_simpl. rewrite Er. apply a_gstart.
  - destruct (run_call_pending s); [left; auto|].
    destruct (pending_exit s) as [o|] eqn:Epe; [|left; auto].
    destruct Hra as (Hf & a & Era); auto. simpl. rewrite Era.
    right. core_simpl. rewrite Er, Era, Epe. apply a_wait.
  - destruct Hra as (Hf & a & Era); auto. right. apply arun_run_finish; auto.
  - right. core_simpl. rewrite Er. apply a_fin.
  - right. core_simpl. rewrite Er. apply a_cs.
Qed.

Lemma cls_step_run s : FI s -> cls arun s (do_step_run s).
Proof.
  intros HF. destruct (step_run_cases s HF) as [(E & _) | St]; [rewrite E; apply cls_refl | right; exact St].
Qed.

Definition lstep (l : label) : core -> core -> Prop :=
  match l with
  | Call _ _ | Step _ => aapi
  | StepRun => arun
  | ChildExit o => aenv o
  end.

Theorem cls_step s l : LkS s -> FI s -> cls (lstep l) s (step s l).
Proof.
  intros HL HF. destruct l; simpl.
  - apply cls_do_call; auto.
  - apply cls_do_step; auto.
  - apply cls_step_run; auto.
  - unfold do_child_exit. destruct (alive s) eqn:Ea; [apply cls_refl|].
    right. core_simpl. rewrite Ea. apply a_child.
Qed.

Lemma lstep_astep l k k' : lstep l k k' -> astep k k'.
Proof. unfold astep. destruct l; simpl; eauto. Qed.

Definition fin_rec (k : core) : Prop :=
  exists n st o, k_ex k = Some o /\ qtr (k_rel k) = QF n st o.

Definition AInv (k : core) : Prop :=
  let p := ptr (k_rel k) in
  let q := qtr (k_rel k) in
  match k_runt k with
  | Some RT_New | Some RT_Created =>
    k_fsm k = Running /\ exists a, k_ra k = Some a /\ p = PI (ra_no a) /\ q = QI (ra_no a) (ra_stmt a)
  | Some RT_G_start | Some RT_WaitChild =>
    k_fsm k = Running /\ exists a, k_ra k = Some a /\ p = PS (ra_no a) /\ q = QR (ra_no a) (ra_stmt a)
  | Some RT_G_end =>
    k_fsm k = Running /\
    exists a o, k_ra k = Some a /\ k_ex k = Some o /\ p = PE (ra_no a) /\ q = QF (ra_no a) (ra_stmt a) o
  | Some RT_G_fin | Some RT_G_cs =>
    k_fsm k = Finished /\ k_ra k = None /\ p = PF /\ fin_rec k
  | None =>
    match k_fsm k with
    | Created => k_ra k = None /\ p = PN /\ q = QN
    | Initialized => exists a, k_ra k = Some a /\ p = PI (ra_no a) /\ q = QI (ra_no a) (ra_stmt a)
    | Running => False
    | Finished => k_ra k = None /\ p = PF /\ fin_rec k
    | Closed => (p = PN /\ q = QN) \/ (exists n st, p = PI n /\ q = QI n st) \/ (p = PF /\ fin_rec k)
    end
  end.

Lemma AInv_astep k k' : AInv k -> astep k k' -> AInv k'.
Proof.
  intros H [St | [St | (o0 & St)]]; destruct St; unfold AInv, fin_rec in *; simpl in *.
  - (* a_init *)
    exists a. split; auto.
    destruct f; try contradiction.
    + destruct H as (_ & -> & ->). auto.
    + destruct H as (a0 & _ & -> & ->). auto.
    + destruct H as (_ & -> & n & st & o & _ & ->). auto.
    + destruct H as [(-> & ->) | [(n & st & -> & ->) | (-> & n & st & o & _ & ->)]]; auto.
  - (* a_run *)
    split; auto. destruct r as [[]|]; try (destruct H as (? & _); discriminate). exact H.
  - (* a_closed *)
    destruct f; try contradiction; try congruence.
    + left. tauto.
    + right. left. destruct H as (a & _ & -> & ->). eauto.
    + right. right. tauto.
  - (* a_new *)
    exact H.
  - (* a_created *)
    destruct H as (Hf & a0 & Ea & -> & ->). inversion Ea; subst a0. split; auto. exists a. split; auto.
    unfold pstep; simpl; rewrite ?Z.eqb_refl; simpl; auto.
  - exact H.
  - (* a_wait *)
    destruct H as (Hf & a0 & Ea & -> & ->). inversion Ea; subst a0. split; auto. exists a, o. subst f.
    unfold pstep; simpl; rewrite ?Z.eqb_refl; simpl; auto.
  - (* a_end *)
    destruct H as (_ & a & o & _ & -> & -> & ->). repeat split; auto. eauto.
  - exact H.
  - (* a_cs *)
    destruct H as (-> & H). exact H.
  - exact H.
Qed.

Lemma AInv_init a b c d : AInv (core_of (init_state a b c d)).
Proof. unfold AInv. simpl. auto. Qed.

Definition PInv (s : state) : Prop := AInv (core_of s).

Definition SInv (k : core) : Prop :=
  match k_runt k with
  | Some RT_WaitChild | Some RT_G_end | Some RT_G_fin | Some RT_G_cs => k_sev k = true
  | _ => True
  end.

Lemma SInv_astep k k' : SInv k -> astep k k' -> SInv k'.
Proof.
  intros H [St | [St | (o0 & St)]]; destruct St; unfold SInv in *; simpl in *; auto.
Qed.

Lemma core_step (P : core -> Prop) s l :
  (forall k k', P k -> astep k k' -> P k') -> LkS s -> FI s -> P (core_of s) -> P (core_of (step s l)).
Proof.
  intros HP HL HF H. destruct (cls_step s l HL HF) as [E | St].
  - rewrite E. exact H.
  - eapply HP; eauto. eapply lstep_astep; eauto.
Qed.

Lemma PInv_step s l : LkS s -> FI s -> PInv s -> PInv (step s l).
Proof. apply (core_step AInv), AInv_astep. Qed.

Lemma SInv_step s l : LkS s -> FI s -> SInv (core_of s) -> SInv (core_of (step s l)).
Proof. apply core_step, SInv_astep. Qed.

Theorem reach_all a b c d ls :
  let s := run_labels (init_state a b c d) ls in LkS s /\ FI s /\ PInv s /\ SInv (core_of s).
Proof.
  apply (run_labels_ind (fun s => LkS s /\ FI s /\ PInv s /\ SInv (core_of s))).
  - intros s l (HL & HF & HP & HS).
    split; [|split; [|split]]; [apply LkS_step | apply FI_step | apply PInv_step | apply SInv_step]; auto.
  - split; [|split; [|split]]; [apply LkS_init | apply FI_init | apply AInv_init | exact I].
Qed.

Theorem PInv_reachable a b c d ls : PInv (run_labels (init_state a b c d) ls).
Proof. apply (reach_all a b c d ls). Qed.

Lemma proto_core s : proto (hooks_of (history s)) = ptr (k_rel (core_of s)).
Proof. unfold history. rewrite proto_ptr. simpl. symmetry. apply ptr_rel. Qed.

Lemma rinfo_core s : rinfo (pubs_of (history s)) = qtr (k_rel (core_of s)).
Proof. unfold history. rewrite rinfo_qtr. simpl. symmetry. apply qtr_rel. Qed.

Lemma last_core s : last_result (pubs_of (history s)) = ltr (k_rel (core_of s)).
Proof. unfold history. rewrite last_result_ltr. simpl. symmetry. apply ltr_rel. Qed.

Lemma qtr_QF_ltr tr : forall n st o, qtr tr = QF n st o -> ltr tr = Some o.
Proof.
  induction tr as [|e tr IH]; simpl; intros n st o H; [discriminate|].
  destruct e as [| |p|]; simpl in *; eauto.
  destruct p as [|m ph s0 r| | | | |]; simpl in *; eauto.
  destruct ph, r; simpl in *; try discriminate; destruct (qtr tr); try discriminate.
  all: destruct (_ && _); inversion H; reflexivity.
Qed.

(** the exact correspondence between the hook protocol and the state.  [hook_corr] and [rec_corr] are [AInv] with
    the other automaton projected away, so the lemmas about them go case by case through [runt s] and
    [st_fsm s], open what [AInv] gives there ([dex]) and read the answer off *)
Definition hook_corr (p : pst) (f : fsm) (r : option rpc) (ra : option runarg) : Prop :=
  match r with
  | Some RT_New | Some RT_Created => f = Running /\ exists a, ra = Some a /\ p = PI (ra_no a)
  | Some RT_G_start | Some RT_WaitChild => f = Running /\ exists a, ra = Some a /\ p = PS (ra_no a)
  | Some RT_G_end => f = Running /\ exists a, ra = Some a /\ p = PE (ra_no a)
  | Some RT_G_fin | Some RT_G_cs => f = Finished /\ ra = None /\ p = PF
  | None =>
    match f with
    | Created => ra = None /\ p = PN
    | Initialized => exists a, ra = Some a /\ p = PI (ra_no a)
    | Running => False
    | Finished => ra = None /\ p = PF
    | Closed => p = PN \/ (exists n, p = PI n) \/ p = PF
    end
  end.

Definition rec_corr (q : qst) (f : fsm) (r : option rpc) (ra : option runarg) (ex : option outcome) : Prop :=
  match r with
  | Some RT_New | Some RT_Created => exists a, ra = Some a /\ q = QI (ra_no a) (ra_stmt a)
  | Some RT_G_start | Some RT_WaitChild => exists a, ra = Some a /\ q = QR (ra_no a) (ra_stmt a)
  | Some RT_G_end => exists a o, ra = Some a /\ ex = Some o /\ q = QF (ra_no a) (ra_stmt a) o
  | Some RT_G_fin | Some RT_G_cs => exists n st o, ex = Some o /\ q = QF n st o
  | None =>
    match f with
    | Created => q = QN
    | Initialized => exists a, ra = Some a /\ q = QI (ra_no a) (ra_stmt a)
    | Running => False
    | Finished => exists n st o, ex = Some o /\ q = QF n st o
    | Closed => q = QN \/ (exists n st, q = QI n st) \/ (exists n st o, q = QF n st o)
    end
  end.

Ltac dex := repeat match goal with
  | H : exists _, _ |- _ => destruct H
  | H : _ /\ _ |- _ => destruct H
  | H : _ \/ _ |- _ => destruct H
  end.

Lemma PInv_hook_corr s : PInv s -> hook_corr (proto (hooks_of (history s))) (st_fsm s) (runt s) (run_arg s).
Proof.
  rewrite proto_core. unfold PInv, AInv, hook_corr, fin_rec. simpl.
  destruct (runt s) as [[]|]; [ | | | | | | | destruct (st_fsm s)]; intros H; dex; try contradiction; eauto 10.
Qed.

Lemma PInv_rec_corr s :
  PInv s -> rec_corr (rinfo (pubs_of (history s))) (st_fsm s) (runt s) (run_arg s) (exited_proc s).
Proof.
  rewrite rinfo_core. unfold PInv, AInv, rec_corr, fin_rec. simpl.
  destruct (runt s) as [[]|]; [ | | | | | | | destruct (st_fsm s)]; intros H; dex; try contradiction; eauto 10.
Qed.

Lemma hook_corr_not_bad p f r ra : hook_corr p f r ra -> p <> PBad.
Proof.
  unfold hook_corr. destruct r as [[]|]; try (intros (_ & a & _ & ->); discriminate);
    try (intros (_ & _ & ->); discriminate).
  destruct f; try tauto.
  - intros (_ & ->); discriminate.
  - intros (a & _ & ->); discriminate.
  - intros (_ & ->); discriminate.
  - intros [-> | [(n & ->) | ->]]; discriminate.
Qed.

Lemma rec_corr_not_bad q f r ra ex : rec_corr q f r ra ex -> q <> QBad.
Proof.
  unfold rec_corr. destruct r as [[]|]; try (intros (a & _ & ->); discriminate);
    try (intros (a & o & _ & _ & ->); discriminate); try (intros (n & st & o & _ & ->); discriminate).
  destruct f; try tauto.
  - intros ->; discriminate.
  - intros (a & _ & ->); discriminate.
  - intros (n & st & o & _ & ->); discriminate.
  - intros [-> | [(n & st & ->) | (n & st & o & ->)]]; discriminate.
Qed.

Lemma hook_corr_complete p f r ra : hook_corr p f r ra ->
  (r = None -> p = PN \/ (exists n, p = PI n) \/ p = PF) /\
  (forall n, p = PS n -> r = Some RT_G_start \/ r = Some RT_WaitChild) /\
  (forall n, p = PE n -> r = Some RT_G_end) /\
  (p = PF -> r = Some RT_G_fin \/ r = Some RT_G_cs \/ (r = None /\ (f = Finished \/ f = Closed))) /\
  (p = PN -> r = None /\ (f = Created \/ f = Closed)) /\
  (forall n, p = PI n -> r = Some RT_New \/ r = Some RT_Created \/
                         (r = None /\ (f = Initialized \/ f = Closed))).
Proof.
  unfold hook_corr. intros H. destruct r as [[]|]; [ | | | | | | | destruct f]; dex; try contradiction; subst;
    repeat split; intros; try discriminate; eauto 10.
Qed.

Lemma rec_corr_complete q f r ra ex : rec_corr q f r ra ex ->
  (r = None -> q = QN \/ (exists n st, q = QI n st) \/ (exists n st o, q = QF n st o)) /\
  (forall n st, q = QR n st -> r = Some RT_G_start \/ r = Some RT_WaitChild).
Proof.
  unfold rec_corr. intros H. destruct r as [[]|]; [ | | | | | | | destruct f]; dex; try contradiction; subst;
    repeat split; intros; try discriminate; eauto 10.
Qed.

Lemma PInv_result s : PInv s ->
  (runt s = Some RT_G_end \/ runt s = Some RT_G_fin \/ runt s = Some RT_G_cs \/
   (runt s = None /\ proto (hooks_of (history s)) = PF)) ->
  exists o, exited_proc s = Some o /\ last_result (pubs_of (history s)) = Some o.
Proof.
  rewrite proto_core, last_core. unfold PInv, AInv, fin_rec. simpl. intros H C.
  assert (G : exists n st o, exited_proc s = Some o /\ qtr (rel (trace s)) = QF n st o).
  { destruct C as [E | [E | [E | (E & Hp)]]]; rewrite E in H; [ | | | destruct (st_fsm s)];
      dex; try contradiction; try congruence; eauto 10. }
  destruct G as (n & st & o & He & Hq). exists o. split; auto. eapply qtr_QF_ltr; eauto.
Qed.

(** [Suf l n r]: a device to read the appended events [n] off a computed trace [r = n ++ l]:
    [apply Suf_eq; repeat constructor] peels the conses of [r] down to [l] and so fills in [n] *)
Inductive Suf (l : list event) : list event -> list event -> Prop :=
| suf_nil : Suf l [] l
| suf_cons e n r : Suf l n r -> Suf l (e :: n) (e :: r).

Lemma Suf_eq l n r : Suf l n r -> r = n ++ l.
Proof. induction 1; simpl; congruence. Qed.

Fixpoint has_me (l : list event) : bool :=
  match l with
  | [] => false
  | EvRet _ _ RMachineError :: _ => true
  | _ :: r => has_me r
  end.

Fixpoint has_hook (l : list event) : bool :=
  match l with
  | [] => false
  | EvHook _ :: _ => true
  | _ :: r => has_hook r
  end.

Lemma has_me_app a b : has_me (a ++ b) = has_me a || has_me b.
Proof. induction a as [|e a IH]; simpl; auto. destruct e as [| | |t c []]; auto. Qed.

Lemma has_hook_app a b : has_hook (a ++ b) = has_hook a || has_hook b.
Proof. induction a as [|e a IH]; simpl; auto. destruct e; auto. Qed.

Lemma has_me_In l t c : In (EvRet t c RMachineError) l -> has_me l = true.
Proof.
  induction l as [|e l IH]; simpl; [tauto|]. intros [-> | H]; auto.
  destruct e as [| | |t' c' []]; auto.
Qed.

Lemma has_hook_In l h : has_hook l = false -> ~ In (EvHook h) l.
Proof.
  induction l as [|e l IH]; simpl; [tauto|]. intros H [-> | Hin]; [discriminate|].
  destruct e; try discriminate; apply IH; auto.
Qed.

(** of the events a step appends: no hook; no return with MachineError ("me"); a refused request logs no hook *)
Definition no_hook (new : list event) : Prop := has_hook new = false.
Definition no_me (new : list event) : Prop := has_me new = false.
Definition okn (new : list event) : Prop := has_me new = true -> has_hook new = false.

Definition grows (P : list event -> Prop) (s s' : state) : Prop :=
  exists new, trace s' = new ++ trace s /\ P new.

Lemma grows_weaken (P Q : list event -> Prop) s s' : (forall n, P n -> Q n) -> grows P s s' -> grows Q s s'.
Proof. intros H (n & E & Hp). exists n. auto. Qed.

Lemma no_hook_okn n : no_hook n -> okn n.
Proof. unfold no_hook, okn. auto. Qed.
Lemma no_me_okn n : no_me n -> okn n.
Proof. unfold no_me, okn. intros -> ?. discriminate. Qed.

Lemma grows_pre (P : list event -> Prop) s s1 s' n1 :
  trace s1 = n1 ++ trace s -> grows P s1 s' -> (forall n, P n -> P (n ++ n1)) -> grows P s s'.
Proof.
  intros E (n & E' & Hp) Hc. exists (n ++ n1). split; auto. rewrite E', E, app_assoc. reflexivity.
Qed.

Lemma okn_plain n n1 : has_me n1 = false -> has_hook n1 = false -> okn n -> okn (n ++ n1).
Proof.
  unfold okn. intros A B H. rewrite has_me_app, has_hook_app, A, B, !orb_false_r. exact H.
Qed.

Lemma no_me_plain n n1 : has_me n1 = false -> no_me n -> no_me (n ++ n1).
Proof. unfold no_me. intros A H. rewrite has_me_app, A, H. reflexivity. Qed.

Ltac leaf :=
  solve [unfold grows; simpl; rewrite ?rl_trace, ?ar_trace; simpl;
         eexists; split; [apply Suf_eq; repeat constructor | unfold okn, no_me, no_hook; simpl; try congruence; auto]].

Lemma g_refuse s t c : grows no_hook s (refuse s t c).
Proof. unfold refuse. destruct (is_cont c); [destruct (cont_closed (release s))|]; leaf. Qed.

Lemma g_close_trigger s t : grows no_me s (close_trigger s t).
Proof.
  unfold close_trigger, close_enter_closed. destruct (st_fsm s); try leaf.
  - destruct (runt s); leaf.
  - unfold close_cont, cont_off_events; match goal with |- context [match cont_plugins ?x with _ => _ end] => destruct (cont_plugins x) end; leaf.
Qed.

Lemma g_enter_close s t : grows no_me s (enter_close s t).
Proof.
  unfold enter_close. simpl.
  assert (H : grows no_me s (close_trigger (publish s PEndAll) t)).
  { eapply (grows_pre _ s (publish s PEndAll) _ [EvPub PEndAll]); [reflexivity | apply g_close_trigger |].
    intros n. apply no_me_plain. reflexivity. }
  destruct (st_fsm s); auto. destruct (run_finished s) as [[|]|]; auto; leaf.
Qed.

Lemma g_enter s t c part2 : grows okn s (enter s t c part2).
Proof.
  assert (Hr : forall c, grows okn s (refuse s t c)).
  { intros c0. eapply grows_weaken; [apply no_hook_okn | apply g_refuse]. }
  unfold enter, enter_start, enter_run, enter_reset.
  destruct c; try (destruct (st_fsm s); auto; leaf); try leaf.
  - destruct (st_fsm s); auto; destruct (o_stmt o); leaf.
  - destruct part2; [eapply grows_weaken; [apply no_me_okn | apply g_enter_close]|].
    destruct (st_fsm s); auto; leaf.
Qed.

Lemma g_acquire s t c part2 : grows okn s (acquire s t c part2).
Proof.
  apply acquire_cases; [intros _ _ | intros _; leaf].
  eapply (grows_pre _ s (set_pc (set_holder s (Some t)) t c (if part2 then Granted2 else Granted1)) _ []);
    [reflexivity | apply g_enter |]. intros n. rewrite app_nil_r. auto.
Qed.

Lemma g_acquire_pre s s1 t c part2 n1 :
  trace s1 = n1 ++ trace s -> has_me n1 = false -> has_hook n1 = false -> grows okn s (acquire s1 t c part2).
Proof.
  intros E A B. eapply grows_pre; [exact E | apply g_acquire |]. intros n. apply okn_plain; auto.
Qed.

Ltac acq := eapply g_acquire_pre; [simpl; rewrite ?rl_trace; apply Suf_eq; repeat constructor | reflexivity | reflexivity].

Lemma g_do_call s t c : grows okn s (do_call s t c).
Proof.
  unfold do_call. destruct (find_task (tasks s) t); [leaf|].
  destruct c; cbn [nl_started nl_closed cont_closed running_process send_command set_trace].
  - destruct (nl_started s); [leaf | acq].
  - acq.
  - acq.
  - destruct (nl_closed s); [leaf|]. simpl. destruct (nl_started s); acq.
  - destruct (cont_closed s); [leaf | acq].
  - destruct (cont_closed s); [leaf | acq].
  - acq.
  - destruct (running_process s); leaf.
  - destruct (send_command s); leaf.
Qed.

Lemma g_do_step s t : grows okn s (do_step s t).
Proof.
  unfold do_step. destruct (find_task (tasks s) t) as [[c p]|]; [|leaf].
  destruct p; try leaf; try apply g_enter.
  - destruct c; try leaf. acq.
  - destruct (started_ev s); leaf.
  - destruct c; leaf.
  - destruct c; leaf.
  - unfold reset_reinit. destruct (st_fsm s); try leaf. destruct (runt s); leaf.
  - unfold reset_reinit. destruct (runt s); leaf.
  - destruct (run_finished s) as [[|]|]; try leaf.
    eapply grows_weaken; [apply no_me_okn | apply g_close_trigger].
  - unfold close_enter_closed. destruct (runt s); leaf.
  - unfold close_cont, cont_off_events; match goal with |- context [match cont_plugins ?x with _ => _ end] => destruct (cont_plugins x) end; leaf.
  - destruct (run_finished s) as [[|]|]; leaf.
Qed.

Lemma g_cont_finished n s : grows no_me s (cont_finished s n).
Proof.
  destruct (cont_finished_adds n s) as (cp & new & -> & H). exists new. split; [reflexivity|].
  unfold no_me. induction new as [|e new IH]; [reflexivity|].
  destruct (H e (or_introl eq_refl)) as (b & ->). apply IH. intros; apply H; right; assumption.
Qed.

Lemma g_run_finish s s0 n1 :
  trace s = n1 ++ trace s0 -> has_me n1 = false -> grows no_me s0 (run_finish s).
Proof.
  intros E A. unfold run_finish. simpl. destruct (st_fsm s).
  1,2,4,5: (exists n1; split; [exact E | exact A]).
  match goal with |- grows _ _ (set_runt (cont_finished ?y ?n) _) =>
    destruct (g_cont_finished n y) as (m & Em & Hm) end.
  eexists. split.
  - simpl. rewrite Em. simpl. rewrite E. rewrite app_comm_cons, app_assoc. reflexivity.
  - unfold no_me in *. rewrite has_me_app, Hm. simpl. exact A.
Qed.

Lemma g_step_run s : grows no_me s (do_step_run s).
Proof.
  unfold do_step_run. destruct (runt s) as [[]|]; try leaf.
  - destruct (run_arg s); [leaf | apply (g_run_finish s s []); reflexivity].
  - simpl. destruct (run_arg s); [leaf | apply (g_run_finish _ s []); reflexivity].
  - destruct (run_call_pending s); [leaf|]. destruct (pending_exit s); [|leaf].
    simpl. destruct (run_arg s); [leaf | apply (g_run_finish _ s []); reflexivity].
  - apply (g_run_finish s s []); reflexivity.
Qed.

Theorem step_grows s l : grows okn s (step s l).
Proof.
  destruct l; simpl.
  - apply g_do_call.
  - apply g_do_step.
  - eapply grows_weaken; [apply no_me_okn | apply g_step_run].
  - unfold do_child_exit. destruct (alive s); leaf.
Qed.

(** a refused request adds nothing to the hook log *)
Theorem not_for_refused s l t c :
  In (EvRet t c RMachineError) (appended s (step s l)) ->
  forall h, ~ In (EvHook h) (appended s (step s l)).
Proof.
  destruct (step_grows s l) as (new & E & H). rewrite (appended_ext _ _ _ E).
  intros Hin h Hh. apply in_rev in Hin. apply in_rev in Hh.
  apply has_me_In in Hin. apply (has_hook_In _ h (H Hin)). exact Hh.
Qed.

Lemma rel_app a b : rel (a ++ b) = rel a ++ rel b.
Proof. induction a as [|e a IH]; simpl; auto. destruct (relevant e); simpl; rewrite IH; reflexivity. Qed.

Lemma In_rel e l : In e l -> relevant e = true -> In e (rel l).
Proof.
  induction l as [|x l IH]; simpl; [tauto|]. intros [-> | H] Hr.
  - rewrite Hr. left. reflexivity.
  - destruct (relevant x); [right|]; auto.
Qed.

Lemma lstep_added l k k' : lstep l k k' ->
  exists add, k_rel k' = add ++ k_rel k /\
  forall n st r, In (EvPub (PRunInfo n RFinished st r)) add ->
    l = StepRun /\ k_runt k = Some RT_WaitChild /\ k_runt k' = Some RT_G_end /\
    exists o a, r = Some o /\ k_pe k = Some o /\ k_ex k' = Some o /\ k_ra k = Some a /\ n = ra_no a /\ st = ra_stmt a.
Proof.
  intros St. destruct l; destruct St; simpl;
    try (exists []; split; [reflexivity | intros ? ? ? []]);
    try (eexists [_]; split; [reflexivity|]; intros n st r [E | []]; discriminate);
    try (eexists [_; _]; split; [reflexivity|]; intros n st r [E | [E | []]]; try discriminate).
  inversion E; subst. repeat split; auto. exists o, a. auto 10.
Qed.

Theorem result_from_child s l n st r : LkS s -> FI s ->
  In (EvPub (PRunInfo n RFinished st r)) (appended s (step s l)) ->
  l = StepRun /\ runt s = Some RT_WaitChild /\ runt (step s l) = Some RT_G_end /\
  exists o a, r = Some o /\ pending_exit s = Some o /\ exited_proc (step s l) = Some o /\
              run_arg s = Some a /\ n = ra_no a /\ st = ra_stmt a.
Proof.
  intros HL HF Hin. destruct (step_grows s l) as (new & E & _).
  rewrite (appended_ext _ _ _ E) in Hin. apply in_rev in Hin.
  assert (Hr : In (EvPub (PRunInfo n RFinished st r)) (rel new)) by (apply In_rel; auto).
  assert (Er : rel (trace (step s l)) = rel new ++ rel (trace s)) by (rewrite E, rel_app; reflexivity).
  destruct (cls_step s l HL HF) as [Eq | St].
  - exfalso. destruct (core_fields _ _ Eq) as (_ & _ & _ & _ & _ & _ & _ & _ & E9).
    rewrite E9 in Er. symmetry in Er. apply (app_inv_tail _ _ []) in Er. rewrite Er in Hr. destruct Hr.
  - destruct (lstep_added _ _ _ St) as (add & Ea & Hyes). simpl in Ea. rewrite Er in Ea.
    apply app_inv_tail in Ea. rewrite Ea in Hr. apply (Hyes _ _ _ Hr).
Qed.

Theorem pe_source s l o : LkS s -> FI s ->
  pending_exit (step s l) = Some o -> pending_exit s = Some o \/ l = ChildExit o.
Proof.
  intros HL HF H. destruct (cls_step s l HL HF) as [Eq | St].
  - left. destruct (core_fields _ _ Eq) as (_ & _ & _ & _ & E & _). congruence.
  - unfold core_of in St. destruct l; cbn [step lstep] in *; inversion St; subst; try (left; congruence).
    right. f_equal. congruence.
Qed.

Definition last_rec (l : list pub) : option (Z * rphase * Z) :=
  fold_left (fun acc p => match p with PRunInfo n ph st _ => Some (n, ph, st) | _ => acc end) l None.

Definition q_last (q : qst) : option (Z * rphase * Z) :=
  match q with
  | QN => None
  | QI n st => Some (n, RInitialized, st)
  | QR n st => Some (n, RRunning, st)
  | QF n st _ => Some (n, RFinished, st)
  | QBad => None
  end.

Lemma rinfo_last_from l : forall q acc, q <> QBad -> q_last q = acc -> fold_left qstep l q <> QBad ->
  q_last (fold_left qstep l q) = fold_left (fun acc p => match p with PRunInfo n ph st _ => Some (n, ph, st) | _ => acc end) l acc.
Proof.
  induction l as [|p l IH]; simpl; intros q acc Hq Ha Hb; auto.
  assert (Hq' : qstep q p <> QBad) by (intros E; rewrite E, rinfo_from_bad in Hb; auto).
  apply IH; auto.
  destruct p as [|n ph st r| | | | |]; simpl in *; auto.
  destruct ph, r, q; simpl in *; try congruence; destruct (_ && _); simpl in *; congruence.
Qed.

Lemma rinfo_last l : rinfo l <> QBad -> q_last (rinfo l) = last_rec l.
Proof. intros H. apply rinfo_last_from; auto. discriminate. Qed.

Lemma rinfo_numbering l1 l2 n ph st r :
  rinfo (l1 ++ PRunInfo n ph st r :: l2) <> QBad ->
  match ph with
  | RInitialized => r = None /\ (last_rec l1 = None \/ (exists m st', last_rec l1 = Some (m, RInitialized, st'))
                                \/ exists m st', last_rec l1 = Some (m, RFinished, st'))
  | RRunning => r = None /\ last_rec l1 = Some (n, RInitialized, st)
  | RFinished => r <> None /\ last_rec l1 = Some (n, RRunning, st)
  end.
Proof.
  intros H. change (l1 ++ PRunInfo n ph st r :: l2) with (l1 ++ [PRunInfo n ph st r] ++ l2) in H.
  rewrite app_assoc in H. apply rinfo_prefix in H.
  assert (H1 : rinfo l1 <> QBad) by (eapply rinfo_prefix; eauto).
  rewrite <- (rinfo_last _ H1). unfold rinfo in *. rewrite fold_left_app in H. simpl in H.
  destruct ph, r as [o|], (fold_left qstep l1 QN) as [|m st'|m st'|m st' o'|]; simpl in *; try congruence;
    try (split; [reflexivity || discriminate | eauto 6]; fail).
  - destruct (Z.eqb_spec n m), (Z.eqb_spec st st'); simpl in *; try congruence. subst. auto.
  - destruct (Z.eqb_spec n m), (Z.eqb_spec st st'); simpl in *; try congruence. subst. split; [discriminate | auto].
Qed.

Definition rank (r : option rpc) : nat :=
  match r with
  | None => 0
  | Some RT_G_cs => 1 | Some RT_G_fin => 2 | Some RT_G_end => 3 | Some RT_WaitChild => 4
  | Some RT_G_start => 5 | Some RT_Created => 6 | Some RT_New => 7
  end%nat.

Lemma arun_rank k k' : arun k k' -> S (rank (k_runt k')) = rank (k_runt k).
Proof. intros St. destruct St; reflexivity. Qed.

Lemma arun_changes s s' : arun (core_of s) (core_of s') -> s' <> s.
Proof. intros St E. apply arun_rank in St. rewrite E in St. lia. Qed.

Theorem measure_decreases s : FI s ->
  step s StepRun <> s -> S (rank (runt (step s StepRun))) = rank (runt s).
Proof.
  intros HF Hne. simpl in *. destruct (step_run_cases s HF) as [(E & _) | St]; [contradiction|].
  apply (arun_rank _ _ St).
Qed.

Theorem run_enabled s r : FI s -> runt s = Some r ->
  (r = RT_WaitChild -> run_call_pending s = false /\ pending_exit s <> None) ->
  step s StepRun <> s /\ arun (core_of s) (core_of (step s StepRun)).
Proof.
  intros HF Hr Hw. simpl. destruct (step_run_cases s HF) as [(E & [C | (C & D)]) | St].
  - congruence.
  - rewrite Hr in C. inversion C. destruct (Hw H0) as (A & B). destruct D; congruence.
  - split; auto. apply arun_changes. exact St.
Qed.

(** an API step moves the core only while there is no run task: [a_init] and [a_closed] say so, and in
    state 'initialized' ([a_run]) [AInv] leaves no room for one *)
Lemma aapi_idle k k' : AInv k -> aapi k k' -> k_runt k = None.
Proof.
  intros H St. destruct St; auto. unfold AInv in H. simpl in H.
  destruct r as [[]|]; auto; dex; discriminate.
Qed.

Theorem measure_nonincreasing s l : LkS s -> FI s -> PInv s -> runt s <> None ->
  (rank (runt (step s l)) <= rank (runt s))%nat.
Proof.
  intros HL HF HP Hr. destruct (cls_step s l HL HF) as [E | St].
  - destruct (core_fields _ _ E) as (_ & -> & _). auto.
  - destruct l; cbn [step lstep] in *.
    1,2: (exfalso; apply Hr; apply (aapi_idle _ _ HP St)).
    + apply arun_rank in St. simpl in St. lia.
    + unfold core_of in St. inversion St. simpl. replace (runt (do_child_exit s o)) with (runt s) by congruence. auto.
Qed.

(** the F-guard is discharged by the run() call that holds the lock *)
Theorem f_guard_step s : run_call_pending s = true -> started_ev s = true ->
  exists t, holder s = Some t /\ step s (Step t) <> s /\ run_call_pending (step s (Step t)) = false.
Proof.
  unfold run_call_pending. destruct (holder s) as [t|] eqn:Eh; [|discriminate].
  destruct (find_task (tasks s) t) as [[c p]|] eqn:Ef; [|discriminate].
  destruct p; try discriminate. intros _ Hs. exists t. split; auto.
  simpl. unfold do_step. rewrite Ef, Hs. split.
  - intros E. apply (f_equal (fun x => find_task (tasks x) t)) in E. simpl in E.
    rewrite find_put_eq, Ef in E. discriminate.
  - simpl. rewrite Eh, find_put_eq. reflexivity.
Qed.

(** once the child has exited and the gates are released, the run task ends:
    the state is `finished` and everything waiting for the run is released *)
Theorem run_to_end n : forall s, LkS s -> FI s -> PInv s ->
  rank (runt s) = S n -> (S n <= 4)%nat ->
  (runt s = Some RT_WaitChild -> run_call_pending s = false /\ pending_exit s <> None) ->
  let s' := run_labels s (repeat StepRun (S n)) in
  runt s' = None /\ st_fsm s' = Finished /\ run_finished s' = Some true.
Proof.
  induction n as [|n IH]; intros s HL HF HP Hk Hle Hw.
  - simpl. destruct (runt s) as [[]|] eqn:Er; try discriminate.
    destruct (run_enabled s _ HF Er) as (_ & St); [discriminate|].
    unfold PInv, AInv, core_of in *. simpl in HP. rewrite Er in HP. destruct HP as (Hf & _).
    simpl in St. inversion St; repeat split; congruence.
  - destruct (runt s) as [r|] eqn:Er; [|discriminate].
    destruct (run_enabled s _ HF Er) as (_ & St).
    { intros ->. apply Hw. reflexivity. }
    pose proof (arun_rank _ _ St) as Hrk. simpl in Hrk. rewrite Er, Hk in Hrk.
    change (run_labels s (repeat StepRun (S (S n)))) with (run_labels (step s StepRun) (repeat StepRun (S n))).
    apply IH.
    + apply LkS_step; auto.
    + apply FI_step; auto.
    + apply PInv_step; auto.
    + simpl. lia.
    + lia.
    + intros E. simpl in E. rewrite E in Hrk. simpl in Hrk. lia.
Qed.

(** under ANY schedule: while the run task exists, the effective steps of the run task
    (those that lower the rank; by [measure_decreases] these are the ones that change
    the state) and the remaining rank never exceed the rank at the beginning *)
Fixpoint run_exists (s : state) (ls : list label) : Prop :=
  match ls with
  | [] => True
  | l :: r => runt s <> None /\ run_exists (step s l) r
  end.

Fixpoint eff (s : state) (ls : list label) : nat :=
  match ls with
  | [] => 0%nat
  | l :: r =>
    ((match l with
      | StepRun => if Nat.ltb (rank (runt (step s l))) (rank (runt s)) then 1 else 0
      | _ => 0
      end) + eff (step s l) r)%nat
  end.

Theorem eff_bound ls : forall s, LkS s -> FI s -> PInv s -> run_exists s ls ->
  (eff s ls + rank (runt (run_labels s ls)) <= rank (runt s))%nat.
Proof.
  induction ls as [|l ls IH]; intros s HL HF HP Hex.
  - simpl. lia.
  - destruct Hex as (Hr & Hex).
    specialize (IH (step s l) (LkS_step _ l HL) (FI_step _ l HL HF) (PInv_step _ l HL HF HP) Hex).
    pose proof (measure_nonincreasing s l HL HF HP Hr) as Hn.
    change (run_labels s (l :: ls)) with (run_labels (step s l) ls).
    cbn [eff]. destruct l; try lia.
    destruct (Nat.ltb_spec (rank (runt (step s StepRun))) (rank (runt s))); lia.
Qed.

Section All.
  Variables (stmt start : Z) (th md : bool) (ls : list label).
  Let s := run_labels (init_state stmt start th md) ls.

  Lemma all_reach : LkS s /\ FI s /\ PInv s /\ SInv (core_of s).
  Proof. apply reach_all. Qed.

  Lemma all_order : proto (hooks_of (history s)) <> PBad.
  Proof. eapply hook_corr_not_bad. apply PInv_hook_corr. apply all_reach. Qed.

  Lemma all_window : Forall window_ok (hooks_of (history s)).
  Proof. apply proto_window. apply all_order. Qed.

  Lemma all_hook_exact :
    let p := proto (hooks_of (history s)) in
    hook_corr p (st_fsm s) (runt s) (run_arg s) /\
    (runt s = None -> p = PN \/ (exists n, p = PI n) \/ p = PF) /\
    (forall n, p = PS n -> runt s = Some RT_G_start \/ runt s = Some RT_WaitChild) /\
    (forall n, p = PE n -> runt s = Some RT_G_end) /\
    (p = PF -> runt s = Some RT_G_fin \/ runt s = Some RT_G_cs \/
               (runt s = None /\ (st_fsm s = Finished \/ st_fsm s = Closed))) /\
    (p = PN -> runt s = None /\ (st_fsm s = Created \/ st_fsm s = Closed)) /\
    (forall n, p = PI n -> runt s = Some RT_New \/ runt s = Some RT_Created \/
                           (runt s = None /\ (st_fsm s = Initialized \/ st_fsm s = Closed))).
  Proof.
    simpl. assert (H : hook_corr (proto (hooks_of (history s))) (st_fsm s) (runt s) (run_arg s))
      by (apply PInv_hook_corr; apply all_reach).
    split; [exact H | apply (hook_corr_complete _ _ _ _ H)].
  Qed.

  Lemma all_run_info_once :
    let q := rinfo (pubs_of (history s)) in
    q <> QBad /\
    rec_corr q (st_fsm s) (runt s) (run_arg s) (exited_proc s) /\
    (runt s = None -> q = QN \/ (exists n st, q = QI n st) \/ (exists n st o, q = QF n st o)) /\
    (forall n st, q = QR n st -> runt s = Some RT_G_start \/ runt s = Some RT_WaitChild).
  Proof.
    simpl. assert (H : rec_corr (rinfo (pubs_of (history s))) (st_fsm s) (runt s) (run_arg s) (exited_proc s))
      by (apply PInv_rec_corr; apply all_reach).
    split; [eapply rec_corr_not_bad; eauto|]. split; auto. apply (rec_corr_complete _ _ _ _ _ H).
  Qed.

  Lemma all_exited_proc_kept l :
    exited_proc (step s l) = exited_proc s \/ (l = StepRun /\ (runt s = Some RT_New \/ runt s = Some RT_WaitChild)).
  Proof.
    destruct all_reach as (HL & HF & _). destruct (cls_step s l HL HF) as [E | St].
    - left. apply (core_fields _ _ E).
    - unfold core_of in St. destruct l; cbn [step lstep] in *; inversion St; subst; auto.
  Qed.

  Lemma all_finished_set :
    (runt s = None -> run_finished s <> Some false) /\ (runt s <> None -> run_finished s = Some false).
  Proof.
    destruct all_reach as (_ & (_ & HS) & _). split.
    - apply (sc_rf_none _ _ _ _ _ _ HS).
    - destruct (runt s) as [x|] eqn:Er; [|congruence]. intros _. eapply sc_rf_some; eauto.
  Qed.

  Lemma all_progress r : runt s = Some r ->
    step s StepRun <> s
    \/ (r = RT_WaitChild /\ run_call_pending s = false /\ pending_exit s = None)
    \/ (r = RT_WaitChild /\ run_call_pending s = true /\
        exists t, holder s = Some t /\ step s (Step t) <> s /\ run_call_pending (step s (Step t)) = false).
  Proof.
    intros Hr. destruct all_reach as (_ & HF & _ & HS).
    destruct (step_run_cases s HF) as [(_ & [C | (C & D)]) | St];
      [congruence | | left; apply (arun_changes _ _ St)].
    assert (r = RT_WaitChild) by congruence. subst r. right.
    destruct (run_call_pending s) eqn:Ep.
    - right. repeat split; auto. apply f_guard_step; auto.
      unfold SInv in HS. simpl in HS. rewrite Hr in HS. exact HS.
    - left. destruct D as [D | D]; [discriminate | auto].
  Qed.

End All.

Definition ex_run (t : nat) (c : call) (o : outcome) : list label :=
  [Call t c; StepRun; StepRun; StepRun; Step t; Step t; ChildExit o; StepRun; StepRun; StepRun; StepRun].

Definition ex_no_opts : opts := mkOpts None None None None.

(** start; run (returns); reset; run_and_continue (raises); close *)
Definition ex_labels : list label :=
  [Call 0%nat CStart; Step 0%nat; Step 0%nat; Step 0%nat]
  ++ ex_run 1%nat CRun OReturn
  ++ [Call 2%nat (CReset ex_no_opts); Step 2%nat; Step 2%nat; Step 2%nat]
  ++ ex_run 3%nat CRunCont ORaise
  ++ [Call 4%nat CClose; Step 4%nat; Step 4%nat].

Definition ex_init : state := init_state 7 1 false false.

Definition ex_proto_states : list pst :=
  map (fun n => proto (hooks_of (history (run_labels ex_init (firstn n ex_labels)))))
      (seq 0 (S (length ex_labels))).

Definition is_run_info (p : pub) : bool := match p with PRunInfo _ _ _ _ => true | _ => false end.

(** the state in the middle of the first run (the child is running) *)
Definition ex_mid : state := run_labels ex_init (firstn 10 ex_labels).
