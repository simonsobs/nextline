(** What the run session does when ANY await inside it raises ("failure to start", a
    failing hook, a failing process wait, a failing on_finished ...).

    The programs are the control-flow skeletons of Callback._run / _finish
    (nextline/fsm/callback.py) and of RunSession.run / relay_events (session.py),
    REGENERATED from the source at every check (Gen/CallbackSkeleton.v, fail-closed
    translator translate/callback_skeleton.py).  This file gives them a semantics in which
    every [AwaitAct] either returns or raises, decided by an oracle (a list of booleans
    consumed in execution order, [true] = raises; exhausted = returns), with Python's
    propagation through try/finally and `async with`.

    `async with self._hook.awith.run(...)`: apluggy enters the `run` context of every plugin
    in pluggy order (a user plugin registered later comes FIRST) and exits them in reverse,
    passing the exception on: that is nesting.  [user_ctx] is a user plugin's context whose
    entry and exit may raise; inside it, RunSession.run; inside that, relay_events.  An
    asynccontextmanager is a generator: the body of the `async with` runs at its [Yield]
    (an exception of the body is thrown in there), hence [subst_yield]. *)
From Coq Require Import List Bool Arith ZArith.
From NL Require Export Gen.CallbackSkeleton.
Import ListNotations.

Definition user_ctx : stmt := Seq (AwaitAct UserEnter) (TryFinally Yield (AwaitAct UserExit)).

Fixpoint subst_yield (g body : stmt) : stmt :=
  match g with
  | Yield => body
  | Seq a b => Seq (subst_yield a body) (subst_yield b body)
  | TryFinally a b => TryFinally (subst_yield a body) (subst_yield b body)
  | WithCtx c b => WithCtx c (subst_yield b body)
  | x => x
  end.

Fixpoint inline (fuel : nat) (s : stmt) : stmt :=
  match fuel with
  | O => s
  | S f =>
    match s with
    | Seq a b => Seq (inline f a) (inline f b)
    | TryFinally a b => TryFinally (inline f a) (inline f b)
    | WithCtx HookRun b => inline f (subst_yield user_ctx (subst_yield session_skeleton b))
    | WithCtx RelayEvents b => inline f (subst_yield relay_skeleton b)
    | CallFinish => inline f finish_skeleton
    | x => x
    end
  end.

(** the whole of `Callback._run`, contexts and calls inlined (the fuel is enough:
    [FailStartProofs.program_flat]; hence the last case of [exec] below is not reached on [program]) *)
Definition program : stmt := inline 12 run_skeleton.

Fixpoint flat (s : stmt) : bool :=
  match s with
  | Seq a b | TryFinally a b => flat a && flat b
  | Yield | WithCtx _ _ | CallFinish => false
  | _ => true
  end.

Inductive ev := Ev (a : act) (ok : bool).     (* ok = false: this await raised *)

(** (raised?, trace, rest of the oracle) *)
Fixpoint exec (s : stmt) (o : list bool) : bool * list ev * list bool :=
  match s with
  | Act a => (false, [Ev a true], o)
  | AwaitAct a =>
      match o with
      | true :: r => (true, [Ev a false], r)
      | false :: r => (false, [Ev a true], r)
      | [] => (false, [Ev a true], [])
      end
  | Seq a b =>
      let '(r, t, o1) := exec a o in
      if r then (true, t, o1)
      else let '(r2, t2, o2) := exec b o1 in (r2, t ++ t2, o2)
  | TryFinally a b =>
      let '(r, t, o1) := exec a o in
      let '(r2, t2, o2) := exec b o1 in
      (r || r2, t ++ t2, o2)        (* the finally block always runs; its own exception replaces the body's *)
  | _ => (false, [], o)
  end.

Definition trace (o : list bool) : list ev := snd (fst (exec program o)).
Definition raises (o : list bool) : bool := fst (fst (exec program o)).

(** every execution there is, independent of any oracle *)
Fixpoint outcomes (s : stmt) : list (bool * list ev) :=
  match s with
  | Act a => [(false, [Ev a true])]
  | AwaitAct a => [(false, [Ev a true]); (true, [Ev a false])]
  | Seq a b =>
      flat_map (fun x : bool * list ev => if fst x then [x] else map (fun y : bool * list ev => (fst y, snd x ++ snd y)) (outcomes b)) (outcomes a)
  | TryFinally a b =>
      flat_map (fun x : bool * list ev => map (fun y : bool * list ev => (fst x || fst y, snd x ++ snd y)) (outcomes b)) (outcomes a)
  | _ => [(false, @nil ev)]
  end.

Lemma exec_in_outcomes : forall s o, In (fst (exec s o)) (outcomes s).
Proof.
  induction s as [ | a IHa b IHb | a | a | | a IHa b IHb | c b IHb | ]; intros o; simpl; auto.
  - specialize (IHa o). destruct (exec a o) as [[r t] o1] eqn:Ea. simpl in IHa.
    apply in_flat_map. exists (r, t). split; [exact IHa | ]. simpl. destruct r.
    + left. reflexivity.
    + specialize (IHb o1). destruct (exec b o1) as [[r2 t2] o2]. simpl in *.
      apply in_map_iff. exists (r2, t2). split; auto.
  - destruct o as [ | [ | ] r]; simpl; auto.
  - specialize (IHa o). destruct (exec a o) as [[r t] o1] eqn:Ea. simpl in IHa.
    specialize (IHb o1). destruct (exec b o1) as [[r2 t2] o2]. simpl in *.
    apply in_flat_map. exists (r, t). split; [exact IHa | ].
    apply in_map_iff. exists (r2, t2). split; auto.
Qed.

Lemma forall_oracles : forall (P : list ev -> bool),
  forallb (fun x => P (snd x)) (outcomes program) = true -> forall o, P (trace o) = true.
Proof.
  intros P H o. rewrite forallb_forall in H. unfold trace.
  apply (H (fst (exec program o))). apply exec_in_outcomes.
Qed.

Definition act_eqb (a b : act) : bool :=
  match a, b with
  | NewRunFinished, NewRunFinished | NewStarted, NewStarted | CreateTaskRun, CreateTaskRun | AwaitStarted, AwaitStarted
  | SetStarted, SetStarted | SetRunArgNone, SetRunArgNone | Finish, Finish | SetRunFinished, SetRunFinished
  | InitSession, InitSession | Spawn, Spawn | StartRunHook, StartRunHook | AwaitProcess, AwaitProcess
  | SetExited, SetExited | EndRunHook, EndRunHook | MonitorStart, MonitorStart | MarkInFinally, MarkInFinally
  | MonitorDrain, MonitorDrain | Sentinel, Sentinel | AwaitMonitor, AwaitMonitor | UserEnter, UserEnter
  | UserExit, UserExit => true
  | _, _ => false
  end.

Definition act_of (e : ev) : act := match e with Ev a _ => a end.
Definition acts (t : list ev) : list act := map act_of t.

Fixpoint count (a : act) (l : list act) : nat :=
  match l with [] => O | b :: r => (if act_eqb a b then 1 else 0) + count a r end.
Definition called (a : act) (t : list ev) : bool := negb (count a (acts t) =? 0).
Definition returned (a : act) (t : list ev) : bool :=
  existsb (fun e => match e with Ev b ok => act_eqb a b && ok end) t.

Fixpoint index (a : act) (l : list act) : option nat :=
  match l with [] => None | b :: r => if act_eqb a b then Some O else option_map S (index a r) end.
Definition before (a b : act) (t : list ev) : bool :=
  match index a (acts t), index b (acts t) with Some i, Some j => i <? j | _, _ => false end.
Fixpoint after (a : act) (l : list act) : list act :=
  match l with [] => [] | b :: r => if act_eqb a b then r else after a r end.
Fixpoint acts_eqb (x y : list act) : bool :=
  match x, y with [] , [] => true | a :: x', b :: y' => act_eqb a b && acts_eqb x' y' | _, _ => false end.

(** the statements of C12 about failing runs, as decidable predicates on a trace *)

(** run_arg is withdrawn before the (single) transition to `finished`; the event that wait()
    and close() wait for is set after it even if it raises; the run() call is unblocked *)
Definition run_arg_withdrawn_before_finished (t : list ev) : bool :=
  (count Finish (acts t) =? 1) && (count SetRunArgNone (acts t) =? 1)
  && before SetRunArgNone Finish t && before Finish SetRunFinished t
  && (count SetRunFinished (acts t) =? 1) && (1 <=? count SetStarted (acts t)).

Definition nothing_after_finished (t : list ev) : bool :=
  acts_eqb (after Finish (acts t)) [SetRunFinished].

(** on_end_run is called iff every earlier await of the session returned; on_start_run is
    called iff the user context was entered and the process was spawned *)
Definition end_run_iff (t : list ev) : bool :=
  Bool.eqb (called EndRunHook t)
           (returned UserEnter t && returned Spawn t && returned StartRunHook t && returned AwaitProcess t
            && returned MonitorDrain t && returned Sentinel t && returned AwaitMonitor t)
  && Bool.eqb (called StartRunHook t) (returned UserEnter t && returned Spawn t)
  && (count EndRunHook (acts t) <=? 1) && (count StartRunHook (acts t) <=? 1)
  && (negb (called EndRunHook t) || before StartRunHook EndRunHook t).

Definition process_awaited_if_started (t : list ev) : bool :=
  negb (returned Spawn t && returned StartRunHook t) || called AwaitProcess t.
Definition process_awaited (t : list ev) : bool :=
  negb (returned Spawn t) || called AwaitProcess t.

(** the monitor task, once created, is sent towards its end (drain attempted); it is awaited
    iff the drain and the sentinel put returned *)
Definition monitor_closed (t : list ev) : bool :=
  Bool.eqb (called MonitorStart t) (called MonitorDrain t)
  && Bool.eqb (called AwaitMonitor t) (returned MonitorDrain t && returned Sentinel t).

(** correspondence with real runs (harness/props/c12.py).
    Observable projection: the hooks a recording plugin sees, in order
    (1 on_start_run, 2 on_end_run, 3 on_finished), whether run_arg was None at on_finished,
    whether the run() call was unblocked, whether the finished-event was set *)
Fixpoint hooks (l : list act) : list nat :=
  match l with
  | [] => []
  | StartRunHook :: r => 1 :: hooks r
  | EndRunHook :: r => 2 :: hooks r
  | Finish :: r => 3 :: hooks r
  | _ :: r => hooks r
  end.

Definition observation := (list nat * bool * bool * bool)%type.

Definition observe (o : list bool) : observation :=
  let t := trace o in
  (hooks (acts t), before SetRunArgNone Finish t, called SetStarted t, called SetRunFinished t).

Fixpoint nats_eqb (x y : list nat) : bool :=
  match x, y with [], [] => true | a :: x', b :: y' => (a =? b) && nats_eqb x' y' | _, _ => false end.

Definition case_ok (c : list bool * observation) : bool :=
  let '(o, (h, a, s, f)) := c in
  let '(h', a', s', f') := observe o in
  nats_eqb h h' && Bool.eqb a a' && Bool.eqb s s' && Bool.eqb f f'.

Fixpoint bad_from (n : nat) (cases : list (list bool * observation)) : list nat :=
  match cases with
  | [] => []
  | c :: r => if case_ok c then bad_from (S n) r else n :: bad_from (S n) r
  end.
