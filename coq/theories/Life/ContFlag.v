(** C16: the `continuous enabled` flag and the Continue plugins, on the lifecycle model
    (Life/Model.v).  Three parts, then the statements Props/C16.v quotes:
    - the invariant: [CJ] (every registered plugin belongs to a request in flight or to the
      run in progress; the flag is "some plugin is registered") and its converse [CK], carried
      together as [CC] through every step; [ContI] adds the states before start(); [cont_inv]
      is the part of it that Props/C16.v states;
    - what a step appends to the trace ([quiet], [Adds]);
    - close() runs once ([K], [KSb]), and once the item is closed nothing is published on it. *)
From NL Require Export Life.LockInv.
From NL Require Import Life.Model Life.FsmInv Life.Hist.
From Coq Require Import Lia.

Definition nonempty {A} (l : list A) : bool := match l with [] => false | _ :: _ => true end.

(** two more projections of the trace (newest first), beside those of Life/Hist.v: the returns,
    and the values published on the flag *)
Fixpoint rets_of (tr : list event) : list (nat * call * result) :=
  match tr with
  | [] => []
  | EvRet t c r :: k => (t, c, r) :: rets_of k
  | _ :: k => rets_of k
  end.

Lemma rets_of_app a b : rets_of (a ++ b) = rets_of a ++ rets_of b.
Proof.
  induction a as [|e a IH]; simpl; auto. destruct e; auto. simpl. rewrite IH. reflexivity.
Qed.

Lemma in_rets t c r tr : In (EvRet t c r) tr -> In (t, c, r) (rets_of tr).
Proof.
  induction tr as [|e tr IH]; simpl; auto. intros [-> | Hin]; [left; reflexivity|].
  destruct e; auto. right. auto.
Qed.

Fixpoint cpubs (tr : list event) : list bool :=
  match tr with
  | [] => []
  | EvPub (PCont b) :: k => b :: cpubs k
  | _ :: k => cpubs k
  end.

Lemma cpubs_app x y : cpubs (x ++ y) = cpubs x ++ cpubs y.
Proof.
  induction x as [|e x IH]; simpl; auto. destruct e; auto. destruct p; auto. simpl. rewrite IH. reflexivity.
Qed.

Lemma in_cpubs b tr : In (EvPub (PCont b)) tr -> In b (cpubs tr).
Proof.
  induction tr as [|e tr IH]; simpl; auto. intros [-> | Hin]; [left; reflexivity|].
  destruct e; auto. destruct p; auto. right. auto.
Qed.

(** the run task has been created but `on_start_run` has not run yet *)
Definition fresh (r : option rpc) : bool :=
  match r with Some RT_New | Some RT_Created => true | _ => false end.

(** between `on_start_run` and `on_finished`: the run whose prompts can be answered *)
Definition mid (r : option rpc) : bool :=
  match r with Some RT_G_start | Some RT_WaitChild | Some RT_G_end => true | _ => false end.

(** where the call of a pending (not yet started) continue request can be *)
Definition pend_pc (s : state) (t : nat) (p : pc) : Prop :=
  p = WaitLock1 \/ p = Granted1 \/
  (p = R_WaitStarted /\ run_owner s = t /\ run_cont s = true /\ fresh (runt s) = true).

Definition pend_ok (s : state) (t : nat) : Prop :=
  exists c p, find_task (tasks s) t = Some (c, p) /\ is_cont c = true /\ pend_pc s t p.

Record CJ (s : state) : Prop := mkCJ {
  cj_started : nl_started s = true;
  cj_pend : forall t, In (t, false) (cont_plugins s) -> pend_ok s t;
  cj_nodup : NoDup (cont_plugins s);
  cj_run : forall t, In (t, true) (cont_plugins s) ->
           t = run_owner s /\ run_cont s = true /\ mid (runt s) = true;
  cj_ev : fresh (runt s) = true -> started_ev s = false;
  cj_closed : cont_closed s = true -> st_fsm s = Closed;
  cj_flag : cont_closed s = false -> enabled_of (trace s) = Some (nonempty (cont_plugins s));
  cj_off : cont_closed s = true -> enabled_of (trace s) = Some false
}.

(** the converse: a continue request that is pending or whose run is in progress HAS its
    plugin registered (so the flag is true then) *)
Record CK (s : state) : Prop := mkCK {
  ck_wait : forall t c p, find_task (tasks s) t = Some (c, p) -> is_cont c = true ->
            p = WaitLock1 \/ p = Granted1 -> In (t, false) (cont_plugins s);
  ck_owner : fresh (runt s) = true ->
             exists c, find_task (tasks s) (run_owner s) = Some (c, R_WaitStarted) /\ is_cont c = run_cont s;
  ck_acc : fresh (runt s) = true -> run_cont s = true -> In (run_owner s, false) (cont_plugins s);
  ck_run : mid (runt s) = true -> run_cont s = true -> In (run_owner s, true) (cont_plugins s)
}.

Definition PS (s : state) : Prop :=
  exists a b c d tr, s = set_trace (init_state a b c d) tr /\ enabled_of tr <> Some true.

Definition ContI (s : state) : Prop := if nl_started s then CJ s else PS s.

(** every field of the state behind [release] / [apply_rest] becomes visible to [simpl] *)
Ltac cv_simpl := simpl; rewrite ?release_eq, ?apply_rest_eq; simpl.

Lemma NoDup_map_in {A B} (f : A -> B) (l : list A) :
  (forall x y, In x l -> In y l -> f x = f y -> x = y) -> NoDup l -> NoDup (map f l).
Proof.
  induction l as [|a l IH]; simpl; intros Hinj Hnd; [constructor|].
  inversion Hnd; subst. constructor.
  - intros Hin. apply in_map_iff in Hin. destruct Hin as (x & Hfx & Hx).
    assert (x = a) by (apply Hinj; auto). subst. contradiction.
  - apply IH; auto.
Qed.

Lemma nonempty_map {A B} (f : A -> B) l : nonempty (map f l) = nonempty l.
Proof. destruct l; reflexivity. Qed.

Lemma filter_filter_imp {A} (p q : A -> bool) l :
  (forall x, p x = true -> q x = true) -> filter p (filter q l) = filter p l.
Proof.
  intros H. induction l as [|a l IH]; simpl; auto.
  destruct (q a) eqn:Eq; simpl.
  - destruct (p a); [f_equal|]; auto.
  - destruct (p a) eqn:Ep; auto. rewrite (H _ Ep) in Eq. discriminate.
Qed.

Lemma filter_comm {A} (p q : A -> bool) l : filter p (filter q l) = filter q (filter p l).
Proof.
  induction l as [|a l IH]; simpl; auto.
  destruct (q a) eqn:Eq, (p a) eqn:Ep; simpl; rewrite ?Eq, ?Ep, ?IH; auto.
Qed.

Lemma filter_length_le {A} (p : A -> bool) l : (length (filter p l) <= length l)%nat.
Proof. induction l as [|a l IH]; simpl; auto. destruct (p a); simpl; lia. Qed.

(** a pending request of another task stays pending: [tmove] takes WaitLock1 to itself or to Granted1 *)
Lemma pend_move s s' t t' :
  tmove (tasks s) (tasks s') t -> t' <> t -> pend_ok s t' ->
  (fresh (runt s) = true -> run_owner s' = run_owner s /\ run_cont s' = run_cont s /\ fresh (runt s') = true) ->
  pend_ok s' t'.
Proof.
  intros Hmv Hn (c & p & Hf & Hc & Hp) Hr.
  destruct (tmove_fwd _ _ _ _ _ _ Hmv Hn Hf) as (p' & Hf' & Hp'). exists c, p'. repeat split; auto.
  destruct Hp as [-> | [-> | (-> & Ho & Hrc & Hfr)]]; destruct Hp' as [-> | ->]; simpl; unfold pend_pc; auto;
    destruct (Hr Hfr) as (-> & -> & ->); auto 6.
Qed.

(** the pcs of [pend_pc], as a test on a concrete pc *)
Definition pend_pcb (p : pc) : bool :=
  match p with WaitLock1 | Granted1 | R_WaitStarted => true | _ => false end.

Lemma pend_pc_b s t p : pend_pc s t p -> pend_pcb p = true.
Proof. intros [-> | [-> | (-> & _)]]; reflexivity. Qed.

Lemma not_pend s t c p : CJ s -> find_task (tasks s) t = Some (c, p) ->
  is_cont c = false \/ pend_pcb p = false \/ (p = R_WaitStarted /\ started_ev s = true) ->
  ~ In (t, false) (cont_plugins s).
Proof.
  intros HC Hf Hor Hin. destruct (cj_pend _ HC _ Hin) as (c' & p' & Hf' & Hc' & Hp').
  rewrite Hf in Hf'. inversion Hf'; subst c' p'.
  destruct Hor as [E | [E | (-> & E)]].
  - congruence.
  - rewrite (pend_pc_b _ _ _ Hp') in E. discriminate.
  - destruct Hp' as [? | [? | (_ & _ & _ & Hfr)]]; try discriminate.
    rewrite (cj_ev _ HC Hfr) in E. discriminate.
Qed.

Lemma no_task_no_pend s t : CJ s -> find_task (tasks s) t = None -> ~ In (t, false) (cont_plugins s).
Proof.
  intros HC Hf Hin. destruct (cj_pend _ HC _ Hin) as (c' & p' & Hf' & _). congruence.
Qed.

Lemma wait_back p p0 : p = WaitLock1 \/ p = Granted1 ->
  p = p0 \/ (waitlock p0 = true /\ p = granted_pc p0) -> p0 = WaitLock1 \/ p0 = Granted1.
Proof.
  intros Hp [<- | (Hw & E)]; auto. destruct p0; simpl in *; try discriminate; auto;
    destruct Hp; subst; discriminate.
Qed.

Definition CC (s : state) : Prop := CJ s /\ CK s.

(** [rvw], [cvw], [svw] (and [cfv] below): fields compared as one tuple, so that one
    [reflexivity] shows that a step leaves them all; [injection] gives the equations back.
    [rvw]: what an API task leaves of the run task; [cvw]: all that the invariant reads beside the
    table and the fsm; [svw]: what the run task leaves alone *)
Definition rvw (s : state) := (nl_started s, run_owner s, run_cont s, runt s, started_ev s).

Definition svw (s : state) :=
  (tasks s, cont_plugins s, nl_started s, cont_closed s, run_owner s, run_cont s, enabled_of (trace s)).

Definition cvw (s : state) :=
  (cont_plugins s, cont_closed s, nl_started s, run_owner s, run_cont s, runt s, started_ev s,
   enabled_of (trace s)).

(** How both survive a step of an API task [t], whatever the step is.
    The run task's fields stay; the entries of the other tasks move as [tmove] says; the
    registry changes at most by the unstarted plugin of [t], which is registered exactly when
    the new entry of [t] is that of a pending request; the flag is as the new state says. *)
Lemma CC_update s s' t :
  CC s -> tmove (tasks s) (tasks s') t -> rvw s' = rvw s ->
  NoDup (cont_plugins s') ->
  (forall x, In x (cont_plugins s') -> x = (t, false) \/ In x (cont_plugins s)) ->
  (forall x, In x (cont_plugins s) -> x <> (t, false) -> In x (cont_plugins s')) ->
  (In (t, false) (cont_plugins s') -> pend_ok s' t) ->
  (forall c p, find_task (tasks s') t = Some (c, p) -> is_cont c = true -> p = WaitLock1 \/ p = Granted1 ->
               In (t, false) (cont_plugins s')) ->
  (forall c, find_task (tasks s) t = Some (c, R_WaitStarted) -> started_ev s = true) ->
  (st_fsm s = Closed -> st_fsm s' = Closed) ->
  (cont_closed s' = true -> cont_closed s = true \/ st_fsm s' = Closed) ->
  (cont_closed s' = false -> enabled_of (trace s') = Some (nonempty (cont_plugins s'))) ->
  (cont_closed s' = true -> enabled_of (trace s') = Some false) -> CC s'.
Proof.
  intros [[h1 h2 h3 h4 h5 h6 h7 h8] [k1 k2 k3 k4]] Hmv Er Hnd Hsub Hkeep Hop Hor Hq Hfs Hcl Hfl Hoff.
  unfold rvw in Er. injection Er as E3 E4 E5 E6 E7.
  (* while the run task is fresh its owner waits at R_WaitStarted with started unset: it is not [t] *)
  assert (Hown : fresh (runt s) = true -> run_owner s <> t).
  { intros Hfr Heq. destruct (k2 Hfr) as (c0 & Hf0 & _). rewrite Heq in Hf0.
    rewrite (h5 Hfr) in Hq. specialize (Hq _ Hf0). discriminate. }
  split; constructor; rewrite ?E3, ?E4, ?E5, ?E6, ?E7; auto.
  - intros t' Hin. destruct (Nat.eq_dec t' t) as [->|Hn]; [auto|].
    destruct (Hsub _ Hin) as [Heq | Hin0]; [congruence|].
    eapply pend_move; eauto. intros Hfr. rewrite E4, E5, E6. auto.
  - intros t' Hin. destruct (Hsub _ Hin) as [Heq | Hin0]; [discriminate | auto].
  - intros Hc. destruct (Hcl Hc); auto.
  - intros t' c p Hf Hc Hp. destruct (Nat.eq_dec t' t) as [->|Hn]; [eauto|].
    destruct (tmove_bwd _ _ _ _ _ _ Hmv Hn Hf) as (p0 & Hf0 & Hr).
    apply Hkeep; [eapply k1; eauto; eapply wait_back; eauto | congruence].
  - intros Hfr. destruct (k2 Hfr) as (c0 & Hf0 & Hc0). exists c0. split; auto.
    destruct (tmove_fwd _ _ _ _ _ _ Hmv (Hown Hfr) Hf0) as (p' & Hf' & [-> | ->]); exact Hf'.
  - intros Hfr Hrc. apply Hkeep; auto. intros Heq. apply (Hown Hfr). congruence.
  - intros Hm Hrc. apply Hkeep; auto. discriminate.
Qed.

Lemma CC_same s s' t :
  CC s -> tmove (tasks s) (tasks s') t -> cvw s' = cvw s -> (st_fsm s = Closed -> st_fsm s' = Closed) ->
  ~ In (t, false) (cont_plugins s) ->
  (forall c p, find_task (tasks s') t = Some (c, p) -> is_cont c = true -> p = WaitLock1 \/ p = Granted1 -> False) ->
  (forall c, find_task (tasks s) t = Some (c, R_WaitStarted) -> started_ev s = true) -> CC s'.
Proof.
  intros HCC Hmv E Hfs Hni Hown Hq. unfold cvw in E. injection E as E1 E2 E3 E4 E5 E6 E7 E8.
  pose proof HCC as [[h1 h2 h3 h4 h5 h6 h7 h8] _].
  apply (CC_update s s' t); rewrite ?E1, ?E2, ?E8; auto.
  - unfold rvw. congruence.
  - intros Hin. contradiction.
  - intros c p Hf Hc Hp. destruct (Hown _ _ Hf Hc Hp).
Qed.

(** the entry of [t] after the step is read off the new table: none, or one whose pc is
    neither WaitLock1 nor Granted1 *)
Ltac new_entry_quiet :=
  let Hf := fresh in let Hp := fresh in
  intros ? ? Hf _ Hp; simpl in Hf; rewrite ?release_tasks, ?apply_rest_tasks in Hf; simpl in Hf;
  rewrite ?find_remove_eq, ?find_put_eq in Hf;
  first [discriminate Hf | inversion Hf; subst; destruct Hp; discriminate].

(** [HRes] of a step that gives the lock back and returns *)
Ltac relfin := apply HRes_release_finish; reflexivity.

(** a step of the lock holder that is an instance of [CC_same]; [tac] proves its [HRes] *)
Ltac neutral_with tac :=
  eapply CC_same;
  [ eassumption | apply HRes_tmove; tac | unfold cvw; cv_simpl; reflexivity
  | cv_simpl; intros; try congruence; auto
  | eapply not_pend; eauto | new_entry_quiet
  | let H := fresh in intros ? H; simpl in H; first [assumption | congruence] ].

Lemma CC_ext s s' : tasks s' = tasks s -> cvw s' = cvw s -> st_fsm s' = st_fsm s -> CC s -> CC s'.
Proof.
  intros Et E Ef [[h1 h2 h3 h4 h5 h6 h7 h8] [k1 k2 k3 k4]].
  unfold cvw in E. injection E as E1 E2 E3 E4 E5 E6 E7 E8.
  split; constructor; rewrite ?Et, ?Ef, ?E1, ?E2, ?E3, ?E4, ?E5, ?E6, ?E7, ?E8; auto.
  intros t' Hin. destruct (h2 _ Hin) as (c & p & Hf & Hc & Hp). exists c, p. rewrite Et. repeat split; auto.
  unfold pend_pc. rewrite E4, E5, E6. exact Hp.
Qed.

Definition unreg_pred (t : nat) (x : nat * bool) : bool := negb (Nat.eqb (fst x) t && negb (snd x)).

Lemma unreg_keeps t l x : In x l -> x <> (t, false) -> In x (filter (unreg_pred t) l).
Proof.
  intros Hin Hne. apply filter_In. split; auto. unfold unreg_pred. destruct x as [t' []]; simpl.
  - rewrite Bool.andb_false_r. reflexivity.
  - destruct (Nat.eqb_spec t' t); [congruence | reflexivity].
Qed.

Lemma unreg_not_in t l : ~ In (t, false) (filter (unreg_pred t) l).
Proof.
  intros Hin. apply filter_In in Hin. destruct Hin as (_ & H). unfold unreg_pred in H. simpl in H.
  rewrite Nat.eqb_refl in H. discriminate.
Qed.

Lemma CC_refuse s t c G :
  CC s -> find_task (tasks s) t = Some (c, G) -> G <> R_WaitStarted -> CC (refuse s t c).
Proof.
  intros HCC Hf HG. pose proof HCC as [HC HK]. unfold refuse. destruct (is_cont c) eqn:Ec; [|neutral_with relfin].
  (* closed or not decides only whether the flag is re-published; either way the registry
     becomes [filter (unreg_pred t) _] and [t] leaves the table *)
  destruct (cont_closed (release s)) eqn:Ecl; rewrite release_eq in Ecl; simpl in Ecl;
    (apply (CC_update s _ t); auto; try (apply HRes_tmove; relfin); cv_simpl; try reflexivity; try congruence;
     [ (* no duplicates *) apply NoDup_filter, HC
     | (* nothing new *) intros x Hin; apply filter_In in Hin; right; apply Hin
     | (* the others stay *) intros x; apply unreg_keeps
     | (* the plugin of [t] is gone *) intros Hin; destruct (unreg_not_in _ _ Hin)
     | (* [t] has no entry *) intros c0 p0 Hf0; rewrite find_remove_eq in Hf0; discriminate
     | ..]).
  (* closed: the flag stays off *)
  intros Hc. apply (cj_off _ HC Hc).
Qed.

Lemma CC_enter_run s t c :
  FI s -> CC s -> find_task (tasks s) t = Some (c, Granted1) -> CC (enter_run s t c).
Proof.
  intros HF HCC Hf. unfold enter_run.
  destruct (st_fsm s) eqn:Efs; try (eapply CC_refuse; eauto; discriminate).
  assert (Hr : runt s = None).
  { destruct HF as [_ HS]. eapply Scal_idle; eauto; rewrite Efs; discriminate. }
  pose proof HCC as [[h1 h2 h3 h4 h5 h6 h7 h8] [k1 k2 k3 k4]].
  split; constructor; simpl; auto; try discriminate.
  - intros t' Hin. destruct (Nat.eq_dec t' t) as [->|Hn].
    + destruct (h2 _ Hin) as (c' & p' & Hf' & Hc' & _). rewrite Hf in Hf'. inversion Hf'; subst c' p'.
      exists c, R_WaitStarted. simpl. rewrite find_put_eq. repeat split; auto.
      right. right. simpl. auto.
    + eapply (pend_move s); eauto; [simpl; apply tmove_put | rewrite Hr; discriminate].
  - intros t' Hin. destruct (h4 _ Hin) as (_ & _ & Hm). rewrite Hr in Hm. discriminate.
  - intros Hc. rewrite (h6 Hc) in Efs. discriminate.
  - intros t' c' p' Hf' Hc' Hp'. destruct (Nat.eq_dec t' t) as [->|Hn].
    + rewrite find_put_eq in Hf'. inversion Hf'; subst. destruct Hp'; discriminate.
    + rewrite find_put_neq in Hf' by assumption. eauto.
  - intros _. exists c. rewrite find_put_eq. auto.
  - intros _ Hc. eapply k1; eauto.
Qed.

Lemma CC_close_finish s t c p :
  CC s -> find_task (tasks s) t = Some (c, p) -> p <> R_WaitStarted -> st_fsm s = Closed ->
  ~ In (t, false) (cont_plugins s) ->
  CC (finish_call (close_cont (publish (release s) PEndAll)) t c ROk).
Proof.
  intros HCC Hf Hp Hfs Hni. pose proof HCC as [[h1 h2 h3 h4 h5 h6 h7 h8] _].
  apply (CC_update s _ t); auto; try (apply HRes_tmove; relfin); cv_simpl; auto; try congruence.
  - intros c0 p0 Hf0. rewrite find_remove_eq in Hf0. discriminate.
  - intros _. unfold cont_off_events. cv_simpl.
    destruct (cont_plugins s) eqn:Ep; simpl; auto.
    destruct (cont_closed s) eqn:Ecl; auto.
Qed.

Lemma CC_close_trigger s t p :
  CC s -> find_task (tasks s) t = Some (CClose, p) -> p <> R_WaitStarted -> CC (close_trigger s t).
Proof.
  intros HCC Hf Hp. pose proof HCC as [HC HK].
  pose proof (HRes_close_trigger s t) as HR. unfold close_trigger in *.
  destruct (st_fsm s) eqn:Efs; [| | | destruct (runt s) |]; try (neutral_with ltac:(exact HR); fail).
  eapply CC_close_finish; eauto. eapply not_pend; eauto.
Qed.

Lemma CC_enter_close s t :
  CC s -> find_task (tasks s) t = Some (CClose, Granted2) -> CC (enter_close s t).
Proof.
  intros HCC Hf. unfold enter_close.
  assert (HCC1 : CC (publish s PEndAll)) by (eapply CC_ext; [| | | exact HCC]; reflexivity).
  pose proof HCC1 as [HC1 HK1].
  destruct (st_fsm (publish s PEndAll)) eqn:Efs;
    try (eapply CC_close_trigger; eauto; discriminate).
  destruct (run_finished (publish s PEndAll)) as [[|]|].
  - eapply CC_close_trigger; eauto. discriminate.
  - neutral_with ltac:(hput CClose C_WaitRunFinished).
  - neutral_with relfin.
Qed.

Lemma CC_enter (s : state) (t : nat) (c : call) (part2 : bool) :
  LkS s -> FI s -> CC s -> find_task (tasks s) t = Some (c, if part2 then Granted2 else Granted1) ->
  CC (enter s t c part2).
Proof.
  intros HL HF HCC Hf. pose proof HCC as [HC HK]. unfold enter.
  pose proof (lk_compat _ _ _ HL _ _ _ Hf) as Hc.
  assert (HG : (if part2 then Granted2 else Granted1) <> R_WaitStarted) by (destruct part2; discriminate).
  assert (Hrun : runlike c = true -> CC (enter_run s t c)).
  { intros Hrl. destruct part2; [destruct c; discriminate|]. apply CC_enter_run; auto. }
  destruct c; auto.
  - unfold enter_start. destruct (st_fsm s) eqn:Efs; try (eapply CC_refuse; eauto; fail).
    neutral_with ltac:(hput CStart S_G1).
  - unfold enter_reset. destruct (st_fsm s) eqn:Efs; try (eapply CC_refuse; eauto; fail);
      (destruct (o_stmt o); [neutral_with ltac:(hput (CReset o) Z_G1) | neutral_with ltac:(hput (CReset o) Z_G1b)]).
  - destruct part2; [apply CC_enter_close; auto|].
    unfold enter_start. destruct (st_fsm s) eqn:Efs; try (eapply CC_refuse; eauto; fail).
    neutral_with ltac:(hput CClose S_G1).
Qed.

Lemma CC_acquire (s : state) (t : nat) (c : call) (part2 : bool) :
  (holder s = None -> lockq s = [] ->
   LkS (set_pc (set_holder s (Some t)) t c (if part2 then Granted2 else Granted1)) /\
   FI (set_pc (set_holder s (Some t)) t c (if part2 then Granted2 else Granted1))) ->
  CC (set_pc s t c (if part2 then WaitLock2 else WaitLock1)) ->
  CC (set_pc s t c (if part2 then Granted2 else Granted1)) ->
  CC (acquire s t c part2).
Proof.
  intros H2 HW HG. unfold acquire.
  destruct (holder s) as [h|] eqn:Eh; [eapply CC_ext; [| | | exact HW]; reflexivity|].
  destruct (lockq s) as [|t1 q] eqn:Eq; [|eapply CC_ext; [| | | exact HW]; reflexivity].
  destruct (H2 eq_refl eq_refl) as (HL2 & HF2). apply CC_enter; auto.
  - eapply CC_ext; [| | | exact HG]; reflexivity.
  - simpl. apply find_put_eq.
Qed.

Lemma nonempty_snoc {A} (l : list A) x : nonempty (l ++ [x]) = true.
Proof. destruct l; reflexivity. Qed.

Lemma CC_plain_task s s1 t c p :
  CC s -> find_task (tasks s) t = None -> tasks s1 = tasks s -> cvw s1 = cvw s -> st_fsm s1 = st_fsm s ->
  is_cont c = false -> CC (set_pc s1 t c p).
Proof.
  intros HCC Hnew Et E Ef Hc. apply (CC_same s _ t); auto; simpl.
  - rewrite Et. apply tmove_put.
  - congruence.
  - apply no_task_no_pend; [apply HCC | exact Hnew].
  - intros c0 p0 Hf0. rewrite find_put_eq in Hf0. congruence.
  - congruence.
Qed.

Lemma CC_register s t c p :
  CC s -> find_task (tasks s) t = None -> is_cont c = true -> p = WaitLock1 \/ p = Granted1 ->
  cont_closed s = false ->
  CC (set_pc (set_cont_plugins (publish (set_trace s (EvCall t c :: trace s)) (PCont true))
                               (cont_plugins s ++ [(t, false)])) t c p).
Proof.
  intros HCC Hnew Hc Hp Hncl. pose proof HCC as [HC _].
  apply (CC_update s _ t); simpl; auto; try congruence.
  - apply tmove_put.
  - apply NoDup_snoc; [apply HC | apply no_task_no_pend; auto].
  - intros x Hin. apply in_app_or in Hin. destruct Hin as [Hin | [<- | []]]; auto.
  - intros x Hin _. apply in_or_app. auto.
  - intros _. exists c, p. simpl. rewrite find_put_eq. repeat split; auto.
    destruct Hp as [-> | ->]; [left | right; left]; reflexivity.
  - intros. apply in_or_app. simpl. auto.
  - intros _. rewrite nonempty_snoc. reflexivity.
Qed.

Lemma CC_finish_free s s1 t c r :
  CC s -> tasks s1 = tasks s -> cvw s1 = cvw s -> st_fsm s1 = st_fsm s ->
  ~ In (t, false) (cont_plugins s) -> (forall c0, find_task (tasks s) t <> Some (c0, R_WaitStarted)) ->
  CC (finish_call s1 t c r).
Proof.
  intros HCC Et E Ef Hni Hnr. apply (CC_same s _ t); auto; simpl.
  - rewrite Et. intros u Hn. left. apply find_remove_neq. exact Hn.
  - congruence.
  - intros c0 p0 Hf0. rewrite find_remove_eq in Hf0. discriminate.
  - intros c0 Hf0. destruct (Hnr _ Hf0).
Qed.

Lemma CC_do_call s t c : LkS s -> FI s -> CC s -> CC (do_call s t c).
Proof.
  intros HL HF HCC. unfold do_call. destruct (find_task (tasks s) t) as [x|] eqn:Ef; auto.
  pose proof HCC as [HC HK].
  pose proof (no_task_no_pend _ _ HC Ef) as Hni.
  pose proof (cj_started _ HC) as Hst.
  assert (Hnr : forall c0, find_task (tasks s) t <> Some (c0, R_WaitStarted)) by (intros; congruence).
  assert (Hacq : forall s1 (part2 : bool), tasks s1 = tasks s -> cvw s1 = cvw s -> st_fsm s1 = st_fsm s ->
                 LkS s1 -> FI s1 -> is_cont c = false -> compat c (if part2 then Granted2 else Granted1) = true ->
                 CC (acquire s1 t c part2)).
  { intros s1 part2 Et E Efs HL1 HF1 Hc Hcp.
    apply CC_acquire; [apply take_new; auto; congruence | apply (CC_plain_task s); auto | apply (CC_plain_task s); auto]. }
  destruct c; cbn [nl_started nl_closed cont_closed running_process send_command set_trace];
    try (apply Hacq; auto; reflexivity).
  - rewrite Hst. apply (CC_finish_free s); auto.
  - destruct (nl_closed s); [apply (CC_finish_free s); auto|].
    simpl. rewrite Hst. apply Hacq; auto; reflexivity.
  - destruct (cont_closed s) eqn:Ecl; [apply (CC_finish_free s); auto|].
    apply CC_acquire; [apply (take_new _ _ _ false); [exact HL | exact HF | reflexivity] | |]; apply (CC_register s); auto.
  - destruct (cont_closed s) eqn:Ecl; [apply (CC_finish_free s); auto|].
    apply CC_acquire; [apply (take_new _ _ _ false); [exact HL | exact HF | reflexivity] | |]; apply (CC_register s); auto.
  - destruct (running_process s); [apply (CC_plain_task s) | apply (CC_finish_free s)]; auto.
  - destruct (send_command s); [apply (CC_plain_task s) | apply (CC_finish_free s)]; auto.
Qed.

(** close(): the start part is over, queue again for the close part *)
Lemma CC_requeue s t :
  LkS s -> FI s -> CC s -> holder s = Some t -> find_task (tasks s) t = Some (CClose, S_G3) ->
  CC (acquire (release s) t CClose true).
Proof.
  intros HL HF HCC Hh Hf. pose proof HF as [HP HS]. pose proof HCC as [HC HK].
  assert (Hgen : forall s' p, tasks s' = put_task (tasks (release s)) t (CClose, p) -> pend_pcb p = false ->
                              cvw s' = cvw (release s) -> st_fsm s' = st_fsm (release s) -> CC s').
  { intros s' p Et Hp E Ef. eapply (CC_same s s' t); eauto.
    - rewrite Et, release_tasks. apply tmove_rel_put.
    - rewrite E. unfold cvw. cv_simpl. reflexivity.
    - rewrite Ef, rl_fsm. auto.
    - eapply not_pend; eauto.
    - intros c' p' Hf' _ Hp'. rewrite Et, find_put_eq in Hf'. inversion Hf'; subst. destruct Hp'; subst; discriminate.
    - intros c0 H0. congruence. }
  apply CC_acquire; [| apply (Hgen _ WaitLock2); auto | apply (Hgen _ Granted2); auto].
  intros Eh _. rewrite release_holder in Eh. apply requeue_inv; auto.
  destruct (lockq s) as [|t1 q0] eqn:E0; [reflexivity|]. rewrite ?E0 in Eh. discriminate.
Qed.

Lemma CC_do_step s t : LkS s -> FI s -> CC s -> CC (do_step s t).
Proof.
  intros HL HF HCC. unfold do_step. destruct (find_task (tasks s) t) as [[c p]|] eqn:Ef; auto.
  pose proof HF as [HP HS]. pose proof HCC as [HC HK].
  pose proof (HP _ _ _ Ef) as Hok.
  pose proof (lk_compat _ _ _ HL _ _ _ Ef) as Hc.
  assert (Hnr : p <> R_WaitStarted -> forall c0, find_task (tasks s) t <> Some (c0, R_WaitStarted)) by (intros; congruence).
  destruct p; auto; simpl in Hok.
  - apply (CC_enter s t c false); auto.
  - apply (CC_enter s t c true); auto.
  - (* S_G1 *) destruct (st_fsm s) eqn:Efs; try discriminate. neutral_with ltac:(hput c S_G2).
  - neutral_with ltac:(hput c S_G3).
  - (* S_G3 *) destruct c; simpl in Hc; try discriminate.
    + neutral_with relfin.
    + apply CC_requeue; auto. apply (lk_holder_of _ _ _ HL _ _ _ Ef eq_refl).
  - (* R_WaitStarted *) destruct (started_ev s) eqn:Esv; auto. neutral_with ltac:(hput c R_G).
  - (* R_G *)
    destruct c; simpl in Hc; try discriminate; try (neutral_with relfin; fail);
      neutral_with ltac:(apply HRes_release_put; reflexivity).
  - (* Z_G1 *) destruct c; simpl in Hc; try discriminate. neutral_with ltac:(hput (CReset o) Z_G1b).
  - (* Z_G1b *)
    destruct (st_fsm s) eqn:Efs; try discriminate.
    + neutral_with ltac:(hput c Z_G3).
    + destruct (runt s) eqn:Er; [neutral_with ltac:(hput c Z_WaitRunTask) | neutral_with ltac:(hput c Z_G3)].
  - (* Z_WaitRunTask *)
    destruct (runt s) eqn:Er; auto. destruct (st_fsm s) eqn:Efs; try discriminate; neutral_with ltac:(hput c Z_G3).
  - neutral_with ltac:(hput c Z_G4).
  - neutral_with relfin.
  - (* C_WaitRunFinished *)
    destruct (run_finished s) as [[|]|] eqn:Erf; auto.
    destruct c; simpl in Hc; try discriminate. eapply CC_close_trigger; eauto. discriminate.
  - (* C_WaitRunTask *)
    destruct (runt s) eqn:Er; auto. destruct c; simpl in Hc; try discriminate.
    neutral_with ltac:(hput CClose C_G3).
  - neutral_with ltac:(hput c C_G4).
  - (* C_G4 *) destruct (st_fsm s) eqn:Efs; try discriminate.
    eapply CC_close_finish; eauto; [discriminate | eapply not_pend; eauto].
  - (* P_WaitRunFinished *)
    destruct (run_finished s) as [[|]|]; auto.
    apply (CC_finish_free s); auto; [eapply not_pend; eauto | apply Hnr; discriminate].
  - apply (CC_finish_free s); auto; [eapply not_pend; eauto | apply Hnr; discriminate].
Qed.

Definition cfv (s : state) :=
  (nl_started s, cont_closed s, run_owner s, run_cont s, started_ev s, runt s, st_fsm s, tasks s).

Lemma cf_fields n : forall s, cfv (cont_finished s n) = cfv s.
Proof. intros s. destruct (cont_finished_eq n s) as (cp & new & ->). reflexivity. Qed.

Definition unstarted (x : nat * bool) : bool := negb (snd x).

Lemma filter_snd_nil l : filter (fun x : nat * bool => snd x) l = [] -> filter unstarted l = l.
Proof.
  intros H. apply filter_all. intros [t b] Hin. unfold unstarted. simpl. destruct b; auto.
  assert (Hi : In (t, true) (filter (fun x : nat * bool => snd x) l)) by (apply filter_In; auto).
  rewrite H in Hi. destruct Hi.
Qed.

Lemma cf_plugins n : forall s, (length (filter (fun x => snd x) (cont_plugins s)) <= n)%nat ->
  cont_plugins (cont_finished s n) = filter unstarted (cont_plugins s).
Proof.
  induction n as [|n IH]; intros s Hle; simpl.
  - symmetry. apply filter_snd_nil. destruct (filter _ (cont_plugins s)); auto. simpl in Hle. lia.
  - destruct (filter (fun x => snd x) (cont_plugins s)) as [|[t b] r] eqn:E.
    + symmetry. apply filter_snd_nil. auto.
    + rewrite IH; simpl.
      * apply filter_filter_imp. intros [t' b']. unfold unstarted. simpl. destruct b'; simpl; auto; discriminate.
      * rewrite filter_comm, E. simpl. rewrite Nat.eqb_refl.
        assert (b = true).
        { assert (Hi : In (t, b) (filter (fun x => snd x) (cont_plugins s))) by (rewrite E; left; auto).
          apply filter_In in Hi. destruct Hi as (_ & Hi). exact Hi. }
        subst b. simpl. simpl in Hle. pose proof (filter_length_le (fun x : nat * bool => negb (snd x && Nat.eqb (fst x) t)) r). lia.
Qed.

Lemma cf_flag n : forall s, enabled_of (trace s) = Some (nonempty (cont_plugins s)) ->
  enabled_of (trace (cont_finished s n)) = Some (nonempty (cont_plugins (cont_finished s n))).
Proof.
  induction n as [|n IH]; intros s H; simpl; auto.
  destruct (filter _ (cont_plugins s)) as [|[t b] r]; auto.
Qed.

Lemma CC_after_finish s s3 n :
  CC s -> st_fsm s = Running -> runt s = Some RT_G_end -> svw s3 = svw s ->
  (length (cont_plugins s3) <= n)%nat ->
  CC (set_runt (cont_finished s3 n) (Some RT_G_fin)).
Proof.
  intros [HC [k1 k2 k3 k4]] Hfs Hr Ev Hn. unfold svw in Ev. injection Ev as F8 Fp F1 F2 F3 F4 Ft.
  pose proof (cf_fields n s3) as E. unfold cfv in E. injection E as E1 E2 E3 E4 E5 E6 E7 E8.
  assert (Ep : cont_plugins (cont_finished s3 n) = filter unstarted (cont_plugins s)).
  { rewrite cf_plugins; [rewrite Fp; reflexivity|]. pose proof (filter_length_le (fun x : nat * bool => snd x) (cont_plugins s3)). lia. }
  pose proof HC as [h1 h2 h3 h4 h5 h6 h7 h8].
  split; constructor; simpl; rewrite ?E1, ?E2, ?E3, ?E4, ?E8, ?Ep, ?F1, ?F2, ?F3, ?F4, ?F8; auto; try discriminate.
  - intros t' Hin. apply filter_In in Hin. destruct Hin as (Hin & _).
    destruct (h2 _ Hin) as (c & p & Hf & Hc & Hp). exists c, p. simpl. rewrite E8, F8.
    repeat split; auto. destruct Hp as [-> | [-> | (_ & _ & _ & Hfr)]]; [left | right; left |]; try reflexivity.
    rewrite Hr in Hfr. discriminate.
  - apply NoDup_filter. auto.
  - intros t' Hin. apply filter_In in Hin. destruct Hin as (_ & Hu). discriminate.
  - intros Hcl. rewrite (h6 Hcl) in Hfs. discriminate.
  - intros Hcl. rewrite <- Ep. apply cf_flag. rewrite Ft, Fp. auto.
  - intros Hcl. rewrite (h6 Hcl) in Hfs. discriminate.
  - intros t c p Hf Hc Hp. apply filter_In. split; [|reflexivity]. eauto.
Qed.

Lemma CC_run_step s s' :
  CC s -> svw s' = svw s -> st_fsm s' = st_fsm s ->
  mid (runt s') = mid (runt s) -> fresh (runt s') = fresh (runt s) ->
  (fresh (runt s') = true -> started_ev s' = started_ev s) -> CC s'.
Proof.
  intros [[h1 h2 h3 h4 h5 h6 h7 h8] [k1 k2 k3 k4]] Ev E7 Hm Hf Hev.
  unfold svw in Ev. injection Ev as E8 Ep E1 E2 E3 E4 Et.
  split; constructor; rewrite ?E1, ?E2, ?E3, ?E4, ?E7, ?E8, ?Ep, ?Et, ?Hm, ?Hf; auto.
  - intros t' Hin. destruct (h2 _ Hin) as (c & p & Hft & Hc & Hp). exists c, p. rewrite E8.
    repeat split; auto. unfold pend_pc. rewrite E3, E4, Hf. exact Hp.
  - intros H. rewrite Hev by (rewrite Hf; exact H). auto.
Qed.

(** Continue.on_start_run *)
Lemma arm_in_false r o l t : In (t, false) (arm r o l) -> In (t, false) l /\ (r && Nat.eqb t o) = false.
Proof.
  unfold arm. intros Hin. apply in_map_iff in Hin. destruct Hin as ([t' b] & Heq & Hin). simpl in Heq.
  assert (Et : t' = t) by congruence. subst t'.
  assert (Hb : b || (r && Nat.eqb t o) = false) by congruence.
  destruct b; simpl in Hb; [discriminate|]. auto.
Qed.

Lemma arm_in_true r o l t : (forall x, In x l -> snd x = false) ->
  In (t, true) (arm r o l) -> r = true /\ t = o.
Proof.
  unfold arm. intros Hall Hin. apply in_map_iff in Hin. destruct Hin as ([t' b] & Heq & Hin). simpl in Heq.
  assert (Et : t' = t) by congruence. subst t'.
  assert (Hbb : b || (r && Nat.eqb t o) = true) by congruence.
  pose proof (Hall _ Hin) as Hb. simpl in Hb. subst b. simpl in Hbb.
  destruct r; simpl in Hbb; [|discriminate]. split; auto. apply Nat.eqb_eq. auto.
Qed.

Lemma arm_nodup r o l : (forall x, In x l -> snd x = false) -> NoDup l -> NoDup (arm r o l).
Proof.
  intros Hall Hnd. unfold arm. apply NoDup_map_in; auto.
  intros [t1 b1] [t2 b2] H1 H2 Heq. pose proof (Hall _ H1) as E1. pose proof (Hall _ H2) as E2.
  simpl in *. subst. inversion Heq. reflexivity.
Qed.

Lemma arm_keeps r o l t : In (t, false) l -> t <> o -> In (t, false) (arm r o l).
Proof.
  intros Hin Hn. unfold arm. apply in_map_iff. exists (t, false). split; auto. simpl.
  apply Nat.eqb_neq in Hn. rewrite Hn, Bool.andb_false_r. reflexivity.
Qed.

Lemma arm_owner o l : In (o, false) l -> In (o, true) (arm true o l).
Proof.
  intros Hin. unfold arm. apply in_map_iff. exists (o, false). split; auto. simpl.
  rewrite Nat.eqb_refl. reflexivity.
Qed.

Lemma CC_arm s s3 :
  CC s -> runt s = Some RT_Created -> svw s3 = svw s -> st_fsm s3 = st_fsm s ->
  CC (set_runt (set_cont_plugins s3 (arm (run_cont s) (run_owner s) (cont_plugins s))) (Some RT_G_start)).
Proof.
  intros [[h1 h2 h3 h4 h5 h6 h7 h8] [k1 k2 k3 k4]] Hr Ev E7. unfold svw in Ev. injection Ev as E8 Ep E1 E2 E3 E4 Et.
  assert (Hall : forall x, In x (cont_plugins s) -> snd x = false).
  { intros [t b] Hin. destruct b; auto. destruct (h4 _ Hin) as (_ & _ & Hm). rewrite Hr in Hm. discriminate. }
  rewrite Hr in *. destruct (k2 eq_refl) as (c0 & Hf0 & Hc0).
  split; constructor; simpl; rewrite ?E1, ?E2, ?E3, ?E4, ?E7, ?Ep, ?Et, ?E8; auto; try discriminate.
  - intros t' Hin. apply arm_in_false in Hin. destruct Hin as (Hin & Hno).
    destruct (h2 _ Hin) as (c & p & Hf & Hc & Hp). exists c, p. simpl. rewrite E8.
    repeat split; auto.
    destruct Hp as [-> | [-> | (_ & Ho & Hrc & _)]]; [left | right; left |]; auto.
    rewrite Hrc, Ho, Nat.eqb_refl in Hno. discriminate.
  - apply arm_nodup; auto.
  - intros t' Hin. apply arm_in_true in Hin; auto. destruct Hin as (-> & ->). auto.
  - intros Hcl. unfold arm. rewrite nonempty_map. auto.
  - intros t c p Hf Hc Hp. apply arm_keeps; eauto.
    intros ->. rewrite Hf0 in Hf. inversion Hf; subst. destruct Hp; discriminate.
  - intros _ Hrc. rewrite Hrc. apply arm_owner. auto.
Qed.

Lemma CC_step_run s : FI s -> CC s -> CC (do_step_run s).
Proof.
  intros HF HCC. pose proof HF as [HP HS].
  unfold do_step_run. destruct (runt s) as [x|] eqn:Er; auto.
  assert (Hra : early x = true -> run_arg s <> None).
  { intros He. apply (sc_ra _ _ _ _ _ _ HS). right. eapply sc_early; eauto. }
  destruct x.
  - (* RT_New *)
    destruct (run_arg s) eqn:Era; [|exfalso; apply Hra; auto].
    apply (CC_run_step s); simpl; auto; rewrite Er; reflexivity.
  - (* RT_Created *)
    simpl. destruct (run_arg s) eqn:Era; [|exfalso; apply Hra; auto].
    apply (CC_arm s); auto.
  - (* RT_G_start *)
    apply (CC_run_step s); simpl; auto; try (rewrite Er; reflexivity); discriminate.
  - (* RT_WaitChild *)
    destruct (run_call_pending s); auto. destruct (pending_exit s) as [o|] eqn:Epe; auto.
    simpl. destruct (run_arg s) eqn:Era; [|exfalso; apply Hra; auto].
    apply (CC_run_step s); simpl; auto; try (rewrite Er; reflexivity); discriminate.
  - (* RT_G_end *)
    pose proof (sc_early _ _ _ _ _ _ HS _ eq_refl eq_refl) as Hfs.
    unfold run_finish. simpl. rewrite Hfs. apply (CC_after_finish s); auto.
  - (* RT_G_fin *)
    apply (CC_run_step s); simpl; auto; try (rewrite Er; reflexivity); discriminate.
  - (* RT_G_cs *)
    apply (CC_run_step s); simpl; auto; try (rewrite Er; reflexivity); discriminate.
Qed.

Theorem CC_step s l : LkS s -> FI s -> CC s -> CC (step s l).
Proof.
  intros HL HF HCC. destruct l; simpl.
  - apply CC_do_call; auto.
  - apply CC_do_step; auto.
  - apply CC_step_run; auto.
  - unfold do_child_exit. destruct (alive s); auto. eapply CC_ext; [| | | exact HCC]; reflexivity.
Qed.
(** the state in which start() (or a close() that starts first) has just been accepted *)
Lemma CC_first_start (s' : state) t c p :
  nl_started s' = true -> cont_plugins s' = [] -> runt s' = None -> cont_closed s' = false ->
  enabled_of (trace s') = Some false -> tasks s' = [(t, (c, p))] -> is_cont c = false -> CC s'.
Proof.
  intros E1 E2 E3 E4 E5 Et Hc.
  split; constructor; rewrite ?E2, ?E3; simpl; auto; try discriminate; try contradiction.
  - constructor.
  - rewrite E4. discriminate.
  - intros t' c' p' Hf. rewrite Et in Hf. simpl in Hf. destruct (Nat.eqb t' t); [|discriminate].
    inversion Hf; subst. intros; congruence.
Qed.

Lemma PS_CK a b c d tr : enabled_of tr <> Some true ->
  PS (set_trace (init_state a b c d) tr) /\ CK (set_trace (init_state a b c d) tr).
Proof. intros H. split; [exists a, b, c, d, tr; auto | constructor; simpl; discriminate]. Qed.

(** Before start() the state is [init_state] up to its trace, so a step computes.  The
    computation stops only at [Nat.eqb t t], where a call finds, and then removes, the entry it
    has just made: hence the rounds.  Every call but start() and close() is refused or returns
    at once and leaves [PS]; those two give the state of [CC_first_start]. *)
Lemma ContI_step_pre s l : PS s -> ContI (step s l) /\ CK (step s l).
Proof.
  intros (a & b & c & d & tr & -> & Hen). unfold ContI. destruct l as [t c0| t | | o]; simpl;
    try (apply (PS_CK a b c d); exact Hen).
  unfold do_call. simpl.
  destruct c0; do 3 (cbv -[Nat.eqb PS]; rewrite ?Nat.eqb_refl);
    first [apply (PS_CK a b c d); simpl; first [exact Hen | discriminate] | eapply CC_first_start; reflexivity].
Qed.

Lemma ContI_init a b c d : ContI (init_state a b c d).
Proof. unfold ContI. simpl. exists a, b, c, d, []. split; [reflexivity | simpl; discriminate]. Qed.

Lemma CK_init a b c d : CK (init_state a b c d).
Proof. constructor; simpl; try discriminate. Qed.

Theorem ContI_step s l : LkS s -> FI s -> ContI s -> CK s -> ContI (step s l) /\ CK (step s l).
Proof.
  intros HL HF HC HK. unfold ContI in HC. destruct (nl_started s) eqn:Ens.
  - destruct (CC_step s l HL HF (conj HC HK)) as [HC' HK']. split; auto.
    unfold ContI. rewrite (cj_started _ HC'). exact HC'.
  - apply ContI_step_pre; auto.
Qed.

Theorem ContI_reachable a b c d ls :
  LkS (run_labels (init_state a b c d) ls) /\ FI (run_labels (init_state a b c d) ls) /\
  ContI (run_labels (init_state a b c d) ls) /\ CK (run_labels (init_state a b c d) ls).
Proof.
  unfold run_labels. generalize (LkS_init a b c d) (FI_init a b c d) (ContI_init a b c d) (CK_init a b c d).
  generalize (init_state a b c d).
  induction ls as [|l ls IH]; intros s HL HF HC HK; simpl; auto.
  destruct (ContI_step s l HL HF HC HK). apply IH; [apply LkS_step | apply FI_step | |]; auto.
Qed.

Definition cont_inv (s : state) : Prop :=
  (forall t, In (t, false) (cont_plugins s) -> pend_ok s t) /\
  NoDup (cont_plugins s) /\
  (forall t, In (t, true) (cont_plugins s) ->
     t = run_owner s /\ run_cont s = true /\ mid (runt s) = true) /\
  (nl_started s = false -> cont_plugins s = []).

Lemma PS_plugins s : PS s -> cont_plugins s = [] /\ cont_closed s = false /\ enabled_of (trace s) <> Some true.
Proof. intros (a & b & c & d & tr & -> & Hen). simpl. auto. Qed.

Lemma ContI_closed s : ContI s -> cont_closed s = true -> CJ s /\ nl_started s = true.
Proof.
  unfold ContI. destruct (nl_started s); intros H Hcl; [auto|].
  destruct (PS_plugins _ H) as (_ & E & _). congruence.
Qed.

Lemma ContI_cont_inv s : ContI s -> cont_inv s.
Proof.
  unfold ContI, cont_inv. destruct (nl_started s) eqn:Ens; intros H.
  - destruct H as [h1 h2 h3 h4 h5 h6 h7 h8]. split; [|split; [|split]]; auto. discriminate.
  - destruct (PS_plugins _ H) as (E & _). rewrite E. split; [|split; [|split]]; auto; try (intros; contradiction). constructor.
Qed.

Theorem cont_inv_reachable a b c d ls : cont_inv (run_labels (init_state a b c d) ls).
Proof. apply ContI_cont_inv. apply ContI_reachable. Qed.

Theorem flag_reachable a b c d ls :
  let s := run_labels (init_state a b c d) ls in
  (nl_started s = true -> cont_closed s = false ->
   enabled_of (trace s) = Some (nonempty (cont_plugins s))) /\
  (nl_started s = false ->
   cont_plugins s = [] /\ cont_closed s = false /\ enabled_of (trace s) <> Some true).
Proof.
  intros s. destruct (ContI_reachable a b c d ls) as (_ & _ & HC & _). fold s in HC. unfold ContI in HC.
  destruct (nl_started s) eqn:Ens; split; intros; try discriminate.
  - apply (cj_flag _ HC); auto.
  - apply PS_plugins; auto.
Qed.

Theorem plain_run_reachable a b c d ls :
  let s := run_labels (init_state a b c d) ls in
  run_cont s = false -> forall x, In x (cont_plugins s) -> snd x = false.
Proof.
  intros s Hrc [t b0] Hin. destruct (cont_inv_reachable a b c d ls) as (_ & _ & H & _). fold s in H.
  destruct b0; auto. destruct (H _ Hin) as (_ & E & _). congruence.
Qed.

Lemma NoDup_all_eq {A} (l : list A) a : NoDup l -> (forall x, In x l -> x = a) -> (length l <= 1)%nat.
Proof.
  intros Hnd Hall. destruct l as [|x [|y l]]; simpl; auto.
  exfalso. inversion Hnd as [|? ? Hni _]; subst. apply Hni. left.
  rewrite (Hall x), (Hall y); simpl; auto.
Qed.

Theorem started_at_most_one a b c d ls :
  let s := run_labels (init_state a b c d) ls in
  (length (filter (fun x => snd x) (cont_plugins s)) <= 1)%nat.
Proof.
  intros s. destruct (cont_inv_reachable a b c d ls) as (_ & Hnd & H & _). fold s in Hnd, H.
  apply (NoDup_all_eq _ (run_owner s, true)).
  - apply NoDup_filter. auto.
  - intros [t b0] Hin. apply filter_In in Hin. destruct Hin as (Hin & Hb). simpl in Hb. subst b0.
    destruct (H _ Hin) as (-> & _). reflexivity.
Qed.

Definition quiet (base tr : list event) : Prop := exists new, tr = new ++ base /\ rets_of new = [].

Lemma quiet_refl base : quiet base base.
Proof. exists []. auto. Qed.

Lemma quiet_app base tr pre : rets_of pre = [] -> quiet base tr -> quiet base (pre ++ tr).
Proof. intros Hp (new & -> & Hn). exists (pre ++ new). rewrite app_assoc, rets_of_app, Hp, Hn. auto. Qed.

Lemma quiet_cons base tr e : rets_of [e] = [] -> quiet base tr -> quiet base (e :: tr).
Proof. apply (quiet_app base tr [e]). Qed.

Lemma rets_off s : rets_of (cont_off_events s) = [].
Proof. unfold cont_off_events. destruct (cont_plugins s); reflexivity. Qed.

(** [quiet base (trace _)] for a trace that is [trace s] with events in front: peel them off *)
Ltac qt :=
  cv_simpl; repeat first [apply quiet_cons; [reflexivity|] | apply quiet_app; [apply rets_off|]];
  auto using quiet_refl.

(** the step appends no return, or one as its last event; a refused continue request has its
    plugin removed and the flag re-published just before it returns *)
Definition Adds (base : list event) (s' : state) : Prop :=
  quiet base (trace s') \/
  exists t c r tr1, trace s' = EvRet t c r :: tr1 /\ quiet base tr1 /\
    (r = RMachineError -> is_cont c = true ->
     ~ In (t, false) (cont_plugins s') /\
     (cont_closed s' = false -> exists tr2, tr1 = EvPub (PCont (nonempty (cont_plugins s'))) :: tr2)).

Lemma Adds_finish base s1 t c r :
  quiet base (trace s1) -> r <> RMachineError \/ is_cont c = false -> Adds base (finish_call s1 t c r).
Proof.
  intros E Hor. right. exists t, c, r, (trace s1). simpl. repeat split; auto.
  all: intros; destruct Hor; congruence.
Qed.

Lemma Adds_refuse base s t c : quiet base (trace s) -> Adds base (refuse s t c).
Proof.
  intros E. unfold refuse. destruct (is_cont c) eqn:Ec.
  - destruct (cont_closed (release s)) eqn:Ecl; right; exists t, c, RMachineError; eexists;
      (split; [reflexivity|]); (split; [qt|]); intros _ _; (split; [apply unreg_not_in|]);
      simpl; rewrite Ecl; [discriminate | eauto].
  - apply Adds_finish; [qt | right; auto].
Qed.

(** a leaf of the walk: [Adds] for a state that is a [finish_call], or one that adds no return *)
Ltac rs :=
  lazymatch goal with |- Adds _ (finish_call _ _ _ _) => apply Adds_finish | |- _ => left end;
  qt; try (left; discriminate).

Lemma Adds_close_trigger base s t : quiet base (trace s) -> Adds base (close_trigger s t).
Proof. intros E. unfold close_trigger. destruct (st_fsm s); try destruct (runt s); rs. Qed.

Lemma Adds_enter_close base s t : quiet base (trace s) -> Adds base (enter_close s t).
Proof.
  intros E. unfold enter_close. assert (E1 : quiet base (trace (publish s PEndAll))) by qt.
  destruct (st_fsm (publish s PEndAll)); try (apply Adds_close_trigger; exact E1).
  destruct (run_finished (publish s PEndAll)) as [[|]|]; try (apply Adds_close_trigger; exact E1); rs.
Qed.

Lemma Adds_enter base s t c part2 : quiet base (trace s) -> Adds base (enter s t c part2).
Proof.
  intros E. unfold enter.
  assert (H1 : forall c0, Adds base (enter_start s t c0)).
  { intros c0. unfold enter_start. destruct (st_fsm s); try (apply Adds_refuse; exact E). rs. }
  assert (H2 : forall c0, Adds base (enter_run s t c0)).
  { intros c0. unfold enter_run. destruct (st_fsm s); try (apply Adds_refuse; exact E). rs. }
  destruct c; auto; try (left; exact E).
  - unfold enter_reset. destruct (st_fsm s); try (apply Adds_refuse; exact E); destruct (o_stmt o); rs.
  - destruct part2; auto. apply Adds_enter_close; auto.
Qed.

Lemma Adds_acquire base s t c part2 : quiet base (trace s) -> Adds base (acquire s t c part2).
Proof.
  intros E. unfold acquire. destruct (holder s); [rs|]. destruct (lockq s); [|rs].
  apply Adds_enter. exact E.
Qed.

Lemma Adds_do_call s t c : Adds (trace s) (do_call s t c).
Proof.
  pose proof (quiet_refl (trace s)) as E.
  unfold do_call. destruct (find_task (tasks s) t); [rs|].
  destruct c; cbn [nl_started nl_closed cont_closed running_process send_command set_trace];
    try (apply Adds_acquire; qt; fail).
  - destruct (nl_started s); [rs | apply Adds_acquire; qt].
  - destruct (nl_closed s); [rs|]. simpl. destruct (nl_started s); apply Adds_acquire; qt.
  - destruct (cont_closed s); [rs | apply Adds_acquire; qt].
  - destruct (cont_closed s); [rs | apply Adds_acquire; qt].
  - destruct (running_process s); rs.
  - destruct (send_command s); rs.
Qed.

Lemma Adds_do_step s t : Adds (trace s) (do_step s t).
Proof.
  pose proof (quiet_refl (trace s)) as E.
  unfold do_step. destruct (find_task (tasks s) t) as [[c p]|]; [|rs].
  destruct p; try (apply Adds_enter; exact E); try (rs; fail).
  - (* S_G3 *) destruct c; try (rs; fail). apply Adds_acquire. qt.
  - destruct (started_ev s); rs.
  - destruct c; rs.
  - destruct c; rs.
  - destruct (st_fsm s); try destruct (runt s); rs.
  - destruct (runt s); rs.
  - destruct (run_finished s) as [[|]|]; try (rs; fail). apply Adds_close_trigger. exact E.
  - destruct (runt s); rs.
  - destruct (run_finished s) as [[|]|]; rs.
Qed.

Lemma quiet_cf base n : forall s, quiet base (trace s) -> quiet base (trace (cont_finished s n)).
Proof.
  induction n as [|n IH]; intros s H; simpl; auto.
  destruct (filter _ (cont_plugins s)) as [|[t b] r]; auto. apply IH. qt.
Qed.

Lemma quiet_run_finish base s : quiet base (trace s) -> quiet base (trace (run_finish s)).
Proof. intros H. unfold run_finish. simpl. destruct (st_fsm s); simpl; auto. apply quiet_cf. qt. Qed.

Lemma quiet_step_run s : quiet (trace s) (trace (do_step_run s)).
Proof.
  pose proof (quiet_refl (trace s)) as H0.
  unfold do_step_run. destruct (runt s) as [[]|]; auto; try (apply quiet_run_finish; auto; fail); try (qt; fail).
  - destruct (run_arg s); [qt | apply quiet_run_finish; auto].
  - simpl. destruct (run_arg s); [qt | apply quiet_run_finish; qt].
  - destruct (run_call_pending s); auto. destruct (pending_exit s); auto. simpl.
    destruct (run_arg s); [qt | apply quiet_run_finish; qt].
Qed.

Theorem Adds_step s l : Adds (trace s) (step s l).
Proof.
  destruct l; simpl.
  - apply Adds_do_call.
  - apply Adds_do_step.
  - left. apply quiet_step_run.
  - left. unfold do_child_exit. destruct (alive s); apply quiet_refl.
Qed.

Theorem step_trace_grows s l : exists new, trace (step s l) = new ++ trace s.
Proof.
  destruct (Adds_step s l) as [(new & E & _) | (t & c & r & tr1 & E & (new & E1 & _) & _)].
  - exists new. exact E.
  - exists (EvRet t c r :: new). rewrite E, E1. reflexivity.
Qed.

Theorem refused_appended s l t c :
  is_cont c = true -> In (EvRet t c RMachineError) (appended s (step s l)) ->
  ~ In (t, false) (cont_plugins (step s l)) /\
  (cont_closed (step s l) = false ->
   enabled_of (trace (step s l)) = Some (nonempty (cont_plugins (step s l)))).
Proof.
  intros Hc Hin. destruct (Adds_step s l) as [(new & E & Hn) | (t0 & c0 & r0 & tr1 & E & (new & E1 & Hn) & H)].
  - rewrite (appended_ext _ _ _ E) in Hin. apply in_rev, in_rets in Hin. rewrite Hn in Hin. destruct Hin.
  - rewrite E1 in E. rewrite (appended_ext _ _ (EvRet t0 c0 r0 :: new) E) in Hin.
    apply in_rev, in_rets in Hin. simpl in Hin. rewrite Hn in Hin. destruct Hin as [Heq | []].
    inversion Heq; subst t0 c0 r0. destruct (H eq_refl Hc) as (A & B). split; auto.
    intros Hcl. destruct (B Hcl) as (tr2 & E2). rewrite E, <- E1, E2. reflexivity.
Qed.

Definition subc (ts0 ts : ttab) : Prop :=
  forall t p, find_task ts t = Some (CClose, p) -> exists p0, find_task ts0 t = Some (CClose, p0).

Lemma subc_refl ts : subc ts ts. Proof. intros t p H. eauto. Qed.

Lemma subc_put ts0 ts t c p :
  subc ts0 ts -> (c = CClose -> exists p0, find_task ts0 t = Some (CClose, p0)) ->
  subc ts0 (put_task ts t (c, p)).
Proof.
  intros H Hc t' p' Hf. destruct (Nat.eq_dec t' t) as [->|Hn].
  - rewrite find_put_eq in Hf. inversion Hf; subst. auto.
  - rewrite find_put_neq in Hf by assumption. eauto.
Qed.

Lemma subc_remove ts0 ts t : subc ts0 ts -> subc ts0 (remove_task ts t).
Proof.
  intros H t' p' Hf. destruct (Nat.eq_dec t' t) as [->|Hn].
  - rewrite find_remove_eq in Hf. discriminate.
  - rewrite find_remove_neq in Hf by assumption. eauto.
Qed.

Lemma subc_rel ts0 q ts : subc ts0 ts -> subc ts0 (rel_tasks q ts).
Proof.
  intros H t' p' Hf. destruct (find_rel_tasks q ts t') as [E | (c & p & Hf0 & _ & E)].
  - rewrite E in Hf. eauto.
  - rewrite Hf in E. inversion E; subst. eauto.
Qed.

Lemma subc_put_base ts t p : subc (put_task ts t (CClose, p)) ts.
Proof.
  intros t' p' Hf. destruct (Nat.eq_dec t' t) as [->|Hn].
  - rewrite find_put_eq. eauto.
  - rewrite find_put_neq by assumption. eauto.
Qed.

(** a CClose call in flight has set [nl_closed]; there is at most one; once the item is closed
    [nl_closed] is set and no CClose call is in flight *)
Definition Kt (ts : ttab) (nc cc : bool) : Prop :=
  (forall t p, find_task ts t = Some (CClose, p) -> nc = true) /\
  (forall t t' p p', find_task ts t = Some (CClose, p) -> find_task ts t' = Some (CClose, p') -> t = t') /\
  (cc = true -> nc = true /\ forall t p, find_task ts t <> Some (CClose, p)).

Definition K (s : state) : Prop := Kt (tasks s) (nl_closed s) (cont_closed s).

(** what a step does to the CClose entries, to nl_closed and to cont_closed: the item gets
    closed only by a CClose call that leaves the table; while it stays closed the
    publications on the flag stay [b0] *)
Definition KSb (ts0 : ttab) (nc0 cc0 : bool) (b0 : list bool) (s' : state) : Prop :=
  subc ts0 (tasks s') /\ nl_closed s' = nc0 /\
  ((cont_closed s' = cc0 /\ (cc0 = true -> cpubs (trace s') = b0)) \/
   exists t p, find_task ts0 t = Some (CClose, p) /\ find_task (tasks s') t = None).

Lemma Kt_step ts0 nc0 cc0 b0 s' : Kt ts0 nc0 cc0 -> KSb ts0 nc0 cc0 b0 s' -> K s'.
Proof.
  intros (k1 & k2 & k3) (Hs & En & Hcc). unfold K, Kt. rewrite En. repeat split.
  - intros t p Hf. destruct (Hs _ _ Hf) as (p0 & Hf0). eauto.
  - intros t t' p p' Hf Hf'. destruct (Hs _ _ Hf) as (p0 & Hf0). destruct (Hs _ _ Hf') as (p1 & Hf1). eauto.
  - destruct Hcc as [(E & _) | (t & p & Hf & Hn)].
    + rewrite E in H. apply k3; auto.
    + eauto.
  - intros t' p' Hf'. destruct (Hs _ _ Hf') as (p0 & Hf0).
    destruct Hcc as [(E & _) | (t & p & Hf & Hn)].
    + rewrite E in H. destruct (k3 H) as (_ & Hno). eapply Hno; eauto.
    + assert (t' = t) by eauto. subst t'. congruence.
Qed.

Lemma Kt_new_close ts cc t p : Kt ts false cc -> Kt (put_task ts t (CClose, p)) true cc.
Proof.
  intros (k1 & k2 & k3).
  assert (Hno : forall t' p', find_task ts t' <> Some (CClose, p')).
  { intros t' p' Hf. specialize (k1 _ _ Hf). discriminate. }
  split; [auto | split].
  - intros t1 t2 p1 p2 H1 H2.
    destruct (Nat.eq_dec t1 t) as [->|N1]; destruct (Nat.eq_dec t2 t) as [->|N2]; auto.
    + rewrite find_put_neq in H2 by assumption. exfalso. eapply Hno; eauto.
    + rewrite find_put_neq in H1 by assumption. exfalso. eapply Hno; eauto.
    + rewrite find_put_neq in H1 by assumption. exfalso. eapply Hno; eauto.
  - intros Hcc. destruct (k3 Hcc). discriminate.
Qed.

(** [subc ts0 (tasks _)] for a table made of [put_task] / [remove_task] / [rel_tasks] over one
    that is [subc ts0] *)
Ltac ksub :=
  cv_simpl; repeat first [ assumption | apply subc_remove | apply subc_rel
                   | (apply subc_put; [|first [assumption | intros _; assumption | discriminate]]) ].
(** the step leaves the three alone and publishes nothing on the flag (or the case is impossible
    once the item is closed) *)
Ltac ksame :=
  split; [ksub | split; [cv_simpl; auto | left; split; [cv_simpl; auto | intros Hcc; cv_simpl; auto; congruence]]].

Section KWalk.
Variables (ts0 : ttab) (nc0 cc0 : bool) (b0 : list bool).

Lemma KSb_refuse s t c :
  subc ts0 (tasks s) -> nl_closed s = nc0 -> cont_closed s = cc0 -> (cc0 = true -> cpubs (trace s) = b0) ->
  KSb ts0 nc0 cc0 b0 (refuse s t c).
Proof.
  intros Hs En Ec Hb. unfold refuse.
  destruct (is_cont c); [destruct (cont_closed (release s)) eqn:E; rewrite release_eq in E; simpl in E|]; ksame.
Qed.

Lemma KSb_close_trigger s t :
  subc ts0 (tasks s) -> (exists p0, find_task ts0 t = Some (CClose, p0)) ->
  nl_closed s = nc0 -> cont_closed s = cc0 -> (cc0 = true -> cpubs (trace s) = b0) ->
  KSb ts0 nc0 cc0 b0 (close_trigger s t).
Proof.
  intros Hs Hc En Ec Hb. unfold close_trigger.
  destruct (st_fsm s); try destruct (runt s); try (ksame; fail);
    (split; [ksub | split; [cv_simpl; auto |]]; right; destruct Hc as (p0 & Hf0); exists t, p0; split; auto;
     simpl; apply find_remove_eq).
Qed.

Lemma KSb_enter_close s t :
  subc ts0 (tasks s) -> (exists p0, find_task ts0 t = Some (CClose, p0)) ->
  nl_closed s = nc0 -> cont_closed s = cc0 -> (cc0 = true -> cpubs (trace s) = b0) ->
  KSb ts0 nc0 cc0 b0 (enter_close s t).
Proof.
  intros Hs Hc En Ec Hb. unfold enter_close.
  destruct (st_fsm (publish s PEndAll)); try (apply KSb_close_trigger; auto; fail).
  destruct (run_finished (publish s PEndAll)) as [[|]|]; try (apply KSb_close_trigger; auto; fail); ksame.
Qed.

Lemma KSb_enter s t c part2 :
  subc ts0 (tasks s) -> (c = CClose -> exists p0, find_task ts0 t = Some (CClose, p0)) ->
  nl_closed s = nc0 -> cont_closed s = cc0 -> (cc0 = true -> cpubs (trace s) = b0) ->
  KSb ts0 nc0 cc0 b0 (enter s t c part2).
Proof.
  intros Hs Hc En Ec Hb. unfold enter.
  assert (H1 : forall c0, (c0 = CClose -> exists p0, find_task ts0 t = Some (CClose, p0)) ->
                          KSb ts0 nc0 cc0 b0 (enter_start s t c0)).
  { intros c0 Hc0. unfold enter_start. destruct (st_fsm s); try (apply KSb_refuse; auto; fail). ksame. }
  assert (H2 : forall c0, (c0 = CClose -> exists p0, find_task ts0 t = Some (CClose, p0)) ->
                          KSb ts0 nc0 cc0 b0 (enter_run s t c0)).
  { intros c0 Hc0. unfold enter_run. destruct (st_fsm s); try (apply KSb_refuse; auto; fail). ksame. }
  destruct c; auto; try (ksame; fail).
  - unfold enter_reset. destruct (st_fsm s); try (apply KSb_refuse; auto; fail); destruct (o_stmt o); ksame.
  - destruct part2; auto. apply KSb_enter_close; auto.
Qed.

Lemma KSb_acquire s t c part2 :
  subc ts0 (tasks s) -> (c = CClose -> exists p0, find_task ts0 t = Some (CClose, p0)) ->
  nl_closed s = nc0 -> cont_closed s = cc0 -> (cc0 = true -> cpubs (trace s) = b0) ->
  KSb ts0 nc0 cc0 b0 (acquire s t c part2).
Proof.
  intros Hs Hc En Ec Hb. unfold acquire. destruct (holder s); [ksame|]. destruct (lockq s); [|ksame].
  apply KSb_enter; auto. ksub.
Qed.
End KWalk.

Lemma KSb_do_call s t c : c <> CClose \/ nl_closed s = true -> (cont_closed s = true -> nl_started s = true) ->
  KSb (tasks s) (nl_closed s) (cont_closed s) (cpubs (trace s)) (do_call s t c).
Proof.
  intros Hor Hst. pose proof (subc_refl (tasks s)) as Hs0. unfold do_call.
  destruct (find_task (tasks s) t); [ksame|].
  destruct c; cbn [nl_started nl_closed cont_closed running_process send_command set_trace];
    try (apply KSb_acquire; [exact Hs0 | discriminate | reflexivity | reflexivity | reflexivity]).
  - destruct (nl_started s) eqn:Ens; [ksame|].
    apply KSb_acquire; [exact Hs0 | discriminate | reflexivity | reflexivity | intros Hcc; specialize (Hst Hcc); congruence].
  - destruct Hor as [Hn | Hn]; [congruence|]. rewrite Hn. ksame.
  - destruct (cont_closed s) eqn:Ecl; [ksame | apply KSb_acquire; [exact Hs0 | discriminate | reflexivity | simpl; auto | intros Hcc; discriminate]].
  - destruct (cont_closed s) eqn:Ecl; [ksame | apply KSb_acquire; [exact Hs0 | discriminate | reflexivity | simpl; auto | intros Hcc; discriminate]].
  - destruct (running_process s); ksame.
  - destruct (send_command s); ksame.
Qed.

Lemma K_call_close s t : K s -> find_task (tasks s) t = None -> nl_closed s = false -> K (do_call s t CClose).
Proof.
  intros HK Ef Hnc. unfold do_call. rewrite Ef. cbn [nl_closed set_trace]. rewrite Hnc.
  unfold K in HK. rewrite Hnc in HK.
  pose proof (Kt_new_close _ _ t WaitLock1 HK) as HK1.
  cbn [nl_started set_nl_closed set_trace].
  destruct (nl_started s);
    (eapply Kt_step; [exact HK1 |];
     eapply KSb_acquire; [apply subc_put_base | intros _; eexists; apply find_put_eq | reflexivity | reflexivity | reflexivity]).
Qed.

Lemma KSb_do_step s t : LkS s -> KSb (tasks s) (nl_closed s) (cont_closed s) (cpubs (trace s)) (do_step s t).
Proof.
  intros HL. pose proof (subc_refl (tasks s)) as Hs0.
  unfold do_step. destruct (find_task (tasks s) t) as [[c p]|] eqn:Ef; [|ksame].
  pose proof (lk_compat _ _ _ HL _ _ _ Ef) as Hc.
  assert (Hc0 : c = CClose -> exists p0, find_task (tasks s) t = Some (CClose, p0)) by (intros ->; eauto).
  destruct p; try (ksame; fail); try (apply KSb_enter; auto; fail).
  - (* S_G3 *) destruct c; try (ksame; fail). apply KSb_acquire; auto; [ksub | cv_simpl; auto | cv_simpl; auto | cv_simpl; auto].
  - destruct (started_ev s); ksame.
  - destruct c; ksame.
  - destruct c; ksame.
  - destruct (st_fsm s); try destruct (runt s); ksame.
  - destruct (runt s); ksame.
  - destruct (run_finished s) as [[|]|]; try (ksame; fail).
    destruct c; simpl in Hc; try discriminate. apply KSb_close_trigger; auto.
  - destruct (runt s); try (ksame; fail). destruct c; simpl in Hc; try discriminate. ksame.
  - (* C_G4 *) destruct c; simpl in Hc; try discriminate.
    split; [ksub | split; [cv_simpl; auto |]]. right. exists t, C_G4. split; auto. simpl. apply find_remove_eq.
  - destruct (run_finished s) as [[|]|]; ksame.
Qed.

Lemma run_finish_close s : tasks (run_finish s) = tasks s /\ nl_closed (run_finish s) = nl_closed s /\
  cont_closed (run_finish s) = cont_closed s.
Proof.
  unfold run_finish. simpl. destruct (st_fsm s); simpl; auto.
  match goal with |- context [cont_finished ?x ?n] =>
    pose proof (cf_fields n x) as E; pose proof (cf_nlc n x) as E1 end.
  unfold cfv in E. injection E as E0 E2 E3 E4 E5 E6 E7 E8. rewrite E1, E2, E8. auto.
Qed.

Lemma KSb_step_run s : (cont_closed s = true -> runt s = None) ->
  KSb (tasks s) (nl_closed s) (cont_closed s) (cpubs (trace s)) (do_step_run s).
Proof.
  intros Hr.
  assert (H : tasks (do_step_run s) = tasks s /\ nl_closed (do_step_run s) = nl_closed s /\
              cont_closed (do_step_run s) = cont_closed s).
  { unfold do_step_run. destruct (runt s) as [[]|]; auto; try apply run_finish_close.
    - destruct (run_arg s); auto. apply run_finish_close.
    - simpl. destruct (run_arg s); auto. apply (run_finish_close (set_running_process s true)).
    - destruct (run_call_pending s); auto. destruct (pending_exit s); auto. simpl.
      destruct (run_arg s); auto.
      match goal with |- context [run_finish ?x] => apply (run_finish_close x) end. }
  destruct H as (E1 & E2 & E3). split; [rewrite E1; apply subc_refl | split; [auto | left; split; auto]].
  intros Hcc. unfold do_step_run. rewrite (Hr Hcc). reflexivity.
Qed.

Lemma closed_idle s : FI s -> ContI s -> cont_closed s = true -> nl_started s = true /\ runt s = None.
Proof.
  intros [_ HS] HI Hcl. destruct (ContI_closed s HI Hcl) as (HC & Ens). split; auto.
  eapply Scal_idle; eauto; rewrite (cj_closed _ HC Hcl); discriminate.
Qed.

Lemma KSb_step s l :
  LkS s -> (cont_closed s = true -> nl_started s = true /\ runt s = None) ->
  (forall t, l = Call t CClose -> nl_closed s = true) ->
  KSb (tasks s) (nl_closed s) (cont_closed s) (cpubs (trace s)) (step s l).
Proof.
  intros HL Hcs Hcl. pose proof (subc_refl (tasks s)) as Hs0. destruct l as [t c | t | | o]; simpl.
  - apply KSb_do_call; [destruct c; try (left; discriminate); right; eauto | apply Hcs].
  - apply KSb_do_step; auto.
  - apply KSb_step_run. apply Hcs.
  - unfold do_child_exit. destruct (alive s); ksame.
Qed.

Theorem K_step s l : LkS s -> (cont_closed s = true -> nl_started s = true /\ runt s = None) -> K s -> K (step s l).
Proof.
  intros HL Hcs HK.
  assert (Hd : (forall t, l = Call t CClose -> nl_closed s = true) \/ exists t, l = Call t CClose /\ nl_closed s = false).
  { destruct l as [t c | | |]; try (left; intros; discriminate).
    destruct c; try (left; intros; discriminate). destruct (nl_closed s); [left; auto | right; eauto]. }
  destruct Hd as [Hd | (t & -> & Hd)].
  - eapply Kt_step; [exact HK | apply KSb_step; auto].
  - simpl. destruct (find_task (tasks s) t) eqn:Ef; [unfold do_call; rewrite Ef; exact HK | apply K_call_close; auto].
Qed.

Theorem K_reachable a b c d ls : K (run_labels (init_state a b c d) ls).
Proof.
  induction ls as [|l ls IH] using rev_ind.
  - unfold K, Kt. simpl. repeat split; intros; discriminate.
  - rewrite run_labels_snoc. destruct (ContI_reachable a b c d ls) as (HL & HF & HI & _). apply K_step; auto. apply closed_idle; auto.
Qed.

Lemma closed_step s l : LkS s -> FI s -> ContI s -> K s -> cont_closed s = true ->
  cpubs (trace (step s l)) = cpubs (trace s) /\ cont_closed (step s l) = true.
Proof.
  intros HL HF HI (_ & _ & k3) Hcl. destruct (k3 Hcl) as (Hnc & Hno).
  destruct (KSb_step s l HL (closed_idle s HF HI)) as (_ & _ & [(E & Hb) | (t & p & Hf & _)]).
  - intros; exact Hnc.
  - split; [auto | congruence].
  - exfalso. eapply Hno; eauto.
Qed.

Theorem closed_forever a b c d ls ls' :
  let s := run_labels (init_state a b c d) ls in
  cont_closed s = true ->
  cpubs (trace (run_labels s ls')) = cpubs (trace s) /\ cont_closed (run_labels s ls') = true.
Proof.
  revert ls. induction ls' as [|l ls' IH]; intros ls s Hcl; [simpl; auto|].
  destruct (ContI_reachable a b c d ls) as (HL & HF & HI & _).
  destruct (closed_step s l HL HF HI (K_reachable a b c d ls) Hcl) as (E1 & E2).
  change (run_labels s (l :: ls')) with (run_labels (step s l) ls').
  assert (Es : step s l = run_labels (init_state a b c d) (ls ++ [l])) by (symmetry; apply run_labels_snoc).
  rewrite Es in *. destruct (IH (ls ++ [l]) E2) as (E3 & E4). split; congruence.
Qed.

Lemma closed_request s t c : cont_closed s = true -> is_cont c = true -> find_task (tasks s) t = None ->
  step s (Call t c) =
  set_trace (set_tasks s (remove_task (tasks s) t)) (EvRet t c RRuntimeError :: EvCall t c :: trace s).
Proof.
  intros Hcl Hc Hf. simpl. unfold do_call. rewrite Hf. destruct c; try discriminate; simpl; rewrite Hcl; reflexivity.
Qed.

(** the step in which the run task performs Callback._finish (on_finished) *)
Lemma run_finish_cont s : st_fsm s = Running ->
  runt (run_finish s) = Some RT_G_fin /\
  cont_plugins (run_finish s) = filter unstarted (cont_plugins s) /\
  cont_closed (run_finish s) = cont_closed s /\ nl_started (run_finish s) = nl_started s.
Proof.
  intros Hfs. unfold run_finish. simpl. rewrite Hfs. simpl.
  match goal with |- context [cont_finished ?x ?n] =>
    pose proof (cf_fields n x) as E; pose proof (cf_plugins n x) as Ep end.
  unfold cfv in E. injection E as E1 E2 E3 E4 E5 E6 E7 E8.
  repeat split; auto. rewrite Ep; auto. apply filter_length_le.
Qed.

Theorem finished_step a b c d ls :
  let s := run_labels (init_state a b c d) ls in
  runt s = Some RT_G_end ->
  let s' := step s StepRun in
  runt s' = Some RT_G_fin /\
  cont_plugins s' = filter unstarted (cont_plugins s) /\
  (forall x, In x (cont_plugins s') -> snd x = false) /\
  (cont_closed s = false -> enabled_of (trace s') = Some (nonempty (cont_plugins s'))).
Proof.
  intros s Hr s'. destruct (ContI_reachable a b c d ls) as (HL & HF & HC & HCK). fold s in HL, HF, HC, HCK.
  pose proof HF as [_ HS]. pose proof (sc_early _ _ _ _ _ _ HS _ Hr eq_refl) as Hfs.
  assert (Es' : s' = run_finish s) by (unfold s'; simpl; unfold do_step_run; rewrite Hr; reflexivity).
  destruct (run_finish_cont s Hfs) as (E1 & E2 & E3 & E4). rewrite <- Es' in *.
  repeat split; auto.
  - intros [t b0] Hin. rewrite E2 in Hin. apply filter_In in Hin. destruct Hin as (_ & Hu).
    unfold unstarted in Hu. simpl in *. destruct b0; auto.
  - intros Hcl. destruct (ContI_step s StepRun HL HF HC HCK) as (HC' & _). fold s' in HC'. unfold ContI in HC'.
    destruct (nl_started s') eqn:Ens.
    + apply (cj_flag _ HC'). congruence.
    + destruct HC' as (a0 & b1 & c0 & d0 & tr & Hs & _). rewrite Hs in E1. discriminate.
Qed.

Theorem flag_closed a b c d ls :
  let s := run_labels (init_state a b c d) ls in
  cont_closed s = true -> enabled_of (trace s) = Some false.
Proof.
  intros s Hcl. destruct (ContI_reachable a b c d ls) as (_ & _ & HI & _).
  destruct (ContI_closed s HI Hcl) as (HC & _). apply (cj_off _ HC Hcl).
Qed.

Theorem closed_step_silent a b c d ls l b0 :
  let s := run_labels (init_state a b c d) ls in
  cont_closed s = true -> ~ In (EvPub (PCont b0)) (appended s (step s l)).
Proof.
  intros s Hcl Hin. destruct (ContI_reachable a b c d ls) as (HL & HF & HC & HCK). fold s in HL, HF, HC, HCK.
  pose proof (K_reachable a b c d ls) as HK. fold s in HK.
  destruct (closed_step s l HL HF HC HK Hcl) as (E & _).
  destruct (step_trace_grows s l) as (new & En).
  rewrite (appended_ext _ _ _ En) in Hin. apply in_rev in Hin. apply in_cpubs in Hin.
  rewrite En, cpubs_app in E.
  assert (Hn : cpubs new = []).
  { apply (f_equal (@length _)) in E. rewrite app_length in E. destruct (cpubs new); auto. simpl in E. lia. }
  rewrite Hn in Hin. destruct Hin.
Qed.

Theorem refused_reachable a b c d ls l t c0 :
  let s := run_labels (init_state a b c d) ls in
  let s' := step s l in
  is_cont c0 = true -> In (EvRet t c0 RMachineError) (appended s s') ->
  ~ In (t, false) (cont_plugins s') /\
  (cont_closed s' = false -> enabled_of (trace s') = Some (nonempty (cont_plugins s'))) /\
  (cont_closed s' = true -> enabled_of (trace s') = Some false) /\
  (cont_plugins s' = [] -> enabled_of (trace s') = Some false) /\
  (cont_closed s = true -> forall b0, ~ In (EvPub (PCont b0)) (appended s s')).
Proof.
  intros s s' Hc Hin. destruct (refused_appended s l t c0 Hc Hin) as (A & B).
  fold s' in A, B.
  assert (Hoff : cont_closed s' = true -> enabled_of (trace s') = Some false).
  { intros Hcl. assert (Es : s' = run_labels (init_state a b c d) (ls ++ [l])) by (symmetry; apply run_labels_snoc).
    rewrite Es in *. apply flag_closed. exact Hcl. }
  repeat split; auto.
  - intros E. destruct (cont_closed s') eqn:Ecl; auto. rewrite (B eq_refl), E. reflexivity.
  - intros Hcl b0. apply closed_step_silent. exact Hcl.
Qed.

(** Props/C16.v quotes the next ones by name.  [plain_run_never_auto] is [plain_run_reachable]
    (the hypothesis [runt s <> None] is not needed); [started_own_run] and [registered_reachable]
    repeat conjuncts of [cont_inv_reachable] and the fields of [CK_reachable]. *)
Theorem plain_run_never_auto a b c d ls :
  let s := run_labels (init_state a b c d) ls in
  run_cont s = false -> runt s <> None -> forall x, In x (cont_plugins s) -> snd x = false.
Proof. intros s Hrc _. apply plain_run_reachable. exact Hrc. Qed.

Theorem started_own_run a b c d ls t :
  let s := run_labels (init_state a b c d) ls in
  In (t, true) (cont_plugins s) -> t = run_owner s /\ run_cont s = true /\ mid (runt s) = true.
Proof. intros s Hin. destruct (cont_inv_reachable a b c d ls) as (_ & _ & H & _). apply H. exact Hin. Qed.

Theorem CK_reachable a b c d ls : CK (run_labels (init_state a b c d) ls).
Proof. apply ContI_reachable. Qed.


(** a continue request is "active": its call waits for / has just got the lock, or
    it was accepted and its run has not yet performed on_finished *)
Definition active (s : state) : Prop :=
  (exists t c p, find_task (tasks s) t = Some (c, p) /\ is_cont c = true /\ (p = WaitLock1 \/ p = Granted1)) \/
  (run_cont s = true /\ (fresh (runt s) = true \/ mid (runt s) = true)).

Theorem registered_reachable a b c d ls :
  let s := run_labels (init_state a b c d) ls in
  (forall t c0 p, find_task (tasks s) t = Some (c0, p) -> is_cont c0 = true ->
                  p = WaitLock1 \/ p = Granted1 -> In (t, false) (cont_plugins s)) /\
  (run_cont s = true -> fresh (runt s) = true -> In (run_owner s, false) (cont_plugins s)) /\
  (run_cont s = true -> mid (runt s) = true -> In (run_owner s, true) (cont_plugins s)).
Proof.
  intros s. destruct (CK_reachable a b c d ls) as [k1 k2 k3 k4]. fold s in k1, k2, k3, k4.
  repeat split; auto.
Qed.

Lemma active_plugins s : CK s -> active s -> cont_plugins s <> [].
Proof.
  intros [k1 k2 k3 k4] [(t & c & p & Hf & Hc & Hp) | (Hrc & [Hfr | Hm])] E.
  - pose proof (k1 _ _ _ Hf Hc Hp) as Hin. rewrite E in Hin. destruct Hin.
  - pose proof (k3 Hfr Hrc) as Hin. rewrite E in Hin. destruct Hin.
  - pose proof (k4 Hm Hrc) as Hin. rewrite E in Hin. destruct Hin.
Qed.

Lemma plugins_active s : cont_inv s -> cont_plugins s <> [] -> active s.
Proof.
  intros (Hp & _ & Hr & _) Hne. destruct (cont_plugins s) as [|[t b] l] eqn:E; [congruence|].
  destruct b.
  - destruct (Hr t (or_introl eq_refl)) as (_ & Hrc & Hm). right. auto.
  - destruct (Hp t (or_introl eq_refl)) as (c & p & Hf & Hc & [-> | [-> | (_ & _ & Hrc & Hfr)]]).
    + left. exists t, c, WaitLock1. auto.
    + left. exists t, c, Granted1. auto.
    + right. auto.
Qed.

(** the flag, exactly: true while a continue request is active, false otherwise *)
Theorem flag_exact a b c d ls :
  let s := run_labels (init_state a b c d) ls in
  nl_started s = true -> cont_closed s = false ->
  (active s -> enabled_of (trace s) = Some true) /\
  (~ active s -> enabled_of (trace s) = Some false).
Proof.
  intros s Hst Hcl. destruct (flag_reachable a b c d ls) as (Hfl & _). fold s in Hfl.
  rewrite (Hfl Hst Hcl).
  pose proof (CK_reachable a b c d ls) as HK. pose proof (cont_inv_reachable a b c d ls) as HI.
  fold s in HK, HI. split; intros Ha.
  - pose proof (active_plugins _ HK Ha) as Hne. destruct (cont_plugins s); [congruence | reflexivity].
  - destruct (cont_plugins s) eqn:E; [reflexivity|]. exfalso. apply Ha. apply plugins_active; auto.
    rewrite E. discriminate.
Qed.

(** a continue request that was waiting for the lock when the object got closed:
    once it is given the lock it is refused with MachineError and nothing is published *)
Theorem refused_after_close a b c d ls t c0 :
  let s := run_labels (init_state a b c d) ls in
  cont_closed s = true -> is_cont c0 = true -> find_task (tasks s) t = Some (c0, Granted1) ->
  let s' := step s (Step t) in
  trace s' = EvRet t c0 RMachineError :: trace s /\
  ~ In (t, false) (cont_plugins s') /\ find_task (tasks s') t = None /\ cont_closed s' = true.
Proof.
  intros s Hcl Hc Hf s'. destruct (ContI_reachable a b c d ls) as (_ & _ & HI & _).
  destruct (ContI_closed s HI Hcl) as (HC & _). pose proof (cj_closed _ HC Hcl) as Hfs.
  assert (Es : s' = finish_call (unregister_cont (release s) t) t c0 RMachineError).
  { unfold s'. simpl. unfold do_step. rewrite Hf.
    destruct c0; try discriminate; simpl; unfold enter_run; rewrite Hfs; unfold refuse; simpl;
      rewrite release_eq; simpl; rewrite Hcl; reflexivity. }
  rewrite Es. cv_simpl. repeat split; auto.
  - apply unreg_not_in.
  - apply find_remove_eq.
Qed.
