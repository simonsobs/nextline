(** close(): safety (it returns ROk, leaves everything shut down, is idempotent)
    and progress (a measure, absence of deadlock, completion given the child's exit)
    on the lifecycle model.  Every statement is for every reachable state. *)
From NL Require Import Life.Model Life.LockInv Life.FsmInv Life.Hist Life.Protocol Life.FsmMoves.
From Coq Require Import Lia.

Definition only_cont (new : list event) : Prop := forall e, In e new -> exists b, e = EvPub (PCont b).

Lemma cf_trace n : forall s, exists new, trace (cont_finished s n) = new ++ trace s /\ only_cont new.
Proof. intros s. destruct (cont_finished_adds n s) as (cp & new & -> & H). exists new. split; [reflexivity | exact H]. Qed.

Lemma cf_nls n : forall s, nl_started (cont_finished s n) = nl_started s.
Proof. intros s. destruct (cont_finished_eq n s) as (cp & new & ->). reflexivity. Qed.
Lemma cf_cc n : forall s, cont_closed (cont_finished s n) = cont_closed s.
Proof. intros s. destruct (cont_finished_eq n s) as (cp & new & ->). reflexivity. Qed.
Lemma cf_sev n : forall s, started_ev (cont_finished s n) = started_ev s.
Proof. intros s. destruct (cont_finished_eq n s) as (cp & new & ->). reflexivity. Qed.
Lemma cf_holder n s : holder (cont_finished s n) = holder s. Proof. apply (slk_cont_finished n s). Qed.
Lemma cf_lockq n s : lockq (cont_finished s n) = lockq s. Proof. apply (slk_cont_finished n s). Qed.
Lemma cf_tasks n s : tasks (cont_finished s n) = tasks s. Proof. apply (slk_cont_finished n s). Qed.
Lemma cf_runt n s : runt (cont_finished s n) = runt s. Proof. apply (scal_of_fields _ _ (scal_cont_finished n s)). Qed.

(** Continuous.close(): at most one `False` publication before the item is closed *)
Lemma close_cont_eq s :
  close_cont s = publish (set_cont_closed s true) PEndCont \/
  close_cont s = publish (set_cont_closed (publish s (PCont false)) true) PEndCont.
Proof.
  unfold close_cont, cont_off_events. destruct (cont_plugins s); [left | right]; destruct s; reflexivity.
Qed.

Ltac cc_cases s := let E := fresh "Ecc" in
  match goal with |- context [close_cont ?x] => destruct (close_cont_eq x) as [E|E]; rewrite E; clear E end.

Definition TQ (Q : call -> pc -> Prop) (ts : ttab) : Prop :=
  forall t c p, find_task ts t = Some (c, p) -> Q c p.

Lemma TQ_put (Q : call -> pc -> Prop) ts t c p : TQ Q ts -> Q c p -> TQ Q (put_task ts t (c, p)).
Proof.
  intros H Hq t' c' p' Hf. destruct (Nat.eq_dec t' t) as [->|Hn].
  - rewrite find_put_eq in Hf. inversion Hf; subst. exact Hq.
  - rewrite find_put_neq in Hf by assumption. eauto.
Qed.

Lemma TQ_remove (Q : call -> pc -> Prop) ts t : TQ Q ts -> TQ Q (remove_task ts t).
Proof.
  intros H t' c' p' Hf. destruct (Nat.eq_dec t' t) as [->|Hn].
  - rewrite find_remove_eq in Hf. discriminate.
  - rewrite find_remove_neq in Hf by assumption. eauto.
Qed.

Lemma TQ_rel (Q : call -> pc -> Prop) q ts : (forall c p, Q c p -> Q c (granted_pc p)) -> TQ Q ts -> TQ Q (rel_tasks q ts).
Proof.
  intros Hg H. unfold rel_tasks. destruct q as [|t1 q]; auto.
  destruct (find_task ts t1) as [[c p]|] eqn:E; auto. apply TQ_put; auto. apply Hg. eauto.
Qed.

Lemma TQ_mono (Q Q' : call -> pc -> Prop) ts : (forall c p, Q c p -> Q' c p) -> TQ Q ts -> TQ Q' ts.
Proof. intros Hm H t c p Hf. apply Hm. eauto. Qed.

Lemma TQ_ext (Q : call -> pc -> Prop) ts ts' : teq ts ts' -> TQ Q ts -> TQ Q ts'.
Proof. intros E H t c p Hf. rewrite <- E in Hf. eauto. Qed.

Definition in_close2 (p : pc) : bool :=
  match p with C_WaitRunFinished | C_WaitRunTask | C_G3 | C_G4 => true | _ => false end.

Definition rws_ok (r : option rpc) : bool :=
  match r with Some RT_New | Some RT_Created | Some RT_G_start | Some RT_WaitChild => true | _ => false end.

Definition late4 (x : rpc) : bool :=
  match x with RT_WaitChild | RT_G_end | RT_G_fin | RT_G_cs => true | _ => false end.

Definition QC (f : fsm) (r : option rpc) (nlc : bool) (tr : list event) (c : call) (p : pc) : Prop :=
  ((p = WaitLock1 \/ p = Granted1) -> c <> CStart /\ c <> CClose) /\
  (c = CClose -> nlc = true) /\
  (in_close2 p = true -> In (EvPub PEndAll) tr) /\
  (p = R_WaitStarted -> f = Running /\ rws_ok r = true).

Record CI (s : state) : Prop := mkCI {
  ci_fresh : nl_started s = false ->
             st_fsm s = Created /\ holder s = None /\ lockq s = [] /\ nl_closed s = false;
  ci_created : nl_started s = true -> st_fsm s = Created ->
               exists t c, holder s = Some t /\ find_task (tasks s) t = Some (c, S_G1);
  ci_closed : st_fsm s = Closed -> nl_closed s = true;
  ci_sev : forall x, runt s = Some x -> late4 x = true -> started_ev s = true;
  ci_tasks : TQ (QC (st_fsm s) (runt s) (nl_closed s) (trace s)) (tasks s)
}.

Lemma QC_change f r nlc tr f' r' nlc' tr' c p :
  QC f r nlc tr c p -> (nlc = true -> nlc' = true) -> incl tr tr' ->
  (p = R_WaitStarted -> f = Running -> rws_ok r = true -> f' = Running /\ rws_ok r' = true) ->
  QC f' r' nlc' tr' c p.
Proof.
  intros (H1 & H2 & H3 & H4) Hn Hi Hr. repeat split; auto.
  - apply H1; auto.
  - apply H1; auto.
  - apply Hr; auto; apply H4; auto.
  - apply Hr; auto; apply H4; auto.
Qed.

Lemma QC_granted f r nlc tr c p : QC f r nlc tr c p -> QC f r nlc tr c (granted_pc p).
Proof.
  intros (H1 & H2 & H3 & H4). unfold QC.
  destruct p; simpl; auto; (split; [|split; [|split]]); auto; try discriminate;
    try (intros [?|?]; discriminate); intros _; apply H1; auto.
Qed.

Lemma Lk_head_neq t q t1 q' ts : Lk (Some t) q ts -> q = t1 :: q' -> t1 <> t.
Proof. intros HL -> ->. apply (holder_not_queued _ _ _ HL). left. reflexivity. Qed.

Lemma teq_remove_rel q ts t : (forall t1 q', q = t1 :: q' -> t1 <> t) ->
  teq (remove_task (rel_tasks q ts) t) (rel_tasks q (remove_task ts t)).
Proof.
  intros Hn. unfold rel_tasks. destruct q as [|t1 q']; [apply teq_refl|].
  specialize (Hn t1 q' eq_refl). rewrite find_remove_neq by assumption.
  destruct (find_task ts t1) as [[c p]|]; [|apply teq_refl].
  apply teq_remove_put_comm. congruence.
Qed.

Lemma TQ_release_remove (Q : call -> pc -> Prop) q ts t :
  Lk (Some t) q ts -> (forall c p, Q c p -> Q c (granted_pc p)) ->
  TQ Q (remove_task ts t) -> TQ Q (remove_task (rel_tasks q ts) t).
Proof.
  intros HL Hg H. eapply TQ_ext; [apply teq_sym, teq_remove_rel|].
  - intros t1 q' E. eapply Lk_head_neq; eauto.
  - apply TQ_rel; auto.
Qed.

Definition others_from (ts ts' : ttab) (t : nat) : Prop :=
  forall t' c p, t' <> t -> find_task ts' t' = Some (c, p) ->
    exists p0, find_task ts t' = Some (c, p0) /\ (p = p0 \/ p = granted_pc p0).

Lemma of_refl ts t : others_from ts ts t.
Proof. intros t' c p _ Hf. exists p. auto. Qed.
Lemma of_put ts t x : others_from ts (put_task ts t x) t.
Proof. intros t' c p Hn Hf. rewrite find_put_neq in Hf by assumption. exists p. auto. Qed.
Lemma of_remove ts t : others_from ts (remove_task ts t) t.
Proof. intros t' c p Hn Hf. rewrite find_remove_neq in Hf by assumption. exists p. auto. Qed.
Lemma of_rel q ts t : others_from ts (rel_tasks q ts) t.
Proof.
  intros t' c p _ Hf. destruct (find_rel_tasks q ts t') as [E | (c0 & p0 & Hf0 & _ & E)]; rewrite E in Hf.
  - exists p. auto.
  - inversion Hf; subst. exists p0. auto.
Qed.
Lemma granted_idem p : granted_pc (granted_pc p) = granted_pc p.
Proof. destruct p; reflexivity. Qed.
Lemma of_trans a b c t : others_from a b t -> others_from b c t -> others_from a c t.
Proof.
  intros H1 H2 t' c0 p Hn Hf. destruct (H2 _ _ _ Hn Hf) as (p1 & Hf1 & Hp1).
  destruct (H1 _ _ _ Hn Hf1) as (p0 & Hf0 & Hp0). exists p0. split; auto.
  destruct Hp1 as [->| ->]; destruct Hp0 as [->| ->]; auto. right. apply granted_idem.
Qed.
Lemma of_teq a b b' t : teq b b' -> others_from a b t -> others_from a b' t.
Proof. intros E H t' c p Hn Hf. rewrite <- E in Hf. eauto. Qed.

Lemma not_rws_nonholder s t' c p :
  LkS s -> holder s <> Some t' -> find_task (tasks s) t' = Some (c, p) -> p <> R_WaitStarted.
Proof. intros HL Hh Hf ->. apply Hh, (entry_locked _ _ _ _ _ _ HL Hf). reflexivity. Qed.

Lemma CI_build s s' t :
  LkS s -> CI s ->
  (nl_started s' = false ->
     st_fsm s' = Created /\ holder s' = None /\ lockq s' = [] /\ nl_closed s' = false) ->
  (nl_started s' = true -> st_fsm s' = Created ->
     exists t0 c, holder s' = Some t0 /\ find_task (tasks s') t0 = Some (c, S_G1)) ->
  (st_fsm s' = Closed -> nl_closed s' = true) ->
  (forall x, runt s' = Some x -> late4 x = true -> started_ev s' = true) ->
  (nl_closed s = true -> nl_closed s' = true) -> incl (trace s) (trace s') ->
  others_from (tasks s) (tasks s') t ->
  ((st_fsm s' = st_fsm s /\ runt s' = runt s) \/ holder s = Some t \/ holder s = None) ->
  (forall c p, find_task (tasks s') t = Some (c, p) ->
     QC (st_fsm s') (runt s') (nl_closed s') (trace s') c p) ->
  CI s'.
Proof.
  intros HL HC H1 H2 H3 H4 Hn Hi Ho Hs Ht. constructor; auto.
  intros t' c p Hf. destruct (Nat.eq_dec t' t) as [->|Hne]; [eauto|].
  destruct (Ho _ _ _ Hne Hf) as (p0 & Hf0 & Hp).
  pose proof (ci_tasks _ HC _ _ _ Hf0) as Hq.
  assert (Hq' : QC (st_fsm s') (runt s') (nl_closed s') (trace s') c p0).
  { eapply QC_change; eauto. intros -> Hr Hw.
    destruct Hs as [(-> & ->) | [Hh | Hh]]; auto.
    - exfalso. eapply not_rws_nonholder; eauto. congruence.
    - exfalso. eapply not_rws_nonholder; eauto. congruence. }
  destruct Hp as [->| ->]; auto. apply QC_granted; auto.
Qed.

Ltac fsimpl :=
  simpl;
  rewrite ?rl_trace, ?rl_nls, ?rl_nlc, ?rl_cc, ?rl_cp, ?rl_sev, ?rl_fsm, ?rl_runt, ?rl_rf, ?rl_alive, ?rl_pe, ?rl_ra,
          ?release_holder, ?release_lockq, ?release_tasks,
          ?ar_trace, ?ar_nls, ?ar_nlc, ?ar_cc, ?ar_sev, ?ar_fsm, ?ar_runt, ?ar_rf, ?ar_alive, ?ar_pe, ?ar_ra,
          ?apply_rest_holder, ?apply_rest_lockq, ?apply_rest_tasks;
  simpl.

Lemma holder_started s t : CI s -> holder s = Some t -> nl_started s = true.
Proof.
  intros HC Hh. destruct (nl_started s) eqn:E; auto.
  destruct (ci_fresh _ HC E) as (_ & Hn & _). congruence.
Qed.

Lemma holder_not_created s t c p :
  CI s -> holder s = Some t -> find_task (tasks s) t = Some (c, p) -> p <> S_G1 -> st_fsm s <> Created.
Proof.
  intros HC Hh Hf Hp Hcr. destruct (ci_created _ HC (holder_started _ _ HC Hh) Hcr) as (t0 & c0 & Hh0 & Hf0).
  assert (t0 = t) by congruence. subst t0. rewrite Hf in Hf0. inversion Hf0. congruence.
Qed.

Ltac incl_tac := repeat (apply incl_tl); apply incl_refl.

Ltac qc_tac :=
  unfold QC; refine (conj _ (conj _ (conj _ _)));
  [ try (intros [?|?]; discriminate) | try (intros; discriminate); auto
  | simpl; try (intros; discriminate); auto | try (intros; discriminate) ].

Ltac put_entry := let c0 := fresh "c" in let p0 := fresh "p" in let E := fresh "E" in
  intros c0 p0; rewrite find_put_eq; intros E; inversion E; subst c0 p0; clear E.

Ltac ci_side := try (intros; congruence); try (intros; discriminate); try incl_tac.

Lemma of_leave q ts t : others_from ts (remove_task (rel_tasks q ts) t) t.
Proof. eapply of_trans; [apply of_rel | apply of_remove]. Qed.
Lemma of_leave_put q ts t x : others_from ts (put_task (rel_tasks q ts) t x) t.
Proof. eapply of_trans; [apply of_rel | apply of_put]. Qed.

Lemma entry_put (Q : call -> pc -> Prop) ts t c0 p0 :
  Q c0 p0 -> forall c p, find_task (put_task ts t (c0, p0)) t = Some (c, p) -> Q c p.
Proof. intros H c p E. rewrite find_put_eq in E. inversion E; subst. exact H. Qed.
Lemma entry_gone (Q : call -> pc -> Prop) ts t : forall c p, find_task (remove_task ts t) t = Some (c, p) -> Q c p.
Proof. intros c p E. rewrite find_remove_eq in E. discriminate. Qed.

Create HintDb ci.
#[export] Hint Resolve ci_closed ci_sev of_put of_leave of_leave_put : ci.

(** a step of task [t] that holds the lock: [CI_build] with the new state computed ([fsimpl]).
    What does not close by computation is what the step can change: [ci_closed] and [ci_sev]
    (from the old state unless the step moved those fields), where the other tasks' entries come
    from (database [ci]), and the entry of [t]; what is left is the content of the case *)
Ltac hstep s t :=
  apply (CI_build s _ t); auto; fsimpl; ci_side; eauto with ci;
  try apply entry_gone; try (apply entry_put; solve [qc_tac]).

Lemma CI_close_trigger s t p :
  LkS s -> CI s -> holder s = Some t -> find_task (tasks s) t = Some (CClose, p) ->
  st_fsm s <> Created -> st_fsm s <> Running -> In (EvPub PEndAll) (trace s) ->
  CI (close_trigger s t).
Proof.
  intros HL HC Hh Hf Hncr Hnr Hin.
  pose proof (holder_started _ _ HC Hh) as Hst.
  destruct (ci_tasks _ HC _ _ _ Hf) as (_ & Hnlc & _). specialize (Hnlc eq_refl).
  unfold close_trigger. destruct (st_fsm s) eqn:Efs; try congruence.
  - hstep s t.
  - destruct (runt s) eqn:Er; hstep s t.
  - cc_cases s; hstep s t.
Qed.

Lemma CI_trace_ext s e : CI s -> CI (set_trace s (e :: trace s)).
Proof.
  intros [H1 H2 H3 H4 H5]. constructor; auto. simpl.
  eapply TQ_mono; [|exact H5]. intros c p Hq. eapply QC_change; eauto. incl_tac.
Qed.

Lemma CI_enter_close s t p :
  LkS s -> FI s -> CI s -> holder s = Some t -> find_task (tasks s) t = Some (CClose, p) ->
  st_fsm s <> Created -> CI (enter_close s t).
Proof.
  intros HL HF HC Hh Hf Hncr. unfold enter_close.
  assert (HC1 : CI (publish s PEndAll)) by (apply CI_trace_ext; auto).
  pose proof (LkS_slk _ _ (slk_publish s PEndAll) HL) as HL1.
  pose proof (holder_started _ _ HC Hh) as Hst.
  destruct (ci_tasks _ HC _ _ _ Hf) as (_ & Hnlc & _). specialize (Hnlc eq_refl).
  destruct (st_fsm (publish s PEndAll)) eqn:Efs; simpl in Efs;
    try (eapply CI_close_trigger; eauto; simpl; try congruence; auto; fail).
  destruct HF as [_ HS]. destruct (Scal_running_not_none _ _ _ _ _ _ HS Efs) as (x & Hr & He & Hrf).
  simpl. rewrite Hrf. hstep s t.
Qed.

Lemma CI_refuse s t c :
  LkS s -> CI s -> holder s = Some t -> st_fsm s <> Created -> CI (refuse s t c).
Proof.
  intros HL HC Hh Hncr. pose proof (holder_started _ _ HC Hh) as Hst.
  unfold refuse. destruct (is_cont c); [destruct (cont_closed (release s))|]; hstep s t.
Qed.

Lemma CI_enter_run s t c :
  LkS s -> CI s -> holder s = Some t -> st_fsm s <> Created -> runlike c = true ->
  CI (enter_run s t c).
Proof.
  intros HL HC Hh Hncr Hrl. pose proof (holder_started _ _ HC Hh) as Hst.
  unfold enter_run. destruct (st_fsm s) eqn:Efs; try (apply CI_refuse; auto; congruence).
  hstep s t.
  - (* [ci_sev]: the new run task is at its start *) intros x E. inversion E; subst. discriminate.
  - (* the entry of [t] *) put_entry. qc_tac.
    + intros ->. discriminate.
    + intros _. auto.
Qed.

Lemma CI_enter_reset s t o :
  LkS s -> CI s -> holder s = Some t -> st_fsm s <> Created -> CI (enter_reset s t o).
Proof.
  intros HL HC Hh Hncr. pose proof (holder_started _ _ HC Hh) as Hst.
  unfold enter_reset.
  destruct (st_fsm s) eqn:Efs; try (apply CI_refuse; auto; congruence); (destruct (o_stmt o); hstep s t).
Qed.

Lemma CI_enter s t c part2 p :
  LkS s -> FI s -> CI s -> holder s = Some t -> find_task (tasks s) t = Some (c, p) ->
  st_fsm s <> Created -> c <> CStart -> (c = CClose -> part2 = true) ->
  CI (enter s t c part2).
Proof.
  intros HL HF HC Hh Hf Hncr Hns Hcl. unfold enter. destruct c; auto; try congruence.
  - apply CI_enter_run; auto.
  - apply CI_enter_reset; auto.
  - rewrite (Hcl eq_refl). eapply CI_enter_close; eauto.
  - apply CI_enter_run; auto.
  - apply CI_enter_run; auto.
  - apply CI_enter_run; auto.
Qed.

Definition gpc (part2 : bool) : pc := if part2 then Granted2 else Granted1.
Definition wpc (part2 : bool) : pc := if part2 then WaitLock2 else WaitLock1.

Lemma QC_lock f r nlc tr c part2 p :
  p = wpc part2 \/ p = gpc part2 -> c <> CStart -> (c = CClose -> part2 = true /\ nlc = true) ->
  QC f r nlc tr c p.
Proof.
  intros Hp Hns Hcl. unfold QC. refine (conj _ (conj _ (conj _ _))).
  - intros Hp1. split; [exact Hns|]. intros Ec. destruct (Hcl Ec) as (-> & _).
    destruct Hp as [-> | ->], Hp1; discriminate.
  - intros Ec. apply Hcl, Ec.
  - destruct part2, Hp as [-> | ->]; simpl; intros; discriminate.
  - destruct part2, Hp as [-> | ->]; simpl; intros; discriminate.
Qed.

Lemma CI_acquire s t c part2 :
  LkS s -> FI s -> CI s -> nl_started s = true -> find_task (tasks s) t = None ->
  compat c (gpc part2) = true -> c <> CStart -> (c = CClose -> part2 = true /\ nl_closed s = true) ->
  CI (acquire s t c part2).
Proof.
  intros HL HF HC Hst Hfree Hcomp Hns Hcl. apply acquire_cases.
  - intros Eh Eq.
    assert (Hncr : st_fsm s <> Created).
    { intros Hcr. destruct (ci_created _ HC Hst Hcr) as (t0 & c0 & Hh0 & _). congruence. }
    set (s2 := set_pc (set_holder s (Some t)) t c (if part2 then Granted2 else Granted1)).
    destruct (take_new s t c part2 HL HF Hcomp Eh Eq) as [HL2 HF2]. fold s2 in HL2, HF2.
    assert (HC2 : CI s2).
    { unfold s2. hstep s t. apply entry_put, (QC_lock _ _ _ _ _ part2); auto. }
    eapply (CI_enter s2); eauto.
    + unfold s2. simpl. apply find_put_eq.
    + intros E. apply Hcl; auto.
  - intros _. hstep s t.
    + (* [ci_created]: the holder at the first gate of start is another task *)
      intros _ Hcr. destruct (ci_created _ HC Hst Hcr) as (t0 & c0 & Hh0 & Hf0).
      exists t0, c0. split; [congruence|]. rewrite find_put_neq; auto. intros ->. congruence.
    + (* the entry of [t] *) apply entry_put, (QC_lock _ _ _ _ _ part2); auto.
Qed.

Lemma CI_fields s s' :
  nl_started s' = nl_started s -> nl_closed s' = nl_closed s -> st_fsm s' = st_fsm s ->
  holder s' = holder s -> lockq s' = lockq s -> tasks s' = tasks s -> runt s' = runt s ->
  started_ev s' = started_ev s -> trace s' = trace s -> CI s -> CI s'.
Proof.
  intros E1 E2 E3 E4 E5 E6 E7 E8 E9 [H1 H2 H3 H4 H5].
  constructor; rewrite ?E1, ?E2, ?E3, ?E4, ?E5, ?E6, ?E7, ?E8, ?E9; auto.
Qed.

Lemma created_keep s ts' t :
  CI s -> nl_started s = true -> st_fsm s = Created ->
  holder s <> Some t -> (forall t', t' <> t -> find_task ts' t' = find_task (tasks s) t') ->
  exists t0 c, holder s = Some t0 /\ find_task ts' t0 = Some (c, S_G1).
Proof.
  intros HC Hst Hcr Hnh Hsame. destruct (ci_created _ HC Hst Hcr) as (t0 & c0 & Hh0 & Hf0).
  exists t0, c0. split; auto. rewrite Hsame; auto. intros ->. congruence.
Qed.

Lemma CI_free_step s s' t :
  LkS s -> CI s -> holder s <> Some t ->
  nl_started s' = nl_started s -> nl_closed s' = nl_closed s -> st_fsm s' = st_fsm s ->
  holder s' = holder s -> lockq s' = lockq s -> runt s' = runt s -> started_ev s' = started_ev s ->
  incl (trace s) (trace s') ->
  (forall t', t' <> t -> find_task (tasks s') t' = find_task (tasks s) t') ->
  (forall c p, find_task (tasks s') t = Some (c, p) ->
     QC (st_fsm s') (runt s') (nl_closed s') (trace s') c p) ->
  CI s'.
Proof.
  intros HL HC Hnh E1 E2 E3 E4 E5 E7 E8 Hi Hsame Hent.
  apply (CI_build s _ t); auto; rewrite ?E1, ?E2, ?E3, ?E4, ?E5, ?E7, ?E8; auto.
  - apply (ci_fresh _ HC).
  - intros Hst Hcr. eapply created_keep; eauto.
  - apply (ci_closed _ HC).
  - apply (ci_sev _ HC).
  - intros t' c p Hn Hf. rewrite Hsame in Hf by assumption. exists p. auto.
Qed.

(** [CI_free_step] with the new state computed: only [t]'s entry differs *)
Ltac free_tac HL HC Hnh :=
  eapply CI_free_step; [exact HL | exact HC | exact Hnh | | | | | | | | | |]; fsimpl; try reflexivity; ci_side;
  [ intros t' Hn; rewrite ?find_remove_neq, ?find_put_neq by assumption; reflexivity
  | first [ intros c0 p0; rewrite find_remove_eq; discriminate | put_entry; qc_tac ] ].

Lemma CI_do_call_started s t c :
  LkS s -> FI s -> CI s -> nl_started s = true -> find_task (tasks s) t = None -> CI (do_call s t c).
Proof.
  intros HL HF HC Hst Hfree. unfold do_call. rewrite Hfree.
  pose proof (free_not_holder _ _ HL Hfree) as Hnh.
  set (s0 := set_trace s (EvCall t c :: trace s)).
  assert (HC0 : CI s0) by (apply CI_trace_ext; auto).
  assert (HL0 : LkS s0) by exact HL.
  assert (HF0 : FI s0) by exact HF.
  destruct c; cbn [nl_started nl_closed cont_closed running_process send_command set_trace s0].
  - rewrite Hst. free_tac HL HC Hnh.
  - apply CI_acquire; auto; discriminate.
  - apply CI_acquire; auto; discriminate.
  - destruct (nl_closed s) eqn:Enc; [free_tac HL HC Hnh|]. simpl. rewrite Hst.
    apply CI_acquire; auto; try discriminate.
    constructor; simpl; try apply HC; auto; try congruence.
    eapply TQ_mono; [|apply (ci_tasks _ HC0)]. intros c p Hq. eapply QC_change; eauto. apply incl_refl.
  - destruct (cont_closed s); [free_tac HL HC Hnh|].
    apply CI_acquire; auto; try discriminate.
    eapply (CI_fields (publish s0 (PCont true))); auto. apply CI_trace_ext; auto.
  - destruct (cont_closed s); [free_tac HL HC Hnh|].
    apply CI_acquire; auto; try discriminate.
    eapply (CI_fields (publish s0 (PCont true))); auto. apply CI_trace_ext; auto.
  - apply CI_acquire; auto; discriminate.
  - destruct (running_process s); free_tac HL HC Hnh.
  - destruct (send_command s); free_tac HL HC Hnh.
Qed.

Lemma acquire_created s t c :
  holder s = None -> lockq s = [] -> st_fsm s = Created ->
  acquire s t c false =
  let s2 := set_pc (set_holder s (Some t)) t c Granted1 in
  match c with
  | CStart | CClose => set_pc (change_script (log_hook s2 HStart None None)) t c S_G1
  | CSignal | CSend => s2
  | _ => refuse s2 t c
  end.
Proof.
  intros Hh Hq Hf. rewrite acquire_free by assumption. cbv zeta.
  destruct c; unfold enter; rewrite ?enter_start_created, ?enter_run_created, ?enter_reset_created by exact Hf;
    reflexivity.
Qed.

Lemma CI_do_call_fresh s t c :
  LkS s -> CI s -> nl_started s = false -> find_task (tasks s) t = None -> CI (do_call s t c).
Proof.
  intros HL HC Hst Hfree. unfold do_call. rewrite Hfree.
  pose proof (free_not_holder _ _ HL Hfree) as Hnh.
  destruct (ci_fresh _ HC Hst) as (Hcr & Hh & Hq & Hnc).
  (* the start part: [t] takes the lock and is at the first gate at once *)
  assert (Hof : forall x y, others_from (tasks s) (put_task (put_task (tasks s) t x) t y) t)
    by (intros; eapply of_trans; apply of_put).
  destruct c; cbn [nl_started nl_closed cont_closed running_process send_command set_trace];
    rewrite ?Hst, ?Hnc; cbn [nl_started set_nl_closed set_trace]; rewrite ?Hst;
    try (rewrite acquire_created by (simpl; assumption); cbv zeta; unfold refuse;
         rewrite ?release_empty by (simpl; assumption)).
  - hstep s t. (* [ci_created] *) intros _ _. exists t. eexists. split; [reflexivity | apply find_put_eq].
  - free_tac HL HC Hnh.
  - free_tac HL HC Hnh.
  - hstep s t. (* [ci_created] *) intros _ _. exists t. eexists. split; [reflexivity | apply find_put_eq].
  - destruct (cont_closed s) eqn:Ecc; [|simpl; rewrite Ecc]; free_tac HL HC Hnh.
  - destruct (cont_closed s) eqn:Ecc; [|simpl; rewrite Ecc]; free_tac HL HC Hnh.
  - free_tac HL HC Hnh.
  - destruct (running_process s); free_tac HL HC Hnh.
  - destruct (send_command s); free_tac HL HC Hnh.
Qed.

Lemma CI_do_step s t : LkS s -> FI s -> CI s -> CI (do_step s t).
Proof.
  intros HL HF HC. unfold do_step. destruct (find_task (tasks s) t) as [[c p]|] eqn:Ef; auto.
  pose proof HF as [HP HS].
  pose proof (HP _ _ _ Ef) as Hok.
  pose proof (lk_compat _ _ _ HL _ _ _ Ef) as Hc.
  pose proof (ci_tasks _ HC _ _ _ Ef) as (Hq1 & Hq2 & Hq3 & Hq4).
  assert (Hhold : locked_pc p = true -> holder s = Some t /\ nl_started s = true /\ (p <> S_G1 -> st_fsm s <> Created)).
  { intros Hl. assert (Hh : holder s = Some t) by (eapply (lk_holder_of _ _ _ HL); eauto).
    repeat split; auto. eapply holder_started; eauto. intros Hp. eapply holder_not_created; eauto. }
  destruct p; simpl in Hhold; try (destruct (Hhold eq_refl) as (Hh & Hst & Hncr); clear Hhold); auto; simpl in Hok.
  - (* Granted1 *)
    destruct (Hq1 (or_intror eq_refl)) as (Hn1 & Hn2).
    eapply CI_enter; eauto; try (apply Hncr; discriminate); congruence.
  - (* Granted2 *)
    eapply CI_enter; eauto; try (apply Hncr; discriminate); destruct c; simpl in Hc; congruence.
  - (* S_G1 *) hstep s t.
  - (* S_G2 *) specialize (Hncr ltac:(discriminate)). hstep s t.
  - (* S_G3 *) specialize (Hncr ltac:(discriminate)).
    destruct c; simpl in Hc; try discriminate.
    + hstep s t.
    + (* close(): queue again for the close part *)
      destruct (lockq s) as [|t1 q] eqn:Eq.
      * rewrite acquire_free by (rewrite ?release_holder, ?release_lockq, Eq; reflexivity).
        destruct (requeue_inv s t HL HF Hh Eq) as (HL2 & HF2).
        set (s2 := set_pc (set_holder (release s) (Some t)) t CClose Granted2) in *.
        assert (HC2 : CI s2) by (unfold s2; hstep s t).
        unfold enter. eapply (CI_enter_close s2); eauto.
        -- unfold s2. simpl. apply find_put_eq.
        -- unfold s2. simpl. rewrite rl_fsm. exact Hncr.
      * rewrite (acquire_busy _ _ _ _ t1) by (rewrite release_holder, Eq; reflexivity).
        hstep s t.
  - (* R_WaitStarted *) specialize (Hncr ltac:(discriminate)).
    destruct (started_ev s); auto. hstep s t.
  - (* R_G *) specialize (Hncr ltac:(discriminate)).
    destruct c; simpl in Hc; try discriminate; hstep s t.
  - (* Z_G1 *) specialize (Hncr ltac:(discriminate)).
    destruct c; simpl in Hc; try discriminate. hstep s t.
  - (* Z_G1b *) specialize (Hncr ltac:(discriminate)). unfold reset_reinit.
    destruct (st_fsm s) eqn:Efs; try discriminate.
    + hstep s t.
    + destruct (runt s) eqn:Er; hstep s t.
  - (* Z_WaitRunTask *) specialize (Hncr ltac:(discriminate)). unfold reset_reinit.
    destruct (runt s) eqn:Er; auto. hstep s t.
  - (* Z_G3 *) specialize (Hncr ltac:(discriminate)). hstep s t.
  - (* Z_G4 *) specialize (Hncr ltac:(discriminate)). hstep s t.
  - (* C_WaitRunFinished *) specialize (Hncr ltac:(discriminate)).
    destruct (run_finished s) as [[|]|] eqn:Erf; auto.
    destruct c; simpl in Hc; try discriminate.
    eapply CI_close_trigger; eauto.
    intros Hr. destruct (Scal_running_not_none _ _ _ _ _ _ HS Hr) as (x & _ & _ & E). congruence.
  - (* C_WaitRunTask *) specialize (Hncr ltac:(discriminate)).
    destruct (runt s) eqn:Er; auto. destruct c; simpl in Hc; try discriminate.
    unfold close_enter_closed. hstep s t.
  - (* C_G3 *) specialize (Hncr ltac:(discriminate)). hstep s t.
  - (* C_G4 *) specialize (Hncr ltac:(discriminate)). cc_cases s; hstep s t.
  - (* P_WaitRunFinished *)
    destruct (run_finished s) as [[|]|]; auto.
    assert (Hnh : holder s <> Some t) by (eapply unlocked_not_holder; eauto).
    free_tac HL HC Hnh.
  - (* Sig_G *)
    assert (Hnh : holder s <> Some t) by (eapply unlocked_not_holder; eauto).
    free_tac HL HC Hnh.
Qed.

Lemma CI_notask_step s s' :
  CI s ->
  nl_started s' = nl_started s -> nl_closed s' = nl_closed s -> holder s' = holder s ->
  lockq s' = lockq s -> tasks s' = tasks s -> incl (trace s) (trace s') ->
  (nl_started s = false -> st_fsm s' = Created) ->
  (st_fsm s' = Created -> st_fsm s = Created) -> (st_fsm s' = Closed -> st_fsm s = Closed) ->
  (forall x, runt s' = Some x -> late4 x = true -> started_ev s' = true) ->
  (forall t c, find_task (tasks s) t = Some (c, R_WaitStarted) ->
     st_fsm s' = Running /\ rws_ok (runt s') = true) ->
  CI s'.
Proof.
  intros HC E1 E2 E3 E4 E5 Hi Hfr Hcr Hcl Hsev Hrws.
  constructor; rewrite ?E1, ?E2, ?E3, ?E4, ?E5; auto.
  - intros Hst. destruct (ci_fresh _ HC Hst) as (Hf & ? & ? & ?). repeat split; auto.
  - intros Hst Hc. apply (ci_created _ HC Hst). auto.
  - intros Hc. apply (ci_closed _ HC). auto.
  - intros t c p Hf. pose proof (ci_tasks _ HC _ _ _ Hf) as Hq.
    eapply QC_change; eauto. intros -> _ _. eauto.
Qed.

Lemma pending_of_rws s t c :
  LkS s -> find_task (tasks s) t = Some (c, R_WaitStarted) -> run_call_pending s = true.
Proof.
  intros HL Hf. unfold run_call_pending. rewrite (proj1 (entry_locked _ _ _ _ _ _ HL Hf) eq_refl), Hf. reflexivity.
Qed.

(** in [CI_step_run]: the run task's new pc is not past the wait for the child ([ci_sev] holds of the old state or
    is vacuous); a run() call at `started.wait()` still sees state 'running' and an early run task ([Hrws]) *)
Ltac rs_tac Hrws :=
  try solve [let x := fresh "x" in let E := fresh "E" in intros x E; inversion E; subst; discriminate];
  try solve [let t := fresh "t" in let c := fresh "c" in let Hf := fresh "Hf" in
             intros t c Hf; destruct (Hrws _ _ Hf); auto; discriminate].

Lemma CI_step_run s : LkS s -> FI s -> CI s -> CI (do_step_run s).
Proof.
  intros HL HF HC. pose proof HF as [HP HS]. unfold do_step_run.
  destruct (runt s) as [x|] eqn:Er; auto.
  assert (Hfsm : if early x then st_fsm s = Running else st_fsm s = Finished).
  { destruct (early x) eqn:Ee; [eapply sc_early | eapply sc_late]; eauto. }
  assert (Hst : nl_started s = true).
  { destruct (nl_started s) eqn:E; auto. destruct (ci_fresh _ HC E) as (Hcr & _).
    rewrite Hcr in Hfsm. destruct (early x); discriminate. }
  assert (Hra : early x = true -> run_arg s <> None).
  { intros He. apply (sc_ra _ _ _ _ _ _ HS). right. rewrite He in Hfsm. exact Hfsm. }
  assert (Hrws : forall t c, find_task (tasks s) t = Some (c, R_WaitStarted) ->
                             st_fsm s = Running /\ rws_ok (Some x) = true).
  { intros t c Hf. rewrite <- Er. apply (ci_tasks _ HC _ _ _ Hf). reflexivity. }
  pose proof (ci_sev _ HC x Er) as Hsev.
  destruct x; simpl in Hfsm.
  - (* RT_New *)
    destruct (run_arg s) eqn:Era; [|exfalso; apply Hra; auto].
    apply (CI_notask_step s); auto; fsimpl; ci_side; rs_tac Hrws.
  - (* RT_Created *)
    simpl. destruct (run_arg s) eqn:Era; [|exfalso; apply Hra; auto].
    apply (CI_notask_step s); auto; fsimpl; ci_side; rs_tac Hrws.
  - (* RT_G_start *)
    apply (CI_notask_step s); auto; fsimpl; ci_side; rs_tac Hrws.
  - (* RT_WaitChild *)
    destruct (run_call_pending s) eqn:Epend; auto. destruct (pending_exit s) as [o|] eqn:Epe; auto.
    simpl. destruct (run_arg s) eqn:Era; [|exfalso; apply Hra; auto].
    apply (CI_notask_step s); auto; fsimpl; ci_side.
    intros t c Hf. rewrite (pending_of_rws _ _ _ HL Hf) in Epend. discriminate.
  - (* RT_G_end *)
    rewrite run_finish_running by assumption.
    match goal with |- context [cont_finished ?y ?n] => destruct (cf_trace n y) as (new & Et & _) end.
    apply (CI_notask_step s); auto; simpl; rewrite ?cf_nls, ?cf_nlc, ?cf_holder, ?cf_lockq, ?cf_tasks, ?cf_fsm, ?cf_sev; simpl; ci_side;
      rs_tac Hrws.
    rewrite Et. simpl. apply incl_appr. incl_tac.
  - (* RT_G_fin *)
    apply (CI_notask_step s); auto; fsimpl; ci_side; rs_tac Hrws.
  - (* RT_G_cs *)
    apply (CI_notask_step s); auto; fsimpl; ci_side; rs_tac Hrws.
Qed.

Lemma CI_child_exit s o : CI s -> CI (do_child_exit s o).
Proof.
  intros HC. unfold do_child_exit. destruct (alive s); auto.
  apply (CI_fields s); auto.
Qed.

Theorem CI_step s l : LkS s -> FI s -> CI s -> CI (step s l).
Proof.
  intros HL HF HC. destruct l; simpl.
  - destruct (find_task (tasks s) t) eqn:Ef.
    + unfold do_call. rewrite Ef. exact HC.
    + destruct (nl_started s) eqn:Est; [apply CI_do_call_started | apply CI_do_call_fresh]; auto.
  - apply CI_do_step; auto.
  - apply CI_step_run; auto.
  - apply CI_child_exit; auto.
Qed.

Lemma CI_init a b c d : CI (init_state a b c d).
Proof.
  constructor; simpl; auto; try discriminate; intros t c0 p H; discriminate.
Qed.

Lemma inv_run s ls : LkS s -> FI s -> CI s ->
  LkS (run_labels s ls) /\ FI (run_labels s ls) /\ CI (run_labels s ls).
Proof.
  intros HL HF HC. apply (run_labels_ind (fun s => LkS s /\ FI s /\ CI s)); auto.
  clear. intros s l (HL & HF & HC). split; [|split]; [apply LkS_step | apply FI_step | apply CI_step]; auto.
Qed.

Theorem all_inv a b c d ls :
  let s := run_labels (init_state a b c d) ls in LkS s /\ FI s /\ CI s.
Proof. apply inv_run; [apply LkS_init | apply FI_init | apply CI_init]. Qed.

Definition noret (new : list event) : Prop := forall t c r, ~ In (EvRet t c r) new.

Definition Quiet (s s' : state) : Prop := exists new, trace s' = new ++ trace s /\ noret new.

(** what the close that does the work appends last (newest first): the item of
    `continuous` is closed, before it possibly one `False`, before that the broker is
    closed ONCE MORE -- atomically with the return *)
Definition close_shape (new : list event) : Prop :=
  exists coff mid, (coff = [] \/ coff = [EvPub (PCont false)]) /\
                   new = EvPub PEndCont :: coff ++ EvPub PEndAll :: mid.

Lemma close_shape0 mid : close_shape (EvPub PEndCont :: EvPub PEndAll :: mid).
Proof. exists [], mid. auto. Qed.
Lemma close_shape1 mid : close_shape (EvPub PEndCont :: EvPub (PCont false) :: EvPub PEndAll :: mid).
Proof. exists [EvPub (PCont false)], mid. auto. Qed.
Lemma close_shape_app new n1 : close_shape new -> close_shape (new ++ n1).
Proof.
  intros (coff & mid & Hc & ->). exists coff, (mid ++ n1). split; auto.
  simpl. rewrite <- app_assoc. reflexivity.
Qed.

Definition RetsClose (s s' : state) (t : nat) : Prop :=
  exists new, trace s' = EvRet t CClose ROk :: new ++ trace s /\ noret new /\ close_shape new /\
    st_fsm s' = Closed /\ cont_closed s' = true /\
    In (EvPub PEndAll) (trace s') /\ In (EvPub PEndCont) (trace s').

Definition StepOK (s s' : state) (t : nat) (c : call) : Prop :=
  Quiet s s' \/ (c = CClose /\ RetsClose s s' t) \/
  (c <> CClose /\ exists r new, trace s' = EvRet t c r :: new ++ trace s /\ noret new).

Definition StepOwn (s s' : state) (t : nat) (c : call) : Prop :=
  (Quiet s s' /\ exists p, find_task (tasks s') t = Some (c, p)) \/
  (c = CClose /\ RetsClose s s' t) \/
  (c <> CClose /\ exists r new, trace s' = EvRet t c r :: new ++ trace s /\ noret new).

Lemma StepOwn_OK s s' t c : StepOwn s s' t c -> StepOK s s' t c.
Proof. intros [(H & _) | H]; [left | right]; exact H. Qed.

Lemma noret_app a b : noret a -> noret b -> noret (a ++ b).
Proof. intros Ha Hb t c r Hin. apply in_app_or in Hin. destruct Hin; [eapply Ha | eapply Hb]; eauto. Qed.

Lemma Quiet_refl s s' : trace s' = trace s -> Quiet s s'.
Proof. intros E. exists []. split; auto. intros t c r []. Qed.

Lemma Quiet_trans s s1 s' : Quiet s s1 -> Quiet s1 s' -> Quiet s s'.
Proof.
  intros (n1 & E1 & H1) (n2 & E2 & H2). exists (n2 ++ n1). split.
  - rewrite E2, E1, app_assoc. reflexivity.
  - apply noret_app; auto.
Qed.

Lemma StepOwn_pre s s1 s' t c : Quiet s s1 -> StepOwn s1 s' t c -> StepOwn s s' t c.
Proof.
  intros HQ [(H & Hp) | [(Hc & new & E & Hn & Hrest) | (Hc & r & new & E & Hn)]].
  - left. split; [eapply Quiet_trans; eauto | exact Hp].
  - right. left. split; auto. destruct HQ as (n1 & E1 & H1). exists (new ++ n1).
    destruct Hrest as (Hsh & Hrest).
    split; [|split; [|split; auto]]. + rewrite E, E1, app_assoc. reflexivity. + apply noret_app; auto.
    + apply close_shape_app; auto.
  - right. right. split; auto. destruct HQ as (n1 & E1 & H1). exists r, (new ++ n1).
    split. + rewrite E, E1, app_assoc. reflexivity. + apply noret_app; auto.
Qed.

Ltac noret_tac := let H := fresh in intros ? ? ? H; simpl in H; intuition discriminate.

(** the appended events are read off the new trace ([Suf]); what is left is about them *)
Ltac ext_tac :=
  fsimpl; eexists; split;
  [ try apply f_equal; apply Suf_eq; repeat constructor | first [noret_tac | split; [noret_tac|]] ].

Ltac quiet_tac := unfold Quiet; ext_tac.

(** the task has moved to another pc and nothing was returned; nothing has happened *)
Ltac stay := left; split; [quiet_tac | eexists; fsimpl; apply find_put_eq].
Ltac idle Ef := left; split; [apply Quiet_refl; reflexivity | eexists; exact Ef].

Lemma SO_refuse s t c : c <> CClose -> StepOwn s (refuse s t c) t c.
Proof.
  intros Hc. right. right. split; auto. unfold refuse.
  destruct (is_cont c); [destruct (cont_closed (release s))|]; eexists; ext_tac.
Qed.

Lemma SO_close_trigger s t : StepOwn s (close_trigger s t) t CClose.
Proof.
  unfold close_trigger, close_enter_closed. destruct (st_fsm s) eqn:Efs; try (stay; fail).
  - destruct (runt s); stay.
  - right. left. split; auto. cc_cases s; (unfold RetsClose; ext_tac; fsimpl; repeat split; simpl; auto 8 using close_shape0, close_shape1).
Qed.

Lemma SO_enter_close s t :
  (st_fsm s = Running -> run_finished s = Some false) -> StepOwn s (enter_close s t) t CClose.
Proof.
  intros Hrf. unfold enter_close.
  assert (HQ : Quiet s (publish s PEndAll)) by quiet_tac.
  destruct (st_fsm (publish s PEndAll)) eqn:Efs; simpl in Efs;
    try (eapply StepOwn_pre; [exact HQ | apply SO_close_trigger]; fail).
  simpl. rewrite (Hrf Efs). stay.
Qed.

Lemma SO_enter_run s t c : c <> CClose -> StepOwn s (enter_run s t c) t c.
Proof.
  intros Hc. unfold enter_run. destruct (st_fsm s); try (apply SO_refuse; exact Hc). stay.
Qed.

Lemma SO_enter s t c part2 p :
  find_task (tasks s) t = Some (c, p) ->
  (c = CClose -> part2 = true \/ st_fsm s = Created) ->
  (st_fsm s = Running -> run_finished s = Some false) ->
  StepOwn s (enter s t c part2) t c.
Proof.
  intros Ef Hcl Hrf. unfold enter.
  destruct c; try (apply SO_enter_run; discriminate); try (idle Ef).
  - unfold enter_start. destruct (st_fsm s); try (apply SO_refuse; discriminate). stay.
  - unfold enter_reset. destruct (st_fsm s); try (apply SO_refuse; discriminate);
      (destruct (o_stmt o); stay).
  - destruct part2; [apply SO_enter_close; auto|].
    destruct (Hcl eq_refl) as [?|Hcr]; [discriminate|].
    rewrite enter_start_created by assumption. stay.
Qed.

Lemma SO_acquire s t c part2 :
  (c = CClose -> part2 = true \/ st_fsm s = Created) ->
  (st_fsm s = Running -> run_finished s = Some false) ->
  StepOwn s (acquire s t c part2) t c.
Proof.
  intros Hcl Hrf. apply acquire_cases; [intros _ _ | intros _; stay].
  eapply StepOwn_pre; [|eapply SO_enter; [apply find_put_eq | simpl; auto | simpl; auto]].
  apply Quiet_refl. reflexivity.
Qed.

Lemma FI_rf s : FI s -> st_fsm s = Running -> run_finished s = Some false.
Proof.
  intros [_ HS] Hr. destruct (Scal_running_not_none _ _ _ _ _ _ HS Hr) as (x & _ & _ & E). exact E.
Qed.

Definition Again (s s' : state) (t : nat) : Prop :=
  nl_closed s = true /\ s' = set_trace s (EvRet t CClose ROk :: EvCall t CClose :: trace s).

Lemma remove_absent ts t : find_task ts t = None -> remove_task ts t = ts.
Proof.
  induction ts as [|[t' x] ts IH]; simpl; auto.
  destruct (Nat.eqb t t'); [discriminate|]. intros H. rewrite IH; auto.
Qed.

Lemma again_eq s t : find_task (tasks s) t = None ->
  finish_call (set_trace s (EvCall t CClose :: trace s)) t CClose ROk =
  set_trace s (EvRet t CClose ROk :: EvCall t CClose :: trace s).
Proof.
  intros Hf. unfold finish_call, add_ret. simpl. rewrite remove_absent by assumption.
  destruct s; reflexivity.
Qed.

Lemma SO_do_call s t c :
  FI s -> CI s -> find_task (tasks s) t = None ->
  (c = CClose /\ Again s (do_call s t c) t) \/
  ((c = CClose -> nl_closed s = false) /\ StepOK s (do_call s t c) t c).
Proof.
  intros HF HC Hfree. unfold do_call. rewrite Hfree.
  pose proof (FI_rf _ HF) as Hrf.
  destruct (match c with CClose => nl_closed s | _ => false end) eqn:Eag.
  { destruct c; try discriminate. left. cbn [nl_closed set_trace]. rewrite Eag.
    split; auto. split; auto. apply again_eq; auto. }
  right. split; [intros ->; exact Eag|]. apply StepOwn_OK.
  set (s0 := set_trace s (EvCall t c :: trace s)).
  assert (HQ0 : Quiet s s0) by (unfold s0; quiet_tac).
  destruct c; cbn [nl_started nl_closed cont_closed running_process send_command set_trace s0].
  - destruct (nl_started s).
    + right. right. split; [discriminate|]. eexists. ext_tac.
    + eapply StepOwn_pre; [|apply SO_acquire; simpl; auto; discriminate]. quiet_tac.
  - eapply StepOwn_pre; [exact HQ0 | apply SO_acquire; simpl; auto; discriminate].
  - eapply StepOwn_pre; [exact HQ0 | apply SO_acquire; simpl; auto; discriminate].
  - rewrite Eag. simpl. destruct (nl_started s) eqn:Est.
    + eapply StepOwn_pre; [|apply SO_acquire; simpl; auto]. quiet_tac.
    + destruct (ci_fresh _ HC Est) as (Hcr & _).
      eapply StepOwn_pre; [|apply SO_acquire; simpl; auto]. quiet_tac.
  - destruct (cont_closed s).
    + right. right. split; [discriminate|]. eexists. ext_tac.
    + eapply StepOwn_pre; [|apply SO_acquire; simpl; auto; discriminate]. quiet_tac.
  - destruct (cont_closed s).
    + right. right. split; [discriminate|]. eexists. ext_tac.
    + eapply StepOwn_pre; [|apply SO_acquire; simpl; auto; discriminate]. quiet_tac.
  - eapply StepOwn_pre; [exact HQ0 | apply SO_acquire; simpl; auto; discriminate].
  - destruct (running_process s).
    + stay.
    + right. right. split; [discriminate|]. eexists. ext_tac.
  - destruct (send_command s).
    + stay.
    + right. right. split; [discriminate|]. eexists. ext_tac.
Qed.

Lemma noret_only_cont new : only_cont new -> noret new.
Proof. intros H t c r Hin. destruct (H _ Hin) as (b & E). discriminate. Qed.

Lemma StepOwn_do_step s t c p :
  LkS s -> FI s -> CI s -> find_task (tasks s) t = Some (c, p) -> StepOwn s (do_step s t) t c.
Proof.
  intros HL HF HC Ef. unfold do_step. rewrite Ef.
  pose proof (FI_rf _ HF) as Hrf. pose proof HF as [HP HS].
  pose proof (HP _ _ _ Ef) as Hok.
  pose proof (lk_compat _ _ _ HL _ _ _ Ef) as Hc.
  pose proof (ci_tasks _ HC _ _ _ Ef) as (Hq1 & Hq2 & Hq3 & Hq4).
  destruct p; simpl in Hok; try (stay; fail); try (idle Ef).
  - (* Granted1 *) apply (SO_enter _ _ _ _ _ Ef); auto.
    intros ->. destruct (Hq1 (or_intror eq_refl)) as (_ & Hn). congruence.
  - (* Granted2 *) apply (SO_enter _ _ _ _ _ Ef); auto.
  - (* S_G3 *)
    assert (HQ : Quiet s (release s)) by (apply Quiet_refl; apply rl_trace).
    destruct c; simpl in Hc; try discriminate.
    + right. right. split; [discriminate|]. eexists. ext_tac.
    + eapply StepOwn_pre; [exact HQ|]. apply SO_acquire; auto. rewrite rl_fsm, rl_rf. exact Hrf.
  - (* R_WaitStarted *) destruct (started_ev s); [stay | idle Ef].
  - (* R_G *)
    destruct c; simpl in Hc; try discriminate;
      first [ stay | right; right; split; [discriminate|]; eexists; ext_tac ].
  - (* Z_G1 *) destruct c; simpl in Hc; try discriminate. stay.
  - (* Z_G1b *) unfold reset_reinit. destruct (st_fsm s); try (stay; fail). destruct (runt s); stay.
  - (* Z_WaitRunTask *) unfold reset_reinit. destruct (runt s); [idle Ef | stay].
  - (* Z_G4 *) destruct c; simpl in Hc; try discriminate. right. right. split; [discriminate|]. eexists. ext_tac.
  - (* C_WaitRunFinished *)
    destruct c; simpl in Hc; try discriminate.
    destruct (run_finished s) as [[|]|]; try (idle Ef). apply SO_close_trigger.
  - (* C_WaitRunTask *) destruct c; simpl in Hc; try discriminate.
    unfold close_enter_closed. destruct (runt s); [idle Ef | stay].
  - (* C_G4 *)
    destruct c; simpl in Hc; try discriminate. right. left. split; auto.
    cc_cases s; (unfold RetsClose; ext_tac; fsimpl;
                 destruct (st_fsm s); try discriminate; repeat split; simpl; auto 8 using close_shape0, close_shape1).
  - (* P_WaitRunFinished *)
    destruct (run_finished s) as [[|]|]; try (idle Ef).
    destruct c; simpl in Hc; try discriminate; right; right; (split; [discriminate|]); eexists; ext_tac.
  - (* Sig_G *)
    destruct c; simpl in Hc; try discriminate; right; right; (split; [discriminate|]); eexists; ext_tac.
Qed.

Lemma SO_do_step s t c p :
  LkS s -> FI s -> CI s -> find_task (tasks s) t = Some (c, p) -> StepOK s (do_step s t) t c.
Proof. intros HL HF HC Ef. eapply StepOwn_OK, StepOwn_do_step; eauto. Qed.

Lemma Quiet_run_finish s : Quiet s (run_finish s).
Proof.
  unfold run_finish. simpl. destruct (st_fsm s); try (apply Quiet_refl; reflexivity).
  match goal with |- context [cont_finished ?y ?n] => destruct (cf_trace n y) as (new & Et & Hoc) end.
  exists (new ++ [EvHook (mkHook HFinished Finished None None None)]). split.
  - simpl. rewrite Et. simpl. rewrite <- app_assoc. reflexivity.
  - apply noret_app; [apply noret_only_cont; auto | noret_tac].
Qed.

Lemma Quiet_step_run s : Quiet s (do_step_run s).
Proof.
  unfold do_step_run. destruct (runt s) as [[]|]; try (apply Quiet_refl; reflexivity); try quiet_tac.
  - destruct (run_arg s); [apply Quiet_refl; reflexivity | apply Quiet_run_finish].
  - simpl. destruct (run_arg s); [quiet_tac|].
    eapply Quiet_trans; [|apply Quiet_run_finish]. apply Quiet_refl. reflexivity.
  - destruct (run_call_pending s); [apply Quiet_refl; reflexivity|].
    destruct (pending_exit s); [|apply Quiet_refl; reflexivity]. simpl.
    destruct (run_arg s); [quiet_tac|].
    eapply Quiet_trans; [|apply Quiet_run_finish]. apply Quiet_refl. reflexivity.
  - apply Quiet_run_finish.
Qed.

Lemma Quiet_child_exit s o : Quiet s (do_child_exit s o).
Proof. unfold do_child_exit. destruct (alive s); apply Quiet_refl; reflexivity. Qed.

Definition closed_down (s : state) : Prop :=
  st_fsm s = Closed /\ alive s = 0%nat /\ pending_exit s = None /\ runt s = None /\
  cont_closed s = true /\ In (EvPub PEndAll) (trace s) /\ In (EvPub PEndCont) (trace s).

Lemma Quiet_no_ret s s' t c r : Quiet s s' -> ~ In (EvRet t c r) (appended s s').
Proof.
  intros (new & E & Hn) Hin. rewrite (appended_ext _ _ _ E) in Hin. apply in_rev in Hin. eapply Hn; eauto.
Qed.

Lemma StepOK_ret s s' t0 c t r :
  StepOK s s' t0 c -> In (EvRet t CClose r) (appended s s') ->
  t = t0 /\ c = CClose /\ r = ROk /\ RetsClose s s' t0.
Proof.
  intros [HQ | [(Hc & HR) | (Hc & r0 & new & E & Hn)]] Hin.
  - exfalso. eapply Quiet_no_ret; eauto.
  - destruct HR as (new & E & Hn & Hrest).
    change (EvRet t0 CClose ROk :: new ++ trace s) with ((EvRet t0 CClose ROk :: new) ++ trace s) in E.
    pose proof Hin as Hin'. rewrite (appended_ext _ _ _ E) in Hin'. apply in_rev in Hin'.
    destruct Hin' as [Heq | Hin'].
    + inversion Heq; subst. repeat split; auto. exists new. auto.
    + exfalso. eapply Hn; eauto.
  - change (EvRet t0 c r0 :: new ++ trace s) with ((EvRet t0 c r0 :: new) ++ trace s) in E.
    rewrite (appended_ext _ _ _ E) in Hin. apply in_rev in Hin.
    destruct Hin as [Heq | Hin].
    + inversion Heq; subst. congruence.
    + exfalso. eapply Hn; eauto.
Qed.

Lemma closed_scal s : FI s -> st_fsm s = Closed -> alive s = 0%nat /\ pending_exit s = None /\ runt s = None.
Proof.
  intros [_ HS] Hc. assert (Hr : runt s = None) by (eapply Scal_idle; eauto; congruence).
  pose proof (sc_child _ _ _ _ _ _ HS) as Hch. rewrite Hr in Hch. simpl in Hch. tauto.
Qed.

Lemma RetsClose_down s s' t : FI s' -> RetsClose s s' t -> closed_down s'.
Proof.
  intros HF (new & E & Hn & _ & Hc & Hcc & Hi1 & Hi2).
  destruct (closed_scal _ HF Hc) as (Ha & Hp & Hr). repeat split; auto.
Qed.

Lemma close_returns s l t r :
  LkS s -> FI s -> CI s -> In (EvRet t CClose r) (appended s (step s l)) ->
  r = ROk /\
  ((RetsClose s (step s l) t /\
    ((l = Call t CClose /\ nl_closed s = false /\ find_task (tasks s) t = None) \/
     (l = Step t /\ exists p, find_task (tasks s) t = Some (CClose, p)))) \/
   (l = Call t CClose /\ nl_closed s = true /\ find_task (tasks s) t = None /\
    step s l = set_trace s (EvRet t CClose ROk :: EvCall t CClose :: trace s))).
Proof.
  intros HL HF HC Hin.
  destruct l as [t0 c | t0 | | o]; simpl in *.
  - destruct (find_task (tasks s) t0) eqn:Ef.
    + exfalso. unfold do_call in Hin. rewrite Ef in Hin.
      eapply Quiet_no_ret; [|exact Hin]. apply Quiet_refl. reflexivity.
    + destruct (SO_do_call s t0 c HF HC Ef) as [(-> & Hnc & Heq) | (Hnc & HS)].
      * rewrite Heq in Hin.
        rewrite (appended_ext s _ [EvRet t0 CClose ROk; EvCall t0 CClose]) in Hin by reflexivity.
        simpl in Hin. destruct Hin as [Hin | [Hin | []]]; [discriminate|]. inversion Hin; subst.
        split; auto.
      * destruct (StepOK_ret _ _ _ _ _ _ HS Hin) as (-> & -> & -> & HR).
        split; auto. left. split; [exact HR|]. left. auto.
  - destruct (find_task (tasks s) t0) as [[c p]|] eqn:Ef.
    + destruct (StepOK_ret _ _ _ _ _ _ (SO_do_step s t0 c p HL HF HC Ef) Hin) as (-> & -> & -> & HR).
      split; auto. left. split; [exact HR|]. right. eauto.
    + exfalso. unfold do_step in Hin. rewrite Ef in Hin.
      eapply Quiet_no_ret; [|exact Hin]. apply Quiet_refl. reflexivity.
  - exfalso. eapply Quiet_no_ret; [|exact Hin]. apply Quiet_step_run.
  - exfalso. eapply Quiet_no_ret; [|exact Hin]. apply Quiet_child_exit.
Qed.

Lemma fsm_closed_step s l : FI s -> st_fsm s = Closed -> st_fsm (step s l) = Closed.
Proof.
  intros HF Hc. destruct (fsm_step s l HF) as [H|H]; [congruence|].
  rewrite Hc in H. destruct (st_fsm (step s l)); simpl in H; tauto.
Qed.

Lemma closed_absorbing s ls : LkS s -> FI s -> CI s -> st_fsm s = Closed -> st_fsm (run_labels s ls) = Closed.
Proof.
  intros HL HF HC Hc.
  apply (run_labels_ind (fun s => (LkS s /\ FI s /\ CI s) /\ st_fsm s = Closed)); auto.
  clear. intros s l ((HL & HF & HC) & Hc). split; [apply (inv_run s [l]) | apply fsm_closed_step]; auto.
Qed.

Lemma close_again_noop s t :
  CI s -> st_fsm s = Closed -> find_task (tasks s) t = None ->
  step s (Call t CClose) = set_trace s (EvRet t CClose ROk :: EvCall t CClose :: trace s).
Proof.
  intros HC Hc Hf. simpl. unfold do_call. rewrite Hf.
  cbn [nl_closed set_trace]. rewrite (ci_closed _ HC Hc). apply again_eq. exact Hf.
Qed.

Theorem close_returns_reachable : forall stmt start th md ls l t r,
  let s := run_labels (init_state stmt start th md) ls in
  In (EvRet t CClose r) (appended s (step s l)) ->
  r = ROk /\
  ((closed_down (step s l) /\
    ((l = Call t CClose /\ nl_closed s = false /\ find_task (tasks s) t = None) \/
     (l = Step t /\ exists p, find_task (tasks s) t = Some (CClose, p)))) \/
   (l = Call t CClose /\ nl_closed s = true /\ find_task (tasks s) t = None /\
    step s l = set_trace s (EvRet t CClose ROk :: EvCall t CClose :: trace s))).
Proof.
  intros stmt start th md ls l t r s Hin. destruct (all_inv stmt start th md ls) as (HL & HF & HC).
  destruct (close_returns s l t r HL HF HC Hin) as (Hr & [(HR & Hl) | Hl]); split; auto.
  left. split; [|exact Hl]. eapply RetsClose_down; [apply FI_step; eassumption | exact HR].
Qed.

Theorem close_never_raises : forall stmt start th md ls l t r,
  let s := run_labels (init_state stmt start th md) ls in
  In (EvRet t CClose r) (appended s (step s l)) ->
  r <> RAttributeError /\ r <> RMachineError /\ r <> RRuntimeError /\ r <> RAssertionError.
Proof.
  intros stmt start th md ls l t r s Hin.
  destruct (close_returns_reachable stmt start th md ls l t r Hin) as (-> & _).
  repeat split; discriminate.
Qed.

Theorem close_idempotent : forall stmt start th md ls,
  let s := run_labels (init_state stmt start th md) ls in
  st_fsm s = Closed ->
  (forall ls', st_fsm (run_labels s ls') = Closed) /\
  (forall ls' t, let s' := run_labels s ls' in
     find_task (tasks s') t = None ->
     step s' (Call t CClose) = set_trace s' (EvRet t CClose ROk :: EvCall t CClose :: trace s')).
Proof.
  intros stmt start th md ls s Hc. destruct (all_inv stmt start th md ls) as (HL & HF & HC).
  split.
  - intros ls'. apply closed_absorbing; auto.
  - intros ls' t s' Hf. destruct (inv_run s ls' HL HF HC) as (HL' & HF' & HC').
    apply close_again_noop; auto. apply closed_absorbing; auto.
Qed.

Theorem no_child_after_close : forall stmt start th md ls,
  let s := run_labels (init_state stmt start th md) ls in
  st_fsm s = Closed ->
  alive s = 0%nat /\ runt s = None /\ pending_exit s = None /\
  forall ls', alive (run_labels s ls') = 0%nat /\ runt (run_labels s ls') = None.
Proof.
  intros stmt start th md ls s Hc. destruct (all_inv stmt start th md ls) as (HL & HF & HC).
  destruct (closed_scal _ HF Hc) as (Ha & Hp & Hr). repeat split; auto.
  - destruct (inv_run s ls' HL HF HC) as (HL' & HF' & HC').
    apply (closed_scal _ HF'). apply closed_absorbing; auto.
  - destruct (inv_run s ls' HL HF HC) as (HL' & HF' & HC').
    apply (closed_scal _ HF'). apply closed_absorbing; auto.
Qed.

Definition rank (p : pc) : nat :=
  match p with
  | WaitLock1 => 40 | Granted1 => 39 | S_G1 => 38 | S_G2 => 37 | S_G3 => 36
  | WaitLock2 => 35 | Granted2 => 34 | C_WaitRunFinished => 33 | C_WaitRunTask => 32 | C_G3 => 31 | C_G4 => 30
  | Z_G1 => 25 | Z_G1b => 24 | Z_WaitRunTask => 23 | Z_G3 => 22 | Z_G4 => 21
  | R_WaitStarted => 20 | R_G => 19 | P_WaitRunFinished => 18
  | Sig_G => 1
  end%nat.

Definition rank_r (r : option rpc) : nat :=
  match r with
  | None => 0 | Some RT_New => 10 | Some RT_Created => 7 | Some RT_G_start => 6 | Some RT_WaitChild => 5
  | Some RT_G_end => 4 | Some RT_G_fin => 3 | Some RT_G_cs => 2
  end%nat.

Fixpoint mu_tasks (ts : ttab) : nat :=
  match ts with
  | [] => 0
  | (_, (_, p)) :: r => rank p + mu_tasks r
  end%nat.

Definition pe_n (o : option outcome) : nat := match o with Some _ => 1 | None => 0 end.

Definition sc (s : state) : nat := (rank_r (runt s) + 2 * alive s + pe_n (pending_exit s))%nat.

Definition mu (s : state) : nat := (mu_tasks (tasks s) + sc s)%nat.

Lemma rank_pos p : (1 <= rank p)%nat.
Proof. destruct p; simpl; lia. Qed.

Lemma mt_put_existing ts t c0 p0 c p :
  find_task ts t = Some (c0, p0) ->
  (mu_tasks (put_task ts t (c, p)) + rank p0 = mu_tasks ts + rank p)%nat.
Proof.
  induction ts as [|[t' [c' p']] ts IH]; simpl; [discriminate|].
  destruct (Nat.eqb t t') eqn:E; simpl.
  - intros H. inversion H; subst. lia.
  - intros H. specialize (IH H). lia.
Qed.

Lemma mt_remove_le ts t : (mu_tasks (remove_task ts t) <= mu_tasks ts)%nat.
Proof. induction ts as [|[t1 [c1 p1]] ts IH]; simpl; auto. destruct (Nat.eqb t t1); simpl; lia. Qed.

Lemma mt_remove ts t c0 p0 :
  find_task ts t = Some (c0, p0) -> (mu_tasks (remove_task ts t) + rank p0 <= mu_tasks ts)%nat.
Proof.
  induction ts as [|[t' [c' p']] ts IH]; simpl; [discriminate|].
  destruct (Nat.eqb t t') eqn:E; simpl.
  - intros H. inversion H; subst. pose proof (mt_remove_le ts t). lia.
  - intros H. specialize (IH H). lia.
Qed.

Lemma rank_granted p : (rank (granted_pc p) <= rank p)%nat.
Proof. destruct p; simpl; lia. Qed.

Lemma mt_rel q ts : (mu_tasks (rel_tasks q ts) <= mu_tasks ts)%nat.
Proof.
  unfold rel_tasks. destruct q as [|t1 q]; auto.
  destruct (find_task ts t1) as [[c p]|] eqn:E; auto.
  pose proof (mt_put_existing ts t1 c p c (granted_pc p) E). pose proof (rank_granted p). lia.
Qed.

Lemma find_rel_other q ts t :
  (forall t1 q', q = t1 :: q' -> t1 <> t) -> find_task (rel_tasks q ts) t = find_task ts t.
Proof.
  intros Hn. unfold rel_tasks. destruct q as [|t1 q']; auto.
  destruct (find_task ts t1) as [[c p]|]; auto. apply find_put_neq. intros ->. eapply Hn; eauto.
Qed.

Lemma holder_find_rel s t :
  LkS s -> holder s = Some t -> find_task (rel_tasks (lockq s) (tasks s)) t = find_task (tasks s) t.
Proof.
  intros HL Hh. apply find_rel_other. intros t1 q' Eq. unfold LkS in HL. rewrite Hh in HL.
  eapply Lk_head_neq; eauto.
Qed.

Lemma mu_inside s s' t c p c' p' :
  find_task (tasks s) t = Some (c, p) -> tasks s' = put_task (tasks s) t (c', p') ->
  (rank p' + sc s' < rank p + sc s)%nat -> (mu s' < mu s)%nat.
Proof.
  intros Hf Et Hlt. unfold mu. rewrite Et. pose proof (mt_put_existing _ _ _ _ c' p' Hf). lia.
Qed.

Lemma mu_leave s s' t c p :
  LkS s -> holder s = Some t -> find_task (tasks s) t = Some (c, p) ->
  tasks s' = remove_task (rel_tasks (lockq s) (tasks s)) t -> sc s' = sc s -> (mu s' < mu s)%nat.
Proof.
  intros HL Hh Hf Et Es. unfold mu. rewrite Et, Es.
  pose proof (holder_find_rel _ _ HL Hh) as Hfr. rewrite Hf in Hfr.
  pose proof (mt_remove _ _ _ _ Hfr). pose proof (mt_rel (lockq s) (tasks s)). pose proof (rank_pos p). lia.
Qed.

Lemma mu_leave_put s s' t c p c' p' :
  LkS s -> holder s = Some t -> find_task (tasks s) t = Some (c, p) ->
  tasks s' = put_task (rel_tasks (lockq s) (tasks s)) t (c', p') -> sc s' = sc s ->
  (rank p' < rank p)%nat -> (mu s' < mu s)%nat.
Proof.
  intros HL Hh Hf Et Es Hlt. unfold mu. rewrite Et, Es.
  pose proof (holder_find_rel _ _ HL Hh) as Hfr. rewrite Hf in Hfr.
  pose proof (mt_put_existing _ _ _ _ c' p' Hfr). pose proof (mt_rel (lockq s) (tasks s)). lia.
Qed.

Lemma mu_free_leave s s' t c p :
  find_task (tasks s) t = Some (c, p) -> tasks s' = remove_task (tasks s) t -> sc s' = sc s -> (mu s' < mu s)%nat.
Proof.
  intros Hf Et Es. unfold mu. rewrite Et, Es. pose proof (mt_remove _ _ _ _ Hf). pose proof (rank_pos p). lia.
Qed.

Ltac mu_in Hf := eapply mu_inside; [exact Hf | fsimpl; reflexivity | unfold sc; fsimpl; simpl; try lia].
Ltac mu_lv HL Hh Hf := eapply mu_leave; [exact HL | exact Hh | exact Hf | fsimpl; reflexivity | unfold sc; fsimpl; reflexivity].
Ltac mu_lp HL Hh Hf := eapply mu_leave_put; [exact HL | exact Hh | exact Hf | fsimpl; reflexivity | unfold sc; fsimpl; reflexivity | simpl; lia].

Lemma mu_refuse s t c c0 p :
  LkS s -> holder s = Some t -> find_task (tasks s) t = Some (c0, p) -> (mu (refuse s t c) < mu s)%nat.
Proof.
  intros HL Hh Hf. unfold refuse.
  destruct (is_cont c); [destruct (cont_closed (release s))|]; mu_lv HL Hh Hf.
Qed.

Lemma mu_close_trigger s t c0 p :
  LkS s -> holder s = Some t -> find_task (tasks s) t = Some (c0, p) -> (33 <= rank p)%nat ->
  (mu (close_trigger s t) < mu s)%nat.
Proof.
  intros HL Hh Hf Hr. unfold close_trigger, close_enter_closed.
  destruct (st_fsm s); try (mu_in Hf; fail).
  - destruct (runt s) eqn:Er; mu_in Hf.
  - mu_lv HL Hh Hf.
Qed.

Lemma mu_enter_close s t c0 p :
  LkS s -> FI s -> holder s = Some t -> find_task (tasks s) t = Some (c0, p) -> (34 <= rank p)%nat ->
  (mu (enter_close s t) < mu s)%nat.
Proof.
  intros HL HF Hh Hf Hr. unfold enter_close.
  assert (Hmu : mu (publish s PEndAll) = mu s) by reflexivity.
  pose proof (LkS_slk _ _ (slk_publish s PEndAll) HL) as HL1.
  destruct (st_fsm (publish s PEndAll)) eqn:Efs; simpl in Efs;
    try (rewrite <- Hmu; eapply mu_close_trigger; eauto; lia).
  simpl. rewrite (FI_rf _ HF Efs). mu_in Hf.
Qed.

Lemma mu_enter (s : state) (t : nat) (c : call) (part2 : bool) (p : pc) :
  LkS s -> FI s -> holder s = Some t -> find_task (tasks s) t = Some (c, p) ->
  p = (if part2 then Granted2 else Granted1) -> compat c p = true ->
  (mu (enter s t c part2) < mu s)%nat.
Proof.
  intros HL HF Hh Hf Hp Hc.
  assert (Hrun : (mu (enter_run s t c) < mu s)%nat).
  { unfold enter_run. destruct (st_fsm s) eqn:Efs; try (eapply mu_refuse; eauto).
    assert (Hr : runt s = None) by (destruct HF as [_ HS]; eapply Scal_idle; eauto; congruence).
    mu_in Hf. rewrite Hr. destruct part2; subst p; simpl; lia. }
  assert (Hst : part2 = false -> (mu (enter_start s t c) < mu s)%nat).
  { intros ->. unfold enter_start. destruct (st_fsm s); try (eapply mu_refuse; eauto).
    mu_in Hf. subst p. simpl. lia. }
  unfold enter. destruct c; auto; try (destruct part2; subst p; discriminate).
  - destruct part2; [subst p; discriminate | auto].
  - unfold enter_reset. destruct (st_fsm s); try (eapply mu_refuse; eauto);
      (destruct (o_stmt o); mu_in Hf; destruct part2; subst p; simpl; lia).
  - destruct part2; auto. eapply mu_enter_close; eauto. subst p. simpl. lia.
Qed.

Lemma mu_child_exit s o : (mu (do_child_exit s o) < mu s)%nat \/ do_child_exit s o = s.
Proof.
  unfold do_child_exit. destruct (alive s) as [|n] eqn:Ea; auto.
  left. unfold mu, sc. simpl. rewrite Ea. destruct (pending_exit s); simpl; lia.
Qed.

Definition blocked (s : state) (t : nat) : bool :=
  match find_task (tasks s) t with
  | None => true
  | Some (c, p) =>
    match p with
    | WaitLock1 | WaitLock2 => true
    | R_WaitStarted => if started_ev s then false else true
    | P_WaitRunFinished | C_WaitRunFinished => match run_finished s with Some true => false | _ => true end
    | Z_WaitRunTask | C_WaitRunTask => match runt s with None => false | Some _ => true end
    | Z_G1 => match c with CReset _ => false | _ => true end
    | _ => false
    end
  end.

Definition run_blocked (s : state) : bool :=
  match runt s with
  | None => true
  | Some RT_WaitChild =>
    if run_call_pending s then true else match pending_exit s with None => true | Some _ => false end
  | Some _ => false
  end.

Ltac en tac := split; [let H := fresh in intros H; discriminate H | intros _; tac].
Ltac bl := split; [intros _; reflexivity | let H := fresh in intros H; discriminate H].

Lemma do_step_progress s t : LkS s -> FI s ->
  (blocked s t = true -> do_step s t = s) /\ (blocked s t = false -> (mu (do_step s t) < mu s)%nat).
Proof.
  intros HL HF. unfold blocked, do_step. destruct (find_task (tasks s) t) as [[c p]|] eqn:Ef; [|bl].
  pose proof (lk_compat _ _ _ HL _ _ _ Ef) as Hc.
  assert (Hhold : locked_pc p = true -> holder s = Some t) by (intros Hl; eapply (lk_holder_of _ _ _ HL); eauto).
  destruct p; simpl in Hhold; try specialize (Hhold eq_refl); try bl.
  - en ltac:(eapply mu_enter; eauto).
  - en ltac:(eapply mu_enter; eauto).
  - en ltac:(mu_in Ef).
  - en ltac:(mu_in Ef).
  - (* S_G3 *) en ltac:(idtac). destruct c; simpl in Hc; try discriminate.
    + mu_lv HL Hhold Ef.
    + destruct (lockq s) as [|t1 q] eqn:Eq.
      * rewrite acquire_free by (rewrite ?release_holder, ?release_lockq, Eq; reflexivity).
        destruct (requeue_inv s t HL HF Hhold Eq) as (HL2 & HF2).
        set (s2 := set_pc (set_holder (release s) (Some t)) t CClose Granted2) in *.
        assert (H1 : (mu s2 < mu s)%nat).
        { unfold s2. eapply mu_leave_put; [exact HL | exact Hhold | exact Ef | fsimpl; reflexivity
                                          | unfold sc; fsimpl; reflexivity | simpl; lia]. }
        assert (H2 : (mu (enter s2 t CClose true) < mu s2)%nat).
        { eapply mu_enter; eauto; try reflexivity. unfold s2. simpl. apply find_put_eq. }
        lia.
      * rewrite (acquire_busy _ _ _ _ t1) by (rewrite release_holder, Eq; reflexivity).
        eapply mu_leave_put; [exact HL | exact Hhold | exact Ef | fsimpl; rewrite Eq; reflexivity
                             | unfold sc; fsimpl; reflexivity | simpl; lia].
  - destruct (started_ev s); [en ltac:(mu_in Ef) | bl].
  - (* R_G *) en ltac:(idtac). destruct c; simpl in Hc; try discriminate; first [mu_lv HL Hhold Ef | mu_lp HL Hhold Ef].
  - destruct c; simpl in Hc; try discriminate. en ltac:(mu_in Ef).
  - (* Z_G1b *) en ltac:(idtac). unfold reset_reinit. destruct (st_fsm s); try (mu_in Ef; fail).
    destruct (runt s); mu_in Ef.
  - unfold reset_reinit. destruct (runt s); [bl | en ltac:(mu_in Ef)].
  - en ltac:(mu_in Ef).
  - en ltac:(mu_lv HL Hhold Ef).
  - (* C_WaitRunFinished *) destruct (run_finished s) as [[|]|]; try bl.
    en ltac:(eapply mu_close_trigger; eauto; simpl; lia).
  - unfold close_enter_closed. destruct (runt s); [bl | en ltac:(mu_in Ef)].
  - en ltac:(mu_in Ef).
  - en ltac:(mu_lv HL Hhold Ef).
  - (* P_WaitRunFinished *) destruct (run_finished s) as [[|]|]; try bl.
    en ltac:(eapply mu_free_leave; [exact Ef | reflexivity | reflexivity]).
  - en ltac:(eapply mu_free_leave; [exact Ef | reflexivity | reflexivity]).
Qed.

Lemma arun_sc k k' : arun k k' ->
  (rank_r (k_runt k') + 2 * k_alive k' + pe_n (k_pe k') < rank_r (k_runt k) + 2 * k_alive k + pe_n (k_pe k))%nat.
Proof. intros St. destruct St; simpl; lia. Qed.

Lemma step_run_progress s : FI s ->
  (run_blocked s = true -> do_step_run s = s) /\ (run_blocked s = false -> (mu (do_step_run s) < mu s)%nat).
Proof.
  intros HF. split.
  - unfold run_blocked, do_step_run. destruct (runt s) as [[]|]; try discriminate; auto.
    destruct (run_call_pending s); auto. destruct (pending_exit s); [discriminate | auto].
  - intros Hnb. destruct (step_run_cases s HF) as [(_ & Hb) | St].
    + exfalso. unfold run_blocked in Hnb.
      destruct Hb as [Er | (Er & [Ep | Epe])]; rewrite Er in Hnb; try discriminate.
      * rewrite Ep in Hnb. discriminate.
      * rewrite Epe in Hnb. destruct (run_call_pending s); discriminate.
    + pose proof (arun_sc _ _ St) as H. simpl in H.
      unfold mu, sc. destruct (slk_step_run s) as (_ & _ & Et). rewrite Et. lia.
Qed.

Definition internal (l : label) : bool := match l with Call _ _ => false | _ => true end.

Theorem measure_decreases : forall stmt start th md ls l,
  let s := run_labels (init_state stmt start th md) ls in
  internal l = true -> step s l <> s -> (mu (step s l) < mu s)%nat.
Proof.
  intros stmt start th md ls l s Hi Hne. destruct (all_inv stmt start th md ls) as (HL & HF & HC).
  fold s in HL, HF. destruct l; try discriminate; simpl in *.
  - destruct (blocked s t) eqn:Eb; [elim Hne|]; apply (do_step_progress s t HL HF); exact Eb.
  - destruct (run_blocked s) eqn:Eb; [elim Hne|]; apply (step_run_progress s HF); exact Eb.
  - destruct (mu_child_exit s o); auto. contradiction.
Qed.

(** the recorded finding, formally: close() while the child never exits *)
Definition stuck_labels : list label :=
  [Call 0 CStart; Step 0; Step 0; Step 0;            (* start(): initialized *)
   Call 0 CRun; StepRun; StepRun; StepRun;           (* run(): the child is created, the run waits for it *)
   Step 0; Step 0;                                   (* run() publishes `running` and returns *)
   Call 1 CClose]%nat.                               (* close() from another task *)

Definition stuck_state : state := run_labels (init_state 0 1 false false) stuck_labels.

Lemma only_waiter_stuck s t0 c :
  tasks s = [(t0, (c, C_WaitRunFinished))] -> run_finished s = Some false -> forall t, step s (Step t) = s.
Proof.
  intros Et Erf t. simpl. unfold do_step. rewrite Et. simpl.
  destruct (Nat.eqb t t0); [rewrite Erf|]; reflexivity.
Qed.

Lemma child_exit_changes s n o : alive s = S n -> step s (ChildExit o) <> s.
Proof.
  intros Ea H. apply (f_equal alive) in H. simpl in H. unfold do_child_exit in H. rewrite Ea in H.
  apply (n_Sn n). exact H.
Qed.

Lemma stuck_witness :
  find_task (tasks stuck_state) 1%nat = Some (CClose, C_WaitRunFinished) /\
  st_fsm stuck_state = Running /\ runt stuck_state = Some RT_WaitChild /\
  alive stuck_state = 1%nat /\ pending_exit stuck_state = None /\
  (forall t, step stuck_state (Step t) = stuck_state) /\
  step stuck_state StepRun = stuck_state /\
  (forall o, step stuck_state (ChildExit o) <> stuck_state) /\
  (* once the child exits, the same close completes *)
  (let s' := run_labels stuck_state [ChildExit OReturn; StepRun; StepRun; StepRun; StepRun;
                                    Step 1; Step 1; Step 1]%nat in
   st_fsm s' = Closed /\ tasks s' = [] /\ alive s' = 0%nat /\
   hd_error (trace s') = Some (EvRet 1%nat CClose ROk)).
Proof.
  (* no [simpl] or failing [reflexivity] on a goal that mentions [stuck_state]: the kernel would
     normalise the whole state again at every such step *)
  do 5 (split; [vm_compute; reflexivity|]).
  split; [|split; [vm_compute; reflexivity | split; [|vm_compute; repeat split; reflexivity]]].
  - apply (only_waiter_stuck _ 1%nat CClose); vm_compute; reflexivity.
  - intros o. apply (child_exit_changes _ 0%nat). vm_compute; reflexivity.
Qed.

(** `_run_finished` exists as soon as a run was started *)
Definition JI (k : core) : Prop := k_rf k = None -> k_fsm k <> Running /\ k_fsm k <> Finished.

Lemma JI_astep k k' : JI k -> astep k k' -> JI k'.
Proof.
  intros H [St | [St | (o & St)]]; destruct St; unfold JI in *; simpl in *;
    try exact H; try (intros; discriminate); try (intros _; split; discriminate).
  (* Callback._finish: the run was started, so the attribute exists *)
  intros E. destruct (H E) as (Hr & _). elim Hr. reflexivity.
Qed.

Lemma JI_step s l : LkS s -> FI s -> JI (core_of s) -> JI (core_of (step s l)).
Proof. apply core_step, JI_astep. Qed.

Lemma JI_reachable a b c d ls : JI (core_of (run_labels (init_state a b c d) ls)).
Proof.
  apply (run_labels_ind (fun s => (LkS s /\ FI s) /\ JI (core_of s))).
  - intros s l ((HL & HF) & HJ). split; [split; [apply LkS_step | apply FI_step] | apply JI_step]; auto.
  - split; [split; [apply LkS_init | apply FI_init] | intros _; split; discriminate].
Qed.

Definition all_blocked (s : state) : bool := forallb (fun x => blocked s (fst x)) (tasks s).

Lemma find_in ts t x : find_task ts t = Some x -> In (t, x) ts.
Proof.
  induction ts as [|[t' y] ts IH]; simpl; [discriminate|].
  destruct (Nat.eqb t t') eqn:E.
  - intros H. inversion H; subst. apply Nat.eqb_eq in E. subst. left. reflexivity.
  - intros H. right. auto.
Qed.

Lemma all_blocked_spec s t x : all_blocked s = true -> find_task (tasks s) t = Some x -> blocked s t = true.
Proof.
  intros Hb Hf. unfold all_blocked in Hb. rewrite forallb_forall in Hb.
  apply (Hb (t, x)). apply find_in. exact Hf.
Qed.

Lemma not_all_blocked s : all_blocked s = false -> exists t, blocked s t = false.
Proof.
  unfold all_blocked. generalize (tasks s) at 1. intros l. induction l as [|x l IH]; simpl; [discriminate|].
  destruct (blocked s (fst x)) eqn:E; simpl; eauto.
Qed.

Definition waits_only_child (s : state) : Prop :=
  runt s = Some RT_WaitChild /\ pending_exit s = None /\ alive s = 1%nat /\
  run_call_pending s = false /\ st_fsm s = Running /\
  (exists h c, holder s = Some h /\ find_task (tasks s) h = Some (c, C_WaitRunFinished)) /\
  (forall t c p, find_task (tasks s) t = Some (c, p) ->
     p = WaitLock1 \/ p = WaitLock2 \/ p = C_WaitRunFinished \/ p = P_WaitRunFinished).


Lemma late_not_blocked s x : FI s -> runt s = Some x -> st_fsm s <> Running -> run_blocked s = false.
Proof.
  intros [_ HS] Er Hnr. unfold run_blocked. rewrite Er.
  destruct (early x) eqn:Ee; [exfalso; apply Hnr; eapply sc_early; eauto|].
  destruct x; simpl in Ee; try discriminate; reflexivity.
Qed.

(** If no task and not the run task can move, look at the task inside the lock (there is one,
    since a close() is waiting for the lock or is inside it).  It waits for `started` (then
    the run task has not reached the wait for the child and can move), for the end of the run
    task (then that task is past the child's exit and can move), or it is close() waiting for
    `_run_finished` while the run task waits for the child: the one wait on the environment. *)
Lemma no_deadlock_inv s :
  LkS s -> FI s -> CI s -> JI (core_of s) ->
  (exists t c p, find_task (tasks s) t = Some (c, p) /\ compat CClose p = true) ->
  (exists t', (mu (step s (Step t')) < mu s)%nat) \/
  (mu (step s StepRun) < mu s)%nat \/
  (waits_only_child s /\
   forall o, (mu (step s (ChildExit o)) < mu s)%nat /\ run_blocked (step s (ChildExit o)) = false).
Proof.
  intros HL HF HC HJ (t0 & c0 & p0 & Ef0 & Hlk).
  destruct (all_blocked s) eqn:Hab.
  2:{ left. destruct (not_all_blocked _ Hab) as (t' & Hb). exists t'. simpl.
      apply (do_step_progress s t' HL HF). exact Hb. }
  destruct (run_blocked s) eqn:Hrb.
  2:{ right. left. simpl. apply (step_run_progress s HF). exact Hrb. }
  right. right. pose proof HF as [HP HS].
  destruct (lock_held s t0 c0 p0 HL Ef0) as (h & ch & ph & Hh & Efh & Hlh).
  { destruct p0; simpl in Hlk; auto; discriminate. }
  pose proof (all_blocked_spec _ _ _ Hab Efh) as Hbh. unfold blocked in Hbh. rewrite Efh in Hbh.
  pose proof (HP _ _ _ Efh) as Hokh. pose proof (lk_compat _ _ _ HL _ _ _ Efh) as Hch.
  pose proof (ci_tasks _ HC _ _ _ Efh) as (_ & _ & _ & Hq4).
  destruct ph; simpl in Hlh; try discriminate; try discriminate Hbh.
  - (* R_WaitStarted, `started` not set: the run task has not reached the wait for the child *)
    exfalso. destruct (Hq4 eq_refl) as (Hrun & Hrws).
    destruct (started_ev s) eqn:Esev; [discriminate|].
    unfold run_blocked in Hrb. destruct (runt s) as [[]|] eqn:Er; simpl in Hrws; try discriminate.
    pose proof (ci_sev _ HC _ Er eq_refl). congruence.
  - (* Z_G1 with a call that is not reset: excluded by [compat] *)
    destruct ch; simpl in Hch; discriminate.
  - (* Z_WaitRunTask *)
    exfalso. destruct (runt s) as [x|] eqn:Er; [|discriminate].
    rewrite (late_not_blocked s x HF Er) in Hrb; [discriminate|]. intros E. rewrite E in Hokh. discriminate.
  - (* C_WaitRunFinished *)
    destruct (run_finished s) as [[|]|] eqn:Erf; try discriminate.
    2:{ exfalso. destruct (HJ Erf) as (H1 & H2). simpl in H1, H2, Hokh. destruct (st_fsm s); try discriminate; congruence. }
    destruct (runt s) as [x|] eqn:Er.
    2:{ exfalso. apply (sc_rf_none _ _ _ _ _ _ HS); auto. }
    assert (Hpend : run_call_pending s = false) by (unfold run_call_pending; rewrite Hh, Efh; reflexivity).
    assert (Hx : x = RT_WaitChild /\ pending_exit s = None).
    { unfold run_blocked in Hrb. rewrite Er, Hpend in Hrb. destruct x; try discriminate.
      destruct (pending_exit s); [discriminate | auto]. }
    destruct Hx as (-> & Hpe).
    assert (Hrun : st_fsm s = Running) by (eapply sc_early; eauto).
    assert (Hal : alive s = 1%nat).
    { pose proof (sc_child _ _ _ _ _ _ HS) as Hch'. rewrite ?Er in Hch'. simpl in Hch'.
      destruct Hch' as [(? & _) | (_ & Hne)]; auto. congruence. }
    split.
    + repeat split; auto. { exists h, ch. auto. }
      intros t c p Ef. pose proof (all_blocked_spec _ _ _ Hab Ef) as Hb. unfold blocked in Hb. rewrite Ef in Hb.
      pose proof (HP _ _ _ Ef) as Hok. rewrite Hrun in Hok.
      pose proof (lk_compat _ _ _ HL _ _ _ Ef) as Hcc.
      destruct p; simpl in Hok; try discriminate; auto.
      rewrite (ci_sev _ HC _ Er eq_refl) in Hb. discriminate.
    + intros o. simpl. unfold do_child_exit. rewrite Hal. split.
      * unfold mu, sc. simpl. rewrite Hal, Hpe. simpl. lia.
      * unfold run_blocked. simpl. rewrite Er. change (run_call_pending _) with (run_call_pending s).
        rewrite Hpend. reflexivity.
  - (* C_WaitRunTask *)
    exfalso. destruct (runt s) as [x|] eqn:Er; [|discriminate].
    rewrite (late_not_blocked s x HF Er) in Hrb; [discriminate|]. intros E. rewrite E in Hokh. discriminate.
Qed.

Ltac mv_tac :=
  fsimpl;
  first [ apply tmove_refl | apply tmove_put | apply tmove_remove | apply tmove_rel_remove | apply tmove_rel_put ].

Lemma tmove_do_step s t : LkS s -> tmove (tasks s) (tasks (do_step s t)) t.
Proof.
  intros HL. unfold do_step. destruct (find_task (tasks s) t) as [[c p]|] eqn:Ef; [|apply tmove_refl].
  pose proof (lk_compat _ _ _ HL _ _ _ Ef) as Hc.
  destruct p; try (mv_tac; fail).
  - apply HRes_tmove, HRes_entered, Hc.
  - apply HRes_tmove, HRes_entered, Hc.
  - (* S_G3 *) destruct c; simpl in Hc; try discriminate; [mv_tac|].
    unfold acquire. rewrite release_holder, release_lockq.
    destruct (rel_holder (lockq s)); [mv_tac|]. destruct (tl (lockq s)); [|mv_tac].
    set (s2 := set_pc (set_holder (release s) (Some t)) t CClose Granted2).
    apply (tmove_trans _ (tasks s2)); [unfold s2; mv_tac | apply HRes_tmove, HRes_enter_close].
  - destruct (started_ev s); mv_tac.
  - destruct c; simpl in Hc; try discriminate; mv_tac.
  - destruct c; simpl in Hc; try discriminate; mv_tac.
  - unfold reset_reinit. destruct (st_fsm s); try (mv_tac; fail). destruct (runt s); mv_tac.
  - unfold reset_reinit. destruct (runt s); mv_tac.
  - destruct (run_finished s) as [[|]|]; try apply tmove_refl. apply HRes_tmove, HRes_close_trigger.
  - unfold close_enter_closed. destruct (runt s); mv_tac.
  - destruct (run_finished s) as [[|]|]; mv_tac.
Qed.

Definition HasC (ts : ttab) (t : nat) : Prop := exists p, find_task ts t = Some (CClose, p).

Lemma close_task_step s l t :
  LkS s -> FI s -> CI s -> HasC (tasks s) t -> internal l = true ->
  HasC (tasks (step s l)) t \/ RetsClose s (step s l) t.
Proof.
  intros HL HF HC (p & Ef) Hi. destruct l as [? ? | t' | | o]; try discriminate; simpl.
  - destruct (Nat.eq_dec t t') as [<-|Hn].
    + destruct (StepOwn_do_step s t CClose p HL HF HC Ef) as [(_ & H) | [(_ & H) | (H & _)]];
        [left; exact H | right; exact H | congruence].
    + left. destruct (tmove_fwd _ _ _ _ _ _ (tmove_do_step s t' HL) Hn Ef) as (p' & Hf' & _). exists p'. exact Hf'.
  - left. exists p. destruct (slk_step_run s) as (_ & _ & E). rewrite E. exact Ef.
  - left. exists p. unfold do_child_exit. destruct (alive s); exact Ef.
Qed.

Lemma close_completes_inv t : forall n s,
  (mu s < n)%nat -> LkS s -> FI s -> CI s -> JI (core_of s) -> HasC (tasks s) t ->
  exists pre l, Forall (fun x => internal x = true) (pre ++ [l]) /\
                RetsClose (run_labels s pre) (run_labels s (pre ++ [l])) t.
Proof.
  induction n as [|n IH]; intros s Hmu HL HF HC HJ Hc; [lia|].
  assert (Hen : exists l, internal l = true /\ (mu (step s l) < mu s)%nat).
  { destruct Hc as (p & Ef).
    destruct (no_deadlock_inv s HL HF HC HJ) as [(t' & H) | [H | (_ & H)]].
    - exists t, CClose, p. split; auto. apply (lk_compat _ _ _ HL _ _ _ Ef).
    - exists (Step t'). auto.
    - exists StepRun. auto.
    - exists (ChildExit OReturn). split; auto. apply H. }
  destruct Hen as (l & Hi & Hlt).
  destruct (close_task_step s l t HL HF HC Hc Hi) as [Hc1 | HR].
  - destruct (IH (step s l)) as (pre & l' & Hall & HR); auto; try lia.
    + apply LkS_step; auto. + apply FI_step; auto. + apply CI_step; auto. + apply JI_step; auto.
    + exists (l :: pre), l'. split; [constructor; auto | exact HR].
  - exists [], l. split; [constructor; auto | exact HR].
Qed.

Theorem no_deadlock : forall stmt start th md ls,
  let s := run_labels (init_state stmt start th md) ls in
  (exists t c p, find_task (tasks s) t = Some (c, p) /\ compat CClose p = true) ->
  (exists t', (mu (step s (Step t')) < mu s)%nat) \/
  (mu (step s StepRun) < mu s)%nat \/
  (waits_only_child s /\
   forall o, (mu (step s (ChildExit o)) < mu s)%nat /\ run_blocked (step s (ChildExit o)) = false).
Proof.
  intros stmt start th md ls s. destruct (all_inv stmt start th md ls) as (HL & HF & HC).
  apply no_deadlock_inv; auto. apply JI_reachable.
Qed.

Lemma run_trace_ext ls : forall s, exists new, trace (run_labels s ls) = new ++ trace s.
Proof.
  induction ls as [|l ls IH]; intros s; simpl; [exists []; reflexivity|].
  destruct (IH (step s l)) as (n1 & E1). destruct (step_grows s l) as (n2 & E2 & _).
  exists (n1 ++ n2). rewrite E1, E2, app_assoc. reflexivity.
Qed.

Theorem close_completes : forall stmt start th md ls t p,
  let s := run_labels (init_state stmt start th md) ls in
  find_task (tasks s) t = Some (CClose, p) ->
  exists ls', Forall (fun x => internal x = true) ls' /\
    let s' := run_labels s ls' in
    hd_error (trace s') = Some (EvRet t CClose ROk) /\ closed_down s' /\
    exists new, trace s' = new ++ trace s /\ In (EvRet t CClose ROk) new.
Proof.
  intros stmt start th md ls t p s Ef. destruct (all_inv stmt start th md ls) as (HL & HF & HC).
  fold s in HL, HF, HC.
  destruct (close_completes_inv t (S (mu s)) s) as (pre & l & Hall & HR); auto.
  - apply JI_reachable.
  - exists p. exact Ef.
  - exists (pre ++ [l]). split; auto. cbv zeta.
    destruct (inv_run s (pre ++ [l]) HL HF HC) as (_ & HF' & _).
    pose proof (RetsClose_down _ _ _ HF' HR) as Hd.
    destruct HR as (new & E & _). split; [rewrite E; reflexivity|]. split; auto.
    destruct (run_trace_ext pre s) as (n0 & E0).
    exists (EvRet t CClose ROk :: new ++ n0). split.
    + rewrite E, E0. simpl. rewrite app_assoc. reflexivity.
    + left. reflexivity.
Qed.

(** the close that does the work (issued with `_closed` false): what its last step appends *)
Theorem close_return_shape : forall stmt start th md ls l t r,
  let s := run_labels (init_state stmt start th md) ls in
  In (EvRet t CClose r) (appended s (step s l)) ->
  nl_closed s = false \/ l = Step t ->
  exists coff mid, (coff = [] \/ coff = [EvPub (PCont false)]) /\
    trace (step s l) =
    EvRet t CClose ROk :: EvPub PEndCont :: coff ++ EvPub PEndAll :: mid ++ trace s.
Proof.
  intros stmt start th md ls l t r s Hin Hw. destruct (all_inv stmt start th md ls) as (HL & HF & HC).
  destruct (close_returns s l t r HL HF HC Hin) as (_ & [(HR & _) | (-> & Hnc & _)]).
  2:{ destruct Hw as [Hw | Hw]; [fold s in Hnc; congruence | discriminate]. }
  - destruct HR as (new & E & _ & (coff & mid & Hc & ->) & _). exists coff, mid. split; auto.
    rewrite E. simpl. rewrite <- app_assoc. reflexivity.
Qed.

(** a subscription is a point of the history: the trace prefix [pre] at which it was
    handed out.  Whatever that point, up to and including the state the returning step
    starts from, the broker is closed after it and before the return *)
Theorem subscriptions_ended : forall stmt start th md ls l t r,
  let s := run_labels (init_state stmt start th md) ls in
  In (EvRet t CClose r) (appended s (step s l)) ->
  nl_closed s = false \/ l = Step t ->
  forall older pre, trace s = older ++ pre ->
  exists post, trace (step s l) = EvRet t CClose ROk :: post ++ pre /\ In (EvPub PEndAll) post.
Proof.
  intros stmt start th md ls l t r s Hin Hw older pre Eo.
  destruct (close_return_shape stmt start th md ls l t r Hin Hw) as (coff & mid & Hc & E).
  fold s in E. exists (EvPub PEndCont :: coff ++ EvPub PEndAll :: mid ++ older). split.
  - rewrite E, Eo. simpl. f_equal. f_equal. rewrite <- !app_assoc. simpl. rewrite <- app_assoc. reflexivity.
  - right. apply in_or_app. right. left. reflexivity.
Qed.
