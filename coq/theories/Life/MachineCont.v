(** The continuation a task stores when it parks is determined by the program and the program counter:
    [run] parking at p, started from the program of a trigger or from any continuation stored earlier
    ([after_pc p0] of it, or the rest behind the wait it was parked at), stores exactly [after_pc p] of the
    WHOLE program.  Together with the theorems tie_step_* of Life/MachineTie.v (which start from
    [api_cont ... p] = [after_pc p] of the program) this closes the simulation of one trigger: the model's
    successive segments follow the one program derived from the regenerated code.  Generic in the program;
    needs only that its program counters are pairwise distinct, which is proved for every program
    [api_prog] can produce. *)
From Coq Require Import List String Bool Arith ZArith Lia.
From NL Require Import Life.Model Gen.FsmConfig Life.MachineSyntax Gen.MachineWiring Life.MachineTie.
Import ListNotations.

Fixpoint pcs (k : list (prim pc)) : list pc :=
  match k with
  | [] => []
  | PGate p :: r => p :: pcs r
  | PWait _ _ p :: r => p :: pcs r
  | _ :: r => pcs r
  end.

Lemma pcs_app : forall a b, pcs (a ++ b) = pcs a ++ pcs b.
Proof. induction a as [|x a IH]; intros b; [reflexivity|]. destruct x; cbn; rewrite ?IH; reflexivity. Qed.

Lemma run_park_in : forall k s s' p k', run k s = (s', KPark p k') -> In p (pcs k).
Proof.
  induction k as [|x k IH]; intros s s' p k' H; cbn in H; [discriminate|].
  destruct x as [f|q|a r q|x]; cbn.
  - eapply IH; eauto.
  - injection H as _ <- _. left; reflexivity.
  - destruct (a s); [right; eapply IH; eauto | injection H as _ <- _; left; reflexivity | discriminate].
  - discriminate.
Qed.

Lemma after_pc_skip : forall pre k p, ~ In p (pcs pre) -> after_pc p (pre ++ k) = after_pc p k.
Proof.
  induction pre as [|x pre IH]; intros k p H; [reflexivity|].
  destruct x as [f|q|a r q|x]; cbn in *; try (apply IH; exact H).
  all: destruct (pc_eqb p q) eqn:E; [apply pc_eqb_true in E; subst; exfalso; apply H; left; reflexivity|];
    apply IH; intros H1; apply H; right; exact H1.
Qed.

Lemma run_park_after : forall k s s' p k', NoDup (pcs k) -> run k s = (s', KPark p k') -> k' = after_pc p k.
Proof.
  induction k as [|x k IH]; intros s s' p k' N H; cbn in H; [discriminate|].
  destruct x as [f|q|a r q|x]; cbn in N |- *.
  - eapply IH; eauto.
  - injection H as _ <- <-. rewrite pc_eqb_refl; reflexivity.
  - destruct (a s) eqn:E.
    + inversion N as [|? ? Hn N']; subst.
      assert (Hin : In p (pcs k)) by (eapply run_park_in; eauto).
      destruct (pc_eqb p q) eqn:Eq; [apply pc_eqb_true in Eq; subst; contradiction|].
      eapply IH; eauto.
    + injection H as _ <- <-. rewrite pc_eqb_refl; reflexivity.
    + discriminate.
  - discriminate.
Qed.

Lemma NoDup_app_inv {A} (a b : list A) : NoDup (a ++ b) -> NoDup b /\ forall x, In x a -> ~ In x b.
Proof.
  induction a as [|y a IH]; cbn; intros N; [split; [exact N | intros x []]|].
  inversion N as [|? ? Hn N']; subst. destruct (IH N') as [Nb D]. split; [exact Nb|].
  intros x [<-|Hx] Hb; [apply Hn, in_or_app; right; exact Hb | exact (D x Hx Hb)].
Qed.

Lemma run_park_after_suffix : forall pre k0 s s' p k', NoDup (pcs (pre ++ k0)) ->
  run k0 s = (s', KPark p k') -> k' = after_pc p (pre ++ k0).
Proof.
  intros pre k0 s s' p k' N H.
  rewrite pcs_app in N. destruct (NoDup_app_inv _ _ N) as [N0 D].
  rewrite after_pc_skip.
  - eapply run_park_after; eauto.
  - intros Hp. exact (D p Hp (run_park_in _ _ _ _ _ H)).
Qed.

Lemma after_pc_suffix : forall k p, exists pre, k = pre ++ after_pc p k.
Proof.
  induction k as [|x k IH]; intros p; [exists []; reflexivity|].
  destruct (IH p) as [pre E].
  destruct x as [f|q|a r q|x]; cbn.
  - exists (PDo f :: pre); cbn; f_equal; exact E.
  - destruct (pc_eqb p q); [exists [PGate q]; reflexivity | exists (PGate q :: pre); cbn; f_equal; exact E].
  - destruct (pc_eqb p q); [exists []; reflexivity | exists (PWait a r q :: pre); cbn; f_equal; exact E].
  - exists (PRaise x :: pre); cbn; f_equal; exact E.
Qed.

Theorem continuation_closed : forall k p s s' p2 k2, NoDup (pcs k) ->
  (run (after_pc p k) s = (s', KPark p2 k2) -> k2 = after_pc p2 k) /\
  (forall a r q rest, after_pc p k = PWait a r q :: rest -> run rest s = (s', KPark p2 k2) -> k2 = after_pc p2 k).
Proof.
  intros k p s s' p2 k2 N; destruct (after_pc_suffix k p) as [pre E].
  remember (after_pc p k) as k0 eqn:Ek0. clear Ek0. subst k. split.
  - intros H. eapply run_park_after_suffix; eauto.
  - intros a r q rest Ea H. subst k0.
    replace (pre ++ PWait a r q :: rest) with ((pre ++ [PWait a r q]) ++ rest) in * by (rewrite <- app_assoc; reflexivity).
    eapply run_park_after_suffix; eauto.
Qed.

Theorem api_prog_distinct : forall t c tr src k, api_prog t c tr src = Some k -> NoDup (pcs k).
Proof.
  intros t c tr src k H.
  (* decided on the numbers of the counters; only they are evaluated, never the effects of the program *)
  enough (G : match api_prog t c tr src with
              | Some k => nodup Nat.eq_dec (map pc_num (pcs k)) = map pc_num (pcs k)
              | None => True
              end).
  { rewrite H in G. apply (NoDup_map_inv pc_num). rewrite <- G. apply NoDup_nodup. }
  clear. destruct tr;
    try match goal with |- context [TReset] =>      (* a reset reads the options of the call *)
          destruct c; try match goal with o : opts |- _ => destruct o as [[x|] a b d] end end;
    destruct src; vm_compute; first [reflexivity | exact I].
Qed.

Theorem api_continuations : forall t c tr src k, api_prog t c tr src = Some k ->
  (forall s s' p k', run k s = (s', KPark p k') -> k' = api_cont t c tr src p) /\
  (forall p s s' p2 k2, run (api_cont t c tr src p) s = (s', KPark p2 k2) -> k2 = api_cont t c tr src p2) /\
  (forall p a r q rest s s' p2 k2, api_cont t c tr src p = PWait a r q :: rest ->
     run rest s = (s', KPark p2 k2) -> k2 = api_cont t c tr src p2).
Proof.
  intros t c tr src k H. pose proof (api_prog_distinct _ _ _ _ _ H) as N.
  unfold api_cont; rewrite H. repeat split.
  - intros; eapply run_park_after; eauto.
  - intros p s s' p2 k2 Hr. eapply (proj1 (continuation_closed k p s s' p2 k2 N)); exact Hr.
  - intros p a r q rest s s' p2 k2 Ea Hr. eapply (proj2 (continuation_closed k p s s' p2 k2 N)); eauto.
Qed.
