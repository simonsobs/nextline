(** Plugin registry (C12, last sentence): which plugin receives which hook call.

    Model of pluggy's PluginManager as used by nextline (Imp.register / Imp.unregister are
    synchronous; apluggy's [ahook.x(...)] calls every implementation registered AT THE CALL --
    creating the coroutines -- and then awaits them together): a hook call is an atomic
    snapshot of the registry.  Plugins are numbers; the registry lists them most recently
    registered first (pluggy calls implementations in LIFO order).
    Tied to /repo by harness/registry_tie.py (real Nextline object, passive plugins). *)
From Coq Require Import List Arith Bool Lia.
Import ListNotations.

Inductive rop := Reg (p : nat) | Unreg (p : nat) | Hook (h : nat).

Inductive rout :=
| Delivered (l : list (nat * nat))      (* (plugin, hook) in call order *)
| Done
| Refused.                              (* pluggy: ValueError / AssertionError, nothing changes *)

Definition mem (p : nat) (s : list nat) : bool := existsb (Nat.eqb p) s.

Definition rstep (s : list nat) (o : rop) : list nat * rout :=
  match o with
  | Reg p => if mem p s then (s, Refused) else (p :: s, Done)
  | Unreg p => if mem p s then (filter (fun q => negb (Nat.eqb q p)) s, Done) else (s, Refused)
  | Hook h => (s, Delivered (map (fun p => (p, h)) s))
  end.

Fixpoint rrun (s : list nat) (ops : list rop) : list rout :=
  match ops with
  | [] => []
  | o :: r => snd (rstep s o) :: rrun (fst (rstep s o)) r
  end.

Fixpoint rstate (s : list nat) (ops : list rop) : list nat :=
  match ops with
  | [] => s
  | o :: r => rstate (fst (rstep s o)) r
  end.

Definition got1 (p : nat) (o : rout) : list nat :=
  match o with
  | Delivered l => map snd (filter (fun x => Nat.eqb (fst x) p) l)
  | _ => []
  end.
Definition received (p : nat) (outs : list rout) : list nat := flat_map (got1 p) outs.

Fixpoint last_says (p : nat) (init : bool) (ops : list rop) : bool :=
  match ops with
  | [] => init
  | Reg q :: r => last_says p (if Nat.eqb q p then true else init) r
  | Unreg q :: r => last_says p (if Nat.eqb q p then false else init) r
  | Hook _ :: r => last_says p init r
  end.

(** the hook calls made while [p] was registered: call number i counts iff the last
    (un)registration of p among the first i operations was a registration *)
Fixpoint expected (p : nat) (init : bool) (ops : list rop) : list nat :=
  match ops with
  | [] => []
  | Reg q :: r => expected p (if Nat.eqb q p then true else init) r
  | Unreg q :: r => expected p (if Nat.eqb q p then false else init) r
  | Hook h :: r => if init then h :: expected p init r else expected p init r
  end.

Lemma existsb_filter {A} (f g : A -> bool) s : existsb f (filter g s) = existsb (fun x => f x && g x) s.
Proof.
  induction s as [|x s IH]; simpl; [reflexivity|].
  destruct (g x); simpl; rewrite IH, ?andb_true_r, ?andb_false_r; reflexivity.
Qed.

Lemma mem_filter_neq p q s : mem p (filter (fun x => negb (Nat.eqb x q)) s) = mem p s && negb (Nat.eqb p q).
Proof.
  unfold mem. rewrite existsb_filter. induction s as [|x s IH]; simpl; [reflexivity|]. rewrite IH.
  destruct (Nat.eqb_spec p x) as [<-|]; simpl; [destruct (Nat.eqb p q), (existsb (Nat.eqb p) s) | ]; reflexivity.
Qed.

Lemma mem_step p s o :
  mem p (fst (rstep s o)) =
  match o with
  | Reg q => if Nat.eqb q p then true else mem p s
  | Unreg q => if Nat.eqb q p then false else mem p s
  | Hook _ => mem p s
  end.
Proof.
  destruct o as [q|q|h]; simpl; [| |reflexivity]; destruct (mem q s) eqn:Eq; simpl;
    rewrite ?mem_filter_neq, ?(Nat.eqb_sym p q); destruct (Nat.eqb_spec q p) as [<-|]; simpl;
    rewrite ?andb_false_r, ?andb_true_r; congruence.
Qed.

Lemma mem_In p s : mem p s = true <-> In p s.
Proof.
  unfold mem. rewrite existsb_exists. split.
  - intros (x & Hi & E). apply Nat.eqb_eq in E. subst. exact Hi.
  - intros H. exists p. split; [exact H | apply Nat.eqb_refl].
Qed.

Lemma nodup_step s o : NoDup s -> NoDup (fst (rstep s o)).
Proof.
  intros H. destruct o as [q|q|h]; simpl; [| |exact H].
  - destruct (mem q s) eqn:E; simpl; [exact H|].
    constructor; [|exact H]. intros Hi. apply mem_In in Hi. congruence.
  - destruct (mem q s); simpl; [apply NoDup_filter; exact H | exact H].
Qed.

Lemma got1_hook p h s : NoDup s ->
  got1 p (Delivered (map (fun q => (q, h)) s)) = if mem p s then [h] else [].
Proof.
  unfold got1. induction 1 as [|x s Hn Hd IH]; simpl; [reflexivity|].
  destruct (Nat.eqb x p) eqn:E; simpl.
  - apply Nat.eqb_eq in E. subst x. rewrite Nat.eqb_refl. simpl.
    rewrite IH. destruct (mem p s) eqn:Em; [apply mem_In in Em; contradiction | reflexivity].
  - rewrite (Nat.eqb_sym p x), E. simpl. exact IH.
Qed.

Theorem received_expected p : forall ops s, NoDup s ->
  received p (rrun s ops) = expected p (mem p s) ops.
Proof.
  induction ops as [|o ops IH]; intros s Hs; [reflexivity|].
  unfold received. cbn [rrun flat_map]. fold (received p (rrun (fst (rstep s o)) ops)).
  rewrite (IH _ (nodup_step s o Hs)), mem_step.
  destruct o as [q|q|h]; cbn [expected].
  1,2: cbn [rstep]; destruct (mem q s); reflexivity.
  cbn [rstep snd fst]. rewrite (got1_hook p h s Hs). destruct (mem p s); reflexivity.
Qed.

Theorem registered_is_last_says p : forall ops s,
  mem p (rstate s ops) = last_says p (mem p s) ops.
Proof.
  induction ops as [|o ops IH]; intros s; [reflexivity|].
  cbn [rstate]. rewrite IH, mem_step. destruct o; reflexivity.
Qed.

(** the registry never lists a plugin twice (so one call reaches a plugin at most once: [got1_hook]) *)
Theorem registry_nodup : forall ops s, NoDup s -> NoDup (rstate s ops).
Proof. induction ops as [|o ops IH]; intros s H; [exact H|]. cbn [rstate]. apply IH, nodup_step, H. Qed.

Theorem refused_no_change s o : snd (rstep s o) = Refused -> fst (rstep s o) = s.
Proof.
  destruct o as [q|q|h]; simpl; try discriminate.
  - destruct (mem q s); simpl; [reflexivity | discriminate].
  - destruct (mem q s); simpl; [discriminate | reflexivity].
Qed.

(** what harness/registry_tie.py compares with the real PluginManager: [run_enc ops] *)
Definition enc_out (o : rout) : list nat :=
  match o with
  | Delivered l => 2 :: flat_map (fun x => [fst x; snd x]) l
  | Done => [0]
  | Refused => [1]
  end.
Definition run_enc (ops : list rop) : list (list nat) := map enc_out (rrun [] ops).
