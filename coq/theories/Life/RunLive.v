(** Liveness of an accepted run, as ONE theorem (the mirror of close_completes):
    from every reachable state in which a run task exists there is a continuation
    of internal labels (steps of tasks, of the run task, and the child's exit --
    that the child exits is the environment's part) after which the run task has
    ended, the state is 'finished', everything waiting for the run has returned and
    the record of THAT run is closed with `finished`.
    ([drive] is not an instance of [Protocol.run_to_end]: that one starts after the wait for the child,
    with the F-guard already discharged and the child gone; [drive] starts anywhere and lets the
    environment and the run() call do their part first, [prepare].) *)
From NL Require Import Life.Model Life.LockInv Life.FsmInv Life.Hist Life.Close Life.Protocol.
From Coq Require Import Lia.

Definition Good (s : state) : Prop := LkS s /\ FI s /\ CI s /\ PInv s /\ SInv (core_of s).

Lemma Good_step s l : Good s -> Good (step s l).
Proof.
  intros (HL & HF & HC & HP & HS). split; [|split; [|split; [|split]]].
  - apply LkS_step; auto.
  - apply FI_step; auto.
  - apply CI_step; auto.
  - apply PInv_step; auto.
  - apply SInv_step; auto.
Qed.

Lemma Good_reachable a b c d ls : Good (run_labels (init_state a b c d) ls).
Proof.
  destruct (reach_all a b c d ls) as (HL & HF & HP & HS). destruct (Close.all_inv a b c d ls) as (_ & _ & HC).
  split; [|split; [|split; [|split]]]; auto.
Qed.

Definition intl (l : label) : Prop := Close.internal l = true.

(** the run (number, script) the current record belongs to *)
Definition qid (q : qst) : option (Z * Z) :=
  match q with QI n st | QR n st | QF n st _ => Some (n, st) | _ => None end.
Definition rid (s : state) : option (Z * Z) := qid (qtr (rel (trace s))).

Lemma arun_rid k k' : AInv k -> arun k k' -> qid (qtr (k_rel k')) = qid (qtr (k_rel k)).
Proof.
  intros H St. destruct St; unfold AInv in H; simpl in *; auto.
  - destruct H as (_ & a0 & Ea & _ & ->). inversion Ea; subst. rewrite !Z.eqb_refl. reflexivity.
  - destruct H as (_ & a0 & Ea & _ & ->). inversion Ea; subst. rewrite !Z.eqb_refl. reflexivity.
Qed.

Lemma arun_end k k' : AInv k -> arun k k' -> Protocol.rank (k_runt k') = 0%nat ->
  k_runt k' = None /\ k_fsm k' = Finished /\ k_rf k' = Some true.
Proof.
  intros H St Hr. destruct St; simpl in *; try discriminate.
  unfold AInv in H. simpl in H. destruct H as (-> & _). auto.
Qed.

Lemma api_keeps_core s l : Good s -> runt s <> None -> (forall o, l <> ChildExit o) -> l <> StepRun ->
  core_of (step s l) = core_of s.
Proof.
  intros (HL & HF & _ & HP & _) Hr Hc Hs. destruct (cls_step s l HL HF) as [E | St]; auto.
  exfalso. destruct l; cbn [lstep] in St; [| |congruence|exact (Hc o eq_refl)]; apply Hr, (aapi_idle _ _ HP St).
Qed.

Lemma rpc_eq_wait (r : rpc) : r = RT_WaitChild \/ r <> RT_WaitChild.
Proof. destruct r; auto; right; discriminate. Qed.

Lemma prepare s : Good s -> runt s = Some RT_WaitChild ->
  exists pre, Forall intl pre /\
    let s1 := run_labels s pre in
    Good s1 /\ runt s1 = Some RT_WaitChild /\ rid s1 = rid s /\
    run_call_pending s1 = false /\ pending_exit s1 <> None.
Proof.
  intros HG Hr.
  assert (A : exists pa, Forall intl pa /\ let sa := run_labels s pa in
            Good sa /\ runt sa = Some RT_WaitChild /\ rid sa = rid s /\ run_call_pending sa = false).
  { destruct (run_call_pending s) eqn:Ep.
    - pose proof HG as (HL & HF & HC & HP & HS).
      assert (Hsev : started_ev s = true) by (unfold SInv in HS; simpl in HS; rewrite Hr in HS; exact HS).
      destruct (f_guard_step s Ep Hsev) as (t & _ & _ & Hp').
      assert (Ec : core_of (step s (Step t)) = core_of s).
      { apply api_keeps_core; auto; try congruence; discriminate. }
      destruct (core_fields _ _ Ec) as (_ & E2 & _ & _ & _ & _ & _ & _ & E9).
      exists [Step t]. split; [repeat constructor|]. cbv zeta. change (run_labels s [Step t]) with (step s (Step t)).
      split; [apply Good_step; auto|]. split; [congruence|]. split; [unfold rid; rewrite E9; reflexivity | exact Hp'].
    - exists []. split; [constructor|]. simpl. auto. }
  destruct A as (pa & Hpa & HGa & Hra & Hida & Hpa').
  set (sa := run_labels s pa) in *.
  destruct (pending_exit sa) as [o|] eqn:Epe.
  - exists pa. split; auto. cbv zeta. fold sa. split; [exact HGa|]. repeat split; auto. congruence.
  - pose proof HGa as (HL & HF & HC & HP & HS). pose proof HF as [_ HSc].
    pose proof (sc_child _ _ _ _ _ _ HSc) as Hch. rewrite Hra in Hch. simpl in Hch.
    destruct Hch as [(Ha & _) | (_ & Hn)]; [|congruence].
    exists (pa ++ [ChildExit OReturn]). split; [apply Forall_app; split; auto; repeat constructor|].
    cbv zeta. rewrite run_labels_app. fold sa. simpl run_labels.
    assert (Ee : do_child_exit sa OReturn = set_pending_exit (set_alive sa 0%nat) (Some OReturn))
      by (unfold do_child_exit; rewrite Ha; reflexivity).
    pose proof (Good_step sa (ChildExit OReturn) HGa) as HG'. simpl in HG'.
    split; [exact HG'|]. rewrite Ee. unfold rid, run_call_pending in *. simpl. repeat split; auto. discriminate.
Qed.

Lemma prepare_any s r : Good s -> runt s = Some r ->
  exists pre, Forall intl pre /\
    let s1 := run_labels s pre in
    Good s1 /\ runt s1 = Some r /\ rid s1 = rid s /\
    (r = RT_WaitChild -> run_call_pending s1 = false /\ pending_exit s1 <> None).
Proof.
  intros HG Er. destruct (rpc_eq_wait r) as [-> | Hn].
  - destruct (prepare s HG Er) as (pre & Hpre & HG1 & Hr1 & Hid1 & Hp1 & Hpe1).
    exists pre. split; [exact Hpre|]. cbv zeta. split; [exact HG1|]. auto.
  - exists []. split; [constructor|]. cbv zeta. simpl. split; [exact HG|]. repeat split; auto; contradiction.
Qed.

Lemma drive n : forall s, Good s -> Protocol.rank (runt s) = S n ->
  exists ls', Forall intl ls' /\
    let s' := run_labels s ls' in
    Good s' /\ runt s' = None /\ st_fsm s' = Finished /\ run_finished s' = Some true /\ rid s' = rid s.
Proof.
  induction n as [|n IH]; intros s HG Hk.
  all: destruct (runt s) as [r|] eqn:Er; [|discriminate].
  all: destruct (prepare_any s r HG Er) as (pre & Hpre & HG1 & Hr1 & Hid1 & Hw1); set (s1 := run_labels s pre) in *.
  all: pose proof HG1 as (HL1 & HF1 & HC1 & HP1 & HS1).
  all: destruct (run_enabled s1 r HF1 Hr1 Hw1) as (_ & St).
  all: pose proof (arun_rank _ _ St) as Hrk; simpl in Hrk; rewrite Hr1, Hk in Hrk.
  all: pose proof (arun_rid _ _ HP1 St) as Hid2; simpl in Hid2.
  all: pose proof (Good_step s1 StepRun HG1) as HG2.
  - assert (Hz : Protocol.rank (runt (step s1 StepRun)) = 0%nat) by (simpl; lia).
    destruct (arun_end _ _ HP1 St Hz) as (E1 & E2 & E3). simpl in E1, E2, E3.
    exists (pre ++ [StepRun]). split; [apply Forall_app; split; auto; repeat constructor|].
    cbv zeta. rewrite run_labels_app. fold s1. simpl run_labels. split; [exact HG2|]. repeat split; auto.
    unfold rid in *. simpl in *. congruence.
  - destruct (IH (step s1 StepRun) HG2) as (ls2 & Hls2 & HG3 & R1 & R2 & R3 & R4); [simpl; lia|].
    exists (pre ++ StepRun :: ls2). split; [apply Forall_app; split; auto; constructor; auto; reflexivity|].
    cbv zeta. rewrite run_labels_app. fold s1. simpl run_labels. split; [exact HG3|]. repeat split; auto.
    unfold rid in *. simpl in *. congruence.
Qed.

Definition at_pw (ts : ttab) (x : nat * (call * pc)) : bool :=
  match find_task ts (fst x) with Some (_, P_WaitRunFinished) => true | _ => false end.

Lemma remove_length_le ts t : (length (remove_task ts t) <= length ts)%nat.
Proof. induction ts as [|[t0 y0] ts IH]; simpl; auto. destruct (Nat.eqb t t0); simpl; lia. Qed.

Lemma remove_length ts t x : find_task ts t = Some x -> (length (remove_task ts t) < length ts)%nat.
Proof.
  induction ts as [|[t' y] ts IH]; simpl; [discriminate|]. pose proof (remove_length_le ts t) as Hle.
  destruct (Nat.eqb t t'); simpl; [lia|]. intros H. specialize (IH H). lia.
Qed.

Lemma drain n : forall s, Good s -> (length (tasks s) <= n)%nat -> run_finished s = Some true ->
  exists ls', Forall intl ls' /\
    let s' := run_labels s ls' in
    Good s' /\ core_of s' = core_of s /\
    (forall t c p, find_task (tasks s') t = Some (c, p) -> p <> P_WaitRunFinished).
Proof.
  induction n as [|n IH]; intros s HG Hlen Hrf.
  - exists []. split; [constructor|]. cbv zeta. simpl. split; [exact HG|]. split; auto.
    intros t c p Hf. destruct (tasks s); [discriminate | simpl in Hlen; lia].
  - destruct (existsb (at_pw (tasks s)) (tasks s)) eqn:Ex.
    + apply existsb_exists in Ex. destruct Ex as ([t x] & _ & Hx). unfold at_pw in Hx. simpl in Hx.
      destruct (find_task (tasks s) t) as [[c p]|] eqn:Ef; [|discriminate]. destruct p; try discriminate.
      assert (Es : step s (Step t) = finish_call s t c ROk) by (simpl; unfold do_step; rewrite Ef, Hrf; reflexivity).
      pose proof (Good_step s (Step t) HG) as HG1. rewrite Es in HG1.
      destruct (IH (finish_call s t c ROk) HG1) as (ls2 & Hls2 & HG2 & Ec2 & Hno2).
      * simpl. pose proof (remove_length _ _ _ Ef). lia.
      * exact Hrf.
      * exists (Step t :: ls2). split; [constructor; auto; reflexivity|]. cbv zeta.
        change (run_labels s (Step t :: ls2)) with (run_labels (step s (Step t)) ls2). rewrite Es.
        split; [exact HG2|]. split; [rewrite Ec2; reflexivity | exact Hno2].
    + exists []. split; [constructor|]. cbv zeta. simpl. split; [exact HG|]. split; auto.
      intros t c p Hf ->. pose proof (find_in _ _ _ Hf) as Hin.
      assert (Ht : existsb (at_pw (tasks s)) (tasks s) = true).
      { apply existsb_exists. exists (t, (c, P_WaitRunFinished)). split; auto. unfold at_pw. simpl. rewrite Hf. reflexivity. }
      congruence.
Qed.

Theorem accepted_run_finishes : forall stmt start th md ls,
  let s := run_labels (init_state stmt start th md) ls in
  runt s <> None ->
  exists ls', Forall (fun l => Close.internal l = true) ls' /\
    let s' := run_labels s ls' in
    runt s' = None /\ run_finished s' = Some true /\ alive s' = 0%nat /\ pending_exit s' = None /\
    st_fsm s' = Finished /\
    (forall t c p, find_task (tasks s') t = Some (c, p) -> p <> P_WaitRunFinished /\ p <> R_WaitStarted) /\
    proto (hooks_of (history s')) = PF /\
    exists n st o,
      rinfo (pubs_of (history s')) = QF n st o /\ exited_proc s' = Some o /\
      last_result (pubs_of (history s')) = Some o /\
      (forall a, run_arg s = Some a -> n = ra_no a /\ st = ra_stmt a).
Proof.
  intros stmt start th md ls s Hr.
  pose proof (Good_reachable stmt start th md ls) as HG. fold s in HG.
  destruct (runt s) as [r|] eqn:Er; [|congruence].
  assert (Hk : exists n, Protocol.rank (runt s) = S n) by (rewrite Er; destruct r; simpl; eauto).
  destruct Hk as (n & Hk).
  destruct (drive n s HG Hk) as (l1 & Hl1 & HG1 & R1 & R2 & R3 & R4). set (s1 := run_labels s l1) in *.
  destruct (drain (length (tasks s1)) s1 HG1 (le_n _) R3) as (l2 & Hl2 & HG2 & Ec & Hno).
  set (s2 := run_labels s1 l2) in *.
  destruct (core_fields _ _ Ec) as (E1 & E2 & E3 & E4 & E5 & E6 & E7 & E8 & E9).
  exists (l1 ++ l2). split; [apply Forall_app; auto|]. cbv zeta. rewrite run_labels_app. fold s1. fold s2.
  pose proof HG2 as (HL2 & HF2 & HC2 & HP2 & HS2). pose proof HF2 as [_ HSc].
  pose proof (sc_child _ _ _ _ _ _ HSc) as Hch. rewrite E2, R1 in Hch. destruct Hch as (Ha & Hpe).
  assert (Hpf : hook_corr (proto (hooks_of (history s2))) (st_fsm s2) (runt s2) (run_arg s2)) by (apply PInv_hook_corr; auto).
  assert (Hq : rec_corr (rinfo (pubs_of (history s2))) (st_fsm s2) (runt s2) (run_arg s2) (exited_proc s2))
    by (apply PInv_rec_corr; auto).
  rewrite E1, E2, R1, R2 in Hpf, Hq. simpl in Hpf, Hq. destruct Hpf as (_ & Hpf). destruct Hq as (m & st & o & Hex & Hq).
  split; [congruence|]. split; [congruence|]. split; [exact Ha|]. split; [exact Hpe|]. split; [congruence|].
  split.
  { intros t c p Hf. split; [eapply Hno; eauto|]. intros ->.
    destruct (ci_tasks _ HC2 _ _ _ Hf) as (_ & _ & _ & H4). destruct (H4 eq_refl) as (_ & Hrw).
    rewrite E2, R1 in Hrw. discriminate. }
  split; [exact Hpf|]. exists m, st, o. split; [exact Hq|]. split; [exact Hex|]. split.
  { rewrite last_core. rewrite rinfo_core in Hq. eapply qtr_QF_ltr; eauto. }
  intros a Ha0.
  assert (Hid : rid s2 = rid s) by (unfold rid in *; rewrite E9; exact R4).
  assert (Hs : rid s = Some (ra_no a, ra_stmt a)).
  { destruct HG as (_ & _ & _ & HP & _). unfold PInv, AInv in HP. simpl in HP. unfold rid.
    rewrite Er, Ha0 in HP. unfold fin_rec in HP. simpl in HP.
    destruct r; dex; try discriminate;
      repeat match goal with H : Some _ = Some _ |- _ => inversion H; subst; clear H end;
      match goal with H : qtr _ = _ |- _ => rewrite H; reflexivity end. }
  unfold rid in Hid at 1. rewrite rinfo_core in Hq. simpl in Hq. rewrite Hq, Hs in Hid. simpl in Hid.
  inversion Hid. auto.
Qed.
