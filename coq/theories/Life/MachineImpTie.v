(** Composition of the two regenerated sources: Gen/ImpSkeleton.v (nextline/imp.py, main.py; translate/
    imp_skeleton.py) and Gen/MachineWiring.v + Gen/FsmConfig.v (nextline/fsm/*; translate/machine_wiring.py,
    fsm_config.py).

    An Imp method is `async with self._lock: <prologue>; await self._machine.<m>(...); <epilogue>`.
    [compile] turns the regenerated tree of the method into a list of [iprim]: effects, waits, ONE trigger
    (resolved through the regenerated StateMachine: `aopen`/`aclose` are `await self.<trigger>()`, a plain
    trigger name is bound by AsyncMachine.add_model because StateMachine has no method of that name), and the
    release of the lock at the end of the `async with`.  The theorems show
      - which trigger each of Imp.aopen / run / reset / aclose fires, with what before and after it;
      - that the "Imp-level epilogue after a trigger" which Life/MachineTie.v copies from the model
        ([MachineTie.epilogue]) IS the rest of the regenerated Imp method after the trigger, run by [orun],
        followed by what Nextline does with the returned call ([after_imp], see below), for ALL model states;
      - that the model's [enter_close] is the regenerated prologue of Imp.aclose (pubsub.close, the wait for
        the run guarded by `state == 'running'` -- the regenerated Callback.wait_for_run_finish) and then the
        trigger, and that the whole close path has the order pubsub.close; wait; trigger close; pubsub.close;
        release; Continuous.close (the last from the regenerated Nextline.close);
      - that the model's first segment under the lock is the whole regenerated Imp method run from its first
        statement ([imp_run_aopen], [imp_run_run], [imp_run_reset], [imp_run_aclose]);
      - that every `self._machine.<m>(...)` call of Imp passes the positional / keyword arguments that
        [trigger_event] gives the EventData of its trigger ([imp_event_data]).
    What REMAINS trusted at this level (stated precisely): [after_imp] -- what the Nextline wrapper does once
    the Imp method returned (the call returns / run_session goes on to wait for the run / a close() that had to
    start first goes on to its close part), copied from the model; the acquisition of the lock is the model's
    [acquire]; `hook.init` of Imp.aopen has no effect on the model state (Life/ArgTie.v); an exception leaving
    the `async with` releases the lock ([raise_out]); the name tables
    [imp_trig_name] (TRIGGERS of translate/imp_skeleton.py) and [trig_of_name]. *)
From Coq Require Import List String Bool Arith ZArith.
From NL Require Import Life.Model Gen.FsmConfig Life.MachineSyntax Gen.MachineWiring Life.MachineTie.
From NL Require Life.ImpSyntax Gen.ImpSkeleton.
Import ListNotations.
Local Open Scope string_scope.
Local Open Scope list_scope.

Inductive iprim :=
| IDo (f : state -> state)
| IWait (a : state -> wstat) (r : state -> bool) (p : pc)
| ITrigger (tr : trig).

(** TRIGGERS of translate/imp_skeleton.py, read backwards *)
Definition imp_trig_name (t : ImpSyntax.trig) : string :=
  match t with
  | ImpSyntax.TRun => "run" | ImpSyntax.TReset => "reset" | ImpSyntax.TAopen => "aopen" | ImpSyntax.TAclose => "aclose"
  | ImpSyntax.TInitialize => "initialize" | ImpSyntax.TFinish => "finish" | ImpSyntax.TClose => "close"
  end.

Definition trig_of_name (n : string) : option trig :=
  if String.eqb n "initialize" then Some TInitialize else if String.eqb n "run" then Some TRun else
  if String.eqb n "finish" then Some TFinish else if String.eqb n "close" then Some TClose else
  if String.eqb n "reset" then Some TReset else None.

Definition resolve_name (n : string) : option trig :=
  match find_method machine_methods n with
  | None => if existsb (String.eqb n) config_triggers then trig_of_name n else None
  | Some m =>
    match m_body m, m_params m with
    | SAwaitSelf n', [] =>
      if m_async m && negb (sm_has n') && existsb (String.eqb n') config_triggers then trig_of_name n' else None
    | _, _ => None
    end
  end.
Definition resolve_trigger (t : ImpSyntax.trig) : option trig := resolve_name (imp_trig_name t).

Definition state_is (n : string) (s : state) : bool := String.eqb (state_name (st_fsm s)) n.

Fixpoint guard_waits (g : state -> bool) (l : list iprim) : option (list iprim) :=
  match l with
  | [] => Some []
  | IWait a r p :: l' =>
    match guard_waits g l' with
    | Some y => Some (IWait (fun s => if g s then a s else WPass) r p :: y)
    | None => None
    end
  | _ => None
  end.

Fixpoint compile (x : ImpSyntax.stmt) : option (list iprim) :=
  match x with
  | ImpSyntax.Skip => Some []
  | ImpSyntax.Seq a ImpSyntax.Return => compile a            (* `return await ...` as the last statement *)
  | ImpSyntax.Seq a b => match compile a, compile b with Some u, Some v => Some (u ++ v) | _, _ => None end
  | ImpSyntax.WithLock b => match compile b with Some u => Some (u ++ [IDo release]) | None => None end
  | ImpSyntax.Trigger t => match resolve_trigger t with Some tr => Some [ITrigger tr] | None => None end
  | ImpSyntax.PubSubClose => Some [IDo (fun s => publish s PEndAll)]
  | ImpSyntax.WaitRunFinish =>
    match wait_for_run_finish_prims with Some [PWait a r p] => Some [IWait a r p] | _ => None end
  | ImpSyntax.If (ImpSyntax.GStateIs n) th ImpSyntax.Skip =>
    match compile th with Some u => guard_waits (state_is n) u | None => None end
  | ImpSyntax.Hook false h => if String.eqb h "init" then Some [] else None
  | ImpSyntax.Call ImpSyntax.OContinuous m => if String.eqb m "close" then Some [IDo close_cont] else None
  | _ => None
  end.

Definition imp_prog (m : string) : option (list iprim) :=
  match ImpSyntax.assoc m ImpSkeleton.imp_methods with Some b => compile b | None => None end.

Fixpoint split_trigger (l : list iprim) : option (list iprim * trig * list iprim) :=
  match l with
  | [] => None
  | ITrigger tr :: r => Some ([], tr, r)
  | x :: r => match split_trigger r with Some (a, tr, b) => Some (x :: a, tr, b) | None => None end
  end.

(** Nextline.close: what follows `await self._imp.aclose()` inside the try *)
Fixpoint flatten (x : ImpSyntax.stmt) : list ImpSyntax.stmt :=
  match x with
  | ImpSyntax.Seq a b => flatten a ++ flatten b
  | ImpSyntax.TryExcept b _ => flatten b
  | y => [y]
  end.
Fixpoint after_aclose (l : list ImpSyntax.stmt) : option (list ImpSyntax.stmt) :=
  match l with
  | [] => None
  | ImpSyntax.Call ImpSyntax.OImp m :: r => if String.eqb m "aclose" then Some r else after_aclose r
  | _ :: r => after_aclose r
  end.
Fixpoint compile_list (l : list ImpSyntax.stmt) : option (list iprim) :=
  match l with
  | [] => Some []
  | x :: r => match compile x, compile_list r with Some u, Some v => Some (u ++ v) | _, _ => None end
  end.
Definition nextline_close_tail : option (list iprim) :=
  match ImpSyntax.assoc "close" ImpSkeleton.nextline_methods with
  | Some b => match after_aclose (flatten b) with Some r => compile_list r | None => None end
  | None => None
  end.

Inductive ooutc := ODone | OPark (p : pc) (k : list (prim pc)) (o : list iprim) | ORaise (x : exn) | OStuck.

Fixpoint orun (t : nat) (c : call) (o : list iprim) (s : state) : state * ooutc :=
  match o with
  | [] => (s, ODone)
  | IDo f :: o' => orun t c o' (f s)
  | IWait a r p :: o' =>
    match a s with
    | WPass => orun t c o' s
    | WPark => (s, OPark p [] o)
    | WRaise x => (s, ORaise x)
    end
  | ITrigger tr :: o' =>
    match script (st_fsm s) tr with
    | None => (s, ORaise XMachine)
    | Some _ =>
      match api_prog t c tr (st_fsm s) with
      | None => (s, OStuck)
      | Some k =>
        match run k s with
        | (s', KDone) => orun t c o' s'
        | (s', KPark p k') => (s', OPark p k' o')
        | (s', KRaise x) => (s', ORaise x)
        end
      end
    end
  end.

Definition after_imp (m : string) (t : nat) (c : call) (s : state) : state :=
  if String.eqb m "aopen" then match c with CClose => acquire s t c true | _ => finish_call s t c ROk end
  else if String.eqb m "run" then
    match c with CRunContWait | CRunSession => set_pc s t c P_WaitRunFinished | _ => finish_call s t c ROk end
  else finish_call s t c ROk.

Definition oembed (m : string) (t : nat) (c : call) (r : state * ooutc) : state :=
  match r with
  | (s, ODone) => after_imp m t c s
  | (s, OPark p _ _) => set_pc s t c p
  | (s, ORaise x) => raise_out s t c x
  | (s, OStuck) => s
  end.

Definition imp_rest (m : string) : option (list iprim) :=
  match imp_prog m with
  | Some l => match split_trigger l with
              | Some (_, _, r) =>
                if String.eqb m "aclose" then match nextline_close_tail with Some u => Some (r ++ u) | None => None end
                else Some r
              | None => None end
  | None => None
  end.

Definition derived_epilogue (m : string) (t : nat) (c : call) (s : state) : state :=
  match imp_rest m with Some r => oembed m t c (orun t c r s) | None => s end.

Lemma imp_prog_aopen : imp_prog "aopen" = Some [ITrigger TInitialize; IDo release].
Proof. vm_compute. reflexivity. Qed.
Lemma imp_prog_run : imp_prog "run" = Some [ITrigger TRun; IDo release].
Proof. vm_compute. reflexivity. Qed.
Lemma imp_prog_reset : imp_prog "reset" = Some [ITrigger TReset; IDo release].
Proof. vm_compute. reflexivity. Qed.

Lemma imp_prog_table :
  imp_prog "aopen" = Some [ITrigger TInitialize; IDo release] /\
  imp_prog "run" = Some [ITrigger TRun; IDo release] /\
  imp_prog "reset" = Some [ITrigger TReset; IDo release].
Proof. exact (conj imp_prog_aopen (conj imp_prog_run imp_prog_reset)). Qed.

Lemma imp_prog_aclose : exists a rd,
  wait_for_run_finish_prims = Some [PWait a rd C_WaitRunFinished] /\
  imp_prog "aclose" = Some [IDo (fun s => publish s PEndAll);
                            IWait (fun s => if state_is "running" s then a s else WPass) rd C_WaitRunFinished;
                            ITrigger TClose; IDo (fun s => publish s PEndAll); IDo release] /\
  nextline_close_tail = Some [IDo close_cont].
Proof. do 2 eexists; repeat split; vm_compute; reflexivity. Qed.

Theorem imp_method_shapes :
  (exists r, imp_prog "aopen" = Some r /\ split_trigger r = Some ([], TInitialize, [IDo release])) /\
  (exists r, imp_prog "run" = Some r /\ split_trigger r = Some ([], TRun, [IDo release])) /\
  (exists r, imp_prog "reset" = Some r /\ split_trigger r = Some ([], TReset, [IDo release])) /\
  (exists r a rd, imp_prog "aclose" = Some r /\
     wait_for_run_finish_prims = Some [PWait a rd C_WaitRunFinished] /\
     split_trigger r = Some ([IDo (fun s => publish s PEndAll);
                              IWait (fun s => if state_is "running" s then a s else WPass) rd C_WaitRunFinished],
                             TClose,
                             [IDo (fun s => publish s PEndAll); IDo release])) /\
  nextline_close_tail = Some [IDo close_cont].
Proof.
  destruct imp_prog_aclose as (a & rd & Hw & Hp & Ht).
  split; [eexists; split; [exact imp_prog_aopen | reflexivity] | ].
  split; [eexists; split; [exact imp_prog_run | reflexivity] | ].
  split; [eexists; split; [exact imp_prog_reset | reflexivity] | ].
  split; [ | exact Ht]. eexists. exists a, rd. split; [exact Hp | split; [exact Hw | reflexivity]].
Qed.

Lemma release_publish : forall s p, release (publish s p) = publish (release s) p.
Proof.
  intros s p; destruct s; unfold release; cbn.
  match goal with l : list nat |- _ => destruct l as [|x q] end; [reflexivity|]; cbn.
  match goal with |- context [find_task ?l ?x] => destruct (find_task l x) as [[c0 p0]|] end; reflexivity.
Qed.

Lemma imp_rest_aopen : imp_rest "aopen" = Some [IDo release].
Proof. vm_compute. reflexivity. Qed.
Lemma imp_rest_run : imp_rest "run" = Some [IDo release].
Proof. vm_compute. reflexivity. Qed.
Lemma imp_rest_reset : imp_rest "reset" = Some [IDo release].
Proof. vm_compute. reflexivity. Qed.
Lemma imp_rest_aclose : imp_rest "aclose" = Some [IDo (fun s => publish s PEndAll); IDo release; IDo close_cont].
Proof. vm_compute. reflexivity. Qed.

Lemma imp_rest_table :
  imp_rest "aopen" = Some [IDo release] /\ imp_rest "run" = Some [IDo release] /\ imp_rest "reset" = Some [IDo release] /\
  imp_rest "aclose" = Some [IDo (fun s => publish s PEndAll); IDo release; IDo close_cont].
Proof. exact (conj imp_rest_aopen (conj imp_rest_run (conj imp_rest_reset imp_rest_aclose))). Qed.

Theorem imp_epilogue_aopen : forall s t c, epilogue t c TInitialize s = derived_epilogue "aopen" t c s.
Proof.
  intros s t c; unfold derived_epilogue; rewrite imp_rest_aopen; destruct c; reflexivity.
Qed.

Theorem imp_epilogue_run : forall s t c, epilogue t c TRun s = derived_epilogue "run" t c s.
Proof.
  intros s t c; unfold derived_epilogue; rewrite imp_rest_run; destruct c; reflexivity.
Qed.

Theorem imp_epilogue_reset : forall s t c, epilogue t c TReset s = derived_epilogue "reset" t c s.
Proof.
  intros s t c; unfold derived_epilogue; rewrite imp_rest_reset; reflexivity.
Qed.

(** close: the second pubsub.close() BEFORE the release (the model writes them the other way round: they commute) *)
Theorem imp_epilogue_aclose : forall s t c, epilogue t c TClose s = derived_epilogue "aclose" t c s.
Proof.
  intros s t c; unfold derived_epilogue; rewrite imp_rest_aclose.
  cbn [orun oembed]. rewrite release_publish. reflexivity.
Qed.

Definition imp_pre (m : string) : list iprim :=
  match imp_prog m with
  | Some l => match split_trigger l with Some (a, _, _) => a | None => [ITrigger TFinish] end
  | None => [ITrigger TFinish]
  end.

Theorem imp_close_prologue : forall s t,
  enter_close s t =
  match orun t CClose (imp_pre "aclose") s with
  | (s1, ODone) => close_trigger s1 t
  | (s1, OPark p _ _) => set_pc s1 t CClose p
  | (s1, ORaise x) => raise_out s1 t CClose x
  | (s1, OStuck) => s1
  end.
Proof.
  intros s t.
  let k := eval vm_compute in (imp_pre "aclose") in change (imp_pre "aclose") with k.
  split_state s; try (match goal with r : option bool |- _ => destruct r as [[|]|] end); reflexivity.
Qed.

Theorem imp_no_prologue : imp_pre "aopen" = [] /\ imp_pre "run" = [] /\ imp_pre "reset" = [].
Proof. vm_compute. repeat split. Qed.

Definition imp_run (m : string) (t : nat) (c : call) (s : state) : state :=
  match imp_prog m with
  | Some l => oembed m t c (orun t c (if String.eqb m "aclose"
                                      then match nextline_close_tail with Some u => l ++ u | None => [ITrigger TFinish] end
                                      else l) s)
  | None => s
  end.

(** [imp_run] on a method whose program is [E : imp_prog m = Some [ITrigger tr; IDo release]]: the trigger's
    program for the lifecycle state of [s] is evaluated, the two sides are then compared by conversion *)
Ltac imp_run_tie E s :=
  unfold imp_run; rewrite E; cbn [String.eqb Ascii.eqb Bool.eqb orun];
  split_state s; cbn [st_fsm]; eval_progs; reflexivity.

Theorem imp_run_aopen : forall s t c, enter_start s t c = imp_run "aopen" t c s.
Proof. intros s t c; imp_run_tie imp_prog_aopen s. Qed.

Theorem imp_run_run : forall s t c, enter_run s t c = imp_run "run" t c s.
Proof. intros s t c; imp_run_tie imp_prog_run s. Qed.

Theorem imp_run_reset : forall s t o, enter_reset s t o = imp_run "reset" t (CReset o) s.
Proof. intros s t [[x|] a b d]; imp_run_tie imp_prog_reset s. Qed.

Theorem imp_run_aclose : forall s t, st_fsm s <> Created -> enter_close s t = imp_run "aclose" t CClose s.
Proof.
  intros s t H; unfold imp_run.
  destruct imp_prog_aclose as (a & rd & Hw & Hp & Ht).
  (* the test of the wait must be the concrete closure for the comparison by conversion below; the [cbn]
     list is what [enter_close] and [state_is] need, never [release] / [acquire] *)
  vm_compute in Hw. injection Hw as <- <-.
  rewrite Hp, Ht; clear Hp Ht. cbn [String.eqb Ascii.eqb Bool.eqb app orun].
  split_state s; cbn in H; try congruence; clear H;
    try (match goal with r : option bool |- _ => destruct r as [[|]|] end);
    try (match goal with r : option rpc |- _ => destruct r end);
    unfold enter_close, state_is;
    cbn [publish set_trace st_fsm run_finished runt state_name String.eqb Ascii.eqb Bool.eqb];
    eval_progs; first [reflexivity | cbn [orun run oembed]; rewrite release_publish; reflexivity].
Qed.

(** [imp_trigger_calls]: the argument shapes emitted by translate/machine_wiring.py (reset: `reset_options=`, the
    others none); StateMachine.aopen / aclose and Callback._finish call their trigger without arguments (enforced by
    the translator: SAwaitSelf / SAwaitMachine) *)
Fixpoint strs_eqb (a b : list string) : bool :=
  match a, b with
  | [], [] => true
  | x :: a', y :: b' => String.eqb x y && strs_eqb a' b'
  | _, _ => false
  end.
Definition call_agrees (x : string * string * nat * list string) : bool :=
  match x with
  | (im, m, npos, kws) =>
    match resolve_name m, imp_prog im with
    | Some tr, Some l =>
      Nat.eqb npos (ev_nargs (trigger_event tr None)) && strs_eqb kws (ev_kwargs (trigger_event tr None)) &&
      match split_trigger l with Some (_, tr', _) => MachineTie.trig_eqb tr tr' | None => false end
    | _, _ => false
    end
  end.
Theorem imp_event_data :
  forallb call_agrees imp_trigger_calls = true /\
  map (fun x => fst (fst (fst x))) imp_trigger_calls = ["run"; "reset"; "aopen"; "aclose"].
Proof. vm_compute. split; reflexivity. Qed.
