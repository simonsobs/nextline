(** C14 support: what one step of the lifecycle model can do to the
    RunArgComposer fields, [run_arg], the position of the lock holder inside a
    start / reset transition, and the trace.  One classification lemma
    ([step_kind]) proved once; the invariants of Life/Numbering.v are proved
    from it without unfolding the model again. *)
From NL Require Import Life.Model Life.LockInv Life.FsmInv Life.Hist.
From Coq Require Import Lia.
Open Scope Z_scope.

Definition comp (s : state) : Z * Z * bool * bool := (c_stmt s, c_next s, c_threads s, c_modules s).

(** how far the holder is inside a transition that touches the composer:
    1 = start, before initialize_run; 2 = reset, statement applied, the rest not yet;
    3 = reset, every option applied; 4 = reset, re-initialised *)
Definition stage (p : pc) : nat :=
  match p with
  | S_G1 => 1 | Z_G1 => 2 | Z_G1b | Z_WaitRunTask => 3 | Z_G3 | Z_G4 => 4 | _ => 0
  end%nat.

Definition hpc (s : state) : option (call * pc) :=
  match holder s with Some t => find_task (tasks s) t | None => None end.

Definition view_of (x : option (call * pc)) : option (call * nat) :=
  match x with
  | Some (c, p) => match stage p with O => None | k => Some (c, k) end
  | None => None
  end.

Definition hview (s : state) : option (call * nat) := view_of (hpc s).

Definition pre_init (f : fsm) : Prop := f = Created \/ f = Closed.

(** events that say nothing about numbering / script, given the composer's statement *)
Definition quiet_ev (cs : Z) (e : event) : Prop :=
  match e with
  | EvCall _ _ => True
  | EvRet _ c _ => match c with CReset _ => False | _ => True end
  | EvHook r => match h_hook r with HInitRun | HReset | HStartRun | HEndRun => False | _ => True end
  | EvPub (PStatement x) => x = cs
  | EvPub (PRunNo _) | EvPub (PRunInfo _ _ _ _) => False
  | EvPub _ => True
  end.

Definition call_ev (e : event) : Prop := match e with EvCall _ _ => True | _ => False end.

Inductive ext (P : event -> Prop) (tr : list event) : list event -> Prop :=
| ext_nil : ext P tr tr
| ext_cons e tr' : P e -> ext P tr tr' -> ext P tr (e :: tr').

Lemma ext_cont_off cs s0 tr tr' :
  ext (quiet_ev cs) tr tr' -> ext (quiet_ev cs) tr (cont_off_events s0 ++ tr').
Proof.
  intros H. unfold cont_off_events. destruct (cont_plugins s0); simpl; [exact H|].
  apply ext_cons; [exact I | exact H].
Qed.

Lemma ext_trans P a b c : ext P a b -> ext P b c -> ext P a c.
Proof. intros H1 H2. induction H2; auto. constructor; auto. Qed.

Lemma ext_app P tr tr' : ext P tr tr' -> exists new, tr' = new ++ tr /\ Forall P new.
Proof.
  induction 1 as [|e tr' He _ (new & -> & Hf)].
  - exists []. split; auto.
  - exists (e :: new). split; auto.
Qed.

Lemma ext_weaken (P Q : event -> Prop) tr tr' : (forall e, P e -> Q e) -> ext P tr tr' -> ext Q tr tr'.
Proof. intros HPQ. induction 1; constructor; auto. Qed.

Lemma ext_same {A} (f : list event -> A) (P : event -> Prop) :
  (forall e tr, P e -> f (e :: tr) = f tr) -> forall tr tr', ext P tr tr' -> f tr' = f tr.
Proof. intros H tr tr'. induction 1 as [|e tr' He _ IH]; auto. rewrite H; auto. Qed.

Lemma call_quiet cs e : call_ev e -> quiet_ev cs e.
Proof. destruct e; simpl; tauto. Qed.

Lemma stage_unlocked p : locked_pc p = false -> stage p = 0%nat.
Proof. destruct p; simpl; auto; discriminate. Qed.

Lemma stage_granted p : waitlock p = true -> stage (granted_pc p) = 0%nat.
Proof. destruct p; simpl; auto; discriminate. Qed.

Definition AllS0 (ts : ttab) : Prop := forall t c p, find_task ts t = Some (c, p) -> stage p = 0%nat.

Lemma hview_AllS0 s : AllS0 (tasks s) -> hview s = None.
Proof.
  intros H. unfold hview, hpc. destruct (holder s) as [t|]; auto.
  destruct (find_task (tasks s) t) as [[c p]|] eqn:E; auto. simpl. rewrite (H _ _ _ E). reflexivity.
Qed.

Lemma AllS0_release_remove q ts t : Lk (Some t) q ts -> AllS0 (remove_task (rel_tasks q ts) t).
Proof. exact (release_remove_all (fun p => stage p = 0%nat) stage_unlocked stage_granted q ts t). Qed.

Lemma AllS0_release_put q ts t c p :
  Lk (Some t) q ts -> stage p = 0%nat -> AllS0 (put_task (rel_tasks q ts) t (c, p)).
Proof. exact (release_put_all (fun p => stage p = 0%nat) stage_unlocked stage_granted q ts t c p). Qed.

Lemma hview_holder s t c p :
  LkS s -> find_task (tasks s) t = Some (c, p) -> locked_pc p = true -> hview s = view_of (Some (c, p)).
Proof. intros HL Hf Hl. unfold hview, hpc. rewrite (lk_holder_of _ _ _ HL _ _ _ Hf Hl), Hf. reflexivity. Qed.

Lemma hpc_put_holder s s' t x :
  holder s' = Some t -> tasks s' = put_task (tasks s) t x -> hpc s' = Some x.
Proof. intros Hh Et. unfold hpc. rewrite Hh, Et. apply find_put_eq. Qed.

Lemma hview_put s' t c p ts :
  holder s' = Some t -> tasks s' = put_task ts t (c, p) -> hview s' = view_of (Some (c, p)).
Proof. intros Hh Et. unfold hview, hpc. rewrite Hh, Et, find_put_eq. reflexivity. Qed.

Ltac hvput Hh := erewrite hview_put; [|simpl; rewrite ?apply_rest_holder; exact Hh
                                     |simpl; rewrite ?apply_rest_tasks; reflexivity].

Lemma not_holder s t : LkS s ->
  (forall c p, find_task (tasks s) t = Some (c, p) -> locked_pc p = false) -> holder s <> Some t.
Proof.
  intros HL Hfree Hh. destruct (lk_holder_has _ _ _ HL _ Hh) as (c & p & Hf & Hl).
  rewrite (Hfree _ _ Hf) in Hl. discriminate.
Qed.

Lemma hpc_other s s' t :
  holder s' = holder s -> holder s <> Some t ->
  (forall t', t' <> t -> find_task (tasks s') t' = find_task (tasks s) t') -> hpc s' = hpc s.
Proof. intros Hh Hn Hsame. unfold hpc. rewrite Hh. destruct (holder s) as [h|]; auto. Qed.

Lemma hview_put_other s s' t x :
  holder s <> Some t -> holder s' = holder s -> tasks s' = put_task (tasks s) t x -> hview s' = hview s.
Proof.
  intros Hn Hh Et. unfold hview. f_equal. apply (hpc_other s s' t); auto.
  intros t' Hn'. rewrite Et. apply find_put_neq; auto.
Qed.

Lemma hview_remove_other s s' t :
  holder s <> Some t -> holder s' = holder s -> tasks s' = remove_task (tasks s) t -> hview s' = hview s.
Proof.
  intros Hn Hh Et. unfold hview. f_equal. apply (hpc_other s s' t); auto.
  intros t' Hn'. rewrite Et. apply find_remove_neq; auto.
Qed.

Lemma hview_slk s s' : slk s s' -> hview s' = hview s.
Proof. intros (E1 & _ & E3). unfold hview, hpc. rewrite E1, E3. reflexivity. Qed.

Lemma hview_fsm s c k : FI s -> hview s = Some (c, k) ->
  match k with
  | 1%nat => st_fsm s = Created
  | 2%nat | 3%nat => st_fsm s = Initialized \/ st_fsm s = Finished
  | _ => st_fsm s = Initialized
  end.
Proof.
  intros [HP _] Hv. unfold hview, hpc in Hv. destruct (holder s) as [t|]; [|discriminate].
  destruct (find_task (tasks s) t) as [[c0 p]|] eqn:Ef; [|discriminate].
  pose proof (HP _ _ _ Ef) as Hok. simpl in Hv.
  destruct p; simpl in Hv; try discriminate; inversion Hv; subst; simpl in Hok;
    destruct (st_fsm s); try discriminate; auto.
Qed.

Lemma hview_reset s c k : LkS s -> hview s = Some (c, k) -> (2 <= k)%nat -> exists o, c = CReset o.
Proof.
  intros HL Hv Hk. unfold hview, hpc in Hv. destruct (holder s) as [t|]; [|discriminate].
  destruct (find_task (tasks s) t) as [[c0 p]|] eqn:Ef; [|discriminate].
  pose proof (lk_compat _ _ _ HL _ _ _ Ef) as Hc. simpl in Hv.
  destruct p; simpl in Hv; try discriminate; inversion Hv; subst; try lia;
    destruct c; simpl in Hc; try discriminate; eauto.
Qed.

Definition dflt {A} (d : A) (o : option A) : A := match o with Some x => x | None => d end.

Definition init_block (ra : runarg) : list event :=
  [EvHook (mkHook HInitRun Initialized (Some (ra_no ra)) (Some (ra_stmt ra)) None);
   EvPub (PRunInfo (ra_no ra) RInitialized (ra_stmt ra) None);
   EvPub (PRunNo (ra_no ra))].

Definition reset_rec (s : state) (o : opts) : hookrec :=
  mkHook HReset (st_fsm s) (option_map ra_no (run_arg s)) (o_stmt o) (o_start o).

Definition applied (s : state) (o : opts) : Z * Z * bool * bool :=
  (c_stmt s, dflt (c_next s) (o_start o), dflt (c_threads s) (o_threads o), dflt (c_modules s) (o_modules o)).

(** [K_quiet]: nothing the numbering sees (waiting, queueing, close, a refused run request, the run task
    between its records); [K_finish]: Callback._finish, [run_arg] cleared; [K_start_enter]: start() up to its
    first gate; [K_init]: initialize_run (start, or a reset past its options); [K_reset_stmt] /
    [K_reset_plain]: an accepted reset up to its first gate, with / without a statement; [K_apply]: the other
    options of a reset, after the gate; [K_return]: reset() returns; [K_refused]: reset() raises;
    [K_start_run] / [K_end_run]: the run task's on_start_run / on_end_run records *)
Inductive kind (s s' : state) : Prop :=
| K_quiet :
    comp s' = comp s -> run_arg s' = run_arg s -> hview s' = hview s ->
    (pre_init (st_fsm s) -> pre_init (st_fsm s')) ->
    ext (quiet_ev (c_stmt s)) (trace s) (trace s') -> kind s s'
| K_finish :
    comp s' = comp s -> run_arg s' = None -> st_fsm s = Running -> hview s' = hview s ->
    ext (quiet_ev (c_stmt s)) (trace s) (trace s') -> kind s s'
| K_start_enter (c : call) (r : hookrec) (tr1 : list event) :
    comp s' = comp s -> run_arg s' = run_arg s -> hview s = None -> hview s' = Some (c, 1%nat) ->
    st_fsm s' = st_fsm s -> ext (quiet_ev (c_stmt s)) (trace s) tr1 -> h_hook r = HChangeScript ->
    trace s' = EvHook r :: EvPub (PStatement (c_stmt s)) :: tr1 -> kind s s'
| K_init (ra : runarg) :
    ra = mkRunArg (c_next s) (c_stmt s) (c_threads s) (c_modules s) ->
    ((exists c, hview s = Some (c, 1%nat)) /\ hview s' = None \/
     exists o, hview s = Some (CReset o, 3%nat) /\ hview s' = Some (CReset o, 4%nat)) ->
    comp s' = (c_stmt s, c_next s + 1, c_threads s, c_modules s) ->
    run_arg s' = Some ra -> st_fsm s' = Initialized ->
    trace s' = init_block ra ++ trace s -> kind s s'
| K_reset_stmt (o : opts) (x : Z) (r : hookrec) (pre : list event) :
    hview s = None -> st_fsm s = Initialized \/ st_fsm s = Finished -> st_fsm s' = st_fsm s ->
    run_arg s' = run_arg s -> ext call_ev (trace s) pre -> o_stmt o = Some x ->
    comp s' = (x, c_next s, c_threads s, c_modules s) -> hview s' = Some (CReset o, 2%nat) ->
    h_hook r = HChangeScript ->
    trace s' = EvHook r :: EvPub (PStatement x) :: EvHook (reset_rec s o) :: pre -> kind s s'
| K_reset_plain (o : opts) (pre : list event) :
    hview s = None -> st_fsm s = Initialized \/ st_fsm s = Finished -> st_fsm s' = st_fsm s ->
    run_arg s' = run_arg s -> ext call_ev (trace s) pre -> o_stmt o = None ->
    comp s' = applied s o -> hview s' = Some (CReset o, 3%nat) ->
    trace s' = EvHook (reset_rec s o) :: pre -> kind s s'
| K_apply (o : opts) :
    hview s = Some (CReset o, 2%nat) -> hview s' = Some (CReset o, 3%nat) -> comp s' = applied s o ->
    run_arg s' = run_arg s -> st_fsm s' = st_fsm s -> trace s' = trace s -> kind s s'
| K_return (t : nat) (o : opts) :
    hview s = Some (CReset o, 4%nat) -> hview s' = None -> comp s' = comp s ->
    run_arg s' = run_arg s -> st_fsm s' = st_fsm s ->
    trace s' = EvRet t (CReset o) ROk :: trace s -> kind s s'
| K_refused (t : nat) (o : opts) (pre : list event) :
    hview s = None -> hview s' = None -> comp s' = comp s -> run_arg s' = run_arg s -> st_fsm s' = st_fsm s ->
    ext call_ev (trace s) pre -> trace s' = EvRet t (CReset o) RMachineError :: pre -> kind s s'
| K_start_run (ra : runarg) :
    run_arg s = Some ra -> st_fsm s = Running -> comp s' = comp s -> run_arg s' = run_arg s ->
    hview s' = hview s -> st_fsm s' = st_fsm s ->
    trace s' = EvHook (mkHook HStartRun Running (Some (ra_no ra)) (Some (ra_stmt ra)) None)
               :: EvPub (PRunInfo (ra_no ra) RRunning (ra_stmt ra) None) :: trace s -> kind s s'
| K_end_run (ra : runarg) (oc : outcome) :
    run_arg s = Some ra -> st_fsm s = Running -> comp s' = comp s -> run_arg s' = run_arg s ->
    hview s' = hview s -> st_fsm s' = st_fsm s ->
    trace s' = EvHook (mkHook HEndRun Running (Some (ra_no ra)) None None)
               :: EvPub (PRunInfo (ra_no ra) RFinished (ra_stmt ra) (Some oc)) :: trace s -> kind s s'.

Lemma release_comp s : comp (release s) = comp s.
Proof. rewrite release_eq. reflexivity. Qed.
Lemma apply_rest_comp s o : comp (apply_rest s o) = applied s o.
Proof. unfold apply_rest, applied, comp. destruct (o_start o), (o_threads o), (o_modules o); reflexivity. Qed.

Lemma comp_cont_finished n : forall s, comp (cont_finished s n) = comp s.
Proof. intros s. destruct (cont_finished_eq n s) as (cp & new & ->). reflexivity. Qed.

Lemma ext_cont_finished cs n : forall s, ext (quiet_ev cs) (trace s) (trace (cont_finished s n)).
Proof.
  induction n as [|n IH]; intros s; simpl; [constructor|].
  destruct (filter _ (cont_plugins s)) as [|[t b] r]; [constructor|].
  eapply ext_trans; [|apply IH]. simpl. apply ext_cons; [exact I | constructor].
Qed.

(** [refuse] in normal form: the lock is released, the never started registration of [t] is dropped, the flag
    is published again unless it is closed, the call returns MachineError *)
Definition refuse_plugins (s : state) (t : nat) (c : call) : list (nat * bool) :=
  if is_cont c then filter (fun x => negb (Nat.eqb (fst x) t && negb (snd x))) (cont_plugins s) else cont_plugins s.
Definition refuse_note (s : state) (t : nat) (c : call) : list event :=
  if is_cont c && negb (cont_closed s)
  then [EvPub (PCont (match refuse_plugins s t c with [] => false | _ :: _ => true end))] else [].

Lemma refuse_eq s t c :
  refuse s t c =
  finish_call (set_trace (set_cont_plugins (release s) (refuse_plugins s t c)) (refuse_note s t c ++ trace s))
              t c RMachineError.
Proof.
  unfold refuse, refuse_note, refuse_plugins, unregister_cont, cont_disable, publish. rewrite rl_cc, release_eq.
  destruct s; simpl. destruct (is_cont c); [destruct cont_closed|]; reflexivity.
Qed.

Lemma refuse_tasks s t c : tasks (refuse s t c) = remove_task (tasks (release s)) t.
Proof. rewrite refuse_eq. reflexivity. Qed.
Lemma refuse_comp s t c : comp (refuse s t c) = comp s.
Proof. rewrite refuse_eq. exact (release_comp s). Qed.
Lemma refuse_scal s t c : scal_of (refuse s t c) = scal_of s.
Proof. rewrite refuse_eq. exact (release_scal s). Qed.
Lemma refuse_trace_reset s t o : trace (refuse s t (CReset o)) = EvRet t (CReset o) RMachineError :: trace s.
Proof. rewrite refuse_eq. reflexivity. Qed.
Lemma refuse_trace_quiet cs s t c : (forall o, c <> CReset o) -> ext (quiet_ev cs) (trace s) (trace (refuse s t c)).
Proof.
  intros Hc. rewrite refuse_eq. simpl. apply ext_cons; [destruct c; simpl; auto; eapply Hc; eauto|].
  unfold refuse_note. destruct (is_cont c && negb (cont_closed s)); simpl; repeat constructor.
Qed.

Lemma hview_holder0 s t c p :
  LkS s -> find_task (tasks s) t = Some (c, p) -> locked_pc p = true -> stage p = 0%nat -> hview s = None.
Proof. intros HL Hf Hl Hs. rewrite (hview_holder _ _ _ _ HL Hf Hl). simpl. rewrite Hs. reflexivity. Qed.

Lemma hview_released s s' t :
  LkS s -> holder s = Some t ->
  (tasks s' = remove_task (tasks (release s)) t \/
   exists c p, stage p = 0%nat /\ tasks s' = put_task (tasks (release s)) t (c, p)) ->
  hview s' = None.
Proof.
  rewrite release_tasks. intros HL Hh Et. apply hview_AllS0. unfold LkS in HL. rewrite Hh in HL.
  destruct Et as [-> | (c & p & Hs & ->)].
  - apply AllS0_release_remove; auto.
  - apply AllS0_release_put; auto.
Qed.

Lemma comp_eq4 s' a b c d : comp s' = (a, b, c, d) ->
  c_stmt s' = a /\ c_next s' = b /\ c_threads s' = c /\ c_modules s' = d.
Proof. unfold comp. intros E. inversion E. auto. Qed.

Definition is_reset (c : call) : bool := match c with CReset _ => true | _ => false end.
(** what may have been logged since [s] when a request is judged: for a reset only calls, so that a
    refused reset is seen to append nothing but calls and its return ([K_refused]) *)
Definition preP (c : call) (cs : Z) : event -> Prop := if is_reset c then call_ev else quiet_ev cs.

Lemma preP_quiet c cs tr tr' : ext (preP c cs) tr tr' -> ext (quiet_ev cs) tr tr'.
Proof. apply ext_weaken. unfold preP. destruct (is_reset c); auto. apply call_quiet. Qed.

Ltac qev := repeat (apply ext_cons; [simpl; auto; exact I|]); try apply ext_nil.

Lemma kind_close_enter_closed s s2 t :
  holder s2 = Some t -> comp s2 = comp s -> run_arg s2 = run_arg s -> hview s = None ->
  ext (quiet_ev (c_stmt s)) (trace s) (trace s2) ->
  kind s (close_enter_closed s2 t).
Proof.
  intros Hh Ec Er Hv Hx. apply K_quiet; auto.
  - rewrite Hv. hvput Hh. reflexivity.
  - intros _. right. reflexivity.
  - simpl. apply ext_cons; [exact I | exact Hx].
Qed.

(** The holder [t] of the lock, outside any start / reset transition, takes a step from [s1],
    which is [s] with events logged since. *)
Section Holder.
Variables (s s1 : state) (t : nat).
Hypothesis HL : LkS s1.
Hypothesis Hh : holder s1 = Some t.
Hypothesis Ec : comp s1 = comp s.
Hypothesis Er : run_arg s1 = run_arg s.
Hypothesis Ef : st_fsm s1 = st_fsm s.
Hypothesis Hv : hview s = None.

Lemma kind_leave s' :
  ext (quiet_ev (c_stmt s)) (trace s) (trace s1) ->
  (tasks s' = remove_task (tasks (release s1)) t \/
   exists c p, stage p = 0%nat /\ tasks s' = put_task (tasks (release s1)) t (c, p)) ->
  comp s' = comp (release s1) -> run_arg s' = run_arg (release s1) -> st_fsm s' = st_fsm (release s1) ->
  ext (quiet_ev (c_stmt s)) (trace (release s1)) (trace s') -> kind s s'.
Proof.
  intros Hx Et Ec' Er' Ef' Hx'. apply K_quiet.
  - rewrite Ec', release_comp. exact Ec.
  - rewrite Er', rl_ra. exact Er.
  - rewrite Hv. eapply hview_released; eauto.
  - rewrite Ef', rl_fsm, Ef. auto.
  - eapply ext_trans; [exact Hx|]. rewrite <- (rl_trace s1). exact Hx'.
Qed.

Lemma kind_stay s' c p :
  holder s' = Some t -> tasks s' = put_task (tasks s1) t (c, p) -> stage p = 0%nat ->
  comp s' = comp s1 -> run_arg s' = run_arg s1 -> (pre_init (st_fsm s) -> pre_init (st_fsm s')) ->
  ext (quiet_ev (c_stmt s)) (trace s) (trace s') -> kind s s'.
Proof.
  intros Hh' Et Hs Ec' Er' Hp Hx. apply K_quiet; auto; try congruence.
  rewrite Hv, (hview_put _ _ _ _ _ Hh' Et). simpl. rewrite Hs. reflexivity.
Qed.

Lemma kind_refuse c : ext (preP c (c_stmt s)) (trace s) (trace s1) -> kind s (refuse s1 t c).
Proof.
  intros Hx.
  assert (Hv' : hview (refuse s1 t c) = None) by (eapply hview_released; eauto; left; apply refuse_tasks).
  destruct (scal_of_fields _ _ (refuse_scal s1 t c)) as (F1 & _ & _ & _ & _ & F6).
  destruct (is_reset c) eqn:Eis.
  - destruct c; try discriminate. unfold preP in Hx. simpl in Hx.
    eapply K_refused with (pre := trace s1); eauto; try congruence.
    + rewrite refuse_comp. exact Ec.
    + apply refuse_trace_reset.
  - apply K_quiet; try congruence.
    + rewrite refuse_comp. exact Ec.
    + eapply ext_trans; [eapply preP_quiet; eauto|]. apply refuse_trace_quiet. intros o ->. discriminate.
Qed.

Lemma kind_close_trigger : ext (quiet_ev (c_stmt s)) (trace s) (trace s1) -> kind s (close_trigger s1 t).
Proof.
  intros Hx. destruct (comp_eq4 _ _ _ _ _ Ec) as (Ecs & _).
  unfold close_trigger. case_eq (st_fsm s1); intros Efs; try (apply kind_close_enter_closed; auto; fail).
  - apply kind_close_enter_closed; auto. simpl. rewrite Ecs. qev. exact Hx.
  - destruct (runt s1); [|apply kind_close_enter_closed; auto].
    eapply kind_stay; eauto; try reflexivity. simpl. rewrite <- Ef, Efs. auto.
  - eapply kind_leave; eauto; try reflexivity. simpl. qev. apply ext_cont_off. qev.
Qed.

Lemma kind_enter_run c : ext (preP c (c_stmt s)) (trace s) (trace s1) -> kind s (enter_run s1 t c).
Proof.
  intros Hx. unfold enter_run. case_eq (st_fsm s1); intros Efs; try (apply kind_refuse; exact Hx).
  eapply kind_stay; eauto using preP_quiet; try reflexivity. rewrite <- Ef, Efs. intros [H|H]; discriminate.
Qed.

Lemma kind_enter_start c : ext (preP c (c_stmt s)) (trace s) (trace s1) -> kind s (enter_start s1 t c).
Proof.
  intros Hx. unfold enter_start. destruct (comp_eq4 _ _ _ _ _ Ec) as (Ecs & _).
  case_eq (st_fsm s1); intros Efs; try (apply kind_refuse; exact Hx).
  eapply K_start_enter with (c := c)
    (tr1 := EvHook (mkHook HStart Created (option_map ra_no (run_arg s1)) None None) :: trace s1)
    (r := mkHook HChangeScript Created (option_map ra_no (run_arg s1)) (Some (c_stmt s1)) None); auto.
  - hvput Hh. reflexivity.
  - apply ext_cons; [exact I | eapply preP_quiet; eauto].
  - simpl. rewrite Efs, Ecs. reflexivity.
Qed.

Lemma kind_enter_reset o : ext call_ev (trace s) (trace s1) -> kind s (enter_reset s1 t o).
Proof.
  intros Hx. unfold enter_reset.
  assert (Hacc : st_fsm s = Initialized \/ st_fsm s = Finished ->
    kind s (let s2 := log_hook s1 HReset (o_stmt o) (o_start o) in
            match o_stmt o with
            | Some x => set_pc (change_script (set_c_stmt s2 x)) t (CReset o) Z_G1
            | None => set_pc (apply_rest s2 o) t (CReset o) Z_G1b
            end)).
  { intros Hfs. destruct (comp_eq4 _ _ _ _ _ Ec) as (E1 & E2 & E3 & E4).
    destruct (o_stmt o) as [x|] eqn:Eo.
    - eapply K_reset_stmt with (x := x) (pre := trace s1)
        (r := mkHook HChangeScript (st_fsm s1) (option_map ra_no (run_arg s1)) (Some x) None); eauto.
      + unfold comp; simpl; congruence.
      + hvput Hh. reflexivity.
      + simpl. unfold reset_rec. rewrite Eo, Ef, Er. reflexivity.
    - eapply K_reset_plain with (pre := trace s1); eauto; simpl; rewrite ?ar_fsm, ?ar_ra; auto.
      + unfold applied. rewrite <- E1, <- E2, <- E3, <- E4. exact (apply_rest_comp _ o).
      + hvput Hh. reflexivity.
      + rewrite ar_trace. simpl. unfold reset_rec. rewrite Eo, Ef, Er. reflexivity. }
  case_eq (st_fsm s1); intros Efs; try (apply kind_refuse; exact Hx); apply Hacc; rewrite <- Ef, Efs; auto.
Qed.
End Holder.

Lemma kind_enter_close s s1 t :
  LkS s1 -> holder s1 = Some t ->
  comp s1 = comp s -> run_arg s1 = run_arg s -> st_fsm s1 = st_fsm s -> hview s = None ->
  ext (quiet_ev (c_stmt s)) (trace s) (trace s1) ->
  kind s (enter_close s1 t).
Proof.
  intros HL Hh Ec Er Ef Hv Hx. unfold enter_close. set (s2 := publish s1 PEndAll).
  assert (Hx2 : ext (quiet_ev (c_stmt s)) (trace s) (trace s2)) by (simpl; apply ext_cons; [exact I | exact Hx]).
  assert (Hct : kind s (close_trigger s2 t)) by (apply kind_close_trigger; auto).
  destruct (st_fsm s2) eqn:Efs; auto.
  destruct (run_finished s2) as [[|]|]; auto.
  - eapply (kind_stay s s2); eauto; try reflexivity. simpl in Efs. simpl. intros [H|H]; congruence.
  - eapply (kind_leave s s2); eauto; try reflexivity. simpl. qev.
Qed.

Lemma kind_enter (s s1 : state) (t : nat) (c : call) (part2 : bool) :
  LkS s1 -> holder s1 = Some t ->
  comp s1 = comp s -> run_arg s1 = run_arg s -> st_fsm s1 = st_fsm s -> hview s = None ->
  ext (preP c (c_stmt s)) (trace s) (trace s1) ->
  compat c (if part2 then Granted2 else Granted1) = true ->
  kind s (enter s1 t c part2).
Proof.
  intros HL Hh Ec Er Ef Hv Hx Hc. unfold enter.
  destruct c; simpl in Hc; try (destruct part2; discriminate);
    try (apply kind_enter_run; auto; fail); try (apply kind_enter_start; auto; fail).
  - apply kind_enter_reset; auto.
  - destruct part2; [apply kind_enter_close; auto; eapply preP_quiet; eauto | apply kind_enter_start; auto].
Qed.

Lemma hview_no_holder s : holder s = None -> hview s = None.
Proof. intros H. unfold hview, hpc. rewrite H. reflexivity. Qed.

(** [s1] is [s] with the call logged *)
Lemma kind_acquire (s s1 : state) (t : nat) (c : call) (part2 : bool) :
  LkS s -> find_task (tasks s) t = None ->
  compat c (if part2 then Granted2 else Granted1) = true ->
  slk s s1 -> comp s1 = comp s -> run_arg s1 = run_arg s -> st_fsm s1 = st_fsm s ->
  ext (preP c (c_stmt s)) (trace s) (trace s1) ->
  kind s (acquire s1 t c part2).
Proof.
  intros HL Hnew Hc (Eh & Eq & Et) Ec Er Ef Hx. unfold acquire. rewrite Eh, Eq.
  assert (Hnh : holder s <> Some t) by (apply not_holder; auto; intros; congruence).
  assert (Hq : forall q p, kind s (set_pc (set_lockq s1 q) t c p)).
  { intros q p. apply K_quiet; auto.
    - eapply hview_put_other; [exact Hnh | exact Eh | simpl; rewrite Et; reflexivity].
    - simpl. rewrite Ef. auto.
    - simpl. eapply preP_quiet; eauto. }
  destruct (holder s) as [h|] eqn:Eh0; [apply Hq|]. destruct (lockq s) as [|t1 q] eqn:Eq0; [|apply Hq].
  apply kind_enter; auto.
  - unfold LkS. simpl. rewrite Eq, Et. unfold LkS in HL. rewrite Eh0, Eq0 in HL.
    apply Lk_grant; auto; destruct part2; reflexivity.
  - apply hview_no_holder; auto.
Qed.

(** close(): the start part is over, the close part queues again *)
Lemma kind_requeue s t :
  LkS s -> holder s = Some t -> hview s = None -> kind s (acquire (release s) t CClose true).
Proof.
  intros HL Hh Hv.
  assert (Hq : forall q, kind s (set_pc (set_lockq (release s) q) t CClose WaitLock2)).
  { intros q. eapply (kind_leave s s t); eauto using ext_nil; try reflexivity.
    right. exists CClose, WaitLock2. split; reflexivity. }
  unfold acquire. rewrite release_holder, release_lockq.
  destruct (rel_holder (lockq s)) as [h|] eqn:Eh; [apply Hq|].
  destruct (tl (lockq s)) as [|t1 q] eqn:Eq; [|apply Hq].
  apply kind_enter_close; auto.
  - unfold LkS in *. simpl. rewrite Hh in HL. rewrite release_lockq, release_tasks, Eq.
    apply Lk_readd_take; auto. rewrite <- Eh, <- Eq. apply Lk_release_forget; auto.
  - exact (release_comp s).
  - exact (rl_ra s).
  - exact (rl_fsm s).
  - simpl. rewrite rl_trace. constructor.
Qed.

Lemma kind_refl s : kind s s.
Proof. apply K_quiet; auto. constructor. Qed.

Lemma kind_free s s' t :
  LkS s -> (forall c p, find_task (tasks s) t = Some (c, p) -> locked_pc p = false) ->
  holder s' = holder s ->
  ((exists x, tasks s' = put_task (tasks s) t x) \/ tasks s' = remove_task (tasks s) t) ->
  comp s' = comp s -> run_arg s' = run_arg s -> st_fsm s' = st_fsm s ->
  ext (quiet_ev (c_stmt s)) (trace s) (trace s') -> kind s s'.
Proof.
  intros HL Hfree Hh Et Ec Er Ef Hx. pose proof (not_holder _ _ HL Hfree) as Hn.
  apply K_quiet; auto.
  - destruct Et as [(x & Et) | Et]; [eapply hview_put_other | eapply hview_remove_other]; eauto.
  - rewrite Ef. auto.
Qed.

Lemma kind_do_call s t c : LkS s -> kind s (do_call s t c).
Proof.
  intros HL. unfold do_call. destruct (find_task (tasks s) t) as [x|] eqn:Ef; [apply kind_refl|].
  assert (Hfree : forall c0 p0, find_task (tasks s) t = Some (c0, p0) -> locked_pc p0 = false) by (intros; congruence).
  (* the call returns at once, or waits at a gate outside the lock ([s1]: [s] with events logged) *)
  assert (Hfin : forall (s1 : state) (r : result), slk s s1 -> (forall o, c <> CReset o) ->
            ext (quiet_ev (c_stmt s)) (trace s) (trace s1) -> comp s1 = comp s -> run_arg s1 = run_arg s ->
            st_fsm s1 = st_fsm s -> kind s (finish_call s1 t c r)).
  { intros s1 r (E1 & _ & E2) Hc Hx E3 E4 E5. eapply kind_free; eauto.
    - right. simpl. rewrite E2. reflexivity.
    - simpl. apply ext_cons; [|exact Hx]. destruct c; simpl; auto. eapply Hc; eauto. }
  assert (Hput : forall (s1 : state) (p : pc), slk s s1 ->
            ext (quiet_ev (c_stmt s)) (trace s) (trace s1) -> comp s1 = comp s -> run_arg s1 = run_arg s ->
            st_fsm s1 = st_fsm s -> kind s (set_pc s1 t c p)).
  { intros s1 p (E1 & _ & E2) Hx E3 E4 E5. eapply kind_free; eauto. left. eexists. simpl. rewrite E2. reflexivity. }
  assert (Hacq : forall (s1 : state) (part2 : bool), compat c (if part2 then Granted2 else Granted1) = true -> slk s s1 ->
            ext (preP c (c_stmt s)) (trace s) (trace s1) -> comp s1 = comp s -> run_arg s1 = run_arg s ->
            st_fsm s1 = st_fsm s -> kind s (acquire s1 t c part2))
    by (intros; apply kind_acquire; auto).
  destruct c; cbn [nl_started nl_closed cont_closed running_process send_command set_trace];
    [ destruct (nl_started s); [apply Hfin | apply Hacq]          (* start: a second one returns at once *)
    | apply Hacq                                                   (* run *)
    | apply Hacq                                                   (* reset *)
    | destruct (nl_closed s); [apply Hfin | simpl; destruct (nl_started s); apply Hacq]   (* close, likewise *)
    | destruct (cont_closed s); [apply Hfin | apply Hacq]          (* run_and_continue: RuntimeError once the flag is closed *)
    | destruct (cont_closed s); [apply Hfin | apply Hacq]          (* run_continue_and_wait, likewise *)
    | apply Hacq                                                   (* run_session *)
    | destruct (running_process s); [apply Hput | apply Hfin]      (* signal: the hook gate, or the assertion fails *)
    | destruct (send_command s); [apply Hput | apply Hfin] ];      (* command, likewise *)
    auto; try discriminate; try (repeat split; fail); unfold preP; simpl; qev.
Qed.

Lemma kind_initialize s t c p :
  holder s = Some t ->
  (exists c0, hview s = Some (c0, 1%nat)) /\ stage p = 0%nat \/
  (exists o, c = CReset o /\ hview s = Some (c, 3%nat) /\ stage p = 4%nat) ->
  kind s (set_pc (initialize_run (set_st_fsm s Initialized)) t c p).
Proof.
  intros Hh Hv. eapply K_init; try reflexivity.
  destruct Hv as [(Hv & Hs) | (o & -> & Hv & Hs)]; [left | right; exists o]; (split; [exact Hv|]);
    hvput Hh; simpl; rewrite Hs; reflexivity.
Qed.

Lemma kind_do_step s t : LkS s -> FI s -> kind s (do_step s t).
Proof.
  intros HL HF. unfold do_step. destruct (find_task (tasks s) t) as [[c p]|] eqn:Ef; [|apply kind_refl].
  pose proof HF as [HP HS].
  pose proof (HP _ _ _ Ef) as Hok.
  pose proof (lk_compat _ _ _ HL _ _ _ Ef) as Hc.
  assert (Hhold : locked_pc p = true -> holder s = Some t) by (intros Hl; eapply (lk_holder_of _ _ _ HL); eauto).
  assert (Hhv : locked_pc p = true -> hview s = view_of (Some (c, p))).
  { intros Hl. apply (hview_holder _ _ _ _ HL Ef Hl). }
  assert (Hfree : locked_pc p = false -> forall c0 p0, find_task (tasks s) t = Some (c0, p0) -> locked_pc p0 = false).
  { intros Hl c0 p0 Hf. rewrite Ef in Hf. inversion Hf; subst. exact Hl. }
  (* the holder, outside start / reset, leaves with its return *)
  assert (Hfin : forall (s1 : state) (r : result), holder s = Some t -> hview s = None -> (forall o, c <> CReset o) ->
            tasks s1 = tasks (release s) -> comp s1 = comp (release s) -> run_arg s1 = run_arg (release s) ->
            st_fsm s1 = st_fsm (release s) -> ext (quiet_ev (c_stmt s)) (trace (release s)) (trace s1) ->
            kind s (finish_call s1 t c r)).
  { intros s1 r Hh Hv Hcr E2 E3 E4 E5 Hx. eapply (kind_leave s s t); eauto using ext_nil.
    - left. simpl. rewrite E2. reflexivity.
    - simpl. apply ext_cons; [|exact Hx]. destruct c; simpl; auto. eapply Hcr; eauto. }
  destruct p; simpl in Hhold, Hhv, Hfree; try specialize (Hhold eq_refl); try specialize (Hhv eq_refl);
    try specialize (Hfree eq_refl); simpl in Hhv; simpl in Hok.
  - apply kind_refl.
  - apply kind_enter; auto. unfold preP. destruct (is_reset c); constructor.
  - apply kind_refl.
  - apply kind_enter; auto. unfold preP. destruct (is_reset c); constructor.
  - (* S_G1 *)
    apply kind_initialize; eauto.
  - (* S_G2 *)
    eapply (kind_stay s s t); eauto; try reflexivity. simpl. qev.
  - (* S_G3 *)
    destruct c; simpl in Hc; try discriminate.
    + apply Hfin; auto; try discriminate. constructor.
    + apply kind_requeue; auto.
  - (* R_WaitStarted *)
    destruct (started_ev s); [|apply kind_refl].
    eapply (kind_stay s s t); eauto; try reflexivity. simpl. qev.
  - (* R_G *)
    destruct c; simpl in Hc; try discriminate; try (apply Hfin; auto; try discriminate; constructor);
      (eapply (kind_leave s s t); eauto using ext_nil; try reflexivity; right; eexists _, P_WaitRunFinished; split; reflexivity).
  - (* Z_G1 *)
    destruct c; simpl in Hc; try discriminate.
    eapply K_apply with (o := o); auto.
    + hvput Hhold. reflexivity.
    + exact (apply_rest_comp s o).
    + simpl. apply ar_ra.
    + simpl. apply ar_fsm.
    + simpl. apply ar_trace.
  - (* Z_G1b *)
    destruct c; simpl in Hc; try discriminate.
    assert (Hre : kind s (reset_reinit s t (CReset o))) by (apply kind_initialize; eauto 6).
    destruct (st_fsm s) eqn:Efs; auto. destruct (runt s); auto.
    apply K_quiet; auto. { rewrite Hhv. hvput Hhold. reflexivity. } constructor.
  - (* Z_WaitRunTask *)
    destruct c; simpl in Hc; try discriminate.
    destruct (runt s); [apply kind_refl|].
    apply kind_initialize; eauto 6.
  - (* Z_G3 *)
    apply K_quiet; auto. { rewrite Hhv. hvput Hhold. reflexivity. } simpl. qev.
  - (* Z_G4 *)
    destruct c; simpl in Hc; try discriminate.
    eapply K_return with (t := t) (o := o); auto.
    + eapply hview_released; eauto.
    + exact (release_comp s).
    + simpl. apply rl_ra.
    + simpl. apply rl_fsm.
    + simpl. rewrite rl_trace. reflexivity.
  - (* C_WaitRunFinished *)
    destruct (run_finished s) as [[|]|]; try apply kind_refl.
    apply kind_close_trigger; auto. constructor.
  - (* C_WaitRunTask *)
    destruct (runt s); [apply kind_refl|].
    apply kind_close_enter_closed; auto. constructor.
  - (* C_G3 *)
    eapply (kind_stay s s t); eauto; try reflexivity. simpl. qev.
  - (* C_G4 *)
    destruct c; simpl in Hc; try discriminate.
    apply Hfin; auto; try discriminate. simpl. qev. apply ext_cont_off. qev.
  - (* P_WaitRunFinished *)
    destruct (run_finished s) as [[|]|]; try apply kind_refl.
    eapply kind_free; eauto. simpl. destruct c; simpl in Hc; try discriminate; qev.
  - (* Sig_G *)
    eapply kind_free; eauto. simpl. destruct c; simpl in Hc; try discriminate; qev.
Qed.

Lemma kind_run_finish s :
  st_fsm s = Running -> kind s (run_finish s).
Proof.
  intros Hf. unfold run_finish. simpl. rewrite Hf.
  match goal with |- kind _ (set_runt (cont_finished ?y ?n) _) =>
    pose proof (scal_of_fields _ _ (scal_cont_finished n y)) as (E1 & E2 & E3 & E4 & E5 & E6);
    pose proof (slk_cont_finished n y) as Hs;
    pose proof (comp_cont_finished n y) as Ec;
    pose proof (ext_cont_finished (c_stmt s) n y) as Hx
  end.
  apply K_finish.
  - unfold comp in *. simpl in *. exact Ec.
  - simpl. rewrite E6. reflexivity.
  - exact Hf.
  - apply hview_slk. exact Hs.
  - simpl. eapply ext_trans; [|exact Hx]. simpl. qev.
Qed.

Lemma kind_step_run s : FI s -> kind s (do_step_run s).
Proof.
  intros HF. pose proof HF as [HP HS]. unfold do_step_run.
  destruct (runt s) as [x|] eqn:Er; [|apply kind_refl].
  assert (Hrun : early x = true -> st_fsm s = Running) by (intros He; eapply sc_early; eauto).
  assert (Hra : early x = true -> run_arg s <> None).
  { intros He. apply (sc_ra _ _ _ _ _ _ HS). right. auto. }
  destruct x; simpl in Hrun, Hra; try specialize (Hrun eq_refl); try specialize (Hra eq_refl).
  - destruct (run_arg s) eqn:Era; [|congruence]. apply K_quiet; auto. constructor.
  - simpl. destruct (run_arg s) as [ra|] eqn:Era; [|congruence].
    eapply K_start_run with (ra := ra); auto. simpl. rewrite Hrun, ?Era. reflexivity.
  - apply K_quiet; auto. constructor.
  - destruct (run_call_pending s); [apply kind_refl|]. destruct (pending_exit s) as [o|]; [|apply kind_refl].
    simpl. destruct (run_arg s) as [ra|] eqn:Era; [|congruence].
    eapply K_end_run with (ra := ra) (oc := o); auto. simpl. rewrite Hrun, ?Era. reflexivity.
  - apply kind_run_finish; auto.
  - apply K_quiet; auto. simpl. qev.
  - apply K_quiet; auto. constructor.
Qed.

Theorem step_kind s l : LkS s -> FI s -> kind s (step s l).
Proof.
  intros HL HF. destruct l; simpl.
  - apply kind_do_call; auto.
  - apply kind_do_step; auto.
  - apply kind_step_run; auto.
  - unfold do_child_exit. destruct (alive s); [apply kind_refl|]. apply K_quiet; auto. constructor.
Qed.
