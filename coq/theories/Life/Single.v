(** Consequences of the invariants for "one execution at a time" (C15) and for
    the state diagram (C01). *)
From NL Require Import Life.Model Life.LockInv Life.FsmInv Life.Hist.
From Coq Require Import Lia.

Section Reach.
Variables (stmt start : Z) (th md : bool) (ls : list label).
Let s := run_labels (init_state stmt start th md) ls.

Lemma reach_LkS : LkS s.
Proof. apply (inv_reachable stmt start th md ls). Qed.

Lemma reach_FI : FI s.
Proof. apply (inv_reachable stmt start th md ls). Qed.

Lemma single_child : (alive s <= 1)%nat /\ (alive s = 1%nat -> st_fsm s = Running).
Proof.
  destruct reach_FI as [_ HS]. pose proof (sc_child _ _ _ _ _ _ HS) as Hc.
  unfold child_ok in Hc. split.
  - destruct (runt s) as [[]|]; try (destruct Hc as [Ha _]; lia); destruct Hc as [(Ha & _) | (Ha & _)]; lia.
  - intros Ha. destruct (runt s) as [x|] eqn:Er.
    + destruct x; try (destruct Hc as [H0 _]; lia); eapply sc_early; eauto.
    + destruct Hc as [H0 _]. lia.
Qed.

Lemma finished_implies_exited : st_fsm s = Finished -> alive s = 0%nat /\ pending_exit s = None.
Proof.
  intros Hf. destruct reach_FI as [_ HS]. pose proof (sc_child _ _ _ _ _ _ HS) as Hc.
  unfold child_ok in Hc. destruct (runt s) as [x|] eqn:Er; auto.
  destruct (early x) eqn:E.
  - pose proof (sc_early _ _ _ _ _ _ HS x eq_refl E). congruence.
  - destruct x; simpl in E; try discriminate; auto.
Qed.
End Reach.

Lemma refuse_effect s t c :
  st_fsm (refuse s t c) = st_fsm s /\ runt (refuse s t c) = runt s /\ run_finished (refuse s t c) = run_finished s
  /\ run_arg (refuse s t c) = run_arg s /\ alive (refuse s t c) = alive s /\ pending_exit (refuse s t c) = pending_exit s
  /\ c_stmt (refuse s t c) = c_stmt s /\ c_next (refuse s t c) = c_next s
  /\ c_threads (refuse s t c) = c_threads s /\ c_modules (refuse s t c) = c_modules s
  /\ (exists r, hd_error (trace (refuse s t c)) = Some (EvRet t c r) /\ r <> ROk)
  /\ hooks_of (trace (refuse s t c)) = hooks_of (trace s).
Proof.
  unfold refuse. rewrite release_eq.
  destruct (is_cont c); [destruct (cont_closed _)|]; simpl;
    repeat split; auto; try (eexists; split; [reflexivity | discriminate]).
Qed.

Lemma second_run_refused s t c part2 :
  runlike c = true -> st_fsm s <> Initialized -> enter s t c part2 = refuse s t c.
Proof.
  intros Hc Hf. unfold enter. destruct c; simpl in Hc; try discriminate;
    unfold enter_run; destruct (st_fsm s); try reflexivity; congruence.
Qed.

Lemma no_reset_during_run s t o :
  st_fsm s <> Initialized -> st_fsm s <> Finished -> enter s t (CReset o) false = refuse s t (CReset o).
Proof.
  intros H1 H2. unfold enter, enter_reset. destruct (st_fsm s); try reflexivity; congruence.
Qed.

Lemma run_task_states stmt start th md ls :
  let s := run_labels (init_state stmt start th md) ls in
  runt s <> None -> st_fsm s = Running \/ st_fsm s = Finished.
Proof.
  intros s Hr. destruct (reach_FI stmt start th md ls) as [_ HS]. fold s in HS.
  destruct (runt s) as [x|] eqn:Er; [|congruence].
  destruct (early x) eqn:E; [left; eapply sc_early | right; eapply sc_late]; eauto.
Qed.
