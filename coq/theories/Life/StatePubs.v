(** What `subscribe_state()` yields: the published lifecycle states form a path of
    the documented diagram starting at `initialized`; every publication shows the
    state the object is in.  For every reachable state of the lifecycle model. *)
From NL Require Import Life.Model Life.LockInv Life.FsmInv Life.Hist Life.NumKind Life.Close.
From Coq Require Import Lia.

(** on the chronological list of published states *)
Fixpoint is_path (l : list fsm) : Prop :=
  match l with
  | [] => True
  | a :: r => match r with [] => True | b :: _ => a = b \/ edge a b end /\ is_path r
  end.

Definition path_from_initialized (l : list fsm) : Prop :=
  match l with [] => True | a :: _ => a = Initialized end /\ is_path l.

(** on the trace: the published states, newest first *)
Definition states_tr (tr : list event) : list fsm := states_of (pubs_of tr).

Definition lastst (tr : list event) : option fsm := hd_error (states_tr tr).

Definition step_ok (a : option fsm) (f : fsm) : Prop :=
  match a with None => f = Initialized | Some a => a = f \/ edge a f end.

Fixpoint okrev (l : list fsm) : Prop :=
  match l with
  | [] => True
  | f :: r => step_ok (hd_error r) f /\ okrev r
  end.

Definition okpath (tr : list event) : Prop := okrev (states_tr tr).

Lemma states_of_app a b : states_of (a ++ b) = states_of a ++ states_of b.
Proof. induction a as [|[] a IH]; simpl; auto. rewrite IH. reflexivity. Qed.

Lemma states_tr_rev tr : states_of (pubs_of (rev tr)) = rev (states_tr tr).
Proof.
  induction tr as [|e tr IH]; simpl; auto.
  rewrite pubs_of_app, states_of_app, IH.
  destruct e as [| |[]|]; simpl; rewrite ?app_nil_r; reflexivity.
Qed.

Lemma is_path_snoc l a : is_path (l ++ [a]) <->
  is_path l /\ match hd_error (rev l) with None => True | Some b => b = a \/ edge b a end.
Proof.
  induction l as [|x l IH]; simpl; [tauto|].
  destruct l as [|y l]; simpl in *; [tauto|].
  rewrite IH. clear IH.
  assert (E : hd_error ((rev l ++ [y]) ++ [x]) = hd_error (rev l ++ [y])).
  { destruct (rev l ++ [y]) eqn:El; [destruct (rev l); discriminate | reflexivity]. }
  rewrite E. tauto.
Qed.

Lemma okrev_path l : okrev l -> path_from_initialized (rev l).
Proof.
  induction l as [|f r IH]; simpl; [split; exact I|].
  intros (Hs & Hr). destruct (IH Hr) as (Hi & Hp). split.
  - destruct r as [|b r]; simpl in *; [exact Hs|].
    destruct (rev r ++ [b]) eqn:E; [destruct (rev r); discriminate|]. simpl. exact Hi.
  - apply is_path_snoc. split; auto. rewrite rev_involutive.
    destruct r as [|b r]; simpl in *; auto.
Qed.

Definition owe_pc (p : pc) : bool :=
  match p with S_G2 | R_WaitStarted | Z_G3 | C_G3 => true | _ => false end.

Definition owe_h (s : state) : bool := match hpc s with Some (_, p) => owe_pc p | None => false end.
Definition owe_r (s : state) : bool := match runt s with Some RT_G_fin => true | _ => false end.
Definition owes (s : state) : bool := owe_h s || owe_r s.

Definition settled (s : state) : Prop :=
  lastst (trace s) = Some (st_fsm s) \/ (lastst (trace s) = None /\ st_fsm s = Created).

(** the published states form a path, and the current state is the last one published, or one move along
    the diagram away from it while somebody still owes its publication: the lock holder between a
    transition and its `on_change_state`, or the run task before its state notification *)
Definition SP (s : state) : Prop :=
  okpath (trace s) /\
  (if owes s then step_ok (lastst (trace s)) (st_fsm s) else settled s).

Definition nsp (e : event) : Prop := match e with EvPub (PState _) => False | _ => True end.
Definition NoPS (s s' : state) : Prop := ext nsp (trace s) (trace s').

Lemma states_tr_nsp tr tr' : ext nsp tr tr' -> states_tr tr' = states_tr tr.
Proof. apply ext_same. intros [| | [] |] tr0 H; simpl in *; auto; contradiction. Qed.

Fixpoint nostate (new : list event) : Prop :=
  match new with
  | [] => True
  | EvPub (PState _) :: _ => False
  | _ :: r => nostate r
  end.

Lemma nostate_only_cont new : only_cont new -> nostate new.
Proof.
  induction new as [|e new IH]; simpl; auto. intros H.
  destruct (H e (or_introl eq_refl)) as (b & ->). apply IH. intros e' Hin. apply H. right. exact Hin.
Qed.

Lemma nostate_ext new tr : nostate new -> ext nsp tr (new ++ tr).
Proof.
  induction new as [|e new IH]; simpl; [constructor|].
  destruct e as [| | [] |]; try contradiction; intros H; constructor; simpl; auto.
Qed.

Ltac nps := unfold NoPS; fsimpl; repeat (apply ext_cons; [exact I|]); apply ext_nil.

(** the three kinds of steps: nothing about the state is published and nothing is owed anew;
    the state moves along the diagram and its publication is now owed; the debt is paid by
    publishing the current state *)
Inductive pkind (s s' : state) : Prop :=
| pk_neutral : NoPS s s' -> st_fsm s' = st_fsm s -> owes s' = owes s -> pkind s s'
| pk_owe : NoPS s s' -> owes s = false -> owes s' = true ->
    (st_fsm s = Created -> st_fsm s' = Initialized) -> (st_fsm s' = st_fsm s \/ edge (st_fsm s) (st_fsm s')) ->
    pkind s s'
| pk_pay h tr1 : ext nsp (trace s) tr1 -> trace s' = EvHook h :: EvPub (PState (st_fsm s)) :: tr1 ->
    owes s = true -> owes s' = false -> st_fsm s' = st_fsm s -> pkind s s'.

Lemma pk_SP s s' : pkind s s' -> SP s -> SP s'.
Proof.
  intros [Hx Ef Eo | Hx Eo Eo' Hcr Hedge | h tr1 Hx Et Eo Eo' Ef] (Hp & Ho); unfold SP, settled, okpath, lastst in *.
  - rewrite Eo, Ef, (states_tr_nsp _ _ Hx). auto.
  - rewrite Eo', (states_tr_nsp _ _ Hx). rewrite Eo in Ho. split; auto.
    destruct Ho as [-> | (-> & Hc)]; simpl; auto. destruct Hedge as [<-|?]; auto.
  - rewrite Eo', Et, Ef. rewrite Eo in Ho. rewrite <- (states_tr_nsp _ _ Hx) in Hp, Ho. simpl. auto.
Qed.

Lemma pk_same s s' : trace s' = trace s -> st_fsm s' = st_fsm s -> owes s' = owes s -> pkind s s'.
Proof. intros E1 E2 E3. apply pk_neutral; auto. unfold NoPS. rewrite E1. constructor. Qed.

Lemma pk_pre s s1 s' : NoPS s s1 -> st_fsm s1 = st_fsm s -> owes s1 = owes s -> pkind s1 s' -> pkind s s'.
Proof.
  unfold NoPS. intros Hx Ef Eo [Hx' Ef' Eo' | Hx' Eo1 Eo' Hcr Hedge | h tr1 Hx' Et Eo1 Eo' Ef']; rewrite ?Ef, ?Eo in *.
  - apply pk_neutral; auto. eapply ext_trans; eauto.
  - apply pk_owe; auto. eapply ext_trans; eauto.
  - apply (pk_pay s s' h tr1); auto. eapply ext_trans; eauto.
Qed.

Lemma owe_h_inside s' t c p ts :
  holder s' = Some t -> tasks s' = put_task ts t (c, p) -> owe_h s' = owe_pc p.
Proof. intros Hh Et. unfold owe_h, hpc. rewrite Hh, Et, find_put_eq. reflexivity. Qed.

Lemma owe_h_of s t c p : holder s = Some t -> find_task (tasks s) t = Some (c, p) -> owe_h s = owe_pc p.
Proof. intros Hh Hf. unfold owe_h, hpc. rewrite Hh, Hf. reflexivity. Qed.

Lemma owe_h_none s : holder s = None -> owe_h s = false.
Proof. intros Hh. unfold owe_h, hpc. rewrite Hh. reflexivity. Qed.

Lemma owe_h_release s s' t :
  LkS s -> holder s = Some t -> holder s' = rel_holder (lockq s) ->
  (forall t', t' <> t -> find_task (tasks s') t' = find_task (rel_tasks (lockq s) (tasks s)) t') ->
  owe_h s' = false.
Proof.
  intros HL Hh Hh' Hsame. unfold owe_h, hpc. rewrite Hh'.
  destruct (lockq s) as [|t1 q] eqn:Eq; simpl; auto.
  unfold LkS in HL. rewrite Hh, Eq in HL.
  assert (Hn : t1 <> t) by (eapply Lk_head_neq; eauto).
  destruct (lk_q_wait _ _ _ HL t1 (or_introl eq_refl)) as (c1 & p1 & Hf1 & Hw1).
  rewrite Hsame by assumption. simpl. rewrite Hf1, find_put_eq.
  destruct p1; simpl in *; try discriminate; reflexivity.
Qed.

Lemma owe_h_same s s' t :
  holder s' = holder s -> holder s <> Some t ->
  (forall t', t' <> t -> find_task (tasks s') t' = find_task (tasks s) t') -> owe_h s' = owe_h s.
Proof.
  intros Hh Hn Hsame. unfold owe_h. rewrite (hpc_other s s' t); auto.
Qed.

Lemma owe_r_none s : runt s = None -> owe_r s = false.
Proof. unfold owe_r. intros ->. reflexivity. Qed.

Lemma FI_idle_runt s : FI s -> st_fsm s <> Running -> st_fsm s <> Finished -> runt s = None.
Proof. intros [_ HS] H1 H2. eapply Scal_idle; eauto. Qed.

Lemma owe_r_running s : FI s -> st_fsm s = Running -> owe_r s = false.
Proof.
  intros [_ HS] Hr. destruct (Scal_running_not_none _ _ _ _ _ _ HS Hr) as (x & E & He & _).
  unfold owe_r. rewrite E. destruct x; simpl in He; try discriminate; reflexivity.
Qed.

Lemma owes_eq s s' : owe_h s' = owe_h s -> runt s' = runt s -> owes s' = owes s.
Proof. intros E1 E2. unfold owes, owe_r. rewrite E1, E2. reflexivity. Qed.

(** the steps of the lock holder [t], at [p0] *)
Section Holder.
Variables (s : state) (t : nat) (c : call) (p0 : pc).
Hypothesis Hh : holder s = Some t.
Hypothesis Hf : find_task (tasks s) t = Some (c, p0).

Lemma pk_inside s1 c' p :
  NoPS s (set_pc s1 t c' p) -> st_fsm s1 = st_fsm s -> runt s1 = runt s -> holder s1 = Some t ->
  owe_pc p = owe_pc p0 -> pkind s (set_pc s1 t c' p).
Proof.
  intros Hx Ef Er Hh' Ep. apply pk_neutral; auto. apply owes_eq; auto.
  rewrite (owe_h_inside _ t c' p (tasks s1)), (owe_h_of _ _ _ _ Hh Hf); auto.
Qed.

Lemma pk_release s' :
  LkS s -> owe_pc p0 = false -> NoPS s s' -> st_fsm s' = st_fsm s -> runt s' = runt s ->
  holder s' = rel_holder (lockq s) ->
  (forall t', t' <> t -> find_task (tasks s') t' = find_task (rel_tasks (lockq s) (tasks s)) t') -> pkind s s'.
Proof.
  intros HL Hp0 Hx Ef Er Hh' Hsame. apply pk_neutral; auto. apply owes_eq; auto.
  rewrite (owe_h_of _ _ _ _ Hh Hf), Hp0. eapply owe_h_release; eauto.
Qed.

Lemma pk_debt s1 c' p :
  owe_pc p0 = false -> runt s = None -> NoPS s (set_pc s1 t c' p) -> holder s1 = Some t -> owe_pc p = true ->
  (st_fsm s = Created -> st_fsm s1 = Initialized) -> (st_fsm s1 = st_fsm s \/ edge (st_fsm s) (st_fsm s1)) ->
  pkind s (set_pc s1 t c' p).
Proof.
  intros Hp0 Hr Hx Hh' Ep Hcr Hedge. apply pk_owe; auto; unfold owes.
  - rewrite (owe_h_of _ _ _ _ Hh Hf), Hp0, (owe_r_none _ Hr). reflexivity.
  - rewrite (owe_h_inside _ t c' p (tasks s1)), Ep; auto.
Qed.

(** StateMachine.after_state_change: the debt is paid *)
Lemma pk_change_state p :
  owe_pc p0 = true -> owe_pc p = false -> owe_r s = false -> pkind s (set_pc (change_state_hook s) t c p).
Proof.
  intros Hp0 Hp Hr. eapply pk_pay with (tr1 := trace s); try reflexivity; unfold owes.
  - constructor.
  - rewrite (owe_h_of _ _ _ _ Hh Hf), Hp0. reflexivity.
  - erewrite owe_h_inside; [| exact Hh | reflexivity]. rewrite Hp. exact Hr.
Qed.
End Holder.

Lemma runt_refuse s t c : runt (refuse s t c) = runt s.
Proof. rewrite refuse_eq. apply rl_runt. Qed.

Lemma pk_refuse s t c p0 :
  LkS s -> holder s = Some t -> find_task (tasks s) t = Some (c, p0) -> owe_pc p0 = false ->
  pkind s (refuse s t c).
Proof.
  intros HL Hh Hf Hp0. eapply pk_release; eauto using runt_refuse; rewrite refuse_eq; fsimpl; auto.
  - unfold NoPS, refuse_note. simpl. apply ext_cons; [exact I|].
    destruct (is_cont c && negb (cont_closed s)); simpl; repeat constructor.
  - intros t' Hn. apply find_remove_neq; auto.
Qed.

Lemma pk_close_enter_closed s t p0 :
  holder s = Some t -> find_task (tasks s) t = Some (CClose, p0) ->
  owe_pc p0 = false -> runt s = None -> st_fsm s <> Created ->
  pkind s (close_enter_closed s t).
Proof.
  intros Hh Hf Hp0 Hr Hncr. unfold close_enter_closed.
  eapply pk_debt; eauto; try reflexivity; try nps; fsimpl; try congruence.
  right. destruct (st_fsm s); simpl; auto.
Qed.

Lemma pk_close_trigger s t p0 :
  LkS s -> FI s -> holder s = Some t -> find_task (tasks s) t = Some (CClose, p0) ->
  owe_pc p0 = false -> st_fsm s <> Created -> st_fsm s <> Running ->
  pkind s (close_trigger s t).
Proof.
  intros HL HF Hh Hf Hp0 Hncr Hnr. unfold close_trigger.
  destruct (st_fsm s) eqn:Efs; try congruence.
  - eapply pk_close_enter_closed; eauto; try congruence. apply FI_idle_runt; auto; congruence.
  - destruct (runt s) eqn:Er.
    + eapply pk_inside; eauto; try reflexivity. nps.
    + eapply pk_close_enter_closed; eauto; congruence.
  - cc_cases s; (eapply pk_release; eauto; try nps; fsimpl; auto; intros t' Hn; apply find_remove_neq; auto).
Qed.

Lemma pk_enter_close s t p0 :
  LkS s -> FI s -> holder s = Some t -> find_task (tasks s) t = Some (CClose, p0) ->
  owe_pc p0 = false -> st_fsm s <> Created -> pkind s (enter_close s t).
Proof.
  intros HL HF Hh Hf Hp0 Hncr. unfold enter_close.
  assert (H1 : forall s', pkind (publish s PEndAll) s' -> pkind s s') by (intros s'; apply pk_pre; [nps | reflexivity | reflexivity]).
  destruct (st_fsm (publish s PEndAll)) eqn:Efs; simpl in Efs;
    try (apply H1; eapply pk_close_trigger; eauto; simpl; congruence).
  simpl. rewrite (FI_rf _ HF Efs). eapply pk_inside; eauto; try reflexivity. nps.
Qed.

Lemma pk_enter s t c part2 p0 :
  LkS s -> FI s -> holder s = Some t -> find_task (tasks s) t = Some (c, p0) -> owe_pc p0 = false ->
  (c = CClose -> part2 = true -> st_fsm s <> Created) ->
  pkind s (enter s t c part2).
Proof.
  intros HL HF Hh Hf Hp0 Hncr.
  assert (Hstart : pkind s (enter_start s t c)).
  { unfold enter_start. destruct (st_fsm s); try (eapply pk_refuse; eauto).
    eapply pk_inside; eauto; try reflexivity. nps. }
  assert (Hrun : pkind s (enter_run s t c)).
  { unfold enter_run. destruct (st_fsm s) eqn:Efs; try (eapply pk_refuse; eauto).
    eapply pk_debt; eauto; try reflexivity; try nps; fsimpl; try congruence.
    - apply FI_idle_runt; auto; congruence.
    - right. rewrite Efs. exact I. }
  unfold enter. destruct c; auto.
  - unfold enter_reset. destruct (st_fsm s); try (eapply pk_refuse; eauto);
      (destruct (o_stmt o); eapply pk_inside; eauto; try nps; fsimpl; auto).
  - destruct part2; [eapply pk_enter_close; eauto | auto].
  - apply pk_same; reflexivity.
  - apply pk_same; reflexivity.
Qed.

Lemma take_inv (s : state) (t : nat) (c : call) (part2 : bool) :
  LkS s -> FI s -> holder s = None ->
  compat c (if part2 then Granted2 else Granted1) = true ->
  lockq s = [] /\
  LkS (set_pc (set_holder s (Some t)) t c (if part2 then Granted2 else Granted1)) /\
  FI (set_pc (set_holder s (Some t)) t c (if part2 then Granted2 else Granted1)).
Proof.
  intros HL HF Hh Hc.
  assert (Hq : lockq s = []).
  { destruct (lockq s) eqn:Eq; auto. exfalso. apply (lk_q_holder _ _ _ HL); [rewrite Eq; discriminate | exact Hh]. }
  split; [exact Hq | apply take_new; assumption].
Qed.

Lemma pk_free s s' t :
  holder s <> Some t -> NoPS s s' -> st_fsm s' = st_fsm s -> runt s' = runt s -> holder s' = holder s ->
  (forall t', t' <> t -> find_task (tasks s') t' = find_task (tasks s) t') -> pkind s s'.
Proof.
  intros Hnh Hx Ef Er Eh Hsame. apply pk_neutral; auto. apply owes_eq; auto. eapply owe_h_same; eauto.
Qed.

Ltac free t := apply (pk_free _ _ t); [congruence | nps | fsimpl; auto | fsimpl; auto | fsimpl; auto |];
  let t' := fresh "t" in let Hn := fresh "Hn" in
  intros t' Hn; fsimpl; rewrite ?find_remove_neq, ?find_put_neq by assumption; reflexivity.

Lemma pk_acquire (s : state) (t : nat) (c : call) (part2 : bool) :
  LkS s -> FI s -> find_task (tasks s) t = None ->
  compat c (if part2 then Granted2 else Granted1) = true ->
  (c = CClose -> part2 = true -> holder s = None -> st_fsm s <> Created) ->
  pkind s (acquire s t c part2).
Proof.
  intros HL HF Hfree Hc Hncr. pose proof (free_not_holder _ _ HL Hfree) as Hnh.
  destruct (holder s) as [h|] eqn:Eh.
  - rewrite (acquire_busy _ _ _ _ h Eh). free t.
  - destruct (take_inv s t c part2 HL HF Eh Hc) as (Hq & HL2 & HF2).
    rewrite acquire_free by assumption.
    set (s2 := set_pc (set_holder s (Some t)) t c (if part2 then Granted2 else Granted1)) in *.
    apply (pk_pre s s2); try reflexivity; [nps | |].
    + apply owes_eq; auto. rewrite (owe_h_none s Eh).
      unfold s2. erewrite owe_h_inside; [| simpl; eauto | simpl; reflexivity]. destruct part2; reflexivity.
    + apply (pk_enter s2 t c part2 (if part2 then Granted2 else Granted1) HL2 HF2); auto.
      * unfold s2. simpl. apply find_put_eq.
      * destruct part2; reflexivity.
Qed.

Lemma pk_do_call s t c :
  LkS s -> FI s -> CI s -> find_task (tasks s) t = None -> pkind s (do_call s t c).
Proof.
  intros HL HF HC Hfree. unfold do_call. rewrite Hfree.
  pose proof (free_not_holder _ _ HL Hfree) as Hnh.
  (* [s1]: [s] with the call logged *)
  assert (Hacq : forall (s1 : state) (b : bool), NoPS s s1 -> slk s s1 -> scal_of s1 = scal_of s ->
            compat c (if b then Granted2 else Granted1) = true ->
            (c = CClose -> b = true -> holder s = None -> st_fsm s <> Created) -> pkind s (acquire s1 t c b)).
  { intros s1 b Hx (E1 & E2 & E3) Es Hc Hncr. destruct (scal_of_fields _ _ Es) as (F1 & F2 & F3 & F4 & F5 & F6).
    apply (pk_pre s s1); auto.
    - apply owes_eq; auto. unfold owe_h, hpc. rewrite E1, E3. reflexivity.
    - apply pk_acquire; auto; try (unfold LkS; rewrite E1, E2, E3; exact HL); try congruence.
      + destruct HF as [HP HS]. split; rewrite ?F1, ?F2, ?F3, ?F4, ?F5, ?F6, ?E3; auto.
      + intros Ec Eb Eh. rewrite F1. apply Hncr; congruence. }
  assert (Hnc : nl_started s = true -> holder s = None -> st_fsm s <> Created).
  { intros Hst Hn Hcr. destruct (ci_created _ HC Hst Hcr) as (t0 & c0 & Hh0 & _). congruence. }
  destruct c; cbn [nl_started nl_closed cont_closed running_process send_command set_trace];
    [ destruct (nl_started s) eqn:?; [free t | apply Hacq]        (* start: a second one returns at once *)
    | apply Hacq                                                   (* run *)
    | apply Hacq                                                   (* reset *)
    | destruct (nl_closed s); [free t | simpl; destruct (nl_started s) eqn:?; apply Hacq]   (* close, likewise *)
    | destruct (cont_closed s); [free t | apply Hacq]              (* run_and_continue: RuntimeError once the flag is closed *)
    | destruct (cont_closed s); [free t | apply Hacq]              (* run_continue_and_wait, likewise *)
    | apply Hacq                                                   (* run_session *)
    | destruct (running_process s); free t                         (* signal: outside the lock either way *)
    | destruct (send_command s); free t ];                         (* command, likewise *)
    auto; try nps; try (repeat split; fail); discriminate.
Qed.

Lemma pk_do_step s t : LkS s -> FI s -> CI s -> pkind s (do_step s t).
Proof.
  intros HL HF HC. unfold do_step.
  destruct (find_task (tasks s) t) as [[c p]|] eqn:Ef; [|apply pk_same; reflexivity].
  pose proof HF as [HPc HS].
  pose proof (HPc _ _ _ Ef) as Hok.
  pose proof (lk_compat _ _ _ HL _ _ _ Ef) as Hc.
  pose proof (ci_tasks _ HC _ _ _ Ef) as (Hq1 & Hq2 & Hq3 & Hq4).
  assert (Hhold : locked_pc p = true -> holder s = Some t /\ (p <> S_G1 -> st_fsm s <> Created)).
  { intros Hl. assert (Hh : holder s = Some t) by (eapply (lk_holder_of _ _ _ HL); eauto).
    split; auto. intros Hp. eapply holder_not_created; eauto. }
  (* the re-initialisation of reset *)
  assert (Hre : forall p0 : pc, find_task (tasks s) t = Some (c, p0) -> owe_pc p0 = false -> holder s = Some t ->
            runt s = None -> st_fsm s = Initialized \/ st_fsm s = Finished -> pkind s (reset_reinit s t c)).
  { intros p0 Ef0 Hp0 Hh Hr Hfs. unfold reset_reinit. eapply pk_debt; eauto; try reflexivity; try nps; fsimpl.
    destruct Hfs as [-> | ->]; simpl; auto. }
  (* the return after the lock is given away *)
  assert (Hret : forall r : result, holder s = Some t -> owe_pc p = false -> pkind s (finish_call (release s) t c r)).
  { intros r Hh Hp. eapply pk_release; eauto; try nps; fsimpl; auto. intros t' Hn. apply find_remove_neq; auto. }
  destruct p; simpl in Hhold; try (destruct (Hhold eq_refl) as (Hh & Hncr); clear Hhold); simpl in Hok;
    try (apply pk_same; reflexivity); auto.
  - (* Granted1 *)
    eapply pk_enter; eauto. intros ->. destruct (Hq1 (or_intror eq_refl)) as (_ & Hn). congruence.
  - (* Granted2 *)
    eapply pk_enter; eauto. intros _ _. apply Hncr. discriminate.
  - (* S_G1 *)
    destruct (st_fsm s) eqn:Efs; try discriminate.
    eapply pk_debt; eauto; try reflexivity; try nps; fsimpl; auto.
    + apply FI_idle_runt; auto; congruence.
    + right. rewrite Efs. exact I.
  - (* S_G2 *)
    apply (pk_change_state s t c _ Hh Ef); try reflexivity.
    apply owe_r_none, FI_idle_runt; auto; intros E; rewrite E in Hok; discriminate.
  - (* S_G3 *)
    specialize (Hncr ltac:(discriminate)).
    destruct c; simpl in Hc; try discriminate; auto.
    destruct (lockq s) as [|t1 q] eqn:Eq.
    + rewrite acquire_free by (rewrite ?release_holder, ?release_lockq, Eq; reflexivity).
      set (s2 := set_pc (set_holder (release s) (Some t)) t CClose Granted2).
      destruct (requeue_inv s t HL HF Hh Eq) as [HL2 HF2]. fold s2 in HL2, HF2.
      apply (pk_pre s s2).
      * unfold s2. nps.
      * unfold s2. fsimpl. reflexivity.
      * unfold s2. apply owes_eq; [|fsimpl; auto]. rewrite (owe_h_of _ _ _ _ Hh Ef).
        erewrite owe_h_inside; [| simpl; eauto | simpl; reflexivity]. reflexivity.
      * unfold enter. apply (pk_enter_close s2 t Granted2 HL2 HF2); auto.
        -- unfold s2. simpl. apply find_put_eq.
        -- unfold s2. simpl. rewrite rl_fsm. exact Hncr.
    + rewrite (acquire_busy _ _ _ _ t1) by (rewrite release_holder, Eq; reflexivity).
      eapply pk_release; eauto; try nps; fsimpl; auto; try (rewrite Eq; reflexivity).
      intros t' Hn. rewrite Eq. apply find_put_neq; auto.
  - (* R_WaitStarted *)
    destruct (started_ev s); [|apply pk_same; reflexivity]. destruct (Hq4 eq_refl) as (Hrun & _).
    apply (pk_change_state s t c _ Hh Ef); try reflexivity. apply owe_r_running; auto.
  - (* R_G *)
    destruct c; simpl in Hc; try discriminate; auto;
      (eapply pk_release; eauto; try nps; fsimpl; auto; intros t' Hn; apply find_put_neq; auto).
  - (* Z_G1 *)
    destruct c; simpl in Hc; try discriminate. eapply pk_inside; eauto; try nps; fsimpl; auto.
  - (* Z_G1b *)
    destruct (st_fsm s) eqn:Efs; try discriminate.
    + eapply Hre; eauto. apply FI_idle_runt; auto; congruence.
    + destruct (runt s) eqn:Er; [|eapply Hre; eauto].
      eapply pk_inside; eauto; try reflexivity. nps.
  - (* Z_WaitRunTask *)
    destruct (runt s) eqn:Er; [apply pk_same; reflexivity|]. eapply Hre; eauto.
    destruct (st_fsm s); try discriminate; auto.
  - (* Z_G3 *)
    apply (pk_change_state s t c _ Hh Ef); try reflexivity.
    apply owe_r_none, FI_idle_runt; auto; intros E; rewrite E in Hok; discriminate.
  - (* C_WaitRunFinished *)
    destruct (run_finished s) as [[|]|] eqn:Erf; try (apply pk_same; reflexivity).
    destruct c; simpl in Hc; try discriminate.
    eapply pk_close_trigger; eauto. apply Hncr; discriminate.
    intros Hr. rewrite (FI_rf _ HF Hr) in Erf. discriminate.
  - (* C_WaitRunTask *)
    destruct (runt s) eqn:Er; [apply pk_same; reflexivity|]. destruct c; simpl in Hc; try discriminate.
    eapply pk_close_enter_closed; eauto. apply Hncr; discriminate.
  - (* C_G3 *)
    apply (pk_change_state s t c _ Hh Ef); try reflexivity.
    apply owe_r_none, FI_idle_runt; auto; intros E; rewrite E in Hok; discriminate.
  - (* C_G4 *)
    cc_cases s; (eapply pk_release; eauto; try nps; fsimpl; auto; intros t' Hn; apply find_remove_neq; auto).
  - (* P_WaitRunFinished *)
    destruct (run_finished s) as [[|]|]; try (apply pk_same; reflexivity).
    assert (Hnh : holder s <> Some t) by (eapply unlocked_not_holder; eauto). free t.
  - (* Sig_G *)
    assert (Hnh : holder s <> Some t) by (eapply unlocked_not_holder; eauto). free t.
Qed.

Lemma owe_h_fsm s :
  FI s -> CI s ->
  st_fsm s = Finished \/ (st_fsm s = Running /\ rws_ok (runt s) = false) -> owe_h s = false.
Proof.
  intros [HPc _] HC Hcase. unfold owe_h, hpc. destruct (holder s) as [h|]; auto.
  destruct (find_task (tasks s) h) as [[c p]|] eqn:Ef; auto.
  pose proof (HPc _ _ _ Ef) as Hok. pose proof (ci_tasks _ HC _ _ _ Ef) as (_ & _ & _ & Hq4).
  destruct p; simpl; auto; simpl in Hok.
  - destruct Hcase as [E | (E & _)]; rewrite E in Hok; discriminate.
  - destruct (Hq4 eq_refl) as (Hr & Hw). destruct Hcase as [E | (_ & E)]; congruence.
  - destruct Hcase as [E | (E & _)]; rewrite E in Hok; discriminate.
  - destruct Hcase as [E | (E & _)]; rewrite E in Hok; discriminate.
Qed.

Lemma pk_step_run s : FI s -> CI s -> pkind s (do_step_run s).
Proof.
  intros HF HC. pose proof HF as [HPc HS]. unfold do_step_run.
  destruct (runt s) as [x|] eqn:Er; [|apply pk_same; reflexivity].
  assert (Hfsm : if early x then st_fsm s = Running else st_fsm s = Finished).
  { destruct (early x) eqn:Ee; [eapply sc_early | eapply sc_late]; eauto. }
  assert (Hra : early x = true -> run_arg s <> None).
  { intros He. apply (sc_ra _ _ _ _ _ _ HS). right. rewrite He in Hfsm. exact Hfsm. }
  (* the run task moves between places that owe nothing *)
  assert (Hn : forall (s' : state) (y : rpc), NoPS s s' -> st_fsm s' = st_fsm s -> holder s' = holder s -> tasks s' = tasks s ->
            runt s' = Some y -> y <> RT_G_fin -> x <> RT_G_fin -> pkind s s').
  { intros s' y Hx Ef Eh Et Ey Hy Hxx. apply pk_neutral; auto. unfold owes, owe_r, owe_h, hpc.
    rewrite Eh, Et, Ey, Er. destruct x, y; congruence. }
  destruct x; simpl in Hfsm.
  - destruct (run_arg s) eqn:Era; [|exfalso; apply Hra; auto]. eapply Hn; try reflexivity; try discriminate. nps.
  - simpl. destruct (run_arg s) eqn:Era; [|exfalso; apply Hra; auto].
    eapply Hn; try reflexivity; try discriminate. nps.
  - eapply Hn; try reflexivity; try discriminate. nps.
  - destruct (run_call_pending s); [apply pk_same; reflexivity|].
    destruct (pending_exit s); [|apply pk_same; reflexivity].
    simpl. destruct (run_arg s) eqn:Era; [|exfalso; apply Hra; auto].
    eapply Hn; try reflexivity; try discriminate. nps.
  - (* RT_G_end: the completion transition *)
    rewrite run_finish_running by assumption.
    match goal with |- context [cont_finished ?y ?n] => destruct (cf_trace n y) as (new & Et & Hoc) end.
    apply pk_owe.
    + unfold NoPS. simpl. rewrite Et. eapply ext_trans; [|apply nostate_ext, nostate_only_cont, Hoc].
      simpl. apply ext_cons; [exact I | constructor].
    + unfold owes. rewrite owe_h_fsm; auto; [unfold owe_r; rewrite Er; reflexivity | right; rewrite Er; auto].
    + unfold owes, owe_r. simpl. apply orb_true_r.
    + congruence.
    + simpl. rewrite cf_fsm. simpl. right. rewrite Hfsm. exact I.
  - (* RT_G_fin *)
    eapply pk_pay with (tr1 := trace s); try reflexivity; unfold owes.
    + constructor.
    + unfold owe_r. rewrite Er. apply orb_true_r.
    + change (owe_h s || false = false). rewrite owe_h_fsm; auto.
  - apply pk_neutral; [nps | reflexivity |]. unfold owes, owe_r. simpl. rewrite Er. reflexivity.
Qed.

Theorem pk_step s l : LkS s -> FI s -> CI s -> pkind s (step s l).
Proof.
  intros HL HF HC. destruct l; simpl.
  - destruct (find_task (tasks s) t) eqn:Ef.
    + unfold do_call. rewrite Ef. apply pk_same; reflexivity.
    + apply pk_do_call; auto.
  - apply pk_do_step; auto.
  - apply pk_step_run; auto.
  - unfold do_child_exit. destruct (alive s); apply pk_same; reflexivity.
Qed.

Theorem SP_reachable a b c d ls : SP (run_labels (init_state a b c d) ls).
Proof.
  unfold run_labels.
  assert (H0 : SP (init_state a b c d)) by (split; [exact I | right; split; reflexivity]).
  generalize (LkS_init a b c d) (FI_init a b c d) (CI_init a b c d) H0. generalize (init_state a b c d).
  induction ls as [|l ls IH]; intros s HL HF HC HP; simpl; auto.
  apply IH; [apply LkS_step | apply FI_step | apply CI_step | apply (pk_SP s); [apply pk_step|]]; auto.
Qed.

(** the subscription half of C01 *)
Theorem state_pubs_path : forall stmt start th md ls,
  let s := run_labels (init_state stmt start th md) ls in
  path_from_initialized (states_of (pubs_of (history s))).
Proof.
  intros. unfold history. rewrite states_tr_rev. apply okrev_path. apply (SP_reachable stmt start th md ls).
Qed.

Lemma is_path_nth l : is_path l ->
  forall i a b, nth_error l i = Some a -> nth_error l (S i) = Some b -> a = b \/ edge a b.
Proof.
  induction l as [|x l IH]; intros Hp i a b Ha Hb; [destruct i; discriminate|].
  destruct Hp as (Hh & Hp). destruct i as [|i]; simpl in *.
  - inversion Ha; subst. destruct l; [discriminate|]. inversion Hb; subst. exact Hh.
  - eapply IH; eauto.
Qed.

Theorem state_pubs_path_nth : forall stmt start th md ls,
  let l := states_of (pubs_of (history (run_labels (init_state stmt start th md) ls))) in
  (forall a, nth_error l 0 = Some a -> a = Initialized) /\
  (forall i a b, nth_error l i = Some a -> nth_error l (S i) = Some b -> a = b \/ edge a b).
Proof.
  intros. pose proof (state_pubs_path stmt start th md ls) as H. cbv zeta in H. fold l in H.
  destruct H as (Hi & Hp). split.
  - intros a Ha. destruct l; [discriminate|]. simpl in Ha, Hi. congruence.
  - apply is_path_nth. exact Hp.
Qed.

Lemma NoPS_appended s s' f : NoPS s s' -> ~ In (EvPub (PState f)) (appended s s').
Proof.
  intros Hx Hin. destruct (ext_app _ _ _ Hx) as (new & E & Hn).
  rewrite (appended_ext _ _ _ E) in Hin. apply in_rev in Hin. rewrite Forall_forall in Hn. exact (Hn _ Hin).
Qed.

Theorem state_pubs_reflect : forall stmt start th md ls l f,
  let s := run_labels (init_state stmt start th md) ls in
  In (EvPub (PState f)) (appended s (step s l)) -> st_fsm s = f /\ st_fsm (step s l) = f.
Proof.
  intros stmt start th md ls l f s Hin. destruct (Close.all_inv stmt start th md ls) as (HL & HF & HC).
  destruct (pk_step s l HL HF HC) as [Hx _ _ | Hx _ _ _ _ | h tr1 Hx Et _ _ Ef];
    try (exfalso; exact (NoPS_appended _ _ _ Hx Hin)).
  destruct (ext_app _ _ _ Hx) as (new & -> & Hn).
  rewrite (appended_ext s _ (EvHook h :: EvPub (PState (st_fsm s)) :: new)) in Hin by exact Et.
  simpl in Hin. rewrite !in_app_iff in Hin. simpl in Hin.
  destruct Hin as [[Hin | [Hin | []]] | [Hin | []]]; try discriminate.
  - apply in_rev in Hin. rewrite Forall_forall in Hn. destruct (Hn _ Hin).
  - inversion Hin; subst. auto.
Qed.
