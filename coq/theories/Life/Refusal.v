(** Refused requests, stated on histories: WHEN a request that reaches its turn
    ends in MachineError, WHAT such a step appends and that it changes nothing
    else, and that an accepted run request found the object idle.
    Every statement is for every reachable state (every label sequence). *)
From NL Require Import Life.Model Life.LockInv Life.FsmInv Life.Hist Life.NumKind Life.Close Life.Protocol.
From Coq Require Import Lia.

Definition disallowed (c : call) (part2 : bool) (f : fsm) : Prop :=
  match c with
  | CStart => f <> Created
  | CClose => part2 = false /\ f <> Created
  | CReset _ => f <> Initialized /\ f <> Finished
  | CRun | CRunCont | CRunContWait | CRunSession => f <> Initialized
  | CSignal | CSend => False
  end.

Lemma enter_cases s t c b :
  (disallowed c b (st_fsm s) /\ enter s t c b = refuse s t c)
  \/ (~ disallowed c b (st_fsm s) /\ grows no_me s (enter s t c b)).
Proof.
  unfold enter, enter_start, enter_run, enter_reset, disallowed.
  destruct c; try (right; split; [tauto | leaf]);
    try (destruct b; [right; split; [intros (? & _); discriminate | apply g_enter_close]|]);
    destruct (st_fsm s); try (left; split; [repeat split; discriminate | reflexivity]);
    (right; split; [tauto | try destruct (o_stmt o); leaf]).
Qed.

Definition unreg (t : nat) (x : nat * bool) : bool := negb (Nat.eqb (fst x) t && negb (snd x)).

Definition rest_of (s : state) :=
  (nl_started s, nl_closed s, run_owner s, run_cont s, running_process s, send_command s,
   c_stmt s, c_next s, c_threads s, c_modules s, cont_closed s).

Lemma release_rest s : rest_of (release s) = rest_of s /\ cont_plugins (release s) = cont_plugins s.
Proof. rewrite release_eq. split; reflexivity. Qed.

Lemma refuse_new s t c :
  exists new, trace (refuse s t c) = new ++ trace s /\
    ((new = [EvRet t c RMachineError] /\ (is_cont c = false \/ cont_closed s = true))
     \/ (is_cont c = true /\ cont_closed s = false /\ exists b, new = [EvRet t c RMachineError; EvPub (PCont b)])).
Proof.
  rewrite refuse_eq. exists (EvRet t c RMachineError :: refuse_note s t c). split; [reflexivity|].
  unfold refuse_note. destruct (is_cont c); [destruct (cont_closed s)|]; simpl; eauto 6.
Qed.

Lemma core_refuse s t c : core_of (refuse s t c) = core_of s.
Proof. rewrite refuse_eq. unfold refuse_note. destruct (is_cont c && negb (cont_closed s)); core_simpl; reflexivity. Qed.

Lemma refuse_rest s t c :
  rest_of (refuse s t c) = rest_of s /\
  cont_plugins (refuse s t c) = (if is_cont c then filter (unreg t) (cont_plugins s) else cont_plugins s) /\
  holder (refuse s t c) = rel_holder (lockq s) /\ lockq (refuse s t c) = tl (lockq s) /\
  tasks (refuse s t c) = remove_task (rel_tasks (lockq s) (tasks s)) t.
Proof.
  destruct (release_rest s) as (R1 & R2). rewrite refuse_eq. split; [exact R1|]. simpl.
  rewrite release_holder, release_lockq, release_tasks. auto.
Qed.

Lemma new_unique {A} (n1 n2 tr l : list A) : l = n1 ++ tr -> l = n2 ++ tr -> n1 = n2.
Proof. intros -> E. apply app_inv_tail in E. auto. Qed.

Lemma no_me_not_in s s' t c : grows no_me s s' -> ~ In (EvRet t c RMachineError) (appended s s').
Proof.
  intros (new & E & H) Hin. rewrite (appended_ext _ _ _ E) in Hin. apply in_rev in Hin.
  apply has_me_In in Hin. unfold no_me in H. congruence.
Qed.

Lemma g_acquire_close s t : grows no_me s (acquire s t CClose true).
Proof.
  unfold acquire. destruct (holder s); [leaf|]. destruct (lockq s); [|leaf].
  eapply (grows_pre _ s (set_pc (set_holder s (Some t)) t CClose Granted2) _ []);
    [reflexivity | apply g_enter_close |]. intros n. rewrite app_nil_r. auto.
Qed.

Lemma do_step_nome s t : LkS s ->
  (forall c, find_task (tasks s) t <> Some (c, Granted1)) -> grows no_me s (do_step s t).
Proof.
  intros HL Hng. unfold do_step. destruct (find_task (tasks s) t) as [[c p]|] eqn:Ef; [|leaf].
  pose proof (lk_compat _ _ _ HL _ _ _ Ef) as Hc.
  destruct p; try leaf.
  - exfalso. apply (Hng c). reflexivity.
  - destruct c; simpl in Hc; try discriminate. apply g_enter_close.
  - destruct c; try leaf.
    eapply (grows_pre _ s (release s) _ []); [rewrite rl_trace; reflexivity | apply g_acquire_close |].
    intros n. rewrite app_nil_r. auto.
  - destruct (started_ev s); leaf.
  - destruct c; leaf.
  - destruct c; leaf.
  - unfold reset_reinit. destruct (st_fsm s); try leaf. destruct (runt s); leaf.
  - unfold reset_reinit. destruct (runt s); leaf.
  - destruct (run_finished s) as [[|]|]; try leaf. apply g_close_trigger.
  - unfold close_enter_closed. destruct (runt s); leaf.
  - unfold close_cont, cont_off_events;
      match goal with |- context [match cont_plugins ?x with _ => _ end] => destruct (cont_plugins x) end; leaf.
  - destruct (run_finished s) as [[|]|]; leaf.
Qed.

Lemma hooks_rev_nohook new : has_hook new = false -> hooks_of (rev new) = [].
Proof.
  induction new as [|e new IH]; simpl; auto. intros H. rewrite hooks_of_app.
  destruct e; try discriminate; simpl; rewrite IH; auto.
Qed.

Lemma hooks_same s s' new : trace s' = new ++ trace s -> has_hook new = false ->
  hooks_of (history s') = hooks_of (history s).
Proof.
  intros E H. unfold history. rewrite E, rev_app_distr, hooks_of_app, (hooks_rev_nohook _ H), app_nil_r. reflexivity.
Qed.

Lemma remove_put_absent ts t x : find_task ts t = None -> remove_task (put_task ts t x) t = ts.
Proof.
  induction ts as [|[t' y] ts IH]; simpl.
  - rewrite Nat.eqb_refl. reflexivity.
  - destruct (Nat.eqb t t') eqn:E; [discriminate|]. intros H. simpl. rewrite E, IH; auto.
Qed.

Definition refused_step (s s' : state) (l : label) (t : nat) (c : call) : Prop :=
  let r := EvRet t c RMachineError in
  ((l = Step t /\ holder s = Some t /\ find_task (tasks s) t = Some (c, Granted1) /\
    (appended s s' = [r] \/ (is_cont c = true /\ exists b, appended s s' = [EvPub (PCont b); r])) /\
    holder s' = rel_holder (lockq s) /\ lockq s' = tl (lockq s) /\
    tasks s' = remove_task (rel_tasks (lockq s) (tasks s)) t)
   \/
   (l = Call t c /\ holder s = None /\ lockq s = [] /\ find_task (tasks s) t = None /\
    ((is_cont c = false /\ appended s s' = [EvCall t c; r]) \/
     (is_cont c = true /\ exists b, appended s s' = [EvCall t c; EvPub (PCont true); EvPub (PCont b); r])) /\
    holder s' = None /\ lockq s' = [] /\ tasks s' = tasks s))
  /\ disallowed c false (st_fsm s)
  /\ core_of s' = core_of s /\ rest_of s' = rest_of s
  /\ cont_plugins s' = (if is_cont c then filter (unreg t) (cont_plugins s) else cont_plugins s)
  /\ hooks_of (history s') = hooks_of (history s).

Lemma refuse_log s0 s t c pre : trace s = pre ++ trace s0 ->
  let r := EvRet t c RMachineError in
  exists tail, appended s0 (refuse s t c) = rev pre ++ tail /\
    ((tail = [r] /\ (is_cont c = false \/ cont_closed s = true)) \/
     (is_cont c = true /\ cont_closed s = false /\ exists b, tail = [EvPub (PCont b); r])) /\
    (has_hook pre = false -> hooks_of (history (refuse s t c)) = hooks_of (history s0)) /\
    (has_me pre = false -> forall t0 c0, In (EvRet t0 c0 RMachineError) (rev pre ++ tail) -> t0 = t /\ c0 = c).
Proof.
  intros E r. destruct (refuse_new s t c) as (new & En & Hnew).
  assert (En' : trace (refuse s t c) = (new ++ pre) ++ trace s0) by (rewrite En, E, app_assoc; reflexivity).
  exists (rev new). rewrite (appended_ext _ _ _ En'), rev_app_distr. split; [reflexivity|]. split; [|split].
  - destruct Hnew as [(-> & H) | (H1 & H2 & b & ->)]; [left | right]; simpl; eauto 6.
  - intros Hp. eapply hooks_same; [exact En'|]. rewrite has_hook_app, Hp.
    destruct Hnew as [(-> & _) | (_ & _ & b & ->)]; reflexivity.
  - intros Hp t0 c0 Hin. apply in_app_or in Hin. destruct Hin as [Hin | Hin]; apply in_rev in Hin.
    + apply has_me_In in Hin. congruence.
    + destruct Hnew as [(-> & _) | (_ & _ & b & ->)]; simpl in Hin;
        repeat (destruct Hin as [Hin | Hin]; try discriminate Hin; try contradiction); inversion Hin; auto.
Qed.

Lemma refused_by_step s t c t0 c0 :
  LkS s -> find_task (tasks s) t = Some (c, Granted1) ->
  In (EvRet t0 c0 RMachineError) (appended s (do_step s t)) ->
  t0 = t /\ c0 = c /\ refused_step s (do_step s t) (Step t) t c.
Proof.
  intros HL Ef Hin.
  assert (Hh : holder s = Some t) by (eapply (lk_holder_of _ _ _ HL); eauto).
  assert (Ed : do_step s t = enter s t c false) by (unfold do_step; rewrite Ef; reflexivity).
  rewrite Ed in *.
  destruct (enter_cases s t c false) as [(Hd & Er) | (_ & Hg)]; [|exfalso; eapply no_me_not_in; eauto].
  rewrite Er in *.
  destruct (refuse_log s s t c [] eq_refl) as (tail & Ea & Htail & Eh & Hid). simpl in Ea, Hid.
  destruct (refuse_rest s t c) as (R1 & R2 & R3 & R4 & R5).
  rewrite Ea in *. destruct (Hid eq_refl _ _ Hin) as (-> & ->).
  repeat split; auto using core_refuse.
  left. repeat split; auto. destruct Htail as [(-> & _) | (Hc & _ & b & ->)]; [left | right]; eauto.
Qed.

Lemma acquire_refused s0 s1 t c b t0 c0 pre :
  trace s1 = pre ++ trace s0 -> has_me pre = false ->
  In (EvRet t0 c0 RMachineError) (appended s0 (acquire s1 t c b)) ->
  holder s1 = None /\ lockq s1 = [] /\ disallowed c b (st_fsm s1) /\
  acquire s1 t c b = refuse (set_pc (set_holder s1 (Some t)) t c (if b then Granted2 else Granted1)) t c.
Proof.
  intros E Hp Hin. unfold acquire in *.
  assert (Hq : forall x, trace x = trace s1 -> grows no_me s0 x).
  { intros x Ex. exists pre. rewrite Ex. auto. }
  destruct (holder s1); [exfalso; eapply no_me_not_in; [apply Hq | exact Hin]; reflexivity|].
  destruct (lockq s1); [|exfalso; eapply no_me_not_in; [apply Hq | exact Hin]; reflexivity].
  set (s2 := set_pc (set_holder s1 (Some t)) t c (if b then Granted2 else Granted1)) in *.
  destruct (enter_cases s2 t c b) as [(Hd & Er) | (_ & Hg)]; [auto|].
  exfalso. eapply no_me_not_in; [|exact Hin].
  eapply (grows_pre _ s0 s2 _ pre); [exact E | exact Hg |]. intros n. apply no_me_plain. exact Hp.
Qed.

(** a request refused inside its [Call] label; [s2]: [s] with the call logged and the lock taken *)
Lemma call_refused_finish s s2 t c pre t0 c0 :
  trace s2 = pre ++ trace s -> core_of s2 = core_of s -> rest_of s2 = rest_of s ->
  lockq s2 = [] -> tasks s2 = put_task (tasks s) t (c, Granted1) ->
  find_task (tasks s) t = None -> holder s = None -> lockq s = [] -> disallowed c false (st_fsm s) ->
  ((is_cont c = false /\ pre = [EvCall t c] /\ cont_plugins s2 = cont_plugins s) \/
   (is_cont c = true /\ pre = [EvPub (PCont true); EvCall t c] /\
    cont_plugins s2 = cont_plugins s ++ [(t, false)] /\ cont_closed s2 = false)) ->
  In (EvRet t0 c0 RMachineError) (appended s (refuse s2 t c)) ->
  t0 = t /\ c0 = c /\ refused_step s (refuse s2 t c) (Call t c) t c.
Proof.
  intros Et Ec Er Eq Ets Ef Hh Hq Hd Hk Hin.
  destruct (refuse_log s s2 t c pre Et) as (tail & Ea & Htail & Eh & Hid).
  destruct (refuse_rest s2 t c) as (R1 & R2 & R3 & R4 & R5).
  assert (Hpre : has_hook pre = false /\ has_me pre = false)
    by (destruct Hk as [(_ & -> & _) | (_ & -> & _)]; split; reflexivity).
  rewrite Ea in *. destruct (Hid (proj2 Hpre) _ _ Hin) as (-> & ->).
  split; auto. split; auto. unfold refused_step. repeat split; auto; try congruence.
  - right. repeat split; auto.
    + rewrite Ea. destruct Hk as [(Hc & -> & _) | (Hc & -> & _ & Hcc)];
        destruct Htail as [(-> & H) | (Hc' & Hcc' & b & ->)]; try congruence;
        [left | destruct H; congruence | right; split; auto; exists b]; auto.
    + rewrite R3, Eq. reflexivity.
    + rewrite R4, Eq. reflexivity.
    + rewrite R5, Eq, Ets. simpl. apply remove_put_absent. exact Ef.
  - rewrite core_refuse. exact Ec.
  - rewrite R2. destruct Hk as [(Hc & _ & ->) | (Hc & _ & -> & _)]; rewrite Hc; auto.
    rewrite filter_app. simpl. unfold unreg at 2. simpl. rewrite Nat.eqb_refl. simpl. rewrite app_nil_r. reflexivity.
  - apply Eh, Hpre.
Qed.

(** [Hin]: a MachineError return was appended by [acquire s1 ...], where [s1] is [s] with [pre] logged:
    the lock was free and the request was refused at once ([acquire_refused]) *)
Ltac by_acquire Hin pre :=
  match type of Hin with In _ (appended ?s (acquire ?s1 ?t ?c ?b)) =>
    destruct (acquire_refused s s1 t c b _ _ pre eq_refl eq_refl Hin) as (A1 & A2 & A3 & A4);
    simpl in A1, A2, A3; rewrite A4 in *
  end.

Lemma refused_by_call s t c t0 c0 :
  CI s -> find_task (tasks s) t = None ->
  In (EvRet t0 c0 RMachineError) (appended s (do_call s t c)) ->
  t0 = t /\ c0 = c /\ refused_step s (do_call s t c) (Call t c) t c.
Proof.
  intros HC Ef Hin. unfold do_call in *. rewrite Ef in *.
  assert (Hno : forall x, grows no_me s x -> In (EvRet t0 c0 RMachineError) (appended s x) -> False)
    by (intros x Hg Hi; eapply no_me_not_in; eauto).
  destruct c; cbn [nl_started nl_closed cont_closed running_process send_command set_trace] in *.
  - (* CStart *)
    destruct (nl_started s) eqn:En; [exfalso; eapply Hno; [|exact Hin]; leaf|].
    by_acquire Hin [EvPub (PCont false); EvCall t CStart].
    exfalso. apply A3. apply (ci_fresh _ HC En).
  - by_acquire Hin [EvCall t CRun].
    eapply call_refused_finish; eauto; try reflexivity; auto 10.
  - by_acquire Hin [EvCall t (CReset o)].
    eapply call_refused_finish; eauto; try reflexivity; auto 10.
  - (* CClose *)
    destruct (nl_closed s); [exfalso; eapply Hno; [|exact Hin]; leaf|]. simpl in Hin.
    destruct (nl_started s) eqn:En.
    + by_acquire Hin [EvCall t CClose]. destruct A3 as (? & _). discriminate.
    + by_acquire Hin [EvPub (PCont false); EvCall t CClose].
      exfalso. apply A3. apply (ci_fresh _ HC En).
  - destruct (cont_closed s) eqn:Ecc; [exfalso; eapply Hno; [|exact Hin]; leaf|].
    by_acquire Hin [EvPub (PCont true); EvCall t CRunCont].
    eapply call_refused_finish; eauto; try reflexivity; auto 10.
  - destruct (cont_closed s) eqn:Ecc; [exfalso; eapply Hno; [|exact Hin]; leaf|].
    by_acquire Hin [EvPub (PCont true); EvCall t CRunContWait].
    eapply call_refused_finish; eauto; try reflexivity; auto 10.
  - by_acquire Hin [EvCall t CRunSession].
    eapply call_refused_finish; eauto; try reflexivity; auto 10.
  - exfalso. eapply Hno; [|exact Hin]. destruct (running_process s); leaf.
  - exfalso. eapply Hno; [|exact Hin]. destruct (send_command s); leaf.
Qed.

Lemma appended_same s s' : trace s' = trace s -> appended s s' = [].
Proof. intros E. apply (appended_ext s s' []). exact E. Qed.

Theorem refused_on_history s l t c :
  LkS s -> CI s -> In (EvRet t c RMachineError) (appended s (step s l)) -> refused_step s (step s l) l t c.
Proof.
  intros HL HC Hin. destruct l as [t' c' | t' | | o]; simpl in *.
  - destruct (find_task (tasks s) t') eqn:Ef.
    + unfold do_call in Hin. rewrite Ef in Hin. rewrite appended_same in Hin by reflexivity. destruct Hin.
    + destruct (refused_by_call s t' c' t c HC Ef Hin) as (-> & -> & H). exact H.
  - destruct (find_task (tasks s) t') as [[c' p]|] eqn:Ef.
    + destruct p; try (exfalso; eapply no_me_not_in; [|exact Hin]; apply do_step_nome; auto; intros c0 E; congruence).
      destruct (refused_by_step s t' c' t c HL Ef Hin) as (-> & -> & H). exact H.
    + exfalso. eapply no_me_not_in; [|exact Hin]; apply do_step_nome; auto; intros c0 E; congruence.
  - exfalso. eapply no_me_not_in; [apply g_step_run | exact Hin].
  - exfalso. eapply no_me_not_in; [|exact Hin]. unfold do_child_exit. destruct (alive s); leaf.
Qed.

Definition accepted_effect (s s' : state) (t : nat) (c : call) : Prop :=
  match c with
  | CReset o =>
    st_fsm s' = st_fsm s /\ runt s' = runt s /\
    exists p, (p = Z_G1 \/ p = Z_G1b) /\ find_task (tasks s') t = Some (c, p)
  | _ =>
    st_fsm s' = Running /\ runt s' = Some RT_New /\ run_finished s' = Some false /\ run_owner s' = t /\
    find_task (tasks s') t = Some (c, R_WaitStarted)
  end.

Lemma disallowed_dec c b f : disallowed c b f \/ ~ disallowed c b f.
Proof. unfold disallowed. destruct c, f, b; intuition congruence. Qed.

Lemma refuse_has_ret s0 s t c pre : trace s = pre ++ trace s0 ->
  In (EvRet t c RMachineError) (appended s0 (refuse s t c)).
Proof.
  intros E. destruct (refuse_log s0 s t c pre E) as (tail & -> & Htail & _). apply in_or_app. right.
  destruct Htail as [(-> & _) | (_ & _ & b & ->)]; simpl; auto.
Qed.

Lemma enter_accept s0 s t c :
  st_fsm s = st_fsm s0 -> runt s = runt s0 ->
  (runlike c = true \/ exists o, c = CReset o) -> ~ disallowed c false (st_fsm s0) ->
  accepted_effect s0 (enter s t c false) t c /\ (runlike c = true -> trace (enter s t c false) = trace s).
Proof.
  intros E1 E2 Hc Hnd. rewrite <- E1 in Hnd. unfold enter, enter_run, enter_reset, accepted_effect, disallowed in *.
  destruct c; try (destruct Hc as [Hc | (o' & Hc)]; discriminate); rewrite <- ?E1, <- ?E2;
    try (destruct (st_fsm s); try (exfalso; apply Hnd; discriminate); simpl; rewrite find_put_eq; auto 10; fail).
  split; [|discriminate].
  destruct (st_fsm s) eqn:Ef; try (exfalso; apply Hnd; split; discriminate);
    destruct (o_stmt o); simpl; rewrite ?ar_fsm, ?ar_runt, ?apply_rest_tasks; simpl; rewrite ?Ef, find_put_eq; eauto 10.
Qed.

Theorem granted_outcome s t c :
  LkS s -> find_task (tasks s) t = Some (c, Granted1) -> (runlike c = true \/ exists o, c = CReset o) ->
  let s' := step s (Step t) in
  holder s = Some t /\
  (In (EvRet t c RMachineError) (appended s s') <-> disallowed c false (st_fsm s)) /\
  (~ disallowed c false (st_fsm s) -> accepted_effect s s' t c /\ (runlike c = true -> trace s' = trace s)).
Proof.
  intros HL Ef Hc. cbv zeta. simpl.
  assert (Ed : do_step s t = enter s t c false) by (unfold do_step; rewrite Ef; reflexivity).
  split; [eapply (lk_holder_of _ _ _ HL); eauto|]. split; [split|].
  - intros Hin. destruct (refused_by_step s t c t c HL Ef Hin) as (_ & _ & H). apply H.
  - intros Hd. rewrite Ed. destruct (enter_cases s t c false) as [(_ & Er) | (Hnd & _)]; [|contradiction].
    rewrite Er. apply (refuse_has_ret s s t c []). reflexivity.
  - rewrite Ed. apply enter_accept; auto.
Qed.

Lemma call_request s t c :
  find_task (tasks s) t = None -> (runlike c = true \/ exists o, c = CReset o) ->
  (is_cont c = true -> cont_closed s = false) ->
  exists s1 pre, do_call s t c = acquire s1 t c false /\ trace s1 = pre ++ trace s /\
    (forall t0 c0 r, ~ In (EvRet t0 c0 r) pre) /\ slk s s1 /\ core_of s1 = core_of s.
Proof.
  intros Ef Hc Hcc. unfold do_call. rewrite Ef.
  destruct c; try (destruct Hc as [Hc | (o' & Hc)]; discriminate); cbn [cont_closed set_trace];
    rewrite ?(Hcc eq_refl); (eexists _, [_] + eexists _, [_; _]);
    (split; [reflexivity|]); (split; [reflexivity|]); repeat split; intros ? ? ? H; simpl in H; intuition discriminate.
Qed.

(** when the lock is free the request is judged inside the [Call] label;
    when the lock is busy the request only queues *)
Theorem direct_outcome s t c :
  find_task (tasks s) t = None -> (runlike c = true \/ exists o, c = CReset o) ->
  (is_cont c = true -> cont_closed s = false) ->
  let s' := step s (Call t c) in
  (holder s = None -> lockq s = [] ->
   (disallowed c false (st_fsm s) -> In (EvRet t c RMachineError) (appended s s')) /\
   (~ disallowed c false (st_fsm s) -> accepted_effect s s' t c)) /\
  (holder s <> None \/ lockq s <> [] ->
   find_task (tasks s') t = Some (c, WaitLock1) /\ core_of s' = core_of s /\
   forall t0 c0 r, ~ In (EvRet t0 c0 r) (appended s s')).
Proof.
  intros Ef Hc Hcc. cbv zeta. simpl.
  destruct (call_request s t c Ef Hc Hcc) as (s1 & pre & -> & Et & Hpre & (Eh & Eq & Ets) & Eco).
  destruct (core_fields _ _ Eco) as (Efs & Er & _). split.
  - intros Hh Hq. rewrite acquire_free by congruence.
    set (s2 := set_pc (set_holder s1 (Some t)) t c Granted1).
    destruct (enter_cases s2 t c false) as [(Hd & ->) | (Hnd & _)]; simpl in Hd || simpl in Hnd; rewrite Efs in *.
    + split; [|contradiction]. intros _. apply (refuse_has_ret s s2 t c pre). exact Et.
    + split; [contradiction|]. intros _. apply (enter_accept s s2); auto.
  - intros Hb.
    assert (E : acquire s1 t c false = set_pc (set_lockq s1 (lockq s1 ++ [t])) t c WaitLock1).
    { unfold acquire. rewrite Eh, Eq. destruct (holder s); auto. destruct (lockq s); auto. destruct Hb; congruence. }
    rewrite E. simpl. rewrite find_put_eq. repeat split; auto.
    intros t0 c0 r Hin. rewrite (appended_ext _ _ pre) in Hin by exact Et. apply in_rev in Hin. eapply Hpre; eauto.
Qed.

Lemma runlike_disallowed c f : runlike c = true -> (disallowed c false f <-> f <> Initialized).
Proof. destruct c; simpl; try discriminate; tauto. Qed.

Lemma run_task_disallows s c : FI s -> runt s <> None -> runlike c = true -> disallowed c false (st_fsm s).
Proof.
  intros [_ HS] Hr Hc. apply runlike_disallowed; auto. intros Hf.
  apply Hr. eapply Scal_idle; [exact HS | |]; rewrite Hf; discriminate.
Qed.

Theorem second_run_refused s t c :
  LkS s -> FI s -> runt s <> None -> runlike c = true ->
  find_task (tasks s) t = Some (c, Granted1) ->
  In (EvRet t c RMachineError) (appended s (step s (Step t))).
Proof.
  intros HL HF Hr Hc Ef. apply (granted_outcome s t c HL Ef (or_introl Hc)). apply run_task_disallows; auto.
Qed.

Theorem second_run_refused_call s t c :
  FI s -> runt s <> None -> runlike c = true -> find_task (tasks s) t = None ->
  (is_cont c = true -> cont_closed s = false) -> holder s = None -> lockq s = [] ->
  In (EvRet t c RMachineError) (appended s (step s (Call t c))).
Proof.
  intros HF Hr Hc Ef Hcc Hh Hq. apply (direct_outcome s t c Ef (or_introl Hc) Hcc); auto.
  apply run_task_disallows; auto.
Qed.

Theorem reset_refused_while_running s t o :
  LkS s -> st_fsm s = Running -> find_task (tasks s) t = Some (CReset o, Granted1) ->
  In (EvRet t (CReset o) RMachineError) (appended s (step s (Step t))).
Proof.
  intros HL Hf Ef. apply (granted_outcome s t (CReset o) HL Ef); [right; eauto|].
  simpl. rewrite Hf. split; discriminate.
Qed.

(** a reset is NOT refused while the run task is finishing (state 'finished', run task not yet ended):
    it is accepted and then waits for the run task before it re-initialises *)
Lemma reset_waits s t c p :
  FI s -> runt s <> None -> find_task (tasks s) t = Some (c, p) -> p = Z_G1b \/ p = Z_WaitRunTask ->
  step s (Step t) = s /\ p = Z_WaitRunTask \/ step s (Step t) = set_pc s t c Z_WaitRunTask.
Proof.
  intros [HP HS] Hr Ef Hp. pose proof (HP _ _ _ Ef) as Hok.
  simpl. unfold do_step. rewrite Ef. destruct (runt s) as [x|] eqn:Er; [|congruence].
  destruct Hp as [-> | ->]; simpl in Hok; auto.
  destruct (st_fsm s) eqn:Efs; try discriminate; auto.
  exfalso. assert (E0 : Some x = None) by (eapply Scal_idle; [exact HS | discriminate | discriminate]). discriminate.
Qed.

Theorem reset_waits_for_run_task s t c p :
  LkS s -> FI s -> runt s <> None -> find_task (tasks s) t = Some (c, p) -> p = Z_G1b \/ p = Z_WaitRunTask ->
  core_of (step s (Step t)) = core_of s /\ find_task (tasks (step s (Step t))) t = Some (c, Z_WaitRunTask).
Proof.
  intros _ HF Hr Ef Hp. destruct (reset_waits s t c p HF Hr Ef Hp) as [(-> & ->) | ->]; auto.
  split; [reflexivity | apply find_put_eq].
Qed.

Definition finishing_labels : list label :=
  [Call 0%nat CStart; Step 0%nat; Step 0%nat; Step 0%nat;
   Call 1%nat CRun; StepRun; StepRun; StepRun; Step 1%nat; Step 1%nat; ChildExit OReturn; StepRun; StepRun].

Lemma reset_while_finishing_witness :
  let s := run_labels (init_state 7 1 false false) finishing_labels in
  let c := CReset (mkOpts None None None None) in
  runt s = Some RT_G_fin /\ st_fsm s = Finished /\
  find_task (tasks (step s (Call 2%nat c))) 2%nat = Some (c, Z_G1b) /\
  appended s (step s (Call 2%nat c))
  = [EvCall 2%nat c; EvHook (mkHook HReset Finished None None None)].
Proof. vm_compute. repeat split; reflexivity. Qed.

Definition runpc (p : pc) : bool :=
  match p with R_WaitStarted | R_G | P_WaitRunFinished => true | _ => false end.

Lemma runpc_granted p0 p : runpc p = true -> (p = p0 \/ p = granted_pc p0) -> p = p0.
Proof. intros H [-> | ->]; auto. destruct p0; simpl in *; auto; discriminate. Qed.

(** in every branch of the model functions the table is left alone, the entry of [t] is put or removed, or
    the same after the lock was handed on ([of_leave], [of_leave_put]) *)
Ltac of_tac := fsimpl; first [apply of_refl | apply of_put | apply of_remove | apply of_leave | apply of_leave_put].

Lemma of_refuse s t c : others_from (tasks s) (tasks (refuse s t c)) t.
Proof. destruct (refuse_rest s t c) as (_ & _ & _ & _ & ->). eapply of_trans; [apply of_rel | apply of_remove]. Qed.

Lemma of_close_trigger s t : others_from (tasks s) (tasks (close_trigger s t)) t.
Proof.
  unfold close_trigger, close_enter_closed. destruct (st_fsm s); try of_tac. destruct (runt s); of_tac.
Qed.

Lemma of_enter s t c b : others_from (tasks s) (tasks (enter s t c b)) t.
Proof.
  unfold enter, enter_start, enter_run, enter_reset, enter_close.
  destruct c; try (destruct (st_fsm s); try apply of_refuse; of_tac); try apply of_refl.
  - destruct (st_fsm s); try apply of_refuse; destruct (o_stmt o); of_tac.
  - destruct b.
    + simpl. destruct (st_fsm s); try apply (of_close_trigger (publish s PEndAll) t).
      destruct (run_finished s) as [[|]|]; try apply (of_close_trigger (publish s PEndAll) t); of_tac.
    + destruct (st_fsm s); try apply of_refuse; of_tac.
Qed.

Lemma of_acquire s0 s t c b : tasks s = tasks s0 -> others_from (tasks s0) (tasks (acquire s t c b)) t.
Proof.
  intros <-. unfold acquire. destruct (holder s); [of_tac|]. destruct (lockq s); [|of_tac].
  eapply of_trans; [|apply of_enter]. of_tac.
Qed.

Lemma of_do_call s t c : others_from (tasks s) (tasks (do_call s t c)) t.
Proof.
  destruct (find_task (tasks s) t) eqn:Ef; [unfold do_call; rewrite Ef; apply of_refl|].
  apply do_call_cases; auto; intros.
  - (* asks for the lock *) apply of_acquire. reflexivity.
  - (* returns at once *) apply of_remove.
  - (* waits at its hook gate *) apply of_put.
Qed.

Lemma of_do_step s t : others_from (tasks s) (tasks (do_step s t)) t.
Proof.
  unfold do_step. destruct (find_task (tasks s) t) as [[c p]|]; [|apply of_refl].
  destruct p; try of_tac; try apply of_enter.
  - destruct c; try of_tac. eapply of_trans; [apply of_rel|]. rewrite <- release_tasks. apply of_acquire. reflexivity.
  - destruct (started_ev s); of_tac.
  - destruct c; of_tac.
  - destruct c; of_tac.
  - unfold reset_reinit. destruct (st_fsm s); try of_tac. destruct (runt s); of_tac.
  - unfold reset_reinit. destruct (runt s); of_tac.
  - destruct (run_finished s) as [[|]|]; try of_tac. apply of_close_trigger.
  - unfold close_enter_closed. destruct (runt s); of_tac.
  - destruct (run_finished s) as [[|]|]; of_tac.
Qed.

Lemma find_refuse s t c : find_task (tasks (refuse s t c)) t = None.
Proof. destruct (refuse_rest s t c) as (_ & _ & _ & _ & ->). apply find_remove_eq. Qed.

Ltac own_pc_tac :=
  fsimpl; rewrite ?find_refuse, ?find_put_eq, ?find_remove_eq;
  let H := fresh in let Hp := fresh in
  intros H Hp; try discriminate H; inversion H; subst; simpl in Hp; try discriminate Hp.

Lemma close_trigger_own s t c' p' :
  find_task (tasks (close_trigger s t)) t = Some (c', p') -> runpc p' = true -> False.
Proof.
  unfold close_trigger, close_enter_closed. destruct (st_fsm s); try (own_pc_tac; fail).
  destruct (runt s); own_pc_tac.
Qed.

Lemma enter_runlike s t c b : runlike c = true -> enter s t c b = enter_run s t c.
Proof. destruct c; simpl; try discriminate; reflexivity. Qed.

Lemma enter_own s t c b c' p' :
  find_task (tasks (enter s t c b)) t = Some (c', p') -> runpc p' = true ->
  find_task (tasks s) t = Some (c', p') \/
  (c' = c /\ p' = R_WaitStarted /\ runlike c = true /\ st_fsm s = Initialized /\ st_fsm (enter s t c b) = Running).
Proof.
  destruct (runlike c) eqn:Hc.
  - (* a run request: accepted in 'initialized', refused otherwise *)
    rewrite enter_runlike by exact Hc. unfold enter_run.
    destruct (st_fsm s) eqn:Efs; try (rewrite find_refuse; discriminate).
    simpl. rewrite find_put_eq. intros H _. inversion H. auto 10.
  - (* the other calls do not end at a run pc *)
    unfold enter, enter_start, enter_reset, enter_close. destruct c; try discriminate Hc; auto.
    + destruct (st_fsm s); own_pc_tac.
    + destruct (st_fsm s); try (own_pc_tac; fail); destruct (o_stmt o); own_pc_tac.
    + destruct b; [|destruct (st_fsm s); own_pc_tac].
      simpl. intros H Hp. exfalso.
      destruct (st_fsm s); try (apply (close_trigger_own (publish s PEndAll) t _ _ H Hp)).
      destruct (run_finished s) as [[|]|]; try (apply (close_trigger_own (publish s PEndAll) t _ _ H Hp));
        revert H Hp; own_pc_tac.
Qed.

Lemma acquire_own s0 s t c b c' p' :
  st_fsm s = st_fsm s0 ->
  find_task (tasks (acquire s t c b)) t = Some (c', p') -> runpc p' = true ->
  c' = c /\ p' = R_WaitStarted /\ runlike c = true /\ st_fsm s0 = Initialized /\ st_fsm (acquire s t c b) = Running.
Proof.
  intros <-. unfold acquire. destruct (holder s); [destruct b; own_pc_tac|]. destruct (lockq s); [|destruct b; own_pc_tac].
  intros H Hp. destruct (enter_own _ _ _ _ _ _ H Hp) as [H0 | H0]; [|exact H0].
  exfalso. simpl in H0. rewrite find_put_eq in H0. inversion H0; subst. destruct b; discriminate.
Qed.

Lemma do_call_own s t c c' p' :
  find_task (tasks s) t = None ->
  find_task (tasks (do_call s t c)) t = Some (c', p') -> runpc p' = true ->
  c' = c /\ p' = R_WaitStarted /\ runlike c = true /\ st_fsm s = Initialized /\ st_fsm (do_call s t c) = Running.
Proof.
  intros Ef. pattern (do_call s t c). apply do_call_cases; auto; intros.
  - (* asks for the lock *) eapply acquire_own; eauto.
  - (* returns at once *) revert H H0. own_pc_tac.
  - (* waits at its hook gate *) revert H0 H1. own_pc_tac.
Qed.

Lemma do_step_own s t c0 p0 c p :
  LkS s -> find_task (tasks s) t = Some (c0, p0) ->
  find_task (tasks (do_step s t)) t = Some (c, p) -> runpc p = true ->
  c = c0 /\ (runpc p0 = true \/
             (p0 = Granted1 /\ p = R_WaitStarted /\ runlike c = true /\ st_fsm s = Initialized /\
              st_fsm (do_step s t) = Running)).
Proof.
  intros HL Ef. pose proof (lk_compat _ _ _ HL _ _ _ Ef) as Hc. unfold do_step. rewrite Ef.
  destruct p0; try (rewrite Ef; own_pc_tac; auto; fail); try (own_pc_tac; auto; fail).
  - intros H Hp. destruct (enter_own _ _ _ _ _ _ H Hp) as [H0 | (-> & H0)].
    + rewrite Ef in H0. inversion H0; subst. discriminate.
    + split; auto; right; tauto.
  - destruct c0; simpl in Hc; try discriminate. intros H Hp.
    destruct (enter_own _ _ _ _ _ _ H Hp) as [H0 | (_ & _ & H0 & _)]; [|discriminate].
    rewrite Ef in H0. inversion H0; subst. discriminate.
  - destruct c0; simpl in Hc; try discriminate; [own_pc_tac|]. intros H Hp.
    destruct (acquire_own _ _ _ _ _ _ _ eq_refl H Hp) as (_ & _ & H0 & _). discriminate.
  - destruct (started_ev s); [own_pc_tac; auto | rewrite Ef; own_pc_tac; auto].
  - destruct c0; own_pc_tac; auto.
  - destruct c0; try (rewrite Ef; own_pc_tac; fail). own_pc_tac.
  - unfold reset_reinit. destruct (st_fsm s); try (own_pc_tac; fail). destruct (runt s); own_pc_tac.
  - unfold reset_reinit. destruct (runt s); [rewrite Ef|]; own_pc_tac.
  - destruct (run_finished s) as [[|]|]; try (rewrite Ef; own_pc_tac; fail).
    intros H Hp. exfalso. eapply close_trigger_own; eauto.
  - unfold close_enter_closed. destruct (runt s); [rewrite Ef|]; own_pc_tac.
  - destruct (run_finished s) as [[|]|]; try (rewrite Ef; own_pc_tac; auto; fail). own_pc_tac.
Qed.

Lemma task_back s l t c p :
  LkS s -> find_task (tasks (step s l)) t = Some (c, p) -> runpc p = true ->
  (exists p0, find_task (tasks s) t = Some (c, p0) /\ runpc p0 = true) \/
  ((l = Step t \/ l = Call t c) /\ p = R_WaitStarted /\ runlike c = true /\ st_fsm s = Initialized /\
   st_fsm (step s l) = Running).
Proof.
  intros HL H Hp.
  assert (Hother : forall t', t <> t' -> others_from (tasks s) (tasks (step s l)) t' ->
            exists p0, find_task (tasks s) t = Some (c, p0) /\ runpc p0 = true).
  { intros t' Hn Ho. destruct (Ho _ _ _ Hn H) as (p0 & Hf0 & Hp0).
    assert (E : p = p0) by (apply runpc_granted; auto). subst p0. eauto. }
  destruct l as [t' c' | t' | | o]; simpl in *.
  - destruct (Nat.eq_dec t t') as [<- | Hn]; [|left; apply (Hother t' Hn); apply of_do_call].
    destruct (find_task (tasks s) t) as [x|] eqn:Ef.
    + left. unfold do_call in H. rewrite Ef in H. rewrite Ef in H. inversion H; subst. eauto.
    + right. destruct (do_call_own s t c' c p Ef H Hp) as (-> & H1 & H2 & H3 & H4). auto 10.
  - destruct (Nat.eq_dec t t') as [<- | Hn]; [|left; apply (Hother t' Hn); apply of_do_step].
    destruct (find_task (tasks s) t) as [[c0 p0]|] eqn:Ef.
    + destruct (do_step_own s t c0 p0 c p HL Ef H Hp) as (-> & [H0 | (_ & H1 & H2 & H3 & H4)]); [left; eauto | right; auto 10].
    + left. unfold do_step in H. rewrite Ef in H. rewrite Ef in H. discriminate.
  - left. destruct (slk_step_run s) as (_ & _ & E). rewrite E in H. eauto.
  - left. unfold do_child_exit in H. destruct (alive s); simpl in H; eauto.
Qed.

(** the moment a run request was accepted: a prefix [ls1] of the label sequence and the
    label [l1] (the request's own [Step], or its [Call] when the lock was free) *)
Definition accepted_at (init : state) (ls1 : list label) (l1 : label) (t : nat) (c : call) : Prop :=
  let s1 := run_labels init ls1 in
  st_fsm s1 = Initialized /\ runt s1 = None /\ alive s1 = 0%nat /\ pending_exit s1 = None /\
  (l1 = Step t \/ l1 = Call t c) /\ runlike c = true /\
  st_fsm (step s1 l1) = Running /\ find_task (tasks (step s1 l1)) t = Some (c, R_WaitStarted).

Definition nook (new : list event) : Prop := forall t c, ~ In (EvRet t c ROk) new.

Lemma g_enter_run s t c : grows nook s (enter_run s t c).
Proof.
  unfold enter_run.
  assert (Hr : grows nook s (refuse s t c)).
  { destruct (refuse_new s t c) as (new & En & Hnew). exists new. split; auto.
    intros t' c' Hin. destruct Hnew as [(-> & _) | (_ & _ & b & ->)]; simpl in Hin;
      repeat (destruct Hin as [Hin | Hin]; try discriminate Hin; try contradiction). }
  destruct (st_fsm s); auto. exists []. split; [reflexivity | intros t' c' []].
Qed.

Lemma nook_app a b : nook a -> nook b -> nook (a ++ b).
Proof. intros Ha Hb t c Hin. apply in_app_or in Hin. destruct Hin; [eapply Ha | eapply Hb]; eauto. Qed.

Lemma g_acquire_run s0 s1 t c pre :
  runlike c = true -> trace s1 = pre ++ trace s0 -> nook pre -> grows nook s0 (acquire s1 t c false).
Proof.
  intros Hc E Hp. unfold acquire.
  assert (Hq : forall x, trace x = trace s1 -> grows nook s0 x) by (intros x Ex; exists pre; rewrite Ex; auto).
  destruct (holder s1); [apply Hq; reflexivity|]. destruct (lockq s1); [|apply Hq; reflexivity].
  rewrite enter_runlike by assumption.
  destruct (g_enter_run (set_pc (set_holder s1 (Some t)) t c Granted1) t c) as (n & En & Hn).
  exists (n ++ pre). split; [rewrite En; simpl; rewrite E, app_assoc; reflexivity | apply nook_app; auto].
Qed.

Lemma nook_not_in s s' t c : grows nook s s' -> ~ In (EvRet t c ROk) (appended s s').
Proof.
  intros (new & E & H) Hin. rewrite (appended_ext _ _ _ E) in Hin. apply in_rev in Hin. eapply H; eauto.
Qed.

Lemma call_runlike_no_ok s t c t0 c0 :
  runlike c = true -> find_task (tasks s) t = None -> ~ In (EvRet t0 c0 ROk) (appended s (do_call s t c)).
Proof.
  intros Hc Ef. apply nook_not_in.
  destruct (is_cont c && cont_closed s) eqn:Ecl.
  - (* the flag is closed: RuntimeError *)
    apply andb_prop in Ecl. destruct Ecl as (Eic & Ecc). unfold do_call. rewrite Ef.
    destruct c; try discriminate; cbn [cont_closed set_trace]; rewrite Ecc;
      (eexists [_; _]; split; [reflexivity|]; intros t' c' [E | [E | []]]; discriminate).
  - destruct (call_request s t c Ef (or_introl Hc)) as (s1 & pre & -> & Et & Hpre & _).
    + intros Eic. rewrite Eic in Ecl. exact Ecl.
    + apply (g_acquire_run s s1 t c pre); auto. intros t' c' Hin. eapply Hpre; eauto.
Qed.

Lemma ok_ret_pc s t c p t0 c0 :
  find_task (tasks s) t = Some (c, p) -> runlike c = true -> compat c p = true ->
  In (EvRet t0 c0 ROk) (appended s (do_step s t)) -> runpc p = true.
Proof.
  intros Ef Hc Hcp Hin. destruct (runpc p) eqn:Hp; auto. exfalso.
  eapply nook_not_in; [|exact Hin]. unfold do_step. rewrite Ef.
  destruct p; simpl in Hp; try discriminate; destruct c; simpl in Hc, Hcp; try discriminate;
    try (exists []; split; [reflexivity | intros ? ? []]);
    rewrite enter_runlike by reflexivity; apply g_enter_run.
Qed.

Lemma StepOK_own s s' t0 c0 t c r :
  StepOK s s' t0 c0 -> In (EvRet t c r) (appended s s') -> t = t0 /\ c = c0.
Proof.
  intros [HQ | [(Hc & HR) | (Hc & r0 & new & E & Hn)]] Hin.
  - exfalso. eapply Quiet_no_ret; eauto.
  - destruct HR as (new & E & Hn & Hrest).
    change (EvRet t0 CClose ROk :: new ++ trace s) with ((EvRet t0 CClose ROk :: new) ++ trace s) in E.
    rewrite (appended_ext _ _ _ E) in Hin. apply in_rev in Hin.
    destruct Hin as [Heq | Hin]; [inversion Heq; subst; auto | exfalso; eapply Hn; eauto].
  - change (EvRet t0 c0 r0 :: new ++ trace s) with ((EvRet t0 c0 r0 :: new) ++ trace s) in E.
    rewrite (appended_ext _ _ _ E) in Hin. apply in_rev in Hin.
    destruct Hin as [Heq | Hin]; [inversion Heq; subst; auto | exfalso; eapply Hn; eauto].
Qed.

Lemma ret_own s l t c r :
  LkS s -> FI s -> CI s -> In (EvRet t c r) (appended s (step s l)) ->
  (l = Call t c /\ find_task (tasks s) t = None) \/ (exists p, l = Step t /\ find_task (tasks s) t = Some (c, p)).
Proof.
  intros HL HF HC Hin. destruct l as [t' c' | t' | | o]; simpl in *.
  - destruct (find_task (tasks s) t') eqn:Ef.
    + unfold do_call in Hin. rewrite Ef in Hin. rewrite appended_same in Hin by reflexivity. destruct Hin.
    + destruct (SO_do_call s t' c' HF HC Ef) as [(-> & _ & E) | (_ & H)].
      * rewrite E in Hin. rewrite (appended_ext _ _ [EvRet t' CClose ROk; EvCall t' CClose]) in Hin by reflexivity.
        simpl in Hin. destruct Hin as [E1 | [E1 | []]]; [discriminate|]. inversion E1; subst. auto.
      * destruct (StepOK_own _ _ _ _ _ _ _ H Hin) as (-> & ->). auto.
  - destruct (find_task (tasks s) t') as [[c' p]|] eqn:Ef.
    + destruct (StepOK_own _ _ _ _ _ _ _ (SO_do_step s t' c' p HL HF HC Ef) Hin) as (-> & ->). eauto.
    + unfold do_step in Hin. rewrite Ef in Hin. rewrite appended_same in Hin by reflexivity. destruct Hin.
  - exfalso. eapply Quiet_no_ret; [apply Quiet_step_run | exact Hin].
  - exfalso. eapply Quiet_no_ret; [apply Quiet_child_exit | exact Hin].
Qed.

Section Accepted.
  Variables (stmt start : Z) (th md : bool).
  Let init := init_state stmt start th md.

  Lemma acc_inv ls : forall t c p,
    find_task (tasks (run_labels init ls)) t = Some (c, p) -> runpc p = true ->
    exists ls1 l1 ls2, ls = ls1 ++ l1 :: ls2 /\ accepted_at init ls1 l1 t c.
  Proof.
    induction ls as [|l ls IH] using rev_ind; intros t c p Hf Hp; [discriminate|].
    rewrite run_labels_app in Hf. simpl in Hf.
    destruct (Close.all_inv stmt start th md ls) as (HL & HF & _). fold init in HL, HF.
    destruct (task_back _ _ _ _ _ HL Hf Hp) as [(p0 & Hf0 & Hp0) | (Hl & -> & Hc & Hi & Hr)].
    - destruct (IH _ _ _ Hf0 Hp0) as (ls1 & l1 & ls2 & -> & Ha).
      exists ls1, l1, (ls2 ++ [l]). split; auto. rewrite <- app_assoc. reflexivity.
    - exists ls, l, []. split; auto. unfold accepted_at. cbv zeta.
      destruct HF as [_ HS].
      assert (Hrn : runt (run_labels init ls) = None) by (eapply Scal_idle; [exact HS | |]; rewrite Hi; discriminate).
      pose proof (sc_child _ _ _ _ _ _ HS) as Hch. rewrite Hrn in Hch. destruct Hch as (Ha & Hpe).
      repeat split; auto.
  Qed.

  Theorem accepted_run_implies_idle ls l t c :
    let s := run_labels init ls in
    runlike c = true -> In (EvRet t c ROk) (appended s (step s l)) ->
    exists ls1 l1 ls2, ls = ls1 ++ l1 :: ls2 /\ accepted_at init ls1 l1 t c.
  Proof.
    intros s Hc Hin. destruct (Close.all_inv stmt start th md ls) as (HL & HF & HC). fold init in HL, HF, HC. fold s in HL, HF, HC.
    destruct (ret_own s l t c ROk HL HF HC Hin) as [(-> & Ef) | (p & -> & Ef)].
    - exfalso. simpl in Hin. eapply call_runlike_no_ok; eauto.
    - simpl in Hin. pose proof (lk_compat _ _ _ HL _ _ _ Ef) as Hcp.
      pose proof (ok_ret_pc s t c p t c Ef Hc Hcp Hin) as Hp.
      apply (acc_inv ls t c p Ef Hp).
  Qed.
End Accepted.

Lemma refused_fields s s' l t c : refused_step s s' l t c ->
  st_fsm s' = st_fsm s /\ runt s' = runt s /\ run_finished s' = run_finished s /\ alive s' = alive s /\
  pending_exit s' = pending_exit s /\ run_arg s' = run_arg s /\ exited_proc s' = exited_proc s /\
  started_ev s' = started_ev s /\
  c_stmt s' = c_stmt s /\ c_next s' = c_next s /\ c_threads s' = c_threads s /\ c_modules s' = c_modules s /\
  nl_started s' = nl_started s /\ nl_closed s' = nl_closed s /\ run_owner s' = run_owner s /\
  run_cont s' = run_cont s /\ running_process s' = running_process s /\ send_command s' = send_command s /\
  cont_closed s' = cont_closed s.
Proof.
  intros (_ & _ & Hc & Hr & _).
  destruct (core_fields _ _ Hc) as (E1 & E2 & E3 & E4 & E5 & E6 & E7 & E8 & _).
  unfold rest_of in Hr. inversion Hr. repeat split; auto.
Qed.

(** a history with a refused request in the middle and an accepted one *)
Definition refusal_labels : list label :=
  [Call 0%nat CStart; Step 0%nat; Step 0%nat; Step 0%nat;
   Call 1%nat CRun; StepRun; StepRun;
   Call 2%nat CRunCont;                      (* queues behind the run() call *)
   StepRun; Step 1%nat; Step 1%nat].         (* run() returns ROk and hands the lock to task 2 *)
Definition refusal_state : state := run_labels (init_state 7 1 false false) refusal_labels.
