(** Tie of the callback wiring of Life/Model.v to nextline/fsm/machine.py, callback.py, config.py.

    1. [script]: the callbacks the `transitions` library (0.9.3) runs for ONE trigger, in order,
       resolved from the regenerated CONFIG table (Gen/FsmConfig.v) and the regenerated set of
       StateMachine methods (Gen/MachineWiring.v).  TRUSTED (read from the installed source):
         - core.py:447-458 `Event._is_valid_source`: no transition from the source state and
           `ignore_invalid_triggers` false -> MachineError before any effect;
         - extensions/asyncio.py:187-219 `AsyncEvent._trigger/_process`: the source state is read
           once; the transitions of (trigger, source) are tried in table order, the first whose
           conditions hold is executed (CONFIG has no conditions: the first one);
         - extensions/asyncio.py:102-132 `AsyncTransition.execute`: prepare, conditions,
           machine.before_state_change, transition.before, [dest is not None: _change_state],
           transition.after, machine.after_state_change -- the last list also for an internal
           transition (dest None);
         - extensions/asyncio.py:134-145 `_change_state`: exit callbacks of the SOURCE state,
           set_state(dest), enter callbacks of dest;
         - core.py:870-888 `Machine._add_model_to_state`: `on_enter_<state>` / `on_exit_<state>`
           are added iff the model has a method of that name (states of CONFIG are plain strings);
         - core.py:1178-1197 `callback`: a string names a method of the model (`model=self`),
           called with the EventData (`send_event=True`).
    2. the expansion of every callback through the regenerated method bodies of StateMachine
       and Callback down to hooks, waits, assignments ([micro]);
    3. an interpreter of that program over the states of Life/Model.v which uses the model's
       own helpers for the meaning of a hook ([log_hook], [change_state_hook], ...), and
       theorems, for ALL model states, that the segments of the model ([enter_start],
       [enter_run], [enter_reset], [close_trigger], [do_step] at every pc inside a trigger,
       [run_finish], [do_step_run] at RT_G_fin / RT_G_cs) are exactly that interpreter on the
       program derived from the regenerated code.
    Kinds of obligation.  [script_table], [expand_table]: the script / expansion computed from the
    regenerated files compared with the spelled-out term (by vm_compute).
    [script_refused], [script_moves_along_table], [expand_total], [api_prog_total]: exhaustive over the
    finite domain 5 states x 5 triggers.  [tie_*]: equalities between the model's segment and the
    interpreter on the derived program, for ALL model states (case analysis on [st_fsm] / the run task /
    the reset options, both sides reduced by conversion).  Side conditions, all of them about states the
    model never reaches: [close_trigger] from Running only with `_run_finished` set (Imp.aclose has
    waited); Z_G1 only for a reset that carries a statement; Z_WaitRunTask / C_WaitRunTask only from
    Finished; for the program counters BEFORE the state change the continuation is the one of the
    CURRENT [st_fsm] (the library reads the source state once, at trigger time; under the lifecycle
    lock only `finish` could change it in between, and reset is refused while running).
    Proved in Life/MachineCont.v, not here: the continuation stored by [run] when it parks at p is
    [after_pc p] of the whole program (the program counters of every program are pairwise distinct).
    [hook_order_finish] is what Props/C12.v cites; its hypothesis (no Continue plugin) is not needed:
    [hook_order_finish_all].
    Not modelled: a hook / wait that raises or is cancelled (the model has no such path);
    `except BaseException` around `await self._task_run` is required syntactically (without it
    the expansion fails), its catching of the awaiting task's own cancellation is not modelled. *)
From Coq Require Import List String Bool Arith ZArith.
From NL Require Import Life.Model Gen.FsmConfig Life.MachineSyntax Gen.MachineWiring.
Import ListNotations.
Local Open Scope string_scope.
Local Open Scope list_scope.

Definition state_name (f : fsm) : string :=
  match f with Created => "created" | Initialized => "initialized" | Running => "running"
             | Finished => "finished" | Closed => "closed" end.

Definition trig_name (t : trig) : string :=
  match t with TInitialize => "initialize" | TRun => "run" | TFinish => "finish" | TClose => "close" | TReset => "reset" end.

(** the names behind the constructors of Gen/FsmConfig.v (table BEFORE of translate/fsm_config.py) *)
Definition before_names (b : before) : list string :=
  match b with BNone => [] | BCloseWhileRunning => ["on_close_while_running"] | BReset => ["on_reset"] end.

Definition fsm_eqb (a b : fsm) : bool :=
  match a, b with
  | Created, Created | Initialized, Initialized | Running, Running | Finished, Finished | Closed, Closed => true
  | _, _ => false
  end.
Definition trig_eqb (a b : trig) : bool :=
  match a, b with
  | TInitialize, TInitialize | TRun, TRun | TFinish, TFinish | TClose, TClose | TReset, TReset => true
  | _, _ => false
  end.

Fixpoint find_method (l : list method) (n : string) : option method :=
  match l with
  | [] => None
  | m :: r => if String.eqb (m_name m) n then Some m else find_method r n
  end.

Definition sm_has (n : string) : bool := match find_method machine_methods n with Some _ => true | None => false end.

(** core.py:882-888 *)
Definition dyn_cb (kind : string) (f : fsm) : list string :=
  let n := (kind ++ "_" ++ state_name f)%string in if sm_has n then [n] else [].

Inductive action :=
| Cb (m : string)          (* the StateMachine method m is called with the EventData and awaited *)
| SetState (d : fsm).

Fixpoint find_tr (tb : list (trig * fsm * option fsm * before)) (tr : trig) (src : fsm) : option (option fsm * before) :=
  match tb with
  | [] => None
  | (t, s, d, b) :: r => if trig_eqb t tr && fsm_eqb s src then Some (d, b) else find_tr r tr src
  end.

(** what StateMachine.__init__ wires *)
Definition model_is_self : bool :=
  existsb (fun i => match i with IMachine _ cls ms sp => String.eqb cls "AsyncMachine" && ms && sp | _ => false end) machine_init.
Definition wired_after_state_change : list string :=
  flat_map (fun i => match i with IAfterStateChange _ n => [n] | _ => [] end) machine_init.
Definition callback_backref : bool :=
  existsb (fun i => match i with IBackRef a b => String.eqb a "_callback" && String.eqb b "_machine" | _ => false end) machine_init.

(** [None]: the trigger is refused (MachineError).  [Some (dest, actions)] otherwise. *)
Definition script (src : fsm) (tr : trig) : option (option fsm * list action) :=
  if negb (model_is_self && negb queued) then None else
  match find_tr table tr src with
  | None => if ignore_invalid_triggers then Some (None, []) else None
  | Some (dest, b) =>
    let before := map Cb (before_names b) in
    let change := match dest with
                  | Some d => map Cb (dyn_cb "on_exit" src) ++ [SetState d] ++ map Cb (dyn_cb "on_enter" d)
                  | None => []
                  end in
    Some (dest, before ++ change ++ map Cb wired_after_state_change)
  end.

Inductive val := VState | VContext | VTrigKwarg (k : string) | VUnbound.

Inductive exn := XAssert | XKey | XMachine | XAttr.

Inductive micro :=
| USetState (d : fsm)
| UHook (h : string) (kw : list (string * val))     (* await ahook.h(kw) *)
| UCompose                                          (* context.run_arg = hook.compose_run_arg(context) *)
| UWaitRunFinished                                  (* await self._run_finished.wait() *)
| UAwaitRunTask                                     (* try: await self._task_run  except BaseException: log *)
| UNewRunFinished | UNewStarted | UCreateRunTask | UWaitStarted      (* Callback.start_run *)
| URaise (x : exn).

Fixpoint lookup {A} (l : list (string * A)) (k : string) : option A :=
  match l with [] => None | (k', v) :: r => if String.eqb k k' then Some v else lookup r k end.

Definition eval_arg (env : list (string * val)) (a : arg) : val :=
  match a with
  | ASelfState => VState
  | ASelfContext => VContext
  | ALocal v => match lookup env v with Some x => x | None => VUnbound end
  end.

(** the EventData of a trigger *)
Record evenv := mkEv { ev_dest : option fsm; ev_kwargs : list string; ev_nargs : nat }.

(** Imp.reset calls `self._machine.reset(reset_options=reset_options)`; every other trigger is called without arguments *)
Definition trigger_event (tr : trig) (dest : option fsm) : evenv :=
  mkEv dest (match tr with TReset => ["reset_options"] | _ => [] end) 0.

Record mst := mkM { m_env : list (string * val); m_kw : list string;
                    m_calls : list (string * list val * list (string * val)) }.

Inductive flow := FNormal | FReturn | FRaise (x : exn) | FUnsupported.

Fixpoint eval_expr (e : evenv) (st : mst) (x : expr) : bool :=
  match x with
  | EEvTransition => true              (* asyncio.py:215: event_data.transition = trans before execute *)
  | EEvDest => match ev_dest e with Some _ => true | None => false end
  | EEvArgs => negb (Nat.eqb (ev_nargs e) 0)
  | EEvKwargs => match m_kw st with [] => false | _ => true end
  | EIsInstance v cls => match lookup (m_env st) v with
                         | Some (VTrigKwarg k) => String.eqb k "reset_options" && String.eqb cls "ResetOptions"
                         | _ => false end
  | ENot a => negb (eval_expr e st a)
  | EAnd a b => eval_expr e st a && eval_expr e st b
  | EOr a b => eval_expr e st a || eval_expr e st b
  end.

Fixpoint remove_str (l : list string) (k : string) : list string :=
  match l with [] => [] | x :: r => if String.eqb x k then r else x :: remove_str r k end.

(** a StateMachine callback method run on the EventData *)
Fixpoint mexec (e : evenv) (s : stmt) (st : mst) : mst * flow :=
  match s with
  | SSkip => (st, FNormal)
  | SSeq a b => match mexec e a st with (st1, FNormal) => mexec e b st1 | r => r end
  | SIf c th el => if eval_expr e st c then mexec e th st else mexec e el st
  | SReturn => (st, FReturn)
  | SAssert c => if eval_expr e st c then (st, FNormal) else (st, FRaise XAssert)
  | SPopKwarg v k =>
    if existsb (String.eqb k) (m_kw st)
    then (mkM ((v, VTrigKwarg k) :: m_env st) (remove_str (m_kw st) k) (m_calls st), FNormal)
    else (st, FRaise XKey)
  | SAwaitCallback m pos kw =>
    (mkM (m_env st) (m_kw st)
         (m_calls st ++ [(m, map (eval_arg (m_env st)) pos, map (fun p => (fst p, eval_arg (m_env st) (snd p))) kw)]), FNormal)
  | _ => (st, FUnsupported)
  end.

Fixpoint bind_params (ps : list string) (pos : list val) (kw : list (string * val)) : option (list (string * val)) :=
  match ps, pos with
  | [], [] => match kw with [] => Some [] | _ => None end
  | [], _ :: _ => None
  | p :: r, v :: pos' => match bind_params r pos' kw with Some l => Some ((p, v) :: l) | None => None end
  | p :: r, [] => match lookup kw p with
                  | Some v => match bind_params r [] (filter (fun x => negb (String.eqb (fst x) p)) kw) with
                              | Some l => Some ((p, v) :: l) | None => None end
                  | None => None end
  end.

(** a Callback method, as the list of what it does *)
Fixpoint cexec (env : list (string * val)) (s : stmt) : option (list micro) :=
  match s with
  | SSkip => Some []
  | SSeq a b => match cexec env a, cexec env b with Some x, Some y => Some (x ++ y) | _, _ => None end
  | SAHook h kw => Some [UHook h (map (fun p => (fst p, eval_arg env (snd p))) kw)]
  | SRunArgFromHook h kw =>
    if String.eqb h "compose_run_arg" then
      match kw with [(c, ASelfContext)] => if String.eqb c "context" then Some [UCompose] else None | _ => None end
    else None
  | SAwaitEventWait (TSelf a) => if String.eqb a "_run_finished" then Some [UWaitRunFinished] else None
  | SAwaitEventWait (TLocal a) => if String.eqb a "started" then Some [UWaitStarted] else None
  | STryExcept (SAwaitTask a) cls SLogException =>
    if String.eqb a "_task_run" && String.eqb cls "BaseException" then Some [UAwaitRunTask] else None
  | SNewEvent (TSelf a) => if String.eqb a "_run_finished" then Some [UNewRunFinished] else None
  | SNewEvent (TLocal a) => if String.eqb a "started" then Some [UNewStarted] else None
  | SCreateTask a m kw =>
    if String.eqb a "_task_run" && String.eqb m "_run" then
      match kw with [(p, ALocal v)] => if String.eqb p "started" && String.eqb v "started" then Some [UCreateRunTask] else None
                  | _ => None end
    else None
  | _ => None
  end.

Definition expand_call (c : string * list val * list (string * val)) : option (list micro) :=
  match c with
  | (m, pos, kw) =>
    match find_method callback_methods m with
    | None => None
    | Some cm => if negb (m_async cm) then None else
                 match bind_params (m_params cm) pos kw with
                 | None => None
                 | Some env => cexec env (m_body cm)
                 end
    end
  end.

Fixpoint concat_opt {A} (l : list (option (list A))) : option (list A) :=
  match l with
  | [] => Some []
  | None :: _ => None
  | Some x :: r => match concat_opt r with Some y => Some (x ++ y) | None => None end
  end.

(** the keyword arguments of the event are shared by the callbacks of one trigger *)
Fixpoint expand_actions (e : evenv) (kw : list string) (l : list action) : option (list micro) :=
  match l with
  | [] => Some []
  | SetState d :: r => match expand_actions e kw r with Some y => Some (USetState d :: y) | None => None end
  | Cb m :: r =>
    match find_method machine_methods m with
    | None => None
    | Some mm =>
      if negb (m_async mm) then None else
      match m_params mm with
      | [_] =>
        match mexec e (m_body mm) (mkM [] kw []) with
        | (st, FUnsupported) => None
        | (st, FRaise x) =>
          match concat_opt (map expand_call (m_calls st)) with Some x0 => Some (x0 ++ [URaise x]) | None => None end
        | (st, _) =>
          match concat_opt (map expand_call (m_calls st)), expand_actions e (m_kw st) r with
          | Some x, Some y => Some (x ++ y) | _, _ => None end
        end
      | _ => None
      end
    end
  end.

Definition expand (src : fsm) (tr : trig) : option (list micro) :=
  match script src tr with
  | None => None
  | Some (dest, acts) => let e := trigger_event tr dest in expand_actions e (ev_kwargs e) acts
  end.

Inductive wstat := WPass | WPark | WRaise (x : exn).

Inductive prim (P : Type) :=
| PDo (f : state -> state)                 (* an atomic effect *)
| PGate (p : P)                            (* gate of an awaited hook: the task parks at p until it is stepped *)
| PWait (arrive : state -> wstat) (ready : state -> bool) (p : P)
| PRaise (x : exn).
Arguments PDo {P}. Arguments PGate {P}. Arguments PWait {P}. Arguments PRaise {P}.

Inductive outc (P : Type) := KDone | KPark (p : P) (k : list (prim P)) | KRaise (x : exn).
Arguments KDone {P}. Arguments KPark {P}. Arguments KRaise {P}.

Fixpoint run {P} (k : list (prim P)) (s : state) : state * outc P :=
  match k with
  | [] => (s, KDone)
  | PDo f :: k' => run k' (f s)
  | PGate p :: k' => (s, KPark p k')
  | PWait a r p :: k' =>
    match a s with
    | WPass => run k' s
    | WPark => (s, KPark p k)
    | WRaise x => (s, KRaise x)
    end
  | PRaise x :: _ => (s, KRaise x)
  end.

Definition hook_of (h : string) : option hook :=
  if String.eqb h "start" then Some HStart else
  if String.eqb h "on_initialize_run" then Some HInitRun else
  if String.eqb h "on_change_state" then Some HChangeState else
  if String.eqb h "on_finished" then Some HFinished else
  if String.eqb h "reset" then Some HReset else
  if String.eqb h "close" then Some HClose else None.

(** context.run_arg = compose_run_arg(): RunArgComposer (Life/ArgTie.v) *)
Definition compose_assign (s : state) : state :=
  set_run_arg (set_c_next s (c_next s + 1)%Z) (Some (mkRunArg (c_next s) (c_stmt s) (c_threads s) (c_modules s))).

(** the built-in implementations of on_initialize_run read context.run_arg *)
Definition on_initialize_run_hook (s : state) : state :=
  match run_arg s with
  | Some ra => log_hook (publish (publish s (PRunNo (ra_no ra))) (PRunInfo (ra_no ra) RInitialized (ra_stmt ra) None))
                        HInitRun (Some (ra_stmt ra)) None
  | None => log_hook s HInitRun None None
  end.

Definition gate_pc (tr : trig) (h : hook) : option pc :=
  match tr, h with
  | TInitialize, HStart => Some S_G1 | TInitialize, HInitRun => Some S_G2 | TInitialize, HChangeState => Some S_G3
  | TRun, HChangeState => Some R_G
  | TReset, HReset => Some Z_G1b | TReset, HInitRun => Some Z_G3 | TReset, HChangeState => Some Z_G4
  | TClose, HStart => Some S_G1 | TClose, HClose => Some C_G3 | TClose, HChangeState => Some C_G4
  | _, _ => None
  end.

Definition only_context (kw : list (string * val)) : bool :=
  match kw with [(c, VContext)] => String.eqb c "context" | _ => false end.

Definition api_micro (t : nat) (c : call) (tr : trig) (m : micro) : option (list (prim pc)) :=
  match m with
  | USetState d => Some [PDo (fun s => set_st_fsm s d)]
  | UCompose => Some [PDo compose_assign]
  | UHook h kw =>
    match hook_of h with
    | None => None
    | Some hk =>
      match gate_pc tr hk with
      | None => None
      | Some p =>
        match hk with
        | HStart => if only_context kw then Some [PDo (fun s => change_script (log_hook s HStart None None)); PGate p] else None
        | HInitRun => if only_context kw then Some [PDo on_initialize_run_hook; PGate p] else None
        | HClose => if only_context kw then Some [PDo (fun s => log_hook s HClose None None); PGate p] else None
        | HChangeState =>
          match kw with
          | [(a, VContext); (b, VState)] =>
            if String.eqb a "context" && String.eqb b "state_name" then Some [PDo change_state_hook; PGate p] else None
          | _ => None
          end
        | HReset =>
          match kw, c with
          | [(a, VContext); (b, VTrigKwarg k)], CReset o =>
            if String.eqb a "context" && String.eqb b "reset_options" && String.eqb k "reset_options" then
              match o_stmt o with
              | Some x => Some [PDo (fun s => change_script (set_c_stmt (log_hook s HReset (o_stmt o) (o_start o)) x)); PGate Z_G1;
                                PDo (fun s => apply_rest s o); PGate p]
              | None => Some [PDo (fun s => apply_rest (log_hook s HReset (o_stmt o) (o_start o)) o); PGate p]
              end
            else None
          | _, _ => None
          end
        | _ => None
        end
      end
    end
  | UWaitRunFinished =>
    match tr with
    | TClose => Some [PWait (fun s => match run_finished s with None => WRaise XAttr | Some true => WPass | Some false => WPark end)
                            (fun s => match run_finished s with Some true => true | _ => false end) C_WaitRunFinished]
    | _ => None
    end
  | UAwaitRunTask =>
    let w := PWait (fun s => match runt s with None => WPass | Some _ => WPark end)
                   (fun s => match runt s with None => true | Some _ => false end) in
    match tr with
    | TReset => Some [w Z_WaitRunTask]
    | TClose => Some [w C_WaitRunTask]
    | _ => None
    end
  | UNewRunFinished => Some [PDo (fun s => set_run_finished s (Some false))]
  | UNewStarted => Some [PDo (fun s => set_started_ev s false)]
  | UCreateRunTask => Some [PDo (fun s => set_run_cont (set_run_owner (set_runt s (Some RT_New)) t) (is_cont c))]
  | UWaitStarted =>
    match tr with
    | TRun => Some [PWait (fun s => if started_ev s then WPass else WPark) started_ev R_WaitStarted]
    | _ => None
    end
  | URaise x => Some [PRaise x]
  end.

Definition api_prog (t : nat) (c : call) (tr : trig) (src : fsm) : option (list (prim pc)) :=
  match expand src tr with
  | None => None
  | Some ms => concat_opt (map (api_micro t c tr) ms)
  end.

(** what follows the trigger in the API method (Imp / Nextline: Life/ImpTie.v), copied from the model *)
Definition epilogue (t : nat) (c : call) (tr : trig) (s : state) : state :=
  match tr with
  | TInitialize => let s1 := release s in match c with CClose => acquire s1 t c true | _ => finish_call s1 t c ROk end
  | TRun => let s1 := release s in
            match c with CRunContWait | CRunSession => set_pc s1 t c P_WaitRunFinished | _ => finish_call s1 t c ROk end
  | TReset => finish_call (release s) t c ROk
  | TClose => finish_call (close_cont (publish (release s) PEndAll)) t c ROk
  | TFinish => s
  end.

Definition raise_out (s : state) (t : nat) (c : call) (x : exn) : state :=
  match x with
  | XMachine => refuse s t c
  | XAttr => finish_call (release s) t c RAttributeError
  | XAssert => finish_call (release s) t c RAssertionError
  | XKey => finish_call (release s) t c RRuntimeError
  end.

Definition api_embed (t : nat) (c : call) (tr : trig) (r : state * outc pc) : state :=
  match r with
  | (s, KPark p _) => set_pc s t c p
  | (s, KDone) => epilogue t c tr s
  | (s, KRaise x) => raise_out s t c x
  end.

Definition api_trigger (t : nat) (c : call) (tr : trig) (s : state) : state :=
  match script (st_fsm s) tr with
  | None => refuse s t c
  | Some _ =>
    match api_prog t c tr (st_fsm s) with
    | Some k => api_embed t c tr (run k s)
    | None => s
    end
  end.

(** an injective numbering, so that equality of program counters is decided on numbers ([pc_eqb_true]) *)
Definition pc_num (p : pc) : nat :=
  match p with
  | WaitLock1 => 0 | Granted1 => 1 | WaitLock2 => 2 | Granted2 => 3 | S_G1 => 4 | S_G2 => 5 | S_G3 => 6
  | R_WaitStarted => 7 | R_G => 8 | Z_G1 => 9 | Z_G1b => 10 | Z_WaitRunTask => 11 | Z_G3 => 12 | Z_G4 => 13
  | C_WaitRunFinished => 14 | C_WaitRunTask => 15 | C_G3 => 16 | C_G4 => 17 | P_WaitRunFinished => 18 | Sig_G => 19
  end.
Definition pc_eqb (a b : pc) : bool := Nat.eqb (pc_num a) (pc_num b).

Lemma pc_eqb_refl : forall p, pc_eqb p p = true.
Proof. intros p; unfold pc_eqb; apply Nat.eqb_refl. Qed.

Lemma pc_eqb_true : forall p q, pc_eqb p q = true -> p = q.
Proof.
  (* [pc_num] has a left inverse: the table of the program counters in the order of their numbers *)
  assert (D : forall r, nth (pc_num r)
    [WaitLock1; Granted1; WaitLock2; Granted2; S_G1; S_G2; S_G3; R_WaitStarted; R_G; Z_G1; Z_G1b; Z_WaitRunTask;
     Z_G3; Z_G4; C_WaitRunFinished; C_WaitRunTask; C_G3; C_G4; P_WaitRunFinished; Sig_G] WaitLock1 = r)
    by (intros []; reflexivity).
  intros p q E. apply Nat.eqb_eq in E. rewrite <- (D p), <- (D q), E. reflexivity.
Qed.

Fixpoint after_pc (p : pc) (k : list (prim pc)) : list (prim pc) :=
  match k with
  | [] => []
  | PGate q :: k' => if pc_eqb p q then k' else after_pc p k'
  | PWait a r q :: k' => if pc_eqb p q then k else after_pc p k'
  | _ :: k' => after_pc p k'
  end.

Definition api_resume (t : nat) (c : call) (tr : trig) (p : pc) (k : list (prim pc)) (s : state) : state :=
  match k with
  | PWait _ r q :: k' =>
    if pc_eqb p q then (if r s then api_embed t c tr (run k' s) else s) else api_embed t c tr (run k s)
  | _ => api_embed t c tr (run k s)
  end.

Definition api_cont (t : nat) (c : call) (tr : trig) (src : fsm) (p : pc) : list (prim pc) :=
  match api_prog t c tr src with Some k => after_pc p k | None => [PRaise XKey] end.

Theorem config_flags : ignore_invalid_triggers = false /\ queued = false /\ model_is_self = true /\
  wired_after_state_change = ["after_state_change"] /\ callback_backref = true.
Proof. vm_compute. repeat split. Qed.

(** AsyncMachine.add_model binds the triggers / `state` only if the model has no such attribute *)
Theorem no_name_collision :
  forallb (fun n => negb (sm_has n)) (config_triggers ++ ["state"; "trigger"]) = true.
Proof. vm_compute. reflexivity. Qed.

Theorem every_dynamic_callback_names_a_state :
  forallb (fun m => let n := m_name m in
     if prefix "on_enter_" n then existsb (fun f => String.eqb n ("on_enter_" ++ state_name f)%string) states
     else if prefix "on_exit_" n then existsb (fun f => String.eqb n ("on_exit_" ++ state_name f)%string) states
     else true) machine_methods = true.
Proof. vm_compute. reflexivity. Qed.

Theorem script_table :
  script Created TInitialize = Some (Some Initialized, [Cb "on_exit_created"; SetState Initialized; Cb "on_enter_initialized"; Cb "after_state_change"]) /\
  script Initialized TRun = Some (Some Running, [SetState Running; Cb "on_enter_running"; Cb "after_state_change"]) /\
  script Running TFinish = Some (Some Finished, [SetState Finished; Cb "on_enter_finished"; Cb "after_state_change"]) /\
  script Initialized TReset = Some (Some Initialized, [Cb "on_reset"; SetState Initialized; Cb "on_enter_initialized"; Cb "after_state_change"]) /\
  script Finished TReset = Some (Some Initialized, [Cb "on_reset"; Cb "on_exit_finished"; SetState Initialized; Cb "on_enter_initialized"; Cb "after_state_change"]) /\
  script Created TClose = Some (Some Closed, [Cb "on_exit_created"; SetState Closed; Cb "on_enter_closed"; Cb "after_state_change"]) /\
  script Initialized TClose = Some (Some Closed, [SetState Closed; Cb "on_enter_closed"; Cb "after_state_change"]) /\
  script Running TClose = Some (Some Closed, [Cb "on_close_while_running"; SetState Closed; Cb "on_enter_closed"; Cb "after_state_change"]) /\
  script Finished TClose = Some (Some Closed, [Cb "on_exit_finished"; SetState Closed; Cb "on_enter_closed"; Cb "after_state_change"]) /\
  script Closed TClose = Some (None, [Cb "after_state_change"]).
Proof. vm_compute. repeat split. Qed.

(** refusal: exactly the pairs without a row in CONFIG *)
Theorem script_refused : forall src tr,
  script src tr = None <->
  match tr, src with
  | TInitialize, Created | TRun, Initialized | TFinish, Running | TClose, _
  | TReset, Initialized | TReset, Finished => False
  | _, _ => True
  end.
Proof. intros src tr; destruct src, tr; vm_compute; split; try tauto; try discriminate. Qed.

(** no construct of the regenerated code is left uninterpreted *)
Theorem expand_total : forall src tr, script src tr <> None -> expand src tr <> None.
Proof. intros src tr; destruct src, tr; vm_compute; try discriminate; tauto. Qed.

Theorem api_prog_total : forall t c src tr, tr <> TFinish -> script src tr <> None ->
  (tr = TReset -> exists o, c = CReset o) -> api_prog t c tr src <> None.
Proof.
  intros t c src tr Hf Hs Hr.
  (* only the head constructor is evaluated, never the effects inside the program *)
  assert (Hd : forall x : option (list (prim pc)), (if x then true else false) = true -> x <> None)
    by (intros [k|]; discriminate).
  destruct tr; try congruence; destruct src; try (destruct Hs; apply script_refused; exact I);
    try (destruct (Hr eq_refl) as [[[x|] a b d] ->]); apply Hd; vm_compute; reflexivity.
Qed.

Definition kwc : list (string * val) := [("context", VContext)].
Theorem expand_table :
  expand Created TInitialize = Some [UHook "start" kwc; USetState Initialized; UCompose; UHook "on_initialize_run" kwc;
                                      UHook "on_change_state" [("context", VContext); ("state_name", VState)]] /\
  expand Initialized TRun = Some [USetState Running; UNewRunFinished; UNewStarted; UCreateRunTask; UWaitStarted;
                                  UHook "on_change_state" [("context", VContext); ("state_name", VState)]] /\
  expand Running TFinish = Some [USetState Finished; UHook "on_finished" kwc;
                                 UHook "on_change_state" [("context", VContext); ("state_name", VState)]] /\
  expand Finished TReset = Some [UHook "reset" [("context", VContext); ("reset_options", VTrigKwarg "reset_options")];
                                 UAwaitRunTask; USetState Initialized; UCompose; UHook "on_initialize_run" kwc;
                                 UHook "on_change_state" [("context", VContext); ("state_name", VState)]] /\
  expand Initialized TReset = Some [UHook "reset" [("context", VContext); ("reset_options", VTrigKwarg "reset_options")];
                                 USetState Initialized; UCompose; UHook "on_initialize_run" kwc;
                                 UHook "on_change_state" [("context", VContext); ("state_name", VState)]] /\
  expand Running TClose = Some [UWaitRunFinished; USetState Closed; UHook "close" kwc;
                                UHook "on_change_state" [("context", VContext); ("state_name", VState)]] /\
  expand Finished TClose = Some [UAwaitRunTask; USetState Closed; UHook "close" kwc;
                                 UHook "on_change_state" [("context", VContext); ("state_name", VState)]] /\
  expand Initialized TClose = Some [USetState Closed; UHook "close" kwc;
                                 UHook "on_change_state" [("context", VContext); ("state_name", VState)]] /\
  expand Closed TClose = Some [].
Proof. vm_compute. repeat split. Qed.

Ltac split_state s :=
  destruct s; repeat match goal with f : fsm |- _ => destruct f end.

(** compute the script / program, then compare with the model by conversion (never normalise through
    [release] / [acquire]: the terms explode).  The program of a whole trigger is evaluated with the helpers
    of Life/Model.v kept folded: [enter_start] / [enter_run] / [enter_reset] are written with the same
    helpers, the comparison is then nearly syntactic and the options of a reset need not be split further
    than [o_stmt].  [do_step] inlines them, so a stored continuation is evaluated completely. *)
Ltac eval_progs :=
  repeat match goal with
  | |- context [script ?a ?b] => let k := eval vm_compute in (script a b) in change (script a b) with k
  | |- context [api_prog ?t ?c ?tr ?src] =>
    let k := eval cbv -[set_st_fsm compose_assign change_script log_hook on_initialize_run_hook change_state_hook
                        set_c_stmt apply_rest run_finished runt set_run_finished set_started_ev set_run_cont
                        set_run_owner set_runt is_cont started_ev o_stmt o_start] in (api_prog t c tr src) in
    change (api_prog t c tr src) with k
  | |- context [api_cont ?t ?c ?tr ?src ?p] =>
    let k := eval vm_compute in (api_cont t c tr src p) in change (api_cont t c tr src p) with k
  end.
Ltac tie := unfold api_trigger; eval_progs; reflexivity.

(** Imp.aopen -> StateMachine.aopen -> `initialize` *)
Theorem tie_enter_start : forall s t c, enter_start s t c = api_trigger t c TInitialize s.
Proof. intros s t c; split_state s; tie. Qed.

Theorem tie_enter_run : forall s t c, enter_run s t c = api_trigger t c TRun s.
Proof. intros s t c; split_state s; tie. Qed.

Theorem tie_enter_reset : forall s t o, enter_reset s t o = api_trigger t (CReset o) TReset s.
Proof. intros s t [[x|] a b d]; split_state s; tie. Qed.

(** from Running with `_run_finished` set, the wait of on_close_while_running -> wait_for_run_finish
    passes at once; from Created: next theorem *)
Theorem tie_close_trigger : forall s t, st_fsm s <> Created ->
  (st_fsm s = Running -> run_finished s = Some true) ->
  close_trigger s t = api_trigger t CClose TClose s.
Proof.
  intros s t H1 H2; split_state s; cbn in H1, H2; try congruence;
    try (rewrite (H2 eq_refl)); try (match goal with r : option rpc |- _ => destruct r end); tie.
Qed.

(** the model has no suspension at the `start` hook of a close() from Created (unreachable: Imp.aclose
    runs after aopen): the same program with that one gate erased *)
Fixpoint ungate (p : pc) (k : list (prim pc)) : list (prim pc) :=
  match k with
  | [] => []
  | PGate q :: k' => if pc_eqb p q then k' else PGate q :: ungate p k'
  | x :: k' => x :: ungate p k'
  end.
Theorem tie_close_trigger_created : forall s t, st_fsm s = Created ->
  exists k, api_prog t CClose TClose Created = Some k /\
            close_trigger s t = api_embed t CClose TClose (run (ungate S_G1 k) s).
Proof.
  intros s t H; eexists; split; [vm_compute; reflexivity|].
  split_state s; cbn in H; try congruence; tie.
Qed.

Theorem tie_step_initialize : forall s t c p, find_task (tasks s) t = Some (c, p) ->
  In p [S_G1; S_G2; S_G3] ->
  do_step s t = api_resume t c TInitialize p (api_cont t c TInitialize Created p) s.
Proof.
  intros s t c p H Hp; unfold do_step; rewrite H; clear H.
  cbn in Hp; destruct Hp as [<-|[<-|[<-|[]]]]; split_state s; tie.
Qed.

Theorem tie_step_run : forall s t c p, find_task (tasks s) t = Some (c, p) ->
  In p [R_WaitStarted; R_G] ->
  do_step s t = api_resume t c TRun p (api_cont t c TRun Initialized p) s.
Proof.
  intros s t c p H Hp; unfold do_step; rewrite H; clear H.
  cbn in Hp; destruct Hp as [<-|[<-|[]]]; eval_progs; [|reflexivity].
  destruct s; cbn [api_resume Model.started_ev].
  match goal with |- context [if ?b then _ else _] => destruct b end; reflexivity.
Qed.

(** the two source states differ: from Finished on_exit_finished awaits the run task, from Initialized
    there is no exit callback *)
Theorem tie_step_reset_before : forall s t o p, find_task (tasks s) t = Some (CReset o, p) ->
  (st_fsm s = Initialized \/ st_fsm s = Finished) ->
  (p = Z_G1 /\ o_stmt o <> None) \/ p = Z_G1b \/ (p = Z_WaitRunTask /\ st_fsm s = Finished) ->
  do_step s t = api_resume t (CReset o) TReset p (api_cont t (CReset o) TReset (st_fsm s) p) s.
Proof.
  intros s t o p H Hs Hp; unfold do_step; rewrite H; clear H.
  destruct o as [[x|] a b d]; destruct Hp as [[-> Hn]|[->| [-> Hn]]]; try (cbn in Hn; congruence);
    [destruct a, b, d | ..];     (* only the segment resumed at Z_G1 still reads the other options *)
    split_state s; cbn in Hs; destruct Hs; try congruence; try (cbn in Hn; congruence);
    try (match goal with r : option rpc |- _ => destruct r end); tie.
Qed.

Theorem tie_step_reset_after : forall s t o p src, find_task (tasks s) t = Some (CReset o, p) ->
  (src = Initialized \/ src = Finished) -> In p [Z_G3; Z_G4] ->
  do_step s t = api_resume t (CReset o) TReset p (api_cont t (CReset o) TReset src p) s.
Proof.
  intros s t o p src H Hs Hp; unfold do_step; rewrite H; clear H.
  destruct o as [[x|] a b d]; cbn in Hp; destruct Hp as [<-|[<-|[]]]; destruct Hs as [-> | ->]; eval_progs;
    split_state s; reflexivity.
Qed.

Theorem tie_step_close_wait_task : forall s t, find_task (tasks s) t = Some (CClose, C_WaitRunTask) ->
  do_step s t = api_resume t CClose TClose C_WaitRunTask (api_cont t CClose TClose Finished C_WaitRunTask) s.
Proof.
  intros s t H; unfold do_step; rewrite H; clear H.
  split_state s; try (match goal with r : option rpc |- _ => destruct r end); tie.
Qed.

Theorem tie_step_close_after : forall s t p src, find_task (tasks s) t = Some (CClose, p) ->
  src <> Closed -> In p [C_G3; C_G4] ->
  do_step s t = api_resume t CClose TClose p (api_cont t CClose TClose src p) s.
Proof.
  intros s t p src H Hs Hp; unfold do_step; rewrite H; clear H.
  cbn in Hp; destruct Hp as [<-|[<-|[]]]; destruct src; try congruence; split_state s; tie.
Qed.

(** Imp.aclose awaits Callback.wait_for_run_finish itself before the trigger: the same regenerated method *)
Definition wait_for_run_finish_prims : option (list (prim pc)) :=
  match expand_call ("wait_for_run_finish", [], []) with
  | Some ms => concat_opt (map (api_micro 0 CClose TClose) ms)
  | None => None
  end.

Theorem tie_close_wait_run_finished : forall s t,
  exists a r, wait_for_run_finish_prims = Some [PWait a r C_WaitRunFinished] /\
  (find_task (tasks s) t = Some (CClose, C_WaitRunFinished) ->
     do_step s t = if r s then close_trigger s t else s) /\
  (st_fsm s = Running ->
     enter_close s t = let s1 := publish s PEndAll in
                       match a s1 with
                       | WPass => close_trigger s1 t
                       | WPark => set_pc s1 t CClose C_WaitRunFinished
                       | WRaise x => raise_out s1 t CClose x
                       end).
Proof.
  intros s t; do 2 eexists; split; [vm_compute; reflexivity|]; split.
  - intros H; unfold do_step; rewrite H; clear H. destruct s; cbn.
    match goal with r : option bool |- _ => destruct r as [[|]|] end; reflexivity.
  - intros H; unfold enter_close. destruct s; cbn in H; subst; cbn.
    match goal with r : option bool |- _ => destruct r as [[|]|] end; reflexivity.
Qed.

Definition rpc_num (p : rpc) : nat :=
  match p with RT_New => 0 | RT_Created => 1 | RT_G_start => 2 | RT_WaitChild => 3 | RT_G_end => 4 | RT_G_fin => 5 | RT_G_cs => 6 end.

Fixpoint after_rpc (p : rpc) (k : list (prim rpc)) : list (prim rpc) :=
  match k with
  | [] => []
  | PGate q :: k' => if Nat.eqb (rpc_num p) (rpc_num q) then k' else after_rpc p k'
  | _ :: k' => after_rpc p k'
  end.

Definition run_micro (m : micro) : option (list (prim rpc)) :=
  match m with
  | USetState d => Some [PDo (fun s => set_st_fsm s d)]
  | UHook h kw =>
    match hook_of h, kw with
    | Some HFinished, [(a, VContext)] =>
      if String.eqb a "context" then
        Some [PDo (fun s => let s3 := log_hook s HFinished None None in cont_finished s3 (length (cont_plugins s3))); PGate RT_G_fin]
      else None
    | Some HChangeState, [(a, VContext); (b, VState)] =>
      if String.eqb a "context" && String.eqb b "state_name" then Some [PDo change_state_hook; PGate RT_G_cs] else None
    | _, _ => None
    end
  | _ => None
  end.

(** what the run task does after the `async with awith.run` block ended (normally or not):
    the finally of _run, then _finish; the trigger inside try/finally *)
Definition run_tail (src : fsm) : option (list (prim rpc)) :=
  match find_method callback_methods "_run", find_method callback_methods "_finish" with
  | Some r, Some f =>
    match m_body r, m_body f with
    | STryFinally (SAWith h [(c, ASelfContext)] (SEventSet (TLocal e1))) (SSeq (SEventSet (TLocal e2)) (SAwaitSelf fin)),
      SSeq SRunArgNone (STryFinally (SAwaitMachine tr) (SEventSet (TSelf rf))) =>
      if String.eqb h "run" && String.eqb c "context" && String.eqb e1 "started" && String.eqb e2 "started"
         && String.eqb fin "_finish" && String.eqb tr "finish" && String.eqb rf "_run_finished"
         && match m_params r with [p] => String.eqb p "started" | _ => false end
      then
        let pre := [PDo (fun s => set_started_ev s true); PDo (fun s => set_run_arg s None)] in
        let post := [PDo (fun s => set_run_finished s (Some true))] in
        match script src TFinish with
        | None => Some (pre ++ post)                 (* MachineError: finally, then the task ends with it *)
        | Some _ =>
          match expand src TFinish with
          | Some ms => match concat_opt (map run_micro ms) with Some k => Some (pre ++ k ++ post) | None => None end
          | None => None
          end
        end
      else None
    | _, _ => None
    end
  | _, _ => None
  end.

Definition run_embed (r : state * outc rpc) : state :=
  match r with
  | (s, KPark p _) => set_runt s (Some p)
  | (s, _) => set_runt s None
  end.

Theorem tie_run_finish : forall s,
  exists k, run_tail (st_fsm s) = Some k /\ run_finish s = run_embed (run k s).
Proof.
  intros s; split_state s; eexists; (split; [vm_compute; reflexivity|]); reflexivity.
Qed.

Theorem tie_step_run_task : forall s p, runt s = Some p -> In p [RT_G_fin; RT_G_cs] ->
  exists k, run_tail Running = Some k /\ do_step_run s = run_embed (run (after_rpc p k) s).
Proof.
  intros s p H Hp; eexists; split; [vm_compute; reflexivity|].
  unfold do_step_run; rewrite H; clear H.
  cbn in Hp; destruct Hp as [<-|[<-|[]]]; split_state s; tie.
Qed.

(** run a program to its end, every gate released and every wait satisfied at once *)
Fixpoint run_all {P} (k : list (prim P)) (s : state) : state :=
  match k with
  | [] => s
  | PDo f :: k' => run_all k' (f s)
  | _ :: k' => run_all k' s
  end.

Fixpoint hooks_of (tr : list event) : list (hook * fsm) :=
  match tr with
  | [] => []
  | EvHook h :: r => hooks_of r ++ [(h_hook h, h_fsm h)]
  | _ :: r => hooks_of r
  end.

(** the hooks one trigger calls, oldest first, each with the lifecycle state it sees
    (no helper of the model reads the trace: it is emptied first so that only the new events remain) *)
Definition hook_order {P} (k : list (prim P)) (s : state) : list (hook * fsm) :=
  hooks_of (trace (run_all k (set_trace s []))).

Definition api_hook_order (t : nat) (c : call) (tr : trig) (s : state) : option (list (hook * fsm)) :=
  match api_prog t c tr (st_fsm s) with Some k => Some (hook_order k s) | None => None end.

Theorem hook_order_initialize : forall s t c,
  api_hook_order t c TInitialize s =
  match st_fsm s with
  | Created => Some [(HStart, Created); (HChangeScript, Created); (HInitRun, Initialized); (HChangeState, Initialized)]
  | _ => None
  end.
Proof. intros s t c; split_state s; vm_compute; reflexivity. Qed.

Theorem hook_order_run : forall s t c,
  api_hook_order t c TRun s = match st_fsm s with Initialized => Some [(HChangeState, Running)] | _ => None end.
Proof. intros s t c; split_state s; vm_compute; reflexivity. Qed.

Theorem hook_order_reset : forall s t o,
  api_hook_order t (CReset o) TReset s =
  match st_fsm s with
  | Initialized | Finished =>
    Some ((HReset, st_fsm s) :: (match o_stmt o with Some _ => [(HChangeScript, st_fsm s)] | None => [] end)
          ++ [(HInitRun, Initialized); (HChangeState, Initialized)])
  | _ => None
  end.
Proof. intros s t [[x|] [a|] [b|] [d|]]; split_state s; vm_compute; reflexivity. Qed.

Theorem hook_order_close : forall s t,
  api_hook_order t CClose TClose s =
  match st_fsm s with
  | Created => Some [(HStart, Created); (HChangeScript, Created); (HClose, Closed); (HChangeState, Closed)]
  | Closed => Some []                     (* internal transition: after_state_change returns early *)
  | _ => Some [(HClose, Closed); (HChangeState, Closed)]
  end.
Proof. intros s t; split_state s; vm_compute; reflexivity. Qed.

(** the built-in on_finished of the Continue plugins ([cont_finished]) publishes only: no hook, no state change *)
Lemma cont_finished_inv : forall n s,
  st_fsm (cont_finished s n) = st_fsm s /\ hooks_of (trace (cont_finished s n)) = hooks_of (trace s).
Proof.
  induction n; intros s; cbn [cont_finished]; [split; reflexivity|].
  destruct (filter (fun x => snd x) (cont_plugins s)) as [|[t b] l]; [split; reflexivity|].
  match goal with |- context [cont_finished ?x n] => destruct (IHn x) as [E1 E2]; rewrite E1, E2 end.
  split; reflexivity.
Qed.

Lemma run_tail_running :
  run_tail Running = Some [PDo (fun s => set_started_ev s true); PDo (fun s => set_run_arg s None);
                           PDo (fun s => set_st_fsm s Finished);
                           PDo (fun s => let s3 := log_hook s HFinished None None in cont_finished s3 (length (cont_plugins s3)));
                           PGate RT_G_fin; PDo change_state_hook; PGate RT_G_cs;
                           PDo (fun s => set_run_finished s (Some true))].
Proof. vm_compute. reflexivity. Qed.

Theorem hook_order_finish_all : forall s,
  match run_tail (st_fsm s) with Some k => Some (hook_order k s) | None => None end =
  match st_fsm s with
  | Running => Some [(HFinished, Finished); (HChangeState, Finished)]
  | _ => Some []
  end.
Proof.
  intros s; destruct (st_fsm s) eqn:E.
  1,2,4,5: vm_compute; reflexivity.
  rewrite run_tail_running. f_equal. unfold hook_order. cbn [run_all].
  match goal with |- context [cont_finished ?x ?n] =>
    destruct (cont_finished_inv n x) as [E1 E2]; set (X := cont_finished x n) in *; clearbody X end.
  unfold change_state_hook, log_hook, publish.
  cbn [trace set_trace set_run_finished hooks_of h_hook h_fsm st_fsm].
  rewrite ?E1, ?E2. destruct s; reflexivity.
Qed.

Theorem hook_order_finish : forall s, cont_plugins s = [] ->
  match run_tail (st_fsm s) with Some k => Some (hook_order k s) | None => None end =
  match st_fsm s with
  | Running => Some [(HFinished, Finished); (HChangeState, Finished)]
  | _ => Some []
  end.
Proof. intros s _. apply hook_order_finish_all. Qed.

Lemma api_trigger_refused : forall t c tr s, script (st_fsm s) tr = None -> api_trigger t c tr s = refuse s t c.
Proof. intros t c tr s E; unfold api_trigger; rewrite E; reflexivity. Qed.

Theorem run_refused_unless_initialized : forall s t c,
  (st_fsm s <> Initialized -> script (st_fsm s) TRun = None /\ enter_run s t c = refuse s t c) /\
  (st_fsm s = Initialized -> script (st_fsm s) TRun <> None /\ st_fsm (enter_run s t c) = Running).
Proof.
  intros s t c; split; intros H.
  - assert (E : script (st_fsm s) TRun = None) by (apply script_refused; destruct (st_fsm s); tauto).
    split; [exact E|]. rewrite tie_enter_run. apply api_trigger_refused, E.
  - rewrite H; split; [vm_compute; discriminate|].
    destruct s; cbn in H; subst; reflexivity.
Qed.

Theorem reset_refused_while_running : forall s t o, st_fsm s = Running ->
  script (st_fsm s) TReset = None /\ enter_reset s t o = refuse s t (CReset o).
Proof.
  intros s t o H.
  assert (E : script (st_fsm s) TReset = None) by (rewrite H; vm_compute; reflexivity).
  split; [exact E|]. rewrite tie_enter_reset. apply api_trigger_refused, E.
Qed.

Theorem script_moves_along_table : forall src tr dest acts, script src tr = Some (dest, acts) ->
  exists b, In (tr, src, dest, b) table /\
  filter (fun a => match a with SetState _ => true | _ => false end) acts =
  match dest with Some d => [SetState d] | None => [] end.
Proof.
  intros src tr dest acts H; destruct src, tr; vm_compute in H; try discriminate;
    injection H as <- <-; eexists; (split; [|reflexivity]); cbn; tauto.
Qed.
