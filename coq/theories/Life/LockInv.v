(** Lock discipline of the lifecycle model: at most one API task is inside a
    transition (it holds the lock), waiters are exactly the tasks queued in
    FIFO order, and program counters are compatible with the call they belong
    to ([Lk], on the triple holder / queue / table; [LkS] on a state).  Holds in every
    reachable state (every label sequence). *)
From NL Require Import Life.Model Life.Hist.
From Coq Require Import Lia.

Definition waitlock (p : pc) : bool := match p with WaitLock1 | WaitLock2 => true | _ => false end.

Definition locked_pc (p : pc) : bool :=
  match p with WaitLock1 | WaitLock2 | P_WaitRunFinished | Sig_G => false | _ => true end.

Definition runlike (c : call) : bool :=
  match c with CRun | CRunCont | CRunContWait | CRunSession => true | _ => false end.

Definition compat (c : call) (p : pc) : bool :=
  match p with
  | WaitLock1 | Granted1 => match c with CSignal | CSend => false | _ => true end
  | WaitLock2 | Granted2 | C_WaitRunFinished | C_WaitRunTask | C_G3 | C_G4 =>
    match c with CClose => true | _ => false end
  | S_G1 | S_G2 | S_G3 => match c with CStart | CClose => true | _ => false end
  | R_WaitStarted | R_G => runlike c
  | Z_G1 | Z_G1b | Z_WaitRunTask | Z_G3 | Z_G4 => match c with CReset _ => true | _ => false end
  | P_WaitRunFinished => match c with CRunContWait | CRunSession => true | _ => false end
  | Sig_G => match c with CSignal | CSend => true | _ => false end
  end.

Notation ttab := (list (nat * (call * pc))).

Record Lk (h : option nat) (q : list nat) (ts : ttab) : Prop := mkLk {
  lk_holder_of : forall t c p, find_task ts t = Some (c, p) -> locked_pc p = true -> h = Some t;
  lk_holder_has : forall t, h = Some t -> exists c p, find_task ts t = Some (c, p) /\ locked_pc p = true;
  lk_q_wait : forall t, In t q -> exists c p, find_task ts t = Some (c, p) /\ waitlock p = true;
  lk_wait_q : forall t c p, find_task ts t = Some (c, p) -> waitlock p = true -> In t q;
  lk_q_nodup : NoDup q;
  lk_q_holder : q <> [] -> h <> None;
  lk_compat : forall t c p, find_task ts t = Some (c, p) -> compat c p = true
}.

Definition LkS (s : state) : Prop := Lk (holder s) (lockq s) (tasks s).

Lemma find_put ts t x t' : find_task (put_task ts t x) t' = if Nat.eqb t' t then Some x else find_task ts t'.
Proof.
  induction ts as [|[t0 y] ts IH]; simpl; [reflexivity|].
  destruct (Nat.eqb_spec t t0) as [->|Hn]; simpl.
  - destruct (Nat.eqb t' t0); reflexivity.
  - rewrite IH. destruct (Nat.eqb_spec t' t0) as [->|]; [|reflexivity].
    apply Nat.neq_sym, Nat.eqb_neq in Hn. rewrite Hn. reflexivity.
Qed.

Lemma find_remove ts t t' : find_task (remove_task ts t) t' = if Nat.eqb t' t then None else find_task ts t'.
Proof.
  induction ts as [|[t0 y] ts IH]; simpl; [destruct (Nat.eqb t' t); reflexivity|].
  destruct (Nat.eqb_spec t t0) as [->|Hn]; simpl; rewrite IH.
  - destruct (Nat.eqb t' t0); reflexivity.
  - destruct (Nat.eqb_spec t' t0) as [->|]; [|reflexivity].
    apply Nat.neq_sym, Nat.eqb_neq in Hn. rewrite Hn. reflexivity.
Qed.

Lemma find_put_eq ts t x : find_task (put_task ts t x) t = Some x.
Proof. rewrite find_put, Nat.eqb_refl. reflexivity. Qed.

Lemma find_put_neq ts t t' x : t' <> t -> find_task (put_task ts t x) t' = find_task ts t'.
Proof. intros Hn. apply Nat.eqb_neq in Hn. rewrite find_put, Hn. reflexivity. Qed.

Lemma find_remove_eq ts t : find_task (remove_task ts t) t = None.
Proof. rewrite find_remove, Nat.eqb_refl. reflexivity. Qed.

Lemma find_remove_neq ts t t' : t' <> t -> find_task (remove_task ts t) t' = find_task ts t'.
Proof. intros Hn. apply Nat.eqb_neq in Hn. rewrite find_remove, Hn. reflexivity. Qed.

Lemma waitlock_not_locked p : waitlock p = true -> locked_pc p = false.
Proof. destruct p; simpl; congruence. Qed.

Lemma granted_locked p : waitlock p = true -> locked_pc (granted_pc p) = true /\ waitlock (granted_pc p) = false.
Proof. destruct p; simpl; try discriminate; auto. Qed.

Lemma granted_compat c p : waitlock p = true -> compat c p = true -> compat c (granted_pc p) = true.
Proof. destruct p; simpl; auto; discriminate. Qed.

Lemma NoDup_snoc {A} (l : list A) x : NoDup l -> ~ In x l -> NoDup (l ++ [x]).
Proof.
  intros Hnd Hni. apply NoDup_rev in Hnd. rewrite <- (rev_involutive (l ++ [x])), rev_unit.
  apply NoDup_rev. constructor; [rewrite <- in_rev; exact Hni | exact Hnd].
Qed.

Lemma run_labels_snoc s ls l : run_labels s (ls ++ [l]) = step (run_labels s ls) l.
Proof. unfold run_labels. rewrite fold_left_app. reflexivity. Qed.

Lemma run_labels_app s l1 l2 : run_labels s (l1 ++ l2) = run_labels (run_labels s l1) l2.
Proof. unfold run_labels. apply fold_left_app. Qed.

Lemma run_labels_ind (P : state -> Prop) :
  (forall s l, P s -> P (step s l)) -> forall ls s, P s -> P (run_labels s ls).
Proof.
  intros Hstep. induction ls as [|l ls IH]; intros s H; simpl; auto.
Qed.

Lemma hooks_of_app a b : hooks_of (a ++ b) = hooks_of a ++ hooks_of b.
Proof. induction a as [|[| | |] a IH]; simpl; auto. rewrite IH. reflexivity. Qed.

Lemma pubs_of_app a b : pubs_of (a ++ b) = pubs_of a ++ pubs_of b.
Proof. induction a as [|[| | |] a IH]; simpl; auto. rewrite IH. reflexivity. Qed.

Lemma appended_ext s s' new : trace s' = new ++ trace s -> appended s s' = rev new.
Proof.
  intros E. unfold appended. rewrite E, app_length.
  replace (length new + length (trace s) - length (trace s))%nat with (length new) by lia.
  rewrite firstn_app, firstn_all, Nat.sub_diag. simpl. rewrite app_nil_r. reflexivity.
Qed.

Lemma filter_all {A} (p : A -> bool) l : (forall x, In x l -> p x = true) -> filter p l = l.
Proof.
  induction l as [|a l IH]; simpl; intros H; auto.
  rewrite (H a) by auto. f_equal. apply IH. auto.
Qed.

(** [Lk h q ts] says, of the table entry of every task [t]: its pc is inside the lock iff [t] is
    the holder, it waits for the lock iff [t] is queued, and the pc fits the call.  An entry
    therefore sees the lock only through "is [t] the holder" and "is [t] queued"
    ([entry_ok_role]); the lemmas on the operations check the entries that change and carry
    the others over. *)
Definition entry_ok (h : option nat) (q : list nat) (t : nat) (e : option (call * pc)) : Prop :=
  match e with
  | Some (c, p) => compat c p = true /\ (locked_pc p = true <-> h = Some t) /\ (waitlock p = true <-> In t q)
  | None => h <> Some t /\ ~ In t q
  end.

Lemma Lk_entry h q ts : Lk h q ts -> forall t, entry_ok h q t (find_task ts t).
Proof.
  intros [H1 H2 H3 H4 _ _ H7] t. destruct (find_task ts t) as [[c p]|] eqn:E; simpl.
  - split; [exact (H7 _ _ _ E)|]. split; split; [exact (H1 _ _ _ E) | | exact (H4 _ _ _ E) |].
    + intros Hh. destruct (H2 _ Hh) as (c' & p' & Hf & Hl). rewrite E in Hf. inversion Hf; subst. exact Hl.
    + intros Hin. destruct (H3 _ Hin) as (c' & p' & Hf & Hw). rewrite E in Hf. inversion Hf; subst. exact Hw.
  - split; intros Hx; [destruct (H2 _ Hx) as (c' & p' & Hf & _) | destruct (H3 _ Hx) as (c' & p' & Hf & _)];
      rewrite E in Hf; discriminate.
Qed.

Lemma Lk_of_entries h q ts :
  (forall t, entry_ok h q t (find_task ts t)) -> NoDup q -> (q <> [] -> h <> None) -> Lk h q ts.
Proof.
  intros He Hn Hq.
  assert (Hs : forall t c p, find_task ts t = Some (c, p) -> entry_ok h q t (Some (c, p)))
    by (intros t c p Hf; rewrite <- Hf; apply He).
  assert (Hx : forall t, h = Some t \/ In t q -> exists c p, find_task ts t = Some (c, p)).
  { intros t Ht. specialize (He t). destruct (find_task ts t) as [[c p]|]; [eauto | destruct He; tauto]. }
  constructor; auto.
  - intros t c p Hf. apply (Hs _ _ _ Hf).
  - intros t Hh. destruct (Hx t (or_introl Hh)) as (c & p & Hf). exists c, p. split; [exact Hf | apply (Hs _ _ _ Hf), Hh].
  - intros t Hin. destruct (Hx t (or_intror Hin)) as (c & p & Hf). exists c, p. split; [exact Hf | apply (Hs _ _ _ Hf), Hin].
  - intros t c p Hf. apply (Hs _ _ _ Hf).
  - intros t c p Hf. apply (Hs _ _ _ Hf).
Qed.

Lemma entry_ok_role h q h' q' t e :
  (h = Some t <-> h' = Some t) -> (In t q <-> In t q') -> entry_ok h q t e -> entry_ok h' q' t e.
Proof. destruct e as [[c p]|]; simpl; tauto. Qed.

Lemma entry_outside h q t e :
  entry_ok h q t e -> (forall c p, e = Some (c, p) -> locked_pc p = false /\ waitlock p = false) ->
  h <> Some t /\ ~ In t q.
Proof.
  destruct e as [[c p]|]; simpl; [|tauto]. intros (_ & Hl & Hw) Hfree.
  destruct (Hfree c p eq_refl) as [El Ew]. rewrite El in Hl. rewrite Ew in Hw.
  split; intros Hx; [apply Hl in Hx | apply Hw in Hx]; discriminate.
Qed.

Lemma entry_free h q t c p :
  h <> Some t /\ ~ In t q -> locked_pc p = false -> waitlock p = false -> compat c p = true ->
  entry_ok h q t (Some (c, p)).
Proof. intros [Hh Hq] Hl Hw Hc. simpl. rewrite Hl, Hw. repeat split; auto; try discriminate; contradiction. Qed.

Lemma entry_holder q t c p :
  ~ In t q -> locked_pc p = true -> compat c p = true -> entry_ok (Some t) q t (Some (c, p)).
Proof.
  intros Hq Hl Hc. simpl. repeat split; auto.
  intros Hw. rewrite (waitlock_not_locked _ Hw) in Hl. discriminate.
Qed.

Lemma entry_locked h q ts t c p : Lk h q ts -> find_task ts t = Some (c, p) -> (locked_pc p = true <-> h = Some t).
Proof. intros H Ef. pose proof (Lk_entry _ _ _ H t) as He. rewrite Ef in He. apply He. Qed.

Lemma entry_waits h q ts t c p : Lk h q ts -> find_task ts t = Some (c, p) -> (waitlock p = true <-> In t q).
Proof. intros H Ef. pose proof (Lk_entry _ _ _ H t) as He. rewrite Ef in He. apply He. Qed.

Lemma entry_absent h q ts t : Lk h q ts -> find_task ts t = None -> h <> Some t /\ ~ In t q.
Proof. intros H Ef. pose proof (Lk_entry _ _ _ H t) as He. rewrite Ef in He. exact He. Qed.

Lemma holder_not_queued q ts t : Lk (Some t) q ts -> ~ In t q.
Proof.
  intros H Hin. destruct (find_task ts t) as [[c p]|] eqn:Ef.
  - apply (entry_waits _ _ _ _ _ _ H Ef) in Hin. apply waitlock_not_locked in Hin.
    rewrite (proj2 (entry_locked _ _ _ _ _ _ H Ef) eq_refl) in Hin. discriminate.
  - destruct (entry_absent _ _ _ _ H Ef) as [Hh _]. apply Hh. reflexivity.
Qed.

Lemma free_not_holder s t : LkS s -> find_task (tasks s) t = None -> holder s <> Some t.
Proof. intros HL Ef. apply (entry_absent _ _ _ _ HL Ef). Qed.

Lemma unlocked_not_holder s t c p :
  LkS s -> find_task (tasks s) t = Some (c, p) -> locked_pc p = false -> holder s <> Some t.
Proof. intros HL Ef Hl Hh. apply (entry_locked _ _ _ _ _ _ HL Ef) in Hh. congruence. Qed.

Lemma others_unlocked q ts t t' c p :
  Lk (Some t) q ts -> t' <> t -> find_task ts t' = Some (c, p) -> locked_pc p = false.
Proof.
  intros HL Hn Hf. destruct (locked_pc p) eqn:El; auto.
  apply (entry_locked _ _ _ _ _ _ HL Hf) in El. congruence.
Qed.

Lemma lock_held s t c p :
  LkS s -> find_task (tasks s) t = Some (c, p) -> waitlock p = true \/ locked_pc p = true ->
  exists h ch ph, holder s = Some h /\ find_task (tasks s) h = Some (ch, ph) /\ locked_pc ph = true.
Proof.
  intros HL Ef [Hw | Hl].
  - pose proof (lk_wait_q _ _ _ HL _ _ _ Ef Hw) as Hin.
    destruct (holder s) as [h|] eqn:Eh.
    + destruct (lk_holder_has _ _ _ HL h Eh) as (ch & ph & Hfh & Hlh). exists h, ch, ph. auto.
    + exfalso. apply (lk_q_holder _ _ _ HL); auto. intros E. rewrite E in Hin. destruct Hin.
  - exists t, c, p. repeat split; auto. eapply (lk_holder_of _ _ _ HL); eauto.
Qed.

Lemma Lk_put_free h q ts t c p :
  Lk h q ts ->
  (forall c0 p0, find_task ts t = Some (c0, p0) -> locked_pc p0 = false /\ waitlock p0 = false) ->
  locked_pc p = false -> waitlock p = false -> compat c p = true ->
  Lk h q (put_task ts t (c, p)).
Proof.
  intros H Hold Hl Hw Hc. pose proof (Lk_entry _ _ _ H) as He.
  apply Lk_of_entries; [|apply H..]. intros t'. rewrite find_put.
  destruct (Nat.eqb_spec t' t) as [->|_]; [|apply He].
  apply entry_free; auto. exact (entry_outside _ _ _ _ (He t) Hold).
Qed.

Lemma Lk_forget_free h q ts t :
  Lk h q ts ->
  (forall c0 p0, find_task ts t = Some (c0, p0) -> locked_pc p0 = false /\ waitlock p0 = false) ->
  Lk h q (remove_task ts t).
Proof.
  intros H Hold. pose proof (Lk_entry _ _ _ H) as He.
  apply Lk_of_entries; [|apply H..]. intros t'. rewrite find_remove.
  destruct (Nat.eqb_spec t' t) as [->|_]; [|apply He].
  exact (entry_outside _ _ _ _ (He t) Hold).
Qed.

Lemma Lk_put_holder q ts t c p :
  Lk (Some t) q ts -> locked_pc p = true -> compat c p = true ->
  Lk (Some t) q (put_task ts t (c, p)).
Proof.
  intros H Hl Hc. apply Lk_of_entries; [|apply H..]. intros t'. rewrite find_put.
  destruct (Nat.eqb_spec t' t) as [->|_]; [|apply (Lk_entry _ _ _ H)].
  apply entry_holder; auto. exact (holder_not_queued _ _ _ H).
Qed.

Lemma Lk_grant ts t c p :
  Lk None [] ts -> locked_pc p = true -> compat c p = true -> Lk (Some t) [] (put_task ts t (c, p)).
Proof.
  intros H Hl Hc. apply Lk_of_entries; [|constructor|discriminate]. intros t'. rewrite find_put.
  destruct (Nat.eqb_spec t' t) as [->|Hn].
  - apply entry_holder; auto.
  - apply (entry_ok_role None []); [split; congruence | tauto | apply (Lk_entry _ _ _ H)].
Qed.

Lemma Lk_enqueue h q ts t c p :
  Lk h q ts -> ~ (h = None /\ q = []) ->
  (forall c0 p0, find_task ts t = Some (c0, p0) -> locked_pc p0 = false /\ waitlock p0 = false) ->
  waitlock p = true -> compat c p = true ->
  Lk h (q ++ [t]) (put_task ts t (c, p)).
Proof.
  intros H Hbusy Hold Hw Hc. pose proof (Lk_entry _ _ _ H) as He.
  destruct (entry_outside _ _ _ _ (He t) Hold) as [Hnh Hnq].
  apply Lk_of_entries.
  - intros t'. rewrite find_put. destruct (Nat.eqb_spec t' t) as [->|Hn].
    + simpl. rewrite (waitlock_not_locked _ Hw), Hw, in_app_iff. simpl. repeat split; auto; try discriminate; contradiction.
    + apply (entry_ok_role h q); [tauto | rewrite in_app_iff; simpl; intuition congruence | apply He].
  - apply NoDup_snoc; [apply H | exact Hnq].
  - intros _ Eh. apply Hbusy. split; [exact Eh|]. destruct q; [reflexivity|].
    exfalso. apply (lk_q_holder _ _ _ H); [discriminate | exact Eh].
Qed.

Definition teq (ts ts' : ttab) : Prop := forall t, find_task ts t = find_task ts' t.

Lemma Lk_ext h q ts ts' : teq ts ts' -> Lk h q ts -> Lk h q ts'.
Proof. intros E H. apply Lk_of_entries; [|apply H..]. intros t. rewrite <- E. apply (Lk_entry _ _ _ H). Qed.

Lemma teq_refl ts : teq ts ts. Proof. intros t. reflexivity. Qed.
Lemma teq_sym ts ts' : teq ts ts' -> teq ts' ts. Proof. intros E t. symmetry. apply E. Qed.
Lemma teq_trans a b c : teq a b -> teq b c -> teq a c. Proof. intros E1 E2 t. rewrite E1. apply E2. Qed.

Lemma teq_put ts ts' t x : teq ts ts' -> teq (put_task ts t x) (put_task ts' t x).
Proof. intros E t'. rewrite !find_put, E. reflexivity. Qed.

Lemma teq_remove ts ts' t : teq ts ts' -> teq (remove_task ts t) (remove_task ts' t).
Proof. intros E t'. rewrite !find_remove, E. reflexivity. Qed.

Lemma teq_put_put ts t x y : teq (put_task (put_task ts t x) t y) (put_task ts t y).
Proof. intros t'. rewrite !find_put. destruct (Nat.eqb t' t); reflexivity. Qed.

Lemma teq_remove_put ts t x : teq (remove_task (put_task ts t x) t) (remove_task ts t).
Proof. intros t'. rewrite !find_remove, find_put. destruct (Nat.eqb t' t); reflexivity. Qed.

Lemma teq_put_remove ts t x : teq (put_task (remove_task ts t) t x) (put_task ts t x).
Proof. intros t'. rewrite !find_put, find_remove. destruct (Nat.eqb t' t); reflexivity. Qed.

Lemma teq_put_same ts t x : find_task ts t = Some x -> teq (put_task ts t x) ts.
Proof. intros Hf t'. rewrite find_put. destruct (Nat.eqb_spec t' t) as [->|]; auto. Qed.

Lemma teq_put_comm ts t t' x y : t <> t' ->
  teq (put_task (put_task ts t x) t' y) (put_task (put_task ts t' y) t x).
Proof. intros Hn u. rewrite !find_put. destruct (Nat.eqb_spec u t), (Nat.eqb_spec u t'); congruence. Qed.

Lemma teq_remove_put_comm ts t t' x : t <> t' ->
  teq (remove_task (put_task ts t' x) t) (put_task (remove_task ts t) t' x).
Proof.
  intros Hn u. rewrite find_remove, !find_put, find_remove.
  destruct (Nat.eqb_spec u t), (Nat.eqb_spec u t'); congruence.
Qed.

Definition rel_holder (q : list nat) : option nat := match q with [] => None | t :: _ => Some t end.
Definition rel_tasks (q : list nat) (ts : ttab) : ttab :=
  match q with
  | [] => ts
  | t :: _ => match find_task ts t with Some (c, p) => put_task ts t (c, granted_pc p) | None => ts end
  end.

Lemma release_eq s :
  release s = set_tasks (set_lockq (set_holder s (rel_holder (lockq s))) (tl (lockq s))) (rel_tasks (lockq s) (tasks s)).
Proof.
  unfold release, rel_tasks. destruct (lockq s) as [|t q] eqn:E; simpl.
  - unfold set_holder, set_lockq, set_tasks. simpl. rewrite E. reflexivity.
  - destruct (find_task (tasks s) t) as [[c p]|]; reflexivity.
Qed.

Lemma release_holder s : holder (release s) = rel_holder (lockq s).
Proof. rewrite release_eq. reflexivity. Qed.
Lemma release_lockq s : lockq (release s) = tl (lockq s).
Proof. rewrite release_eq. reflexivity. Qed.
Lemma release_tasks s : tasks (release s) = rel_tasks (lockq s) (tasks s).
Proof. rewrite release_eq. reflexivity. Qed.
Lemma rl_trace s : trace (release s) = trace s.
Proof. rewrite release_eq. reflexivity. Qed.
Lemma rl_sev s : started_ev (release s) = started_ev s.
Proof. rewrite release_eq. reflexivity. Qed.
Lemma rl_ex s : exited_proc (release s) = exited_proc s.
Proof. rewrite release_eq. reflexivity. Qed.
Lemma rl_nls s : nl_started (release s) = nl_started s.
Proof. rewrite release_eq. reflexivity. Qed.
Lemma rl_nlc s : nl_closed (release s) = nl_closed s.
Proof. rewrite release_eq. reflexivity. Qed.
Lemma rl_cc s : cont_closed (release s) = cont_closed s.
Proof. rewrite release_eq. reflexivity. Qed.
Lemma rl_cp s : cont_plugins (release s) = cont_plugins s.
Proof. rewrite release_eq. reflexivity. Qed.

Lemma apply_rest_eq s o :
  apply_rest s o =
  set_c_modules (set_c_threads (set_c_next s (match o_start o with Some n => n | None => c_next s end))
                               (match o_threads o with Some b => b | None => c_threads s end))
                (match o_modules o with Some b => b | None => c_modules s end).
Proof. unfold apply_rest. destruct s, (o_start o), (o_threads o), (o_modules o); reflexivity. Qed.

Lemma apply_rest_holder s o : holder (apply_rest s o) = holder s.
Proof. rewrite apply_rest_eq. reflexivity. Qed.
Lemma apply_rest_lockq s o : lockq (apply_rest s o) = lockq s.
Proof. rewrite apply_rest_eq. reflexivity. Qed.
Lemma apply_rest_tasks s o : tasks (apply_rest s o) = tasks s.
Proof. rewrite apply_rest_eq. reflexivity. Qed.
Lemma ar_trace s o : trace (apply_rest s o) = trace s.
Proof. rewrite apply_rest_eq. reflexivity. Qed.
Lemma ar_sev s o : started_ev (apply_rest s o) = started_ev s.
Proof. rewrite apply_rest_eq. reflexivity. Qed.
Lemma ar_ex s o : exited_proc (apply_rest s o) = exited_proc s.
Proof. rewrite apply_rest_eq. reflexivity. Qed.
Lemma ar_nls s o : nl_started (apply_rest s o) = nl_started s.
Proof. rewrite apply_rest_eq. reflexivity. Qed.
Lemma ar_nlc s o : nl_closed (apply_rest s o) = nl_closed s.
Proof. rewrite apply_rest_eq. reflexivity. Qed.
Lemma ar_cc s o : cont_closed (apply_rest s o) = cont_closed s.
Proof. rewrite apply_rest_eq. reflexivity. Qed.

Lemma cont_finished_adds n : forall s,
  exists cp new, cont_finished s n = set_trace (set_cont_plugins s cp) (new ++ trace s) /\
                 forall e, In e new -> exists b, e = EvPub (PCont b).
Proof.
  induction n as [|n IH]; intros s; simpl.
  - exists (cont_plugins s), []. split; [destruct s; reflexivity | intros e []].
  - destruct (filter _ (cont_plugins s)) as [|[t b] r];
      [exists (cont_plugins s), []; split; [destruct s; reflexivity | intros e []]|].
    match goal with |- exists _ _, cont_finished ?x n = _ /\ _ => destruct (IH x) as (cp & new & -> & H) end.
    exists cp. eexists (new ++ [_]). split; [simpl; rewrite <- app_assoc; reflexivity|].
    intros e Hin. apply in_app_or in Hin. destruct Hin as [Hin|[<-|[]]]; eauto.
Qed.

Lemma cont_finished_eq n : forall s,
  exists cp new, cont_finished s n = set_trace (set_cont_plugins s cp) (new ++ trace s).
Proof. intros s. destruct (cont_finished_adds n s) as (cp & new & E & _). eauto. Qed.

Lemma cf_nlc n s : nl_closed (cont_finished s n) = nl_closed s.
Proof. destruct (cont_finished_eq n s) as (cp & new & ->). reflexivity. Qed.

Lemma Lk_release_forget q ts t :
  Lk (Some t) q ts -> Lk (rel_holder q) (tl q) (remove_task (rel_tasks q ts) t).
Proof.
  intros H. pose proof (Lk_entry _ _ _ H) as He. pose proof (holder_not_queued _ _ _ H) as Hq.
  destruct q as [|t1 q]; simpl.
  - apply Lk_of_entries; [|constructor|congruence]. intros t'. rewrite find_remove.
    destruct (Nat.eqb_spec t' t) as [->|Hn]; [split; [discriminate | auto]|].
    apply (entry_ok_role (Some t) []); [split; congruence | tauto | apply He].
  - (* the first waiter [t1] is handed the lock *)
    destruct (lk_q_wait _ _ _ H t1 (or_introl eq_refl)) as (c1 & p1 & Hf1 & Hw1). rewrite Hf1.
    pose proof (lk_q_nodup _ _ _ H) as Hnd. inversion Hnd as [|? ? Hni Hnd']; subst.
    apply Lk_of_entries; [|assumption|discriminate]. intros t'. rewrite find_remove, find_put.
    destruct (Nat.eqb_spec t' t) as [->|Hn]; [|destruct (Nat.eqb_spec t' t1) as [->|Hn1]].
    + split; [intros E; inversion E; subst | intros Hin]; apply Hq; simpl; auto.
    + destruct (granted_locked _ Hw1). apply entry_holder; auto.
      apply granted_compat; auto. apply (lk_compat _ _ _ H _ _ _ Hf1).
    + apply (entry_ok_role (Some t) (t1 :: q)); [split; congruence | simpl; intuition congruence | apply He].
Qed.

Lemma Lk_readd_free h q ts t c p :
  Lk h q (remove_task ts t) -> locked_pc p = false -> waitlock p = false -> compat c p = true ->
  Lk h q (put_task ts t (c, p)).
Proof.
  intros H Hl Hw Hc. eapply Lk_ext; [apply teq_put_remove|].
  apply Lk_put_free; auto. intros c0 p0 Hf. rewrite find_remove_eq in Hf. discriminate.
Qed.

Lemma Lk_readd_take ts t c p :
  Lk None [] (remove_task ts t) -> locked_pc p = true -> compat c p = true ->
  Lk (Some t) [] (put_task ts t (c, p)).
Proof. intros H Hl Hc. eapply Lk_ext; [apply teq_put_remove|]. apply Lk_grant; auto. Qed.

Lemma Lk_readd_enqueue h q ts t c p :
  Lk h q (remove_task ts t) -> ~ (h = None /\ q = []) -> waitlock p = true -> compat c p = true ->
  Lk h (q ++ [t]) (put_task ts t (c, p)).
Proof.
  intros H Hb Hw Hc. eapply Lk_ext; [apply teq_put_remove|].
  apply Lk_enqueue; auto. intros c0 p0 Hf. rewrite find_remove_eq in Hf. discriminate.
Qed.

Lemma LkS_finish_free s t c r :
  LkS s ->
  (forall c0 p0, find_task (tasks s) t = Some (c0, p0) -> locked_pc p0 = false /\ waitlock p0 = false) ->
  LkS (finish_call s t c r).
Proof. apply Lk_forget_free. Qed.

Lemma LkS_put_free s t c p :
  LkS s ->
  (forall c0 p0, find_task (tasks s) t = Some (c0, p0) -> locked_pc p0 = false /\ waitlock p0 = false) ->
  locked_pc p = false -> waitlock p = false -> compat c p = true ->
  LkS (set_pc s t c p).
Proof. apply Lk_put_free. Qed.

Definition slk (s s' : state) : Prop := holder s' = holder s /\ lockq s' = lockq s /\ tasks s' = tasks s.

(** [publish], [log_hook] and the like change the trace only: what does not look at the trace holds after them by conversion *)
Lemma slk_publish s p : slk s (publish s p).
Proof. repeat split. Qed.

Lemma slk_refl s : slk s s. Proof. repeat split. Qed.

Lemma LkS_slk s s' : slk s s' -> LkS s -> LkS s'.
Proof. intros (E1 & E2 & E3). unfold LkS. rewrite E1, E2, E3. auto. Qed.

Lemma slk_trans a b c : slk a b -> slk b c -> slk a c.
Proof. intros (A1 & A2 & A3) (B1 & B2 & B3). repeat split; congruence. Qed.

Lemma slk_cont_finished n : forall s, slk s (cont_finished s n).
Proof. intros s. destruct (cont_finished_eq n s) as (cp & new & ->). repeat split. Qed.

Lemma slk_run_finish s : slk s (run_finish s).
Proof.
  unfold run_finish. simpl. destruct (st_fsm s); try (repeat split; reflexivity).
  match goal with |- slk _ (set_runt (cont_finished ?x ?n) _) => destruct (cont_finished_eq n x) as (cp & new & ->) end.
  repeat split.
Qed.

Lemma slk_step_run s : slk s (do_step_run s).
Proof.
  unfold do_step_run. destruct (runt s) as [[]|]; try apply slk_refl.
  - destruct (run_arg s); [repeat split | apply slk_run_finish].
  - simpl. destruct (run_arg s).
    + repeat split.
    + eapply slk_trans; [|apply slk_run_finish]. repeat split.
  - repeat split.
  - destruct (run_call_pending s); [apply slk_refl|]. destruct (pending_exit s); [|apply slk_refl].
    simpl. destruct (run_arg s).
    + repeat split.
    + eapply slk_trans; [|apply slk_run_finish]. repeat split.
  - apply slk_run_finish.
  - repeat split.
  - repeat split.
Qed.

(** what a step of the lock holder [t] can do to the lock triple *)
Definition HRes (s : state) (t : nat) (s' : state) : Prop :=
  (holder s' = holder s /\ lockq s' = lockq s /\
   exists c p, locked_pc p = true /\ compat c p = true /\ tasks s' = put_task (tasks s) t (c, p))
  \/ (holder s' = rel_holder (lockq s) /\ lockq s' = tl (lockq s) /\
      tasks s' = remove_task (rel_tasks (lockq s) (tasks s)) t)
  \/ (holder s' = rel_holder (lockq s) /\ lockq s' = tl (lockq s) /\
      exists c p, locked_pc p = false /\ waitlock p = false /\ compat c p = true /\
                  tasks s' = put_task (rel_tasks (lockq s) (tasks s)) t (c, p)).

Lemma HRes_Lk s t s' : LkS s -> holder s = Some t -> HRes s t s' -> LkS s'.
Proof.
  unfold LkS. intros HL Hh [(E1 & E2 & c & p & Hl & Hc & E3) | [(E1 & E2 & E3) | (E1 & E2 & c & p & Hl & Hw & Hc & E3)]];
    rewrite E1, E2, E3; rewrite Hh in HL.
  - rewrite Hh. apply Lk_put_holder; auto.
  - apply Lk_release_forget; auto.
  - apply Lk_readd_free; auto. apply Lk_release_forget; auto.
Qed.

Lemma HRes_slk s s1 t s' : slk s s1 -> HRes s1 t s' -> HRes s t s'.
Proof. intros (E1 & E2 & E3). unfold HRes. rewrite E1, E2, E3. auto. Qed.

(** the holder moves to [p]: first case of [HRes] *)
Ltac hput c p := left; simpl; rewrite ?apply_rest_holder, ?apply_rest_lockq, ?apply_rest_tasks; simpl;
  repeat split; auto; apply (ex_intro _ c); apply (ex_intro _ p); simpl; auto.

Lemma HRes_refuse s t c : HRes s t (refuse s t c).
Proof.
  right. left. unfold refuse.
  destruct (is_cont c); [destruct (cont_closed (release s))|]; simpl;
    rewrite ?release_holder, ?release_lockq, ?release_tasks; auto.
Qed.

Lemma HRes_release_finish s s1 t c r :
  holder s1 = holder (release s) -> lockq s1 = lockq (release s) -> tasks s1 = tasks (release s) ->
  HRes s t (finish_call s1 t c r).
Proof.
  intros E1 E2 E3. right. left. simpl. rewrite E1, E2, E3, release_holder, release_lockq, release_tasks. auto.
Qed.

Lemma HRes_release_put s t c p :
  locked_pc p = false -> waitlock p = false -> compat c p = true -> HRes s t (set_pc (release s) t c p).
Proof.
  intros Hl Hw Hc. right. right. simpl. rewrite release_holder, release_lockq, release_tasks.
  repeat split. exists c, p. auto.
Qed.

Lemma HRes_close_trigger s t : HRes s t (close_trigger s t).
Proof.
  unfold close_trigger. destruct (st_fsm s); try (hput CClose C_G3).
  - destruct (runt s); [hput CClose C_WaitRunTask | hput CClose C_G3].
  - apply HRes_release_finish; reflexivity.
Qed.

Lemma HRes_enter_close s t : HRes s t (enter_close s t).
Proof.
  unfold enter_close.
  pose proof (slk_publish s PEndAll) as Hs.
  destruct (st_fsm (publish s PEndAll)) eqn:Ef; try (eapply HRes_slk; [exact Hs | apply HRes_close_trigger]).
  destruct (run_finished (publish s PEndAll)) as [[|]|].
  - eapply HRes_slk; [exact Hs | apply HRes_close_trigger].
  - hput CClose C_WaitRunFinished.
  - eapply HRes_slk; [exact Hs|]. apply HRes_release_finish; reflexivity.
Qed.

Lemma HRes_enter_start s t c : compat c S_G1 = true -> HRes s t (enter_start s t c).
Proof. intros Hc. unfold enter_start. destruct (st_fsm s); try apply HRes_refuse. hput c S_G1. Qed.

Lemma HRes_enter_run s t c : runlike c = true -> HRes s t (enter_run s t c).
Proof. intros Hc. unfold enter_run. destruct (st_fsm s); try apply HRes_refuse. hput c R_WaitStarted. Qed.

Lemma HRes_enter_reset s t o : HRes s t (enter_reset s t o).
Proof.
  unfold enter_reset.
  destruct (st_fsm s); try apply HRes_refuse; (destruct (o_stmt o); [hput (CReset o) Z_G1 | hput (CReset o) Z_G1b]).
Qed.

Lemma HRes_entered s t c (part2 : bool) :
  compat c (if part2 then Granted2 else Granted1) = true -> HRes s t (enter s t c part2).
Proof.
  intros Hc. destruct c; unfold enter;
    try (apply HRes_enter_run; reflexivity); try (destruct part2; discriminate Hc).
  - apply HRes_enter_start; reflexivity.
  - apply HRes_enter_reset.
  - destruct part2; [apply HRes_enter_close | apply HRes_enter_start; reflexivity].
Qed.

Lemma find_rel_tasks q ts t' :
  find_task (rel_tasks q ts) t' = find_task ts t' \/
  exists c p, find_task ts t' = Some (c, p) /\ waitlock p = true /\
              find_task (rel_tasks q ts) t' = Some (c, granted_pc p).
Proof.
  unfold rel_tasks. destruct q as [|t1 q]; [auto|].
  destruct (find_task ts t1) as [[c1 p1]|] eqn:E1; [|auto].
  destruct (Nat.eq_dec t' t1) as [->|Hn].
  - rewrite find_put_eq, E1. destruct (waitlock p1) eqn:Ew; [right; eauto|].
    left. destruct p1; simpl in Ew; try discriminate; reflexivity.
  - left. apply find_put_neq. assumption.
Qed.

(** what a step of task [t] does to the entries of the others *)
Definition tmove (ts ts' : ttab) (t : nat) : Prop :=
  forall t', t' <> t ->
  find_task ts' t' = find_task ts t' \/
  exists c p, find_task ts t' = Some (c, p) /\ waitlock p = true /\ find_task ts' t' = Some (c, granted_pc p).

Lemma tmove_refl ts t : tmove ts ts t.
Proof. intros t' _. left. reflexivity. Qed.

Lemma tmove_trans a b c t : tmove a b t -> tmove b c t -> tmove a c t.
Proof.
  intros H1 H2 t' Hn. destruct (H2 t' Hn) as [E | (c0 & p0 & Hf0 & Hw & E)].
  - rewrite E. apply H1, Hn.
  - destruct (H1 t' Hn) as [E1 | (c1 & p1 & Hf1 & Hw1 & E1)]; [rewrite <- E1; right; eauto|].
    rewrite Hf0 in E1. inversion E1; subst. destruct p1; discriminate.
Qed.

Lemma tmove_remove ts t : tmove ts (remove_task ts t) t.
Proof. intros t' Hn. left. apply find_remove_neq. assumption. Qed.

Lemma tmove_put ts t x : tmove ts (put_task ts t x) t.
Proof. intros t' Hn. left. apply find_put_neq. assumption. Qed.

Lemma tmove_rel_put q ts t x : tmove ts (put_task (rel_tasks q ts) t x) t.
Proof. intros t' Hn. rewrite find_put_neq by assumption. apply find_rel_tasks. Qed.

Lemma tmove_rel_remove q ts t : tmove ts (remove_task (rel_tasks q ts) t) t.
Proof. intros t' Hn. rewrite find_remove_neq by assumption. apply find_rel_tasks. Qed.

Lemma HRes_tmove s t s' : HRes s t s' -> tmove (tasks s) (tasks s') t.
Proof.
  intros [(_ & _ & c & p & _ & _ & E) | [(_ & _ & E) | (_ & _ & c & p & _ & _ & _ & E)]]; rewrite E;
    [apply tmove_put | apply tmove_rel_remove | apply tmove_rel_put].
Qed.

Lemma tmove_fwd ts ts' t t' c p : tmove ts ts' t -> t' <> t -> find_task ts t' = Some (c, p) ->
  exists p', find_task ts' t' = Some (c, p') /\ (p' = p \/ p' = granted_pc p).
Proof.
  intros H Hn Hf. destruct (H t' Hn) as [E | (c0 & p0 & Hf0 & _ & E)].
  - rewrite E. eauto.
  - rewrite Hf in Hf0. inversion Hf0; subst. eauto.
Qed.

Lemma tmove_bwd ts ts' t t' c p' : tmove ts ts' t -> t' <> t -> find_task ts' t' = Some (c, p') ->
  exists p, find_task ts t' = Some (c, p) /\ (p' = p \/ (waitlock p = true /\ p' = granted_pc p)).
Proof.
  intros H Hn Hf. destruct (H t' Hn) as [E | (c0 & p0 & Hf0 & Hw & E)].
  - rewrite E in Hf. eauto.
  - rewrite Hf in E. inversion E; subst. eauto.
Qed.

Lemma acquire_free s t c b : holder s = None -> lockq s = [] ->
  acquire s t c b = enter (set_pc (set_holder s (Some t)) t c (if b then Granted2 else Granted1)) t c b.
Proof. unfold acquire. intros -> ->. reflexivity. Qed.
Lemma acquire_busy s t c b h : holder s = Some h ->
  acquire s t c b = set_pc (set_lockq s (lockq s ++ [t])) t c (if b then WaitLock2 else WaitLock1).
Proof. unfold acquire. intros ->. reflexivity. Qed.
Lemma acquire_cases (P : state -> Prop) s t c (b : bool) :
  (holder s = None -> lockq s = [] ->
   P (enter (set_pc (set_holder s (Some t)) t c (if b then Granted2 else Granted1)) t c b)) ->
  (~ (holder s = None /\ lockq s = []) ->
   P (set_pc (set_lockq s (lockq s ++ [t])) t c (if b then WaitLock2 else WaitLock1))) ->
  P (acquire s t c b).
Proof.
  intros H1 H2. unfold acquire. destruct (holder s); [apply H2; intros [? _]; discriminate|].
  destruct (lockq s); [apply H1; reflexivity | apply H2; intros [_ ?]; discriminate].
Qed.
Lemma enter_start_created s t c : st_fsm s = Created ->
  enter_start s t c = set_pc (change_script (log_hook s HStart None None)) t c S_G1.
Proof. unfold enter_start. intros ->. reflexivity. Qed.
Lemma enter_run_created s t c : st_fsm s = Created -> enter_run s t c = refuse s t c.
Proof. unfold enter_run. intros ->. reflexivity. Qed.
Lemma enter_reset_created s t o : st_fsm s = Created -> enter_reset s t o = refuse s t (CReset o).
Proof. unfold enter_reset. intros ->. reflexivity. Qed.
Lemma release_empty s : lockq s = [] -> release s = set_holder s None.
Proof. unfold release. intros ->. reflexivity. Qed.
Lemma run_finish_running s :
  st_fsm s = Running ->
  run_finish s =
  set_runt (cont_finished (log_hook (set_st_fsm (set_run_arg (set_started_ev s true) None) Finished) HFinished None None)
                          (length (cont_plugins s))) (Some RT_G_fin).
Proof. unfold run_finish. simpl. intros ->. reflexivity. Qed.

(** [acquire] by a task [t] whose entry, if any, is left out of account *)
Lemma LkS_acquire_forgotten s t c (part2 : bool) :
  Lk (holder s) (lockq s) (remove_task (tasks s) t) ->
  compat c (if part2 then Granted2 else Granted1) = true ->
  LkS (acquire s t c part2).
Proof.
  intros H Hc. apply acquire_cases.
  - intros Eh Eq. rewrite Eh, Eq in H.
    eapply (HRes_Lk (set_pc (set_holder s (Some t)) t c (if part2 then Granted2 else Granted1)) t);
      [|reflexivity | apply HRes_entered, Hc].
    unfold LkS. simpl. rewrite Eq. apply Lk_readd_take; auto. destruct part2; reflexivity.
  - intros Hb. apply Lk_readd_enqueue; auto; [destruct part2; reflexivity | destruct part2; exact Hc].
Qed.

Lemma LkS_acquire s t c (part2 : bool) :
  LkS s ->
  (forall c0 p0, find_task (tasks s) t = Some (c0, p0) -> locked_pc p0 = false /\ waitlock p0 = false) ->
  compat c (if part2 then Granted2 else Granted1) = true ->
  LkS (acquire s t c part2).
Proof. intros HL Hout Hc. apply LkS_acquire_forgotten; [|exact Hc]. apply Lk_forget_free; assumption. Qed.

(** close(): the start part is over; release and queue again for the close part *)
Lemma LkS_requeue s t :
  LkS s -> holder s = Some t -> LkS (acquire (release s) t CClose true).
Proof.
  intros HL Hh. apply LkS_acquire_forgotten; [|reflexivity].
  rewrite release_holder, release_lockq, release_tasks. apply Lk_release_forget. rewrite <- Hh. exact HL.
Qed.

(** [do_call] by cases.  A call by an idle task asks for the lock, returns at once, or (signal, command) stops at its
    hook gate -- from a state that differs from [s] in the trace, the started / closed flags and the plugin list only, so
    whatever is known of the other fields of [s] holds of it by computation. *)
Definition called_from (s : state) tr ns nc cp : state :=
  set_cont_plugins (set_nl_closed (set_nl_started (set_trace s tr) ns) nc) cp.

Lemma do_call_cases (P : state -> Prop) s t c :
  find_task (tasks s) t = None ->
  (forall tr ns nc cp (b : bool), compat c (if b then Granted2 else Granted1) = true ->
     P (acquire (called_from s tr ns nc cp) t c b)) ->
  (forall tr ns nc cp r, P (finish_call (called_from s tr ns nc cp) t c r)) ->
  (forall tr ns nc cp, compat c Sig_G = true -> P (set_pc (called_from s tr ns nc cp) t c Sig_G)) ->
  P (do_call s t c).
Proof.
  intros Ef HA HF HP. unfold do_call. rewrite Ef.
  (* the common case: only the trace differs *)
  pose proof (fun tr b => HA tr (nl_started s) (nl_closed s) (cont_plugins s) b) as A.
  pose proof (fun tr => HF tr (nl_started s) (nl_closed s) (cont_plugins s)) as F.
  pose proof (fun tr => HP tr (nl_started s) (nl_closed s) (cont_plugins s)) as G.
  destruct c; cbn [nl_started nl_closed cont_closed running_process send_command set_trace];
    try (apply (A _ false eq_refl)).
  - (* CStart *)
    destruct (nl_started s); [apply (HF _ (nl_started s) (nl_closed s) (cont_plugins s))|].
    apply (HA (EvPub (PCont false) :: EvCall t CStart :: trace s) true (nl_closed s) (cont_plugins s) false eq_refl).
  - (* CClose *)
    destruct (nl_closed s); [apply (HF _ (nl_started s) (nl_closed s) (cont_plugins s))|]. simpl. destruct (nl_started s).
    + apply (HA _ (nl_started s) true (cont_plugins s) true eq_refl).
    + apply (HA (EvPub (PCont false) :: EvCall t CClose :: trace s) true true (cont_plugins s) false eq_refl).
  - (* CRunCont *)
    destruct (cont_closed s); [apply (F _)|].
    apply (HA (EvPub (PCont true) :: EvCall t CRunCont :: trace s)
              (nl_started s) (nl_closed s) (cont_plugins s ++ [(t, false)]) false eq_refl).
  - (* CRunContWait *)
    destruct (cont_closed s); [apply (F _)|].
    apply (HA (EvPub (PCont true) :: EvCall t CRunContWait :: trace s)
              (nl_started s) (nl_closed s) (cont_plugins s ++ [(t, false)]) false eq_refl).
  - (* CSignal *)
    destruct (running_process s).
    + apply (G (trace (log_hook (set_trace s (EvCall t CSignal :: trace s)) HSignal None None)) eq_refl).
    + apply (F (trace (log_hook (set_trace s (EvCall t CSignal :: trace s)) HSignal None None))).
  - (* CSend *)
    destruct (send_command s).
    + apply (G (trace (log_hook (set_trace s (EvCall t CSend :: trace s)) HSend None None)) eq_refl).
    + apply (F (trace (log_hook (set_trace s (EvCall t CSend :: trace s)) HSend None None))).
Qed.

Lemma LkS_do_call s t c : LkS s -> LkS (do_call s t c).
Proof.
  intros HL. destruct (find_task (tasks s) t) as [x|] eqn:Ef; [unfold do_call; rewrite Ef; exact HL|].
  assert (Hfree : forall c0 p0, find_task (tasks s) t = Some (c0, p0) -> locked_pc p0 = false /\ waitlock p0 = false)
    by (intros; congruence).
  apply do_call_cases; [exact Ef | intros; apply LkS_acquire | intros; apply LkS_finish_free | intros; apply LkS_put_free];
    first [assumption | reflexivity].
Qed.

(** the holder's step only moves it to [p] *)
Ltac inside c p := eapply HRes_Lk; [eassumption | eassumption | hput c p].

Lemma LkS_do_step s t : LkS s -> LkS (do_step s t).
Proof.
  intros HL. unfold do_step. destruct (find_task (tasks s) t) as [[c p]|] eqn:Ef; auto.
  pose proof (lk_compat _ _ _ HL _ _ _ Ef) as Hc.
  assert (Hhold : locked_pc p = true -> holder s = Some t) by (intros Hl; eapply (lk_holder_of _ _ _ HL); eauto).
  destruct p; simpl in Hhold; try specialize (Hhold eq_refl); auto.
  - eapply HRes_Lk; eauto. apply HRes_entered, Hc.
  - eapply HRes_Lk; eauto. apply HRes_entered, Hc.
  - inside c S_G2.
  - inside c S_G3.
  - (* S_G3 *)
    destruct c; simpl in Hc; try discriminate.
    + eapply HRes_Lk; eauto. apply HRes_release_finish; reflexivity.
    + apply LkS_requeue; auto.
  - destruct (started_ev s); auto. inside c R_G.
  - (* R_G *)
    destruct c; simpl in Hc; try discriminate; eapply HRes_Lk; eauto;
      first [apply HRes_release_finish; reflexivity | apply HRes_release_put; reflexivity].
  - (* Z_G1 *)
    destruct c; simpl in Hc; try discriminate. inside (CReset o) Z_G1b.
  - (* Z_G1b *)
    destruct (st_fsm s); try (inside c Z_G3). destruct (runt s); [inside c Z_WaitRunTask | inside c Z_G3].
  - destruct (runt s); auto. inside c Z_G3.
  - inside c Z_G4.
  - eapply HRes_Lk; eauto. apply HRes_release_finish; reflexivity.
  - destruct (run_finished s) as [[|]|]; auto. eapply HRes_Lk; eauto. apply HRes_close_trigger.
  - destruct (runt s); auto. destruct c; simpl in Hc; try discriminate. inside CClose C_G3.
  - inside c C_G4.
  - eapply HRes_Lk; eauto. apply HRes_release_finish; reflexivity.
  - (* P_WaitRunFinished *)
    destruct (run_finished s) as [[|]|]; auto.
    apply LkS_finish_free; [exact HL|]. intros c0 p0 Hf. rewrite Ef in Hf. inversion Hf; subst. auto.
  - apply LkS_finish_free; [exact HL|]. intros c0 p0 Hf. rewrite Ef in Hf. inversion Hf; subst. auto.
Qed.

Theorem LkS_step s l : LkS s -> LkS (step s l).
Proof.
  intros HL. destruct l; simpl.
  - apply LkS_do_call; auto.
  - apply LkS_do_step; auto.
  - eapply LkS_slk; [apply slk_step_run | exact HL].
  - unfold do_child_exit. destruct (alive s); auto.
Qed.

Lemma LkS_init a b c d : LkS (init_state a b c d).
Proof.
  unfold LkS. simpl. constructor; simpl; try (intros; discriminate); try (intros; contradiction); auto.
  constructor.
Qed.

Theorem LkS_reachable a b c d ls : LkS (run_labels (init_state a b c d) ls).
Proof. apply run_labels_ind; [intros; apply LkS_step; assumption | apply LkS_init]. Qed.
