(** State-machine invariants of the lifecycle model: where each task may be for
    each lifecycle state, the run task versus the state, the child process.
    Hold in every reachable state (every label sequence).
    For the later files: [take_new], [requeue_inv] give both invariants of the state between
    taking the lock and the first segment of the call, which [acquire] passes through. *)
From NL Require Import Life.Model Life.LockInv.
From Coq Require Import Lia.

Definition early (r : rpc) : bool :=
  match r with RT_New | RT_Created | RT_G_start | RT_WaitChild | RT_G_end => true | _ => false end.

(** the lifecycle states a task may observe at each of its suspension points *)
Definition pc_fsm_ok (p : pc) (f : fsm) : bool :=
  match p with
  | S_G1 => match f with Created => true | _ => false end
  | S_G2 | S_G3 | Z_G3 | Z_G4 => match f with Initialized => true | _ => false end
  | R_WaitStarted | R_G | C_WaitRunFinished => match f with Running | Finished => true | _ => false end
  | Z_G1 | Z_G1b | Z_WaitRunTask => match f with Initialized | Finished => true | _ => false end
  | C_WaitRunTask => match f with Finished => true | _ => false end
  | C_G3 | C_G4 => match f with Closed => true | _ => false end
  | _ => true
  end.

Definition PcOk (ts : ttab) (f : fsm) : Prop :=
  forall t c p, find_task ts t = Some (c, p) -> pc_fsm_ok p f = true.

Definition child_ok (r : option rpc) (a : nat) (p : option outcome) : Prop :=
  match r with
  | Some RT_Created | Some RT_G_start | Some RT_WaitChild =>
    (a = 1%nat /\ p = None) \/ (a = 0%nat /\ p <> None)
  | _ => a = 0%nat /\ p = None
  end.

Record Scal (f : fsm) (r : option rpc) (rf : option bool) (a : nat) (pe : option outcome)
            (ra : option runarg) : Prop := mkScal {
  sc_early : forall x, r = Some x -> early x = true -> f = Running;
  sc_late : forall x, r = Some x -> early x = false -> f = Finished;
  sc_none : r = None -> f <> Running;
  sc_rf_some : forall x, r = Some x -> rf = Some false;
  sc_rf_none : r = None -> rf <> Some false;
  sc_child : child_ok r a pe;
  sc_ra : f = Initialized \/ f = Running -> ra <> None
}.

Definition FI (s : state) : Prop :=
  PcOk (tasks s) (st_fsm s) /\ Scal (st_fsm s) (runt s) (run_finished s) (alive s) (pending_exit s) (run_arg s).

Lemma unlocked_ok p f : locked_pc p = false -> pc_fsm_ok p f = true.
Proof. destruct p; simpl; try discriminate; auto. Qed.

Lemma granted_ok p f : waitlock p = true -> pc_fsm_ok (granted_pc p) f = true.
Proof. destruct p; simpl; try discriminate; auto. Qed.

Lemma pc_ok_run_fin p : pc_fsm_ok p Running = true -> pc_fsm_ok p Finished = true.
Proof. destruct p; simpl; auto. Qed.

Lemma PcOk_put_holder q ts t c p f' :
  Lk (Some t) q ts -> pc_fsm_ok p f' = true -> PcOk (put_task ts t (c, p)) f'.
Proof.
  intros HL Hp t' c' p'. rewrite find_put. destruct (Nat.eqb_spec t' t) as [->|Hn]; intros Hf.
  - inversion Hf; subst. exact Hp.
  - apply unlocked_ok. exact (others_unlocked _ _ _ _ _ _ HL Hn Hf).
Qed.

Lemma find_rel_tasks_other q ts t t' c p :
  Lk (Some t) q ts -> t' <> t -> find_task (rel_tasks q ts) t' = Some (c, p) ->
  locked_pc p = false \/ exists p0, waitlock p0 = true /\ p = granted_pc p0.
Proof.
  intros HL Hn. unfold rel_tasks. destruct q as [|t1 q]; [left; eapply others_unlocked; eauto|].
  destruct (lk_q_wait _ _ _ HL t1 (or_introl eq_refl)) as (c1 & p1 & Hf1 & Hw1). rewrite Hf1, find_put.
  destruct (Nat.eqb t' t1); intros Hf.
  - inversion Hf; subst. right. eauto.
  - left. eapply others_unlocked; eauto.
Qed.

(** what holds of every pc outside the lock and of the pc a waiter is granted holds, after the holder [t] has released,
    of every entry but its own ([PcOk] and the like over one predicate [Q]) *)
Section ReleaseAll.
Variable Q : pc -> Prop.
Hypothesis Q_unlocked : forall p, locked_pc p = false -> Q p.
Hypothesis Q_granted : forall p, waitlock p = true -> Q (granted_pc p).

Lemma rel_tasks_other_all q ts t t' c p :
  Lk (Some t) q ts -> t' <> t -> find_task (rel_tasks q ts) t' = Some (c, p) -> Q p.
Proof.
  intros HL Hn Hf. destruct (find_rel_tasks_other _ _ _ _ _ _ HL Hn Hf) as [Hl | (p0 & Hw & ->)]; auto.
Qed.

Lemma release_remove_all q ts t :
  Lk (Some t) q ts -> forall t' c p, find_task (remove_task (rel_tasks q ts) t) t' = Some (c, p) -> Q p.
Proof.
  intros HL t' c p. rewrite find_remove. destruct (Nat.eqb_spec t' t) as [->|Hn]; [discriminate|].
  apply rel_tasks_other_all with (1 := HL) (2 := Hn).
Qed.

Lemma release_put_all q ts t c p :
  Lk (Some t) q ts -> Q p -> forall t' c' p', find_task (put_task (rel_tasks q ts) t (c, p)) t' = Some (c', p') -> Q p'.
Proof.
  intros HL Hp t' c' p'. rewrite find_put. destruct (Nat.eqb_spec t' t) as [->|Hn].
  - intros Hf. inversion Hf; subst. exact Hp.
  - apply rel_tasks_other_all with (1 := HL) (2 := Hn).
Qed.
End ReleaseAll.

Lemma PcOk_release_remove q ts t f' :
  Lk (Some t) q ts -> PcOk (remove_task (rel_tasks q ts) t) f'.
Proof.
  exact (release_remove_all (fun p => pc_fsm_ok p f' = true) (fun p => unlocked_ok p f') (fun p => granted_ok p f') q ts t).
Qed.

Lemma PcOk_release_put q ts t c p f' :
  Lk (Some t) q ts -> pc_fsm_ok p f' = true -> PcOk (put_task (rel_tasks q ts) t (c, p)) f'.
Proof.
  exact (release_put_all (fun p => pc_fsm_ok p f' = true) (fun p => unlocked_ok p f') (fun p => granted_ok p f') q ts t c p).
Qed.

Lemma PcOk_put ts t c p f : PcOk ts f -> pc_fsm_ok p f = true -> PcOk (put_task ts t (c, p)) f.
Proof.
  intros H Hp t' c' p'. rewrite find_put. destruct (Nat.eqb t' t); [|apply H].
  intros Hf. inversion Hf; subst. exact Hp.
Qed.

Lemma PcOk_remove ts t f : PcOk ts f -> PcOk (remove_task ts t) f.
Proof. intros H t' c' p'. rewrite find_remove. destruct (Nat.eqb t' t); [discriminate | apply H]. Qed.

Lemma PcOk_run_fin ts : PcOk ts Running -> PcOk ts Finished.
Proof. intros H t c p Hf. apply pc_ok_run_fin. eauto. Qed.

Definition scal_of (s : state) := (st_fsm s, runt s, run_finished s, alive s, pending_exit s, run_arg s).

Lemma FI_holder_put s s' t c p :
  LkS s -> holder s = Some t ->
  tasks s' = put_task (tasks s) t (c, p) -> pc_fsm_ok p (st_fsm s') = true ->
  Scal (st_fsm s') (runt s') (run_finished s') (alive s') (pending_exit s') (run_arg s') -> FI s'.
Proof.
  intros HL Hh Et Hp HS. split; auto. rewrite Et. unfold LkS in HL. rewrite Hh in HL.
  eapply PcOk_put_holder; eauto.
Qed.

Lemma FI_holder_release s s' t :
  LkS s -> holder s = Some t ->
  (tasks s' = remove_task (rel_tasks (lockq s) (tasks s)) t \/
   exists c p, locked_pc p = false /\ tasks s' = put_task (rel_tasks (lockq s) (tasks s)) t (c, p)) ->
  Scal (st_fsm s') (runt s') (run_finished s') (alive s') (pending_exit s') (run_arg s') -> FI s'.
Proof.
  intros HL Hh Et HS. split; auto. unfold LkS in HL. rewrite Hh in HL.
  destruct Et as [-> | (c & p & Hl & ->)].
  - apply PcOk_release_remove; auto.
  - apply PcOk_release_put; auto. apply unlocked_ok; auto.
Qed.

Lemma apply_rest_scal s o : scal_of (apply_rest s o) = scal_of s.
Proof. rewrite apply_rest_eq. reflexivity. Qed.

Lemma Scal_same s s' : scal_of s' = scal_of s -> FI s ->
  Scal (st_fsm s') (runt s') (run_finished s') (alive s') (pending_exit s') (run_arg s').
Proof. unfold scal_of. intros E [_ HS]. inversion E. congruence. Qed.

Lemma Scal_idle f r rf a pe ra :
  Scal f r rf a pe ra -> f <> Running -> f <> Finished -> r = None.
Proof.
  intros H H1 H2. destruct r as [x|]; auto. destruct (early x) eqn:E.
  - exfalso. apply H1. eapply sc_early; eauto.
  - exfalso. apply H2. eapply sc_late; eauto.
Qed.

Lemma Scal_to_initialized f r rf a pe ra ra' :
  Scal f r rf a pe ra -> r = None -> Scal Initialized r rf a pe (Some ra').
Proof.
  intros H ->. constructor; try (intros; discriminate).
  - apply (sc_rf_none _ _ _ _ _ _ H).
  - apply (sc_child _ _ _ _ _ _ H).
Qed.

Lemma Scal_to_closed f rf a pe ra :
  Scal f None rf a pe ra -> Scal Closed None rf a pe ra.
Proof.
  intros H. constructor; try (intros; discriminate).
  - apply (sc_rf_none _ _ _ _ _ _ H).
  - apply (sc_child _ _ _ _ _ _ H).
  - intros [?|?]; discriminate.
Qed.

Lemma Scal_run_start r rf a pe ra :
  Scal Initialized r rf a pe ra -> Scal Running (Some RT_New) (Some false) a pe ra.
Proof.
  intros H. assert (r = None) by (eapply Scal_idle; eauto; discriminate). subst r.
  constructor; try (intros; discriminate); auto.
  - intros x Hx Hl. inversion Hx; subst. discriminate.
  - apply (sc_child _ _ _ _ _ _ H).
  - intros _. apply (sc_ra _ _ _ _ _ _ H). auto.
Qed.

Lemma Scal_running_not_none f r rf a pe ra : Scal f r rf a pe ra -> f = Running -> exists x, r = Some x /\ early x = true /\ rf = Some false.
Proof.
  intros H Hf. destruct r as [x|].
  - exists x. repeat split; auto.
    + destruct (early x) eqn:E; auto. pose proof (sc_late _ _ _ _ _ _ H x eq_refl E). congruence.
    + eapply sc_rf_some; eauto.
  - exfalso. apply (sc_none _ _ _ _ _ _ H); auto.
Qed.

Lemma release_scal s : scal_of (release s) = scal_of s.
Proof. rewrite release_eq. reflexivity. Qed.

Lemma scal_of_fields s s' : scal_of s' = scal_of s ->
  st_fsm s' = st_fsm s /\ runt s' = runt s /\ run_finished s' = run_finished s /\ alive s' = alive s
  /\ pending_exit s' = pending_exit s /\ run_arg s' = run_arg s.
Proof. unfold scal_of. intros E. inversion E. repeat split; reflexivity. Qed.

Lemma ar_fsm s o : st_fsm (apply_rest s o) = st_fsm s.
Proof. apply (scal_of_fields _ _ (apply_rest_scal s o)). Qed.
Lemma ar_runt s o : runt (apply_rest s o) = runt s.
Proof. apply (scal_of_fields _ _ (apply_rest_scal s o)). Qed.
Lemma ar_rf s o : run_finished (apply_rest s o) = run_finished s.
Proof. apply (scal_of_fields _ _ (apply_rest_scal s o)). Qed.
Lemma ar_alive s o : alive (apply_rest s o) = alive s.
Proof. apply (scal_of_fields _ _ (apply_rest_scal s o)). Qed.
Lemma ar_pe s o : pending_exit (apply_rest s o) = pending_exit s.
Proof. apply (scal_of_fields _ _ (apply_rest_scal s o)). Qed.
Lemma ar_ra s o : run_arg (apply_rest s o) = run_arg s.
Proof. apply (scal_of_fields _ _ (apply_rest_scal s o)). Qed.
Lemma rl_fsm s : st_fsm (release s) = st_fsm s.
Proof. apply (scal_of_fields _ _ (release_scal s)). Qed.
Lemma rl_runt s : runt (release s) = runt s.
Proof. apply (scal_of_fields _ _ (release_scal s)). Qed.
Lemma rl_rf s : run_finished (release s) = run_finished s.
Proof. apply (scal_of_fields _ _ (release_scal s)). Qed.
Lemma rl_alive s : alive (release s) = alive s.
Proof. apply (scal_of_fields _ _ (release_scal s)). Qed.
Lemma rl_pe s : pending_exit (release s) = pending_exit s.
Proof. apply (scal_of_fields _ _ (release_scal s)). Qed.
Lemma rl_ra s : run_arg (release s) = run_arg s.
Proof. apply (scal_of_fields _ _ (release_scal s)). Qed.

Lemma fsm_refuse s t c : st_fsm (refuse s t c) = st_fsm s.
Proof. unfold refuse. destruct (is_cont c); [destruct (cont_closed _)|]; simpl; apply rl_fsm. Qed.

Ltac same_scal :=
  eapply Scal_same; [| eassumption]; unfold scal_of; simpl;
  rewrite ?ar_fsm, ?ar_runt, ?ar_rf, ?ar_alive, ?ar_pe, ?ar_ra, ?rl_fsm, ?rl_runt, ?rl_rf, ?rl_alive, ?rl_pe, ?rl_ra;
  reflexivity.

Lemma FI_refuse s t c : LkS s -> FI s -> holder s = Some t -> FI (refuse s t c).
Proof.
  intros HL HF Hh. eapply FI_holder_release; eauto.
  - left. unfold refuse. destruct (is_cont c); [destruct (cont_closed (release s))|]; simpl; rewrite release_tasks; reflexivity.
  - eapply Scal_same; [|eassumption]. unfold refuse.
    destruct (is_cont c); [destruct (cont_closed (release s))|]; simpl; apply release_scal.
Qed.

Lemma FI_release_finish s s1 t c r :
  LkS s -> FI s -> holder s = Some t -> tasks s1 = tasks (release s) -> scal_of s1 = scal_of s ->
  FI (finish_call s1 t c r).
Proof.
  intros HL HF Hh Et Es. eapply FI_holder_release; eauto.
  - left. simpl. rewrite Et, release_tasks. reflexivity.
  - eapply Scal_same; [|eassumption]. exact Es.
Qed.

Lemma FI_close_enter_closed s t :
  LkS s -> FI s -> holder s = Some t -> runt s = None -> FI (close_enter_closed s t).
Proof.
  intros HL [_ HS] Hh Hr. eapply (FI_holder_put s _ t); [exact HL | exact Hh | reflexivity | reflexivity |].
  simpl. rewrite Hr in *. apply (Scal_to_closed _ _ _ _ _ HS).
Qed.

Lemma FI_close_trigger s t :
  LkS s -> FI s -> holder s = Some t -> st_fsm s <> Running -> FI (close_trigger s t).
Proof.
  intros HL HF Hh Hnr. unfold close_trigger. pose proof HF as [_ HS].
  pose proof (Scal_idle _ _ _ _ _ _ HS) as Hidle.
  destruct (st_fsm s) eqn:Ef.
  - (* the start hooks first: a state with the lock triple, table and scalars of [s] *)
    apply FI_close_enter_closed; try assumption. apply Hidle; discriminate.
  - apply FI_close_enter_closed; try assumption. apply Hidle; discriminate.
  - (* Running: not possible, the caller has waited for the run *)
    congruence.
  - destruct (runt s) eqn:Er.
    + eapply FI_holder_put; eauto; [reflexivity | simpl; rewrite Ef; reflexivity | same_scal].
    + apply FI_close_enter_closed; assumption.
  - eapply FI_release_finish; eauto. simpl. apply release_scal.
Qed.

Lemma FI_enter_close s t : LkS s -> FI s -> holder s = Some t -> FI (enter_close s t).
Proof.
  intros HL HF Hh. unfold enter_close. pose proof HF as [HP HS].
  pose proof (LkS_slk _ _ (slk_publish s PEndAll) HL) as HL1.
  assert (HF1 : FI (publish s PEndAll)) by exact HF.
  destruct (st_fsm (publish s PEndAll)) eqn:Ef; try (apply FI_close_trigger; auto; simpl in *; congruence).
  simpl in Ef.
  destruct (Scal_running_not_none _ _ _ _ _ _ HS Ef) as (x & Hr & He & Hrf).
  simpl. rewrite Hrf.
  eapply (FI_holder_put s _ t); [exact HL | exact Hh | reflexivity | simpl; rewrite Ef; reflexivity | same_scal].
Qed.

(** the holder moves to another pc inside the lock, the scalars unchanged.  [Ef] rewrites the goal
    [pc_fsm_ok p (st_fsm s') = true]: the equation for the lifecycle state, or that goal itself after [simpl] *)
Ltac fi_inside s t HL Hh Ef :=
  eapply (FI_holder_put s _ t); [exact HL | exact Hh | simpl; rewrite ?apply_rest_tasks; reflexivity
                                | simpl; rewrite ?ar_fsm; simpl; rewrite ?Ef; try reflexivity | try same_scal].

Lemma FI_enter_start s t c : LkS s -> FI s -> holder s = Some t -> FI (enter_start s t c).
Proof.
  intros HL HF Hh. unfold enter_start. destruct (st_fsm s) eqn:Ef; try (apply FI_refuse; auto).
  fi_inside s t HL Hh Ef.
Qed.

Lemma FI_enter_run s t c : LkS s -> FI s -> holder s = Some t -> FI (enter_run s t c).
Proof.
  intros HL HF Hh. pose proof HF as [_ HS]. unfold enter_run. destruct (st_fsm s) eqn:Ef; try (apply FI_refuse; auto).
  eapply (FI_holder_put s _ t); [exact HL | exact Hh | reflexivity | reflexivity |].
  simpl. eapply Scal_run_start; eauto.
Qed.

Lemma FI_enter_reset s t o : LkS s -> FI s -> holder s = Some t -> FI (enter_reset s t o).
Proof.
  intros HL HF Hh. unfold enter_reset.
  destruct (st_fsm s) eqn:Ef; try (apply FI_refuse; auto); destruct (o_stmt o); fi_inside s t HL Hh Ef.
Qed.

Lemma FI_enter s t c part2 :
  LkS s -> FI s -> holder s = Some t -> FI (enter s t c part2).
Proof.
  intros HL HF Hh. destruct c; unfold enter; auto using FI_enter_start, FI_enter_run, FI_enter_reset.
  destruct part2; [apply FI_enter_close | apply FI_enter_start]; auto.
Qed.

Lemma FI_free_put s t c p : FI s -> locked_pc p = false -> FI (set_pc s t c p).
Proof. intros [HP HS] Hl. split; [|exact HS]. apply PcOk_put; auto. apply unlocked_ok; auto. Qed.

Lemma FI_free_finish s t c r : FI s -> FI (finish_call s t c r).
Proof. intros [HP HS]. split; [|exact HS]. apply PcOk_remove; auto. Qed.

(** [acquire] by a task [t] whose entry, if any, is left out of account (cf. [LkS_acquire_forgotten]);
    [HP]: wherever [t] is put, the table fits the lifecycle state *)
Lemma FI_acquire_forgotten s t c (part2 : bool) :
  Lk (holder s) (lockq s) (remove_task (tasks s) t) ->
  compat c (if part2 then Granted2 else Granted1) = true ->
  (forall p, pc_fsm_ok p (st_fsm s) = true -> PcOk (put_task (tasks s) t (c, p)) (st_fsm s)) ->
  Scal (st_fsm s) (runt s) (run_finished s) (alive s) (pending_exit s) (run_arg s) ->
  FI (acquire s t c part2).
Proof.
  intros H Hc HP HS. apply acquire_cases; [|intros _; split; [apply HP; destruct part2; reflexivity | exact HS]].
  intros Eh Eq. rewrite Eh, Eq in H.
  apply FI_enter; [|split; [apply HP; destruct part2; reflexivity | exact HS] | reflexivity].
  unfold LkS. simpl. rewrite Eq. apply Lk_readd_take; auto. destruct part2; reflexivity.
Qed.

Lemma FI_acquire s t c (part2 : bool) :
  LkS s -> FI s ->
  (forall c0 p0, find_task (tasks s) t = Some (c0, p0) -> locked_pc p0 = false /\ waitlock p0 = false) ->
  compat c (if part2 then Granted2 else Granted1) = true ->
  FI (acquire s t c part2).
Proof.
  intros HL [HP HS] Hout Hc. apply FI_acquire_forgotten; auto.
  - apply Lk_forget_free; assumption.
  - intros p Hp. apply PcOk_put; assumption.
Qed.

Lemma take_new s t c (part2 : bool) :
  LkS s -> FI s -> compat c (if part2 then Granted2 else Granted1) = true ->
  holder s = None -> lockq s = [] ->
  LkS (set_pc (set_holder s (Some t)) t c (if part2 then Granted2 else Granted1)) /\
  FI (set_pc (set_holder s (Some t)) t c (if part2 then Granted2 else Granted1)).
Proof.
  intros HL [HP HS] Hc Eh Eq. split.
  - unfold LkS. simpl. rewrite Eq. unfold LkS in HL. rewrite Eh, Eq in HL.
    apply Lk_grant; auto. destruct part2; reflexivity.
  - split; auto. simpl. apply PcOk_put; auto. destruct part2; reflexivity.
Qed.

(** close(): the start part is over, the lock is free again and handed back at once *)
Lemma requeue_inv s t :
  LkS s -> FI s -> holder s = Some t -> lockq s = [] ->
  LkS (set_pc (set_holder (release s) (Some t)) t CClose Granted2) /\
  FI (set_pc (set_holder (release s) (Some t)) t CClose Granted2).
Proof.
  intros HL HF Hh Eq. pose proof HL as HL0. unfold LkS in HL0. rewrite Hh in HL0.
  pose proof (Lk_release_forget _ _ _ HL0) as HFg. destruct HF as [HP HS]. split.
  - unfold LkS. simpl. rewrite ?release_lockq, ?release_tasks, ?Eq. rewrite Eq in HFg. apply Lk_readd_take; auto.
  - split; simpl.
    + rewrite rl_fsm, release_tasks. apply PcOk_release_put; auto.
    + rewrite rl_fsm, rl_runt, rl_rf, rl_alive, rl_pe, rl_ra. exact HS.
Qed.

Lemma FI_do_call s t c : LkS s -> FI s -> FI (do_call s t c).
Proof.
  intros HL HF. destruct (find_task (tasks s) t) as [x|] eqn:Ef; [unfold do_call; rewrite Ef; exact HF|].
  assert (Hfree : forall c0 p0, find_task (tasks s) t = Some (c0, p0) -> locked_pc p0 = false /\ waitlock p0 = false)
    by (intros; congruence).
  apply do_call_cases; [exact Ef | intros; apply FI_acquire | intros; apply FI_free_finish | intros; apply FI_free_put];
    first [assumption | reflexivity].
Qed.

Lemma FI_requeue s t : LkS s -> FI s -> holder s = Some t -> FI (acquire (release s) t CClose true).
Proof.
  intros HL [_ HS] Hh. unfold LkS in HL. rewrite Hh in HL.
  apply FI_acquire_forgotten;
    rewrite ?release_holder, ?release_lockq, ?release_tasks, ?rl_fsm, ?rl_runt, ?rl_rf, ?rl_alive, ?rl_pe, ?rl_ra; auto.
  - apply Lk_release_forget, HL.
  - intros p Hp. apply PcOk_release_put; assumption.
Qed.

Lemma FI_reinit s t c p :
  LkS s -> FI s -> holder s = Some t -> runt s = None -> pc_fsm_ok p Initialized = true ->
  FI (set_pc (initialize_run (set_st_fsm s Initialized)) t c p).
Proof.
  intros HL [_ HS] Hh Hr Hp. eapply (FI_holder_put s _ t); [exact HL | exact Hh | reflexivity | exact Hp |].
  simpl. eapply Scal_to_initialized; eauto.
Qed.

Lemma FI_do_step s t : LkS s -> FI s -> FI (do_step s t).
Proof.
  intros HL HF. unfold do_step. destruct (find_task (tasks s) t) as [[c p]|] eqn:Ef; auto.
  pose proof HF as [HP HS].
  pose proof (HP _ _ _ Ef) as Hok.
  pose proof (lk_compat _ _ _ HL _ _ _ Ef) as Hc.
  assert (Hhold : locked_pc p = true -> holder s = Some t) by (intros Hl; eapply (lk_holder_of _ _ _ HL); eauto).
  destruct p; simpl in Hhold; try specialize (Hhold eq_refl); auto; simpl in Hok.
  - apply FI_enter; auto.
  - apply FI_enter; auto.
  - (* S_G1: Created -> Initialized, initialize_run *)
    destruct (st_fsm s) eqn:Efs; try discriminate.
    apply (FI_reinit s t c _ HL HF Hhold); [|reflexivity]. eapply Scal_idle; eauto; discriminate.
  - destruct (st_fsm s) eqn:Efs; try discriminate. fi_inside s t HL Hhold Efs.
  - (* S_G3 *)
    destruct c; simpl in Hc; try discriminate.
    + eapply FI_release_finish; eauto. apply release_scal.
    + apply FI_requeue; auto.
  - destruct (started_ev s); auto. fi_inside s t HL Hhold Hok.
  - (* R_G *)
    destruct c; simpl in Hc; try discriminate;
      try (eapply FI_release_finish; eauto; apply release_scal);
      (eapply FI_holder_release; eauto;
       [right; simpl; rewrite release_tasks; eexists; exists P_WaitRunFinished; split; reflexivity | same_scal]).
  - destruct c; simpl in Hc; try discriminate. fi_inside s t HL Hhold Hok.
  - (* Z_G1b *)
    destruct (st_fsm s) eqn:Efs; try discriminate.
    + apply (FI_reinit s t c _ HL HF Hhold); [|reflexivity]. eapply Scal_idle; eauto; discriminate.
    + destruct (runt s) eqn:Er.
      * fi_inside s t HL Hhold Efs.
      * exact (FI_reinit s t c Z_G3 HL HF Hhold Er eq_refl).
  - (* Z_WaitRunTask *)
    destruct (runt s) eqn:Er; auto. exact (FI_reinit s t c Z_G3 HL HF Hhold Er eq_refl).
  - destruct (st_fsm s) eqn:Efs; try discriminate. fi_inside s t HL Hhold Efs.
  - eapply FI_release_finish; eauto. apply release_scal.
  - (* C_WaitRunFinished *)
    destruct (run_finished s) as [[|]|] eqn:Erf; auto.
    apply FI_close_trigger; auto. intros Hr.
    destruct (Scal_running_not_none _ _ _ _ _ _ HS Hr) as (x & _ & _ & E). congruence.
  - (* C_WaitRunTask *)
    destruct (runt s) eqn:Er; auto. apply FI_close_enter_closed; assumption.
  - destruct (st_fsm s) eqn:Efs; try discriminate. fi_inside s t HL Hhold Efs.
  - eapply FI_release_finish; eauto. simpl. apply release_scal.
  - (* P_WaitRunFinished *)
    destruct (run_finished s) as [[|]|]; auto. apply FI_free_finish, HF.
  - apply FI_free_finish, HF.
Qed.

Lemma scal_cont_finished n : forall s, scal_of (cont_finished s n) = scal_of s.
Proof. intros s. destruct (cont_finished_eq n s) as (cp & new & ->). reflexivity. Qed.
Lemma cf_fsm n s : st_fsm (cont_finished s n) = st_fsm s.
Proof. apply (scal_of_fields _ _ (scal_cont_finished n s)). Qed.

Lemma FI_run_finish s x :
  FI s -> runt s = Some x -> early x = true -> alive s = 0%nat -> pending_exit s = None -> FI (run_finish s).
Proof.
  intros [HP HS] Hr He Ha Hp. pose proof (sc_early _ _ _ _ _ _ HS x Hr He) as Hf.
  unfold run_finish. simpl. rewrite Hf.
  match goal with |- FI (set_runt (cont_finished ?y ?n) _) => destruct (cont_finished_eq n y) as (cp & new & ->) end.
  split; simpl.
  - apply PcOk_run_fin. rewrite <- Hf. exact HP.
  - constructor.
    + intros y Hy Hl. inversion Hy; subst. discriminate.
    + intros; reflexivity.
    + intros; discriminate.
    + intros y Hy. eapply sc_rf_some; eauto.
    + intros; discriminate.
    + simpl. auto.
    + intros [?|?]; discriminate.
Qed.

Lemma Scal_early_step f x y rf a pe ra a' pe' ra' :
  Scal f (Some x) rf a pe ra -> early x = true -> early y = true ->
  child_ok (Some y) a' pe' -> ra' <> None -> Scal f (Some y) rf a' pe' ra'.
Proof.
  intros H Hx Hy Hc Hr. pose proof (sc_early _ _ _ _ _ _ H x eq_refl Hx) as Hf. constructor.
  - intros; assumption.
  - intros z Hz Hl. inversion Hz; subst. congruence.
  - intros; discriminate.
  - intros z _. eapply sc_rf_some; eauto.
  - intros; discriminate.
  - exact Hc.
  - intros _. exact Hr.
Qed.

Lemma Scal_late_step f x y rf a pe ra :
  Scal f (Some x) rf a pe ra -> early x = false -> early y = false ->
  child_ok (Some y) a pe -> Scal f (Some y) rf a pe ra.
Proof.
  intros H Hx Hy Hc. pose proof (sc_late _ _ _ _ _ _ H x eq_refl Hx) as Hf. constructor.
  - intros z Hz He. inversion Hz; subst. congruence.
  - intros; assumption.
  - intros; discriminate.
  - intros z _. eapply sc_rf_some; eauto.
  - intros; discriminate.
  - exact Hc.
  - apply (sc_ra _ _ _ _ _ _ H).
Qed.

Lemma Scal_done f x rf a pe ra :
  Scal f (Some x) rf a pe ra -> early x = false -> child_ok None a pe -> Scal f None (Some true) a pe ra.
Proof.
  intros H Hx Hc. pose proof (sc_late _ _ _ _ _ _ H x eq_refl Hx) as Hf. constructor; try (intros; discriminate).
  - intros _. rewrite Hf. discriminate.
  - exact Hc.
  - apply (sc_ra _ _ _ _ _ _ H).
Qed.

Lemma FI_step_run s : FI s -> FI (do_step_run s).
Proof.
  intros HF. pose proof HF as [HP HS]. unfold do_step_run.
  destruct (runt s) as [x|] eqn:Er; auto.
  pose proof (sc_child _ _ _ _ _ _ HS) as Hch.
  assert (Hra : early x = true -> run_arg s <> None).
  { intros He. apply (sc_ra _ _ _ _ _ _ HS). right. eapply sc_early; eauto. }
  destruct x; simpl in Hch.
  - (* RT_New *)
    destruct (run_arg s) eqn:Era; [|exfalso; apply Hra; auto].
    destruct Hch as (Ha & Hp). split; simpl; auto. rewrite Era.
    eapply Scal_early_step; [exact HS | reflexivity | reflexivity | simpl; left; rewrite Ha; auto | discriminate].
  - (* RT_Created *)
    simpl. destruct (run_arg s) eqn:Era; [|exfalso; apply Hra; auto].
    split; simpl; auto. rewrite Era.
    eapply Scal_early_step; [exact HS | reflexivity | reflexivity | exact Hch | discriminate].
  - (* RT_G_start *)
    split; simpl; auto.
    eapply Scal_early_step; [exact HS | reflexivity | reflexivity | exact Hch | apply Hra; reflexivity].
  - (* RT_WaitChild *)
    destruct (run_call_pending s); auto. destruct (pending_exit s) as [o|] eqn:Epe; auto.
    simpl. destruct (run_arg s) eqn:Era; [|exfalso; apply Hra; auto].
    destruct Hch as [(_ & ?) | (Ha & _)]; [discriminate|].
    split; simpl; auto. rewrite Era.
    eapply Scal_early_step; [exact HS | reflexivity | reflexivity | simpl; auto | discriminate].
  - (* RT_G_end *)
    destruct Hch as (Ha & Hp). eapply FI_run_finish; eauto.
  - (* RT_G_fin *)
    split; simpl; auto. eapply Scal_late_step; [exact HS | reflexivity | reflexivity | exact Hch].
  - (* RT_G_cs *)
    split; simpl; auto. eapply Scal_done; [exact HS | reflexivity | exact Hch].
Qed.

Lemma FI_child_exit s o : FI s -> FI (do_child_exit s o).
Proof.
  intros [HP HS]. unfold do_child_exit. destruct (alive s) as [|n] eqn:Ea; [split; auto; rewrite Ea; auto|].
  split; simpl; auto.
  destruct HS as [h1 h2 h3 h4 h5 h6 h7]. rewrite ?Ea in h6. constructor; auto.
  unfold child_ok in *.
  destruct (runt s) as [x|]; [destruct x|]; try (destruct h6 as (? & _); discriminate).
  all: destruct h6 as [(Hn & _) | (? & _)]; try discriminate; right; split; [congruence | discriminate].
Qed.

Theorem FI_step s l : LkS s -> FI s -> FI (step s l).
Proof.
  intros HL HF. destruct l; simpl.
  - apply FI_do_call; auto.
  - apply FI_do_step; auto.
  - apply FI_step_run; auto.
  - apply FI_child_exit; auto.
Qed.

Lemma FI_init a b c d : FI (init_state a b c d).
Proof.
  split; simpl.
  - intros t c0 p H. discriminate.
  - constructor; try (intros; discriminate); simpl; auto. intros [?|?]; discriminate.
Qed.

Theorem inv_reachable a b c d ls :
  LkS (run_labels (init_state a b c d) ls) /\ FI (run_labels (init_state a b c d) ls).
Proof.
  apply (run_labels_ind (fun s => LkS s /\ FI s)); [|split; [apply LkS_init | apply FI_init]].
  intros s l [HL HF]. split; [apply LkS_step | apply FI_step]; assumption.
Qed.
