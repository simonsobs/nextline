(** Every change of the lifecycle state is an edge of the documented diagram. *)
From NL Require Import Life.Model Life.LockInv Life.FsmInv Life.Hist Life.Single.
From Coq Require Import Lia.

Definition fsm_move (a b : fsm) : Prop := a = b \/ edge a b.

Lemma move_refl a : fsm_move a a. Proof. left. reflexivity. Qed.

Lemma move_closed a : fsm_move a Closed.
Proof. right. destruct a; exact I. Qed.

Lemma move_trans_same a b c : a = b -> fsm_move b c -> fsm_move a c.
Proof. intros ->. auto. Qed.

Lemma fsm_close_trigger s t : fsm_move (st_fsm s) (st_fsm (close_trigger s t)).
Proof.
  unfold close_trigger. destruct (st_fsm s) eqn:E; simpl; rewrite ?rl_fsm, ?E; try apply move_closed.
  destruct (runt s); simpl; rewrite ?E; [apply move_refl | apply move_closed].
Qed.

Lemma fsm_enter_start s t c : fsm_move (st_fsm s) (st_fsm (enter_start s t c)).
Proof. unfold enter_start. destruct (st_fsm s) eqn:E; rewrite ?fsm_refuse, ?E; simpl; rewrite ?E; apply move_refl. Qed.

Lemma fsm_enter_run s t c : fsm_move (st_fsm s) (st_fsm (enter_run s t c)).
Proof.
  unfold enter_run. destruct (st_fsm s) eqn:E; rewrite ?fsm_refuse, ?E; simpl; try apply move_refl. right. exact I.
Qed.

Lemma fsm_enter s t c part2 : fsm_move (st_fsm s) (st_fsm (enter s t c part2)).
Proof.
  destruct c; unfold enter; auto using move_refl, fsm_enter_start, fsm_enter_run.
  - unfold enter_reset. destruct (st_fsm s) eqn:E; rewrite ?fsm_refuse, ?E; try apply move_refl;
      destruct (o_stmt o); simpl; rewrite ?ar_fsm; simpl; rewrite ?E; apply move_refl.
  - destruct part2; [|apply fsm_enter_start].
    unfold enter_close. simpl.
    destruct (st_fsm s) eqn:E; try (eapply move_trans_same; [|apply fsm_close_trigger]; simpl; auto).
    destruct (run_finished s) as [[|]|]; simpl; rewrite ?rl_fsm; simpl; rewrite ?E; try apply move_refl.
    eapply move_trans_same; [|apply fsm_close_trigger]. simpl. auto.
Qed.

Lemma fsm_acquire s t c part2 : fsm_move (st_fsm s) (st_fsm (acquire s t c part2)).
Proof.
  apply acquire_cases; [intros _ _ | intros _; apply move_refl].
  eapply move_trans_same; [|apply fsm_enter]. reflexivity.
Qed.

Lemma fsm_run_finish s : fsm_move (st_fsm s) (st_fsm (run_finish s)).
Proof.
  unfold run_finish. simpl. destruct (st_fsm s) eqn:E; simpl; rewrite ?E; try apply move_refl.
  rewrite cf_fsm. simpl. right. exact I.
Qed.

Lemma fsm_step_run s : fsm_move (st_fsm s) (st_fsm (do_step_run s)).
Proof.
  unfold do_step_run. destruct (runt s) as [[]|]; try apply move_refl; simpl.
  - destruct (run_arg s); [apply move_refl | apply fsm_run_finish].
  - destruct (run_arg s); [apply move_refl|]. eapply move_trans_same; [|apply fsm_run_finish]. reflexivity.
  - destruct (run_call_pending s); [apply move_refl|]. destruct (pending_exit s); [|apply move_refl].
    simpl. destruct (run_arg s); [apply move_refl|]. eapply move_trans_same; [|apply fsm_run_finish]. reflexivity.
  - apply fsm_run_finish.
Qed.

Lemma fsm_do_call s t c : fsm_move (st_fsm s) (st_fsm (do_call s t c)).
Proof.
  destruct (find_task (tasks s) t) eqn:Ef; [unfold do_call; rewrite Ef; apply move_refl|].
  apply (do_call_cases (fun s' => fsm_move (st_fsm s) (st_fsm s'))); [exact Ef | | |]; intros; try apply move_refl.
  exact (fsm_acquire (called_from s tr ns nc cp) t c b).
Qed.

Lemma fsm_do_step s t : FI s -> fsm_move (st_fsm s) (st_fsm (do_step s t)).
Proof.
  intros [HP _]. unfold do_step. destruct (find_task (tasks s) t) as [[c p]|] eqn:Ef; [|apply move_refl].
  pose proof (HP _ _ _ Ef) as Hok.
  destruct p; simpl in Hok; try apply move_refl; try apply fsm_enter.
  - (* S_G1 *) destruct (st_fsm s) eqn:E; try discriminate. simpl. right. exact I.
  - (* S_G3 *) destruct c; simpl; rewrite ?rl_fsm; try apply move_refl.
    eapply move_trans_same; [|apply fsm_acquire]. symmetry. apply rl_fsm.
  - destruct (started_ev s); apply move_refl.
  - destruct c; simpl; rewrite ?rl_fsm; apply move_refl.
  - destruct c; simpl; rewrite ?ar_fsm; apply move_refl.
  - (* Z_G1b *) destruct (st_fsm s) eqn:E; try discriminate.
    + simpl. right. exact I.
    + destruct (runt s); simpl; rewrite ?E; [apply move_refl | right; exact I].
  - (* Z_WaitRunTask *) destruct (runt s); [apply move_refl|].
    destruct (st_fsm s) eqn:E; try discriminate; simpl; right; exact I.
  - simpl. rewrite rl_fsm. apply move_refl.
  - destruct (run_finished s) as [[|]|]; try apply move_refl. apply fsm_close_trigger.
  - destruct (runt s); [apply move_refl|]. simpl. apply move_closed.
  - simpl. rewrite rl_fsm. apply move_refl.
  - destruct (run_finished s) as [[|]|]; apply move_refl.
Qed.

Theorem fsm_step s l : FI s -> fsm_move (st_fsm s) (st_fsm (step s l)).
Proof.
  intros HF. destruct l; simpl.
  - apply fsm_do_call.
  - apply fsm_do_step; auto.
  - apply fsm_step_run.
  - unfold do_child_exit. destruct (alive s); apply move_refl.
Qed.

Theorem state_attr_edges stmt start th md ls l :
  let s := run_labels (init_state stmt start th md) ls in
  st_fsm (step s l) = st_fsm s \/ edge (st_fsm s) (st_fsm (step s l)).
Proof.
  intros s. destruct (fsm_step s l (reach_FI stmt start th md ls)) as [H|H]; auto.
Qed.

Theorem closed_absorbing stmt start th md ls l :
  let s := run_labels (init_state stmt start th md) ls in
  st_fsm s = Closed -> st_fsm (step s l) = Closed.
Proof.
  intros s Hc. destruct (state_attr_edges stmt start th md ls l) as [H|H]; fold s in H; [congruence|].
  rewrite Hc in H. destruct (st_fsm (step s l)); simpl in H; tauto.
Qed.
