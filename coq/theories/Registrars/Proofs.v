(** Proofs about Registrars/Model.v for every stream accepted by C09's prefix recogniser.

    [on_event] is read registrar by registrar ([tn_on], [ti_on], [pi_on], [pn_on]: [on_event_split]),
    and a topic carries the publications of one registrar only ([on_event_topic]).  Each theorem
    then rests on an invariant that says, trace by trace, what that registrar's state and topic
    hold in each phase of the recogniser ([phase_at], moved by one event as [phase_snoc] says),
    proved by induction over well-formed prefixes ([wfp_ind]); what on_end_run adds is read off
    [on_end_run_topic].  [ended_topic_terminates] hands a topic that was ended to the pub/sub
    model: by PubSub/Main.v every subscriber of it terminates. *)
From NL Require Import Events.Grammar Events.GrammarProofs Registrars.Model.
From NL Require PubSub.Model PubSub.Main.
Open Scope Z_scope.

Definition is_end_of (t : Z) (e : event) : bool :=
  match e with EndTrace _ t' => t' =? t | _ => false end.

Definition ended (t : Z) (es : list event) : bool := existsb (is_end_of t) es.

Definition active (es : list event) : list Z :=
  filter (fun t => negb (ended t es)) (trace_starts es).

Fixpoint pl_of (t : Z) (es : list event) : Z :=
  match es with
  | [] => 0
  | StartTrace _ t' pl :: r => if t' =? t then pl else pl_of t r
  | _ :: r => pl_of t r
  end.

(** (frame id, info) of the trace call numbered c *)
Fixpoint call_payload (es : list event) (c : Z) : Z * Z :=
  match es with
  | [] => (0, 0)
  | StartTraceCall _ _ c' fid info :: r => if c' =? c then (fid, info) else call_payload r c
  | _ :: r => call_payload r c
  end.

Fixpoint prompt_txt (es : list event) (p : Z) : Z :=
  match es with
  | [] => 0
  | StartPrompt _ _ _ p' txt :: r => if p' =? p then txt else prompt_txt r p
  | _ :: r => prompt_txt r p
  end.

Definition last_nos (ps : list publication) : list Z :=
  match last (on_topic TTraceNos ps) None with Some (VNos l) => l | _ => [] end.

Lemma filter_all {A} (f : A -> bool) l : (forall x, In x l -> f x = true) -> filter f l = l.
Proof. induction l as [|x l IH]; simpl; intros H; auto. rewrite H, IH; auto. Qed.

Lemma remove_first_filter : forall l t, NoDup l -> remove_first l t = filter (fun x => negb (t =? x)) l.
Proof.
  induction l as [|y l IH]; intros t Hnd; simpl; auto. inv Hnd.
  destruct (t =? y) eqn:E; simpl; [|f_equal; auto].
  apply Z.eqb_eq in E. subst. symmetry. apply filter_all. intros x Hx.
  apply negb_true_iff, Z.eqb_neq. intros <-. contradiction.
Qed.

Lemma remove_first_absent : forall l t, existsb (Z.eqb t) l = false -> remove_first l t = l.
Proof.
  induction l as [|y l IH]; simpl; intros t H; auto. apply orb_false_iff in H. destruct H as [-> H].
  f_equal. auto.
Qed.

Lemma dget_dset {A} : forall (d : list (Z * A)) k v k', dget (dset d k v) k' = if k' =? k then Some v else dget d k'.
Proof.
  induction d as [|[k1 v1] d IH]; intros k v k'; simpl; [reflexivity|].
  destruct (k =? k1) eqn:E; simpl.
  - apply Z.eqb_eq in E. subst k1. destruct (k' =? k); reflexivity.
  - rewrite IH. destruct (k' =? k) eqn:E'; auto. apply Z.eqb_eq in E'. subst k'. rewrite E. reflexivity.
Qed.

Lemma dget_ddel {A} : forall (d : list (Z * A)) k k', dget (ddel d k) k' = if k' =? k then None else dget d k'.
Proof.
  induction d as [|[k1 v1] d IH]; intros k k'; simpl; [destruct (k' =? k); reflexivity|].
  destruct (k1 =? k) eqn:E; simpl; rewrite IH; destruct (k' =? k) eqn:E'; auto.
  - apply Z.eqb_eq in E. subst k1. rewrite E'. reflexivity.
  - apply Z.eqb_eq in E'. subst k'. rewrite Z.eqb_sym, E. reflexivity.
Qed.

Lemma ddel_absent : forall A (d : list (Z * A)) k, dget d k = None -> ddel d k = d.
Proof.
  induction d as [|[k' v] r IH]; intros k H; auto. simpl in *.
  rewrite (Z.eqb_sym k' k). destruct (k =? k'); [discriminate|]. simpl. f_equal. auto.
Qed.

Lemma dget_notin {A} : forall (d : list (Z * A)) k, ~ In k (map fst d) -> dget d k = None.
Proof.
  induction d as [|[k1 v1] d IH]; simpl; intros k H; auto. destruct (k =? k1) eqn:E; [|auto].
  apply Z.eqb_eq in E. subst. tauto.
Qed.

Lemma existsb_eqb_In k l : existsb (Z.eqb k) l = true <-> In k l.
Proof.
  rewrite existsb_exists. split.
  - intros (x & Hx & E). apply Z.eqb_eq in E. subst. assumption.
  - intros H. exists k. split; auto. apply Z.eqb_refl.
Qed.

Lemma NoDup_snoc (l : list Z) x : NoDup l -> existsb (Z.eqb x) l = false -> NoDup (l ++ [x]).
Proof.
  intros H Hx. apply NoDup_rev in H. rewrite <- (rev_involutive (l ++ [x])), rev_app_distr. apply NoDup_rev.
  constructor; auto. rewrite <- in_rev, <- existsb_eqb_In. congruence.
Qed.

Lemma dset_keys {A} : forall (d : list (Z * A)) k v,
  map fst (dset d k v) = if existsb (Z.eqb k) (map fst d) then map fst d else map fst d ++ [k].
Proof.
  induction d as [|[k1 v1] d IH]; intros k v; simpl; auto.
  destruct (k =? k1) eqn:E; simpl.
  - apply Z.eqb_eq in E. subst. reflexivity.
  - rewrite IH. destruct (existsb (Z.eqb k) (map fst d)); reflexivity.
Qed.

Lemma dset_nodup {A} (d : list (Z * A)) k v : NoDup (map fst d) -> NoDup (map fst (dset d k v)).
Proof.
  intros H. rewrite dset_keys. destruct (existsb (Z.eqb k) (map fst d)) eqn:E; auto using NoDup_snoc.
Qed.

Lemma ddel_nodup {A} (d : list (Z * A)) k : NoDup (map fst d) -> NoDup (map fst (ddel d k)).
Proof.
  unfold ddel. induction d as [|[k1 v1] d IH]; simpl; intros H; auto. inv H.
  destruct (k1 =? k); simpl; auto. constructor; auto.
  rewrite in_map_iff in *. intros (x & Hx & Hin). apply filter_In in Hin. apply H2. exists x. tauto.
Qed.

Lemma sadd_existsb s k t : existsb (Z.eqb t) (sadd s k) = (t =? k) || existsb (Z.eqb t) s.
Proof.
  unfold sadd. destruct (existsb (Z.eqb k) s) eqn:E.
  - destruct (t =? k) eqn:Et; simpl; auto. apply Z.eqb_eq in Et. subst. assumption.
  - rewrite existsb_app. simpl. rewrite orb_false_r. apply orb_comm.
Qed.

Lemma sdel_existsb s k t : existsb (Z.eqb t) (sdel s k) = negb (t =? k) && existsb (Z.eqb t) s.
Proof.
  unfold sdel. induction s as [|x s IH]; simpl.
  - rewrite andb_false_r. reflexivity.
  - destruct (x =? k) eqn:E; simpl; rewrite IH.
    + apply Z.eqb_eq in E. subst. destruct (t =? k); simpl; auto.
    + destruct (t =? x) eqn:Et; simpl; auto. apply Z.eqb_eq in Et. subst. rewrite E. reflexivity.
Qed.

Lemma sadd_in s k : existsb (Z.eqb k) s = true -> sadd s k = s.
Proof. unfold sadd. intros ->. reflexivity. Qed.

Lemma sadd_nodup s k : NoDup s -> NoDup (sadd s k).
Proof. unfold sadd. intros H. destruct (existsb (Z.eqb k) s) eqn:E; auto using NoDup_snoc. Qed.

Lemma flat_map_ext_in {A B} (f g : A -> list B) l : (forall x, In x l -> f x = g x) -> flat_map f l = flat_map g l.
Proof.
  induction l as [|x l IH]; simpl; intros H; auto. rewrite H by auto. rewrite IH; auto.
Qed.

Lemma proj_app t a b : proj t (a ++ b) = proj t a ++ proj t b.
Proof. apply filter_app. Qed.

Lemma if_in {A} k l (a b : A) : In k l -> (if existsb (Z.eqb k) l then a else b) = a.
Proof. intros H. apply existsb_eqb_In in H. rewrite H. reflexivity. Qed.

Lemma if_notin {A} k l (a b : A) : ~ In k l -> (if existsb (Z.eqb k) l then a else b) = b.
Proof. intros H. destruct (existsb (Z.eqb k) l) eqn:E; auto. apply existsb_eqb_In in E. contradiction. Qed.

Lemma feed_app rn : forall a s b,
  feed rn s (a ++ b) =
  let '(s1, p) := feed rn s a in let '(s2, q) := feed rn s1 b in (s2, p ++ q).
Proof.
  induction a as [|e a IH]; intros s b; simpl.
  - destruct (feed rn s b). reflexivity.
  - destruct (on_event rn s e) as [s1 p]. rewrite IH.
    destruct (feed rn s1 a) as [s2 q]. destruct (feed rn s2 b) as [s3 q']. rewrite app_assoc. reflexivity.
Qed.

Lemma state_events_snoc rn es e :
  state_events rn (es ++ [e]) = fst (on_event rn (state_events rn es) e).
Proof.
  unfold state_events. rewrite feed_app. destruct (feed rn (R1 rn) es) as [s1 p]. simpl.
  destruct (on_event rn s1 e). reflexivity.
Qed.

Lemma pubs_events_snoc rn es e :
  pubs_events rn (es ++ [e]) = pubs_events rn es ++ snd (on_event rn (state_events rn es) e).
Proof.
  unfold pubs_events, state_events. rewrite feed_app. destruct (feed rn (R1 rn) es) as [s1 p]. simpl.
  destruct (on_event rn s1 e). simpl. rewrite app_nil_r. reflexivity.
Qed.

Arguments pubs_events : simpl never.
Arguments state_events : simpl never.

Lemma on_topic_app k : forall a b, on_topic k (a ++ b) = on_topic k a ++ on_topic k b.
Proof.
  induction a as [|p a IH]; intros b; simpl; auto.
  destruct p; try destruct (topic_eqb k k0); simpl; rewrite IH; reflexivity.
Qed.

Lemma on_topic_map_off {A} k (f : A -> publication) l : (forall x, on_topic k [f x] = []) -> on_topic k (map f l) = [].
Proof.
  intros H. induction l as [|x l IH]; auto. change (map f (x :: l)) with ([f x] ++ map f l).
  rewrite on_topic_app, H. assumption.
Qed.

Lemma state_events_ind rn (P : R -> Prop) :
  P (R1 rn) -> (forall s e, P s -> P (fst (on_event rn s e))) -> forall es, P (state_events rn es).
Proof.
  intros H0 Hs es. induction es as [|e es IH] using rev_ind; [exact H0|]. rewrite state_events_snoc. auto.
Qed.

Definition phase_at (r : Z) (es : list event) (t : Z) : phase := t_ph (lookup (gstate_of r es) t).

Definition live (p : phase) : bool := match p with PNone | PDone => false | _ => true end.

Lemma wfp_grun r es : wf_prefix r es = true -> grun r [] es = Some (gstate_of r es).
Proof.
  intros H. apply wf_prefix_unfold in H. destruct H as [[g Hg] _]. unfold gstate_of. rewrite Hg. reflexivity.
Qed.

Lemma phase_snoc r es e : wf_prefix r (es ++ [e]) = true ->
  pcore (phase_at r es (ev_trace e)) e = Some (phase_at r (es ++ [e]) (ev_trace e)) /\ ev_run e = r /\
  (forall t, t <> ev_trace e -> phase_at r (es ++ [e]) t = phase_at r es t).
Proof.
  intros H. pose proof (wfp_grun _ _ H) as H1. rewrite grun_app, (wfp_grun _ _ (wf_prefix_app _ _ _ H)) in H1.
  simpl in H1. unfold phase_at. destruct (gstep r (gstate_of r es) e) as [g1|] eqn:Hs; [|discriminate].
  injection H1 as <-. destruct (gstep_inv _ _ _ _ Hs) as (s1 & Hs1 & ->).
  pose proof (tstep_ph _ _ _ _ _ Hs1) as Hp. pose proof (pstep_nums _ _ _ _ _ Hp) as Hn.
  rewrite pstep_core in Hp by assumption. rewrite lookup_update_same.
  split; [assumption|]. split; [apply Hn|]. intros t Hne. rewrite lookup_update_other; auto.
Qed.

Lemma wfp_ind r (P : list event -> Prop) :
  P [] ->
  (forall es e, wf_prefix r (es ++ [e]) = true -> wf_prefix r es = true -> P es -> P (es ++ [e])) ->
  forall es, wf_prefix r es = true -> P es.
Proof.
  intros H0 Hstep es. induction es as [|e es IH] using rev_ind; intros Hwf; auto.
  pose proof (wf_prefix_app _ _ _ Hwf). auto.
Qed.

Lemma phase_none_proj r es t : wf_prefix r es = true -> phase_at r es t = PNone -> proj t es = [].
Proof.
  intros Hwf Hp. pose proof (grun_proj _ _ _ _ (wfp_grun _ _ Hwf) t) as H. apply trun_ph in H. simpl in H.
  unfold phase_at in Hp. rewrite Hp in H. apply prun_to_none in H. tauto.
Qed.

Lemma ended_proj t : forall es, proj t es = [] -> ended t es = false.
Proof.
  induction es as [|e es IH]; simpl; auto. intros H.
  destruct (ev_trace e =? t) eqn:E; [discriminate|]. rewrite IH by assumption.
  destruct e; simpl in *; try reflexivity. rewrite E. reflexivity.
Qed.

Lemma in_trace_starts_proj t : forall es, proj t es = [] -> ~ In t (trace_starts es).
Proof.
  induction es as [|e es IH]; [simpl; auto|]. rewrite proj_cons, trace_starts_cons. intros H.
  destruct (ev_trace e =? t) eqn:E; [discriminate|].
  destruct e; auto. simpl in *. intros [-> | Hin]; [rewrite Z.eqb_refl in E; discriminate | apply IH; auto].
Qed.

Lemma ended_app t a b : ended t (a ++ b) = ended t a || ended t b.
Proof. apply existsb_app. Qed.

Lemma wfp_nodup_traces r es : wf_prefix r es = true -> NoDup (trace_starts es).
Proof. intros H. apply (grun_trace_starts _ _ _ _ (wfp_grun _ _ H)). Qed.

Lemma pcore_start p r t pl p' : pcore p (StartTrace r t pl) = Some p' -> p = PNone /\ p' = PIdle.
Proof. destruct p as [| |?|? []|? ?|?|]; simpl; intros H; try discriminate. inv H. auto. Qed.

Lemma pcore_end p r t p' : pcore p (EndTrace r t) = Some p' -> p = PIdle /\ p' = PDone.
Proof. destruct p as [| |?|? []|? ?|?|]; simpl; intros H; try discriminate. inv H. auto. Qed.

Definition is_trace_boundary (e : event) : bool :=
  match e with StartTrace _ _ _ | EndTrace _ _ => true | _ => false end.

Lemma pcore_inner p e p' : pcore p e = Some p' -> is_trace_boundary e = false -> live p = true /\ live p' = true.
Proof.
  destruct p as [| |?|? []|? ?|?|], e; simpl; intros H Hb; try discriminate; crush_eqs; auto.
Qed.

Lemma started_iff r es : wf_prefix r es = true -> forall t, phase_at r es t <> PNone <-> In t (trace_starts es).
Proof.
  revert es. apply (wfp_ind r (fun es => forall t, phase_at r es t <> PNone <-> In t (trace_starts es))).
  - intros t. simpl. tauto.
  - intros es e Hwf Hwf' IH t. destruct (phase_snoc _ _ _ Hwf) as (Hp & _ & Ho).
    rewrite trace_starts_app, in_app_iff, <- IH.
    destruct (Z.eq_dec t (ev_trace e)) as [-> | Hne].
    + split; [|intros _; eapply pcore_not_none; eauto].
      intros _. destruct e; try (left; apply pcore_inner in Hp; [|reflexivity]; destruct Hp as [Hl _];
        intros E; rewrite E in Hl; discriminate).
      * right. simpl. auto.
      * left. apply pcore_end in Hp. destruct Hp as [-> _]. discriminate.
    + rewrite (Ho t Hne). split; auto. intros [H | H]; auto.
      destruct e; simpl in H; try contradiction. destruct H as [<- | []]. exfalso. apply Hne. reflexivity.
Qed.

(** the methods that look something up before they act, and case analysis on what they find
    (a dict entry, membership in a set, equal frame ids) or on a pair of results *)
Create HintDb methods discriminated.
#[export] Hint Unfold tn_end ti_end pi_end_trace pi_end_call pi_start_prompt pi_end_prompt pn_start_prompt : methods.

Ltac destruct_lookups :=
  repeat match goal with |- context [match ?x with _ => _ end] => destruct x end.

Definition tn_on (s : list Z) (e : event) : list Z * list publication :=
  match e with StartTrace _ t _ => tn_start s t | EndTrace _ t => tn_end s t | _ => (s, []) end.

Definition ti_on (rn : Z) (m : list (Z * (Z * Z))) (e : event) : list (Z * (Z * Z)) * list publication :=
  match e with StartTrace _ t pl => ti_start rn m t pl | EndTrace _ t => ti_end m t | _ => (m, []) end.

Definition pi_on (rn : Z) (s : PI) (e : event) : PI * list publication :=
  match e with
  | StartTrace _ t _ => pi_start_trace rn s t
  | EndTrace _ t => pi_end_trace s t
  | StartTraceCall _ t _ fid info => pi_start_call s t fid info
  | EndTraceCall _ t _ => pi_end_call rn s t
  | StartPrompt _ t _ p txt => pi_start_prompt rn s t p txt
  | EndPrompt _ t _ p cmd => pi_end_prompt s t p cmd
  | _ => (s, [])
  end.

Definition pn_on (rn : Z) (m : list (Z * (Z * Z))) (e : event) : list (Z * (Z * Z)) * list publication :=
  match e with
  | StartTraceCall _ t _ fid info => pn_start_call m t fid info
  | EndTraceCall _ t _ => pn_end_call m t
  | StartPrompt _ t _ p txt => pn_start_prompt rn m t p txt
  | _ => (m, [])
  end.

Definition so_on (rn : Z) (e : event) : list publication :=
  match e with WriteStdout _ t txt => so_write rn t txt | _ => [] end.

Lemma on_event_split rn s e :
  on_event rn s e =
  (mkR (fst (tn_on (r_tn s) e)) (fst (ti_on rn (r_ti s) e)) (fst (pi_on rn (r_pi s) e)) (fst (pn_on rn (r_pn s) e)) (r_ri s),
   snd (tn_on (r_tn s) e) ++ snd (ti_on rn (r_ti s) e) ++ snd (pi_on rn (r_pi s) e) ++ snd (pn_on rn (r_pn s) e) ++ so_on rn e).
Proof. destruct s, e; simpl; destruct_lookups; simpl; rewrite ?app_nil_r; reflexivity. Qed.

(** the registrars publish on disjoint topics (Registrars/Order.v checks the same of the source):
    what a topic carries comes from one of them *)
Lemma on_event_topic rn s e k :
  on_topic k (snd (on_event rn s e)) =
  on_topic k match k with
             | TTraceNos => snd (tn_on (r_tn s) e)
             | TTraceInfo => snd (ti_on rn (r_ti s) e)
             | TPromptInfo | TPromptInfoFor _ => snd (pi_on rn (r_pi s) e)
             | TPromptNotice => snd (pn_on rn (r_pn s) e)
             | TStdout => so_on rn e
             | TRunInfo => []
             end.
Proof.
  rewrite on_event_split.
  destruct k, e; cbn [snd tn_on ti_on pi_on pn_on so_on app]; rewrite ?app_nil_r; try reflexivity;
    autounfold with methods; destruct_lookups; reflexivity.
Qed.

Lemma on_end_run_topic rn s k :
  on_topic k (snd (on_end_run rn s)) =
  on_topic k match k with
             | TRunInfo => snd (ri_end_run rn (r_ri s))
             | TTraceNos => snd (tn_end_run (r_tn s))
             | TTraceInfo => snd (ti_end_run (r_ti s))
             | TPromptInfo | TPromptInfoFor _ => snd (pi_end_run (r_pi s))
             | TPromptNotice => snd (pn_end_run (r_pn s))
             | TStdout => []
             end.
Proof.
  unfold on_end_run, ri_end_run, tn_end_run, ti_end_run, pi_end_run, pn_end_run.
  destruct (r_ri s), k; cbn [snd]; rewrite !on_topic_app;
    try rewrite (on_topic_map_off _ (fun t => EndT _)) by reflexivity;
    try rewrite (on_topic_map_off _ (fun kv => Pub TTraceInfo _)) by reflexivity;
    simpl; rewrite ?app_nil_r; reflexivity.
Qed.

Lemma last_nos_state rn : forall es, last_nos (pubs_events rn es) = r_tn (state_events rn es).
Proof.
  intros es. induction es as [|e es IH] using rev_ind; [reflexivity|].
  rewrite pubs_events_snoc, state_events_snoc. unfold last_nos in *.
  rewrite on_topic_app, on_event_topic, on_event_split. cbn [fst r_tn].
  destruct e; simpl; rewrite ?app_nil_r, ?last_last; auto.
  unfold tn_end. destruct (existsb (Z.eqb t) (r_tn (state_events rn es))); simpl; rewrite ?app_nil_r, ?last_last; auto.
Qed.

Lemma active_snoc es e :
  active (es ++ [e]) =
  match e with
  | StartTrace _ t _ => active es ++ (if ended t es then [] else [t])
  | EndTrace _ t => filter (fun x => negb (t =? x)) (active es)
  | _ => active es
  end.
Proof.
  assert (H : forall l, filter (fun t => negb (ended t (es ++ [e]))) l =
                        filter (fun x => negb (is_end_of x e)) (filter (fun t => negb (ended t es)) l)).
  { induction l as [|x l IH]; simpl; auto. rewrite ended_app. simpl. rewrite orb_false_r, IH.
    destruct (ended x es); simpl; auto. }
  unfold active. rewrite trace_starts_app, H.
  destruct e; simpl; rewrite ?app_nil_r; try (apply filter_all; reflexivity).
  - rewrite filter_all by reflexivity.
    rewrite filter_app. simpl. destruct (ended t es); reflexivity.
  - reflexivity.
Qed.

Lemma state_tn r : forall es, wf_prefix r es = true -> r_tn (state_events r es) = active es.
Proof.
  apply wfp_ind; [reflexivity|]. intros es e Hwf Hwf' IH.
  rewrite state_events_snoc, on_event_split, active_snoc. cbn [fst r_tn]. rewrite IH.
  destruct (phase_snoc _ _ _ Hwf) as (Hp & _ & _).
  destruct e; auto; cbn [tn_on ev_trace] in *.
  - (* a trace that starts has no event yet, so has not ended *)
    apply pcore_start in Hp. destruct Hp as [Hn _].
    rewrite (ended_proj _ _ (phase_none_proj _ _ _ Hwf' Hn)). reflexivity.
  - pose proof (NoDup_filter (fun t => negb (ended t es)) (wfp_nodup_traces _ _ Hwf')) as Hnd. fold (active es) in Hnd.
    unfold tn_end. rewrite <- (remove_first_filter _ t Hnd).
    destruct (existsb (Z.eqb t) (active es)) eqn:Ex; [reflexivity | symmetry; apply remove_first_absent; assumption].
Qed.

Theorem active_set r es : wf_prefix r es = true -> last_nos (pubs_events r es) = active es.
Proof. intros H. rewrite last_nos_state. apply state_tn. assumption. Qed.

Theorem active_set_closed r es : last_nos (pubs_run r es) = [].
Proof.
  unfold last_nos, pubs_run, pubs_end. rewrite on_topic_app, on_end_run_topic. simpl. rewrite last_last. reflexivity.
Qed.

(** the payload of a trace / trace call / prompt is read off the first start event with its number *)

Lemma pl_of_app t : forall es l,
  pl_of t (es ++ l) = if existsb (Z.eqb t) (trace_starts es) then pl_of t es else pl_of t l.
Proof.
  induction es as [|e es IH]; intros l; [reflexivity|]. rewrite trace_starts_cons. destruct e; simpl; auto.
  rewrite (Z.eqb_sym t). destruct (t0 =? t); auto.
Qed.

Lemma call_payload_app c : forall es l,
  call_payload (es ++ l) c = if existsb (Z.eqb c) (call_starts es) then call_payload es c else call_payload l c.
Proof.
  induction es as [|e es IH]; intros l; [reflexivity|]. rewrite call_starts_cons. destruct e; simpl; auto.
  rewrite (Z.eqb_sym c). destruct (c0 =? c); auto.
Qed.

Lemma prompt_txt_app p : forall es l,
  prompt_txt (es ++ l) p = if existsb (Z.eqb p) (prompt_starts es) then prompt_txt es p else prompt_txt l p.
Proof.
  induction es as [|e es IH]; intros l; [reflexivity|]. rewrite prompt_starts_cons. destruct e; simpl; auto.
  rewrite (Z.eqb_sym p). destruct (p0 =? p); auto.
Qed.

Lemma pl_of_unstarted t : forall es, existsb (Z.eqb t) (trace_starts es) = false -> pl_of t es = 0.
Proof.
  induction es as [|[] es IH]; simpl; auto. rewrite Z.eqb_sym. intros E. apply orb_false_iff in E.
  destruct E as [-> E]. auto.
Qed.

Lemma pl_of_other t e : t <> ev_trace e -> forall es, pl_of t (es ++ [e]) = pl_of t es.
Proof.
  intros Hne es. rewrite pl_of_app. destruct (existsb (Z.eqb t) (trace_starts es)) eqn:E; auto.
  rewrite (pl_of_unstarted _ _ E). destruct e; auto. simpl in *. apply Z.eqb_neq in Hne.
  rewrite Z.eqb_sym, Hne. reflexivity.
Qed.

Definition about (t : Z) (x : option value) : bool :=
  match x with Some (VTraceInfo _ t' _ _) => t' =? t | _ => false end.

Definition ti_expected (r t pl : Z) (p : phase) : list (option value) :=
  match p with
  | PNone => []
  | PDone => [Some (VTraceInfo r t pl true); Some (VTraceInfo r t pl false)]
  | _ => [Some (VTraceInfo r t pl true)]
  end.

Lemma ti_on_get rn m e t :
  dget (fst (ti_on rn m e)) t =
  match e with
  | StartTrace _ t0 pl => if t =? t0 then Some (rn, pl) else dget m t
  | EndTrace _ t0 => if t =? t0 then None else dget m t
  | _ => dget m t
  end.
Proof.
  destruct e; simpl; auto using dget_dset. unfold ti_end.
  destruct (dget m t0) as [[]|] eqn:E; simpl; [apply dget_ddel|].
  destruct (t =? t0) eqn:Et; auto. apply Z.eqb_eq in Et. subst. assumption.
Qed.

Lemma ti_on_about rn m e t :
  filter (about t) (on_topic TTraceInfo (snd (ti_on rn m e))) =
  match e with
  | StartTrace _ t0 pl => if t0 =? t then [Some (VTraceInfo rn t0 pl true)] else []
  | EndTrace _ t0 =>
      match dget m t0 with Some (r, pl) => if t0 =? t then [Some (VTraceInfo r t0 pl false)] else [] | None => [] end
  | _ => []
  end.
Proof. destruct e; simpl; auto. unfold ti_end. destruct (dget m t0) as [[]|]; reflexivity. Qed.

Lemma ti_on_other rn m e t : t <> ev_trace e ->
  dget (fst (ti_on rn m e)) t = dget m t /\ filter (about t) (on_topic TTraceInfo (snd (ti_on rn m e))) = [].
Proof.
  intros Hne. rewrite ti_on_get, ti_on_about. destruct e; auto; cbn [ev_trace] in Hne;
    rewrite (proj2 (Z.eqb_neq _ _) Hne), (proj2 (Z.eqb_neq _ _) (not_eq_sym Hne)); auto.
  destruct (dget m t0) as [[]|]; auto.
Qed.

Lemma ti_keys_nodup rn es : NoDup (map fst (r_ti (state_events rn es))).
Proof.
  apply state_events_ind; [constructor|]. intros s e H. rewrite on_event_split. cbn [fst r_ti].
  destruct e; simpl; auto using dset_nodup. unfold ti_end. destruct (dget (r_ti s) t) as [[]|]; simpl; auto using ddel_nodup.
Qed.

(** the map holds the live traces; a trace's publications follow its phase *)
Definition ti_inv (r : Z) (es : list event) : Prop :=
  forall t,
    dget (r_ti (state_events r es)) t = (if live (phase_at r es t) then Some (r, pl_of t es) else None) /\
    filter (about t) (on_topic TTraceInfo (pubs_events r es)) = ti_expected r t (pl_of t es) (phase_at r es t).

Lemma ti_invariant r : forall es, wf_prefix r es = true -> ti_inv r es.
Proof.
  apply wfp_ind; [intros t; split; reflexivity|]. intros es e Hwf Hwf' IH t.
  destruct (phase_snoc _ _ _ Hwf) as (Hp & Hr & Ho). pose proof (started_iff _ _ Hwf') as Hst.
  destruct (IH t) as [Hd Hf].
  rewrite state_events_snoc, pubs_events_snoc, on_topic_app, filter_app, on_event_topic, on_event_split, Hf.
  cbn [fst r_ti]. clear IH Hf. destruct (Z.eq_dec t (ev_trace e)) as [-> | Hne].
  2:{ destruct (ti_on_other r (r_ti (state_events r es)) e t Hne) as [-> ->].
      rewrite (Ho t Hne), (pl_of_other _ _ Hne), app_nil_r. auto. }
  rewrite ti_on_get, ti_on_about. destruct (is_trace_boundary e) eqn:Eb.
  - destruct e; try discriminate; cbn [ev_trace ev_run] in *; subst r0; rewrite pl_of_app, Z.eqb_refl in *.
    + apply pcore_start in Hp. destruct Hp as [Hp0 Hp1]. rewrite Hp0, Hp1.
      rewrite if_notin by (rewrite <- Hst; tauto). simpl. rewrite Z.eqb_refl. auto.
    + apply pcore_end in Hp. destruct Hp as [Hp0 Hp1]. rewrite Hp0 in *. rewrite Hp1, Hd.
      rewrite if_in by (apply Hst; rewrite Hp0; discriminate). auto.
  - (* inside the trace: the phase stays live, nothing is published about it *)
    destruct (pcore_inner _ _ _ Hp Eb) as [Hl Hl1]. rewrite Hl in Hd. rewrite Hl1, Hd.
    rewrite pl_of_app, if_in by (apply Hst; intros E; rewrite E in Hl; discriminate).
    replace (ti_expected r _ _ (phase_at r (es ++ [e]) _))
      with (ti_expected r (ev_trace e) (pl_of (ev_trace e) es) (phase_at r es (ev_trace e)))
      by (destruct (phase_at r es _), (phase_at r (es ++ [e]) _); simpl in *; try discriminate; reflexivity).
    destruct e; try discriminate; rewrite app_nil_r; auto.
Qed.

Lemma ti_end_run_about t : forall (m : list (Z * (Z * Z))), NoDup (map fst m) ->
  filter (about t) (on_topic TTraceInfo (snd (ti_end_run m))) =
  match dget m t with Some (rn, pl) => [Some (VTraceInfo rn t pl false)] | None => [] end.
Proof.
  intros m Hnd. unfold ti_end_run. cbn [snd]. induction m as [|[k [rn pl]] m IH]; [reflexivity|]. inv Hnd.
  simpl. rewrite map_app, on_topic_app, filter_app, IH by assumption. simpl. rewrite (Z.eqb_sym t k).
  destruct (k =? t) eqn:E; [|apply app_nil_r]. apply Z.eqb_eq in E. subst.
  rewrite (dget_notin _ _ H1). reflexivity.
Qed.

Theorem trace_info_once r es : wf_prefix r es = true ->
  forall t,
    filter (about t) (on_topic TTraceInfo (pubs_run r es)) =
    if in_dec Z.eq_dec t (trace_starts es)
    then [Some (VTraceInfo r t (pl_of t es) true); Some (VTraceInfo r t (pl_of t es) false)]
    else [].
Proof.
  intros Hwf t. destruct (ti_invariant _ _ Hwf t) as [Hd Hf]. pose proof (started_iff _ _ Hwf t) as Hst.
  unfold pubs_run, pubs_end.
  rewrite on_topic_app, filter_app, Hf, on_end_run_topic, (ti_end_run_about _ _ (ti_keys_nodup _ _)), Hd.
  destruct (in_dec Z.eq_dec t (trace_starts es)) as [Hin | Hnin].
  - apply Hst in Hin. destruct (phase_at r es t); simpl; try reflexivity. exfalso. apply Hin. reflexivity.
  - destruct (phase_at r es t) eqn:Ep; simpl; try reflexivity; exfalso; apply Hnin, Hst; discriminate.
Qed.

Definition not_end (p : publication) : bool := match p with EndT _ => false | _ => true end.

Lemma on_topic_some k : forall ps, forallb not_end ps = true -> exists vs, on_topic k ps = map Some vs.
Proof.
  induction ps as [|p ps IH]; simpl; intros H; [exists []; reflexivity|].
  apply andb_true_iff in H. destruct H as [Hp H]. destruct (IH H) as [vs ->].
  destruct p as [k' v| |]; try discriminate; [destruct (topic_eqb k k'); [exists (v :: vs); reflexivity|]|]; eauto.
Qed.

Lemma pi_on_for_other rn s e t : t <> ev_trace e -> on_topic (TPromptInfoFor t) (snd (pi_on rn s e)) = [].
Proof.
  intros Hne. apply Z.eqb_neq in Hne.
  destruct e; cbn [pi_on ev_trace] in *; auto;
    autounfold with methods; destruct_lookups; simpl; rewrite ?Hne; reflexivity.
Qed.

Lemma pi_on_keys_other rn s e t : t <> ev_trace e ->
  existsb (Z.eqb t) (pi_keys (fst (pi_on rn s e))) = existsb (Z.eqb t) (pi_keys s).
Proof.
  intros Hne. apply Z.eqb_neq in Hne.
  destruct e; cbn [pi_on ev_trace] in *; auto; autounfold with methods; unfold pi_start_trace;
    destruct_lookups; cbn [fst pi_keys]; rewrite ?sadd_existsb, ?sdel_existsb, ?Hne; reflexivity.
Qed.

Lemma pi_on_inner rn s e : is_trace_boundary e = false ->
  forallb not_end (snd (pi_on rn s e)) = true /\
  (existsb (Z.eqb (ev_trace e)) (pi_keys s) = true -> pi_keys (fst (pi_on rn s e)) = pi_keys s).
Proof.
  intros Hb. destruct e; try discriminate; cbn [pi_on ev_trace]; auto; (split; [|intros H]);
    autounfold with methods; unfold pi_start_call; destruct_lookups; cbn [fst pi_keys];
    rewrite ?sadd_in by assumption; reflexivity.
Qed.

Lemma pi_keys_nodup rn es : NoDup (pi_keys (r_pi (state_events rn es))).
Proof.
  apply state_events_ind; [constructor|]. intros s e H. rewrite on_event_split. cbn [fst r_pi].
  destruct e; simpl; auto; autounfold with methods; destruct_lookups; simpl; unfold sdel;
    auto using sadd_nodup, NoDup_filter.
Qed.

Definition for_shape (p : phase) (l : list (option value)) : Prop :=
  match p with
  | PNone => l = []
  | PDone => exists vs, l = map Some vs ++ [None]
  | _ => exists vs, l = map Some vs
  end.

Lemma for_shape_live_app p p' l vs :
  live p = true -> live p' = true -> for_shape p l -> for_shape p' (l ++ map Some vs).
Proof.
  intros H1 H2 Hs.
  assert (exists vs0, l = map Some vs0) as [vs0 ->] by (destruct p; simpl in *; try discriminate; assumption).
  rewrite <- map_app. destruct p'; simpl in *; try discriminate; eauto.
Qed.

(** the key of a trace's topic is in _keys while the trace is live; the topic has been ended when
    the trace has, and not before *)
Definition keys_inv (r : Z) (es : list event) : Prop :=
  forall t,
    existsb (Z.eqb t) (pi_keys (r_pi (state_events r es))) = live (phase_at r es t) /\
    for_shape (phase_at r es t) (on_topic (TPromptInfoFor t) (pubs_events r es)).

Lemma keys_invariant r : forall es, wf_prefix r es = true -> keys_inv r es.
Proof.
  apply wfp_ind; [intros t; split; reflexivity|]. intros es e Hwf Hwf' IH t.
  destruct (phase_snoc _ _ _ Hwf) as (Hp & _ & Ho). destruct (IH t) as [Hk Hsh].
  rewrite state_events_snoc, pubs_events_snoc, on_topic_app, on_event_topic, on_event_split. cbn [fst r_pi].
  set (s := r_pi (state_events r es)) in *. destruct (Z.eq_dec t (ev_trace e)) as [-> | Hne].
  2:{ rewrite pi_on_keys_other, pi_on_for_other, (Ho t Hne), app_nil_r by assumption. auto. }
  destruct (is_trace_boundary e) eqn:Eb.
  - destruct e; try discriminate; cbn [ev_trace pi_on] in *.
    + apply pcore_start in Hp. destruct Hp as [Hp0 Hp1]. rewrite Hp0 in Hsh. rewrite Hp1, Hsh. cbn.
      rewrite sadd_existsb, !Z.eqb_refl. split; auto. eexists [_]. reflexivity.
    + apply pcore_end in Hp. destruct Hp as [Hp0 Hp1]. rewrite Hp0 in Hk, Hsh. unfold pi_end_trace.
      rewrite Hp1, Hk. cbn. rewrite sdel_existsb, !Z.eqb_refl. destruct Hsh as [vs ->]. eauto.
  - destruct (pcore_inner _ _ _ Hp Eb) as [Hl Hl1]. destruct (pi_on_inner r s e Eb) as [Hne ->]; [|congruence].
    destruct (on_topic_some (TPromptInfoFor (ev_trace e)) _ Hne) as [vs ->].
    rewrite Hl1. split; [congruence | apply (for_shape_live_app (phase_at r es (ev_trace e))); assumption].
Qed.

Lemma pi_end_run_for t : forall ks, NoDup ks ->
  on_topic (TPromptInfoFor t) (map (fun t0 => EndT (TPromptInfoFor t0)) ks) = if existsb (Z.eqb t) ks then [None] else [].
Proof.
  induction 1 as [|k l Hk _ IH]; [reflexivity|]. simpl. rewrite IH. destruct (t =? k) eqn:E; auto.
  apply Z.eqb_eq in E. subst. rewrite if_notin by assumption. reflexivity.
Qed.

(** after on_end_run on any truncated stream, the per-trace prompt topic of every started
    trace has been ended, exactly once, and nothing was published on it afterwards *)
Theorem prompt_topic_closed r es : wf_prefix r es = true ->
  forall t, In t (trace_starts es) ->
  exists vs, on_topic (TPromptInfoFor t) (pubs_run r es) = map Some vs ++ [None].
Proof.
  intros Hwf t Hin. destruct (keys_invariant _ _ Hwf t) as [Hk Hsh]. apply (started_iff _ _ Hwf) in Hin.
  unfold pubs_run, pubs_end. rewrite on_topic_app, on_end_run_topic. unfold pi_end_run. cbn [snd].
  rewrite pi_end_run_for, Hk by apply pi_keys_nodup.
  destruct (phase_at r es t); unfold for_shape in Hsh; cbn [live]; try (exfalso; apply Hin; reflexivity);
    destruct Hsh as [vs ->]; exists vs; rewrite ?app_nil_r; reflexivity.
Qed.

Lemma pn_on_not_end rn m e : forallb not_end (snd (pn_on rn m e)) = true.
Proof. destruct e; auto. simpl. unfold pn_start_prompt. destruct (dget m t) as [[]|]; reflexivity. Qed.

Theorem notice_topic_closed r es :
  exists vs, on_topic TPromptNotice (pubs_run r es) = map Some vs ++ [None].
Proof.
  assert (He : exists vs, on_topic TPromptNotice (pubs_events r es) = map Some vs).
  { induction es as [|e es [vs IH]] using rev_ind; [exists []; reflexivity|].
    rewrite pubs_events_snoc, on_topic_app, IH, on_event_topic.
    destruct (on_topic_some TPromptNotice _ (pn_on_not_end r (r_pn (state_events r es)) e)) as [vs' ->].
    rewrite <- map_app. eauto. }
  destruct He as [vs He]. exists vs. unfold pubs_run, pubs_end. rewrite on_topic_app, He, on_end_run_topic. reflexivity.
Qed.

Theorem closed_out_prompt_topics r es : wf_prefix r es = true ->
  (forall t, In t (trace_starts es) ->
     exists vs, on_topic (TPromptInfoFor t) (pubs_run r es) = map Some vs ++ [None]) /\
  (exists vs, on_topic TPromptNotice (pubs_run r es) = map Some vs ++ [None]).
Proof. intros H. split; [exact (prompt_topic_closed r es H) | exact (notice_topic_closed r es)]. Qed.
Module PS := NL.PubSub.Model.

(** what the broker does to the topic's PubSubItem for one publication *)
Definition to_op (x : option value) : PS.op := match x with Some _ => PS.Publish 0 | None => PS.Close end.

Definition forget (o : PS.op) : PS.op := match o with PS.Publish _ => PS.Publish 0 | o => o end.

Definition is_publisher_op (o : PS.op) : bool :=
  match o with PS.Publish _ | PS.Close | PS.Clear => true | _ => false end.

Lemma step_closed_mono it o : PS.i_closed it = true -> PS.i_closed (fst (PS.step it o)) = true.
Proof.
  intros H. destruct o; simpl; rewrite ?H; simpl; auto.
  - destruct (nth_error (PS.i_subs it) s); simpl; auto. destruct (PS.next_sub it s0). simpl. assumption.
  - destruct (nth_error (PS.i_subs it) s); simpl; auto.
Qed.

Lemma step_close_closes it : PS.i_closed (fst (PS.step it PS.Close)) = true.
Proof. simpl. destruct (PS.i_closed it) eqn:E; simpl; auto. Qed.

Lemma run_from_closed : forall ops it,
  PS.i_closed it = true \/ In PS.Close ops -> PS.i_closed (fst (PS.run_from it ops)) = true.
Proof.
  induction ops as [|o ops IH]; intros it H; simpl.
  - destruct H as [H | []]. assumption.
  - destruct (PS.step it o) as [it' x] eqn:E. specialize (IH it').
    destruct (PS.run_from it' ops) as [it'' xs]. simpl in *. apply IH.
    destruct H as [H | [Heq | H]]; auto.
    + left. pose proof (step_closed_mono it o H) as Hm. rewrite E in Hm. exact Hm.
    + left. subst o. pose proof (step_close_closes it) as Hm. rewrite E in Hm. exact Hm.
Qed.

(** any interleaving [ops] of subscriber operations with a publisher sequence that ends the
    topic leaves the topic closed; C08_termination then makes every subscriber terminate *)
Theorem ended_topic_terminates (obs : list (option value)) (ops : list PS.op) :
  (exists vs, obs = map Some vs ++ [None]) ->
  map forget (filter is_publisher_op ops) = map to_op obs ->
  forall s, (s < length (PS.i_subs (PS.run false ops)))%nat ->
  exists n,
    let tail := skipn (length ops) (PS.outs false (ops ++ repeat (PS.Next s) (S n))) in
    last tail PS.OBlocked = PS.OStop /\ ~ In PS.OBlocked tail.
Proof.
  intros [vs ->] Hops s Hs. apply NL.PubSub.Main.model_termination; auto.
  unfold PS.run. apply run_from_closed. right.
  assert (Hin : In PS.Close (map forget (filter is_publisher_op ops))).
  { rewrite Hops, map_app. apply in_or_app. right. left. reflexivity. }
  apply in_map_iff in Hin. destruct Hin as (o & Ho & Hin). apply filter_In in Hin.
  destruct o; simpl in Ho; try discriminate. tauto.
Qed.


Definition cur_call (p : phase) : option Z :=
  match p with PCall c | PLoop c _ | PPrompt c _ | PAfter c => Some c | _ => None end.

Definition is_call_boundary (e : event) : bool :=
  match e with StartTraceCall _ _ _ _ _ | EndTraceCall _ _ _ => true | _ => false end.

Lemma pcore_cur_inner p e p' : pcore p e = Some p' -> is_call_boundary e = false -> cur_call p' = cur_call p.
Proof. destruct p as [| |?|? []|? ?|?|], e; simpl; intros H Hb; try discriminate; crush_eqs; auto. Qed.

Lemma pcore_stc p r t c fid info p' : pcore p (StartTraceCall r t c fid info) = Some p' -> p' = PCall c.
Proof. destruct p as [| |?|? []|? ?|?|]; simpl; intros H; try discriminate. inv H. reflexivity. Qed.

Lemma pcore_etc p r t c p' : pcore p (EndTraceCall r t c) = Some p' -> p' = PIdle.
Proof. destruct p as [| |?|? []|? ?|?|]; simpl; intros H; try discriminate; crush_eqs; reflexivity. Qed.

Lemma pcore_sp ph r t c p txt ph' :
  pcore ph (StartPrompt r t c p txt) = Some ph' -> cur_call ph = Some c /\ ph' = PPrompt c p.
Proof. destruct ph as [| |?|? []|? ?|?|]; simpl; intros H; try discriminate; crush_eqs; auto. Qed.

Lemma pcore_ep ph r t c p cmd ph' :
  pcore ph (EndPrompt r t c p cmd) = Some ph' -> ph = PPrompt c p /\ ph' = PLoop c true.
Proof. destruct ph as [| |?|? []|? ?|?|]; simpl; intros H; try discriminate; crush_eqs; auto. Qed.

(** PromptInfoRegistrar and PromptNoticeRegistrar each keep the open trace call of every trace
    in a _trace_call_map, updated alike *)
Definition calls_on (m : list (Z * (Z * Z))) (e : event) : list (Z * (Z * Z)) :=
  match e with
  | StartTraceCall _ t _ fid info => dset m t (fid, info)
  | EndTraceCall _ t _ => ddel m t
  | _ => m
  end.

Lemma pi_on_calls rn s e : pi_call (fst (pi_on rn s e)) = calls_on (pi_call s) e.
Proof.
  destruct e; simpl; auto; autounfold with methods.
  2: destruct (dget (pi_call s) t) as [[]|] eqn:E; [|symmetry; apply ddel_absent; assumption].
  all: destruct_lookups; reflexivity.
Qed.

Lemma pn_on_calls rn m e : fst (pn_on rn m e) = calls_on m e.
Proof. destruct e; simpl; auto. unfold pn_start_prompt. destruct (dget m t) as [[]|]; reflexivity. Qed.

Lemma call_maps_agree rn es : pi_call (r_pi (state_events rn es)) = r_pn (state_events rn es).
Proof.
  apply state_events_ind; [reflexivity|]. intros s e H. rewrite on_event_split. cbn [fst r_pi r_pn].
  rewrite pi_on_calls, pn_on_calls, H. reflexivity.
Qed.

Lemma calls_on_other m e t : t <> ev_trace e -> dget (calls_on m e) t = dget m t.
Proof.
  intros H. apply Z.eqb_neq in H. destruct e; simpl in *; auto; [rewrite dget_dset | rewrite dget_ddel]; rewrite H; reflexivity.
Qed.

(** the map holds, for a trace inside a trace call, the payload of the call's start event *)
Definition call_inv (r : Z) (es : list event) : Prop :=
  forall t,
    match cur_call (phase_at r es t) with
    | Some c => In c (call_starts es) /\ dget (r_pn (state_events r es)) t = Some (call_payload es c)
    | None => dget (r_pn (state_events r es)) t = None
    end.

Lemma wfp_nodup_calls r es : wf_prefix r es = true -> NoDup (call_starts es).
Proof. intros H. apply wf_prefix_unfold in H. destruct H as (_ & H & _). apply nodupb_spec. assumption. Qed.

Lemma call_invariant r : forall es, wf_prefix r es = true -> call_inv r es.
Proof.
  apply wfp_ind; [intros t; reflexivity|]. intros es e Hwf Hwf' IH t.
  destruct (phase_snoc _ _ _ Hwf) as (Hp & _ & Ho).
  rewrite state_events_snoc, on_event_split. cbn [fst r_pn]. rewrite pn_on_calls.
  pose proof (wfp_nodup_calls _ _ Hwf) as Hnd. rewrite call_starts_app in *. specialize (IH t).
  (* a call already open keeps its payload *)
  assert (Hold : dget (calls_on (r_pn (state_events r es)) e) t = dget (r_pn (state_events r es)) t ->
            cur_call (phase_at r (es ++ [e]) t) = cur_call (phase_at r es t) ->
            match cur_call (phase_at r (es ++ [e]) t) with
            | Some c => In c (call_starts es ++ call_starts [e]) /\
                        dget (calls_on (r_pn (state_events r es)) e) t = Some (call_payload (es ++ [e]) c)
            | None => dget (calls_on (r_pn (state_events r es)) e) t = None
            end).
  { intros -> ->. destruct (cur_call (phase_at r es t)) as [c|]; auto. destruct IH as [Hin ->].
    rewrite call_payload_app, if_in by assumption. auto using in_or_app. }
  destruct (Z.eq_dec t (ev_trace e)) as [-> | Hne].
  2:{ apply Hold; [apply calls_on_other; assumption | rewrite (Ho t Hne); reflexivity]. }
  destruct (is_call_boundary e) eqn:Eb.
  2:{ apply Hold; [destruct e; try discriminate; reflexivity | eapply pcore_cur_inner; eauto]. }
  destruct e; try discriminate; cbn [ev_trace calls_on] in *.
  - apply pcore_stc in Hp. rewrite Hp, dget_dset, Z.eqb_refl. cbn [cur_call].
    apply NoDup_remove_2 in Hnd. rewrite app_nil_r in Hnd.
    rewrite call_payload_app, if_notin by assumption. simpl. rewrite Z.eqb_refl. auto using in_or_app, in_eq.
  - apply pcore_etc in Hp. rewrite Hp, dget_ddel, Z.eqb_refl. reflexivity.
Qed.

Definition is_start_prompt (e : event) : bool := match e with StartPrompt _ _ _ _ _ => true | _ => false end.

Lemma pcore_to_prompt ph e c q : pcore ph e = Some (PPrompt c q) -> is_start_prompt e = false -> ph = PPrompt c q.
Proof. destruct ph as [| |?|? []|? ?|?|], e; simpl; intros H Hb; try discriminate; crush_eqs; auto. Qed.

Lemma wfp_nodup_prompts r es : wf_prefix r es = true -> NoDup (prompt_starts es).
Proof. intros H. apply wf_prefix_unfold in H. destruct H as (_ & _ & H). apply nodupb_spec. assumption. Qed.

Definition open_info (rn t p info txt : Z) : pinfo := mkPinfo rn t p true (Some info) (Some txt) None false.

Definition close_info (i : pinfo) (cmd : Z) : pinfo :=
  mkPinfo (pi_run i) (pi_trace i) (pi_no i) false (pi_info i) (pi_txt i) (Some cmd) (pi_tce i).

Lemma pi_on_prompts rn s e q :
  dget (pi_prompt (fst (pi_on rn s e))) q =
  match e with
  | StartPrompt _ t _ p txt =>
      match dget (pi_call s) t with
      | Some (_, info) => if q =? p then Some (open_info rn t p info txt) else dget (pi_prompt s) q
      | None => dget (pi_prompt s) q
      end
  | EndPrompt _ _ _ p _ =>
      match dget (pi_prompt s) p with
      | Some _ => if q =? p then None else dget (pi_prompt s) q
      | None => dget (pi_prompt s) q
      end
  | _ => dget (pi_prompt s) q
  end.
Proof.
  destruct e; simpl; auto.
  - unfold pi_end_trace. destruct (existsb (Z.eqb t) (pi_keys s)); reflexivity.
  - unfold pi_end_call.
    destruct (dget (pi_call s) t) as [[fid info]|]; [destruct (dget (pi_frame s) t) as [f|]; [destruct (fid =? f)|]|]; reflexivity.
  - unfold pi_start_prompt. destruct (dget (pi_call s) t) as [[]|]; simpl; auto using dget_dset.
  - unfold pi_end_prompt. destruct (dget (pi_prompt s) p); simpl; auto using dget_ddel.
Qed.

(** the map holds the open prompt of every trace that is at a prompt *)
Definition prompt_inv (r : Z) (es : list event) : Prop :=
  forall t c p, phase_at r es t = PPrompt c p ->
    In p (prompt_starts es) /\ dget (pi_prompt (r_pi (state_events r es))) p = Some (open_info r t p (snd (call_payload es c)) (prompt_txt es p)).

Lemma prompt_invariant r : forall es, wf_prefix r es = true -> prompt_inv r es.
Proof.
  apply wfp_ind; [intros t c p H; discriminate|]. intros es e Hwf Hwf' IH t c0 p0 Hph.
  destruct (phase_snoc _ _ _ Hwf) as (Hp & Hr & Ho). pose proof (call_invariant _ _ Hwf') as Hc.
  pose proof (wfp_nodup_prompts _ _ Hwf) as Hnd. rewrite prompt_starts_app in *.
  rewrite state_events_snoc, on_event_split. cbn [fst r_pi]. rewrite pi_on_prompts, call_maps_agree.
  (* a prompt that was already open before the event *)
  assert (Hold : forall t, phase_at r es t = PPrompt c0 p0 ->
            In p0 (prompt_starts es) /\
            dget (pi_prompt (r_pi (state_events r es))) p0 =
              Some (open_info r t p0 (snd (call_payload (es ++ [e]) c0)) (prompt_txt (es ++ [e]) p0))).
  { intros t' Ht'. destruct (IH _ _ _ Ht') as (Hin & Hd).
    specialize (Hc t'). rewrite Ht' in Hc. destruct Hc as (Hcin & _).
    rewrite call_payload_app, prompt_txt_app, !if_in by assumption. auto. }
  destruct (is_start_prompt e) eqn:Esp.
  - (* a prompt starts *)
    destruct e; try discriminate. cbn [ev_trace ev_run] in *. subst r0.
    destruct (pcore_sp _ _ _ _ _ _ _ Hp) as [Hcc Hp1].
    apply NoDup_remove_2 in Hnd. rewrite app_nil_r in Hnd.
    pose proof (Hc t0) as Hc0. rewrite Hcc in Hc0. destruct Hc0 as (Hcin & ->).
    destruct (call_payload es c) as [fid info] eqn:Ecp.
    destruct (Z.eq_dec t t0) as [-> | Hne].
    + rewrite Hp1 in Hph. injection Hph as <- <-. rewrite Z.eqb_refl.
      rewrite prompt_txt_app, call_payload_app, (if_notin p), (if_in c), Ecp by assumption.
      simpl. rewrite Z.eqb_refl. auto using in_or_app, in_eq.
    + rewrite (Ho t Hne) in Hph. destruct (Hold _ Hph) as (H1 & H2).
      replace (p0 =? p) with false by (symmetry; apply Z.eqb_neq; intros ->; contradiction). auto using in_or_app.
  - assert (Hph' : phase_at r es t = PPrompt c0 p0).
    { destruct (Z.eq_dec t (ev_trace e)) as [-> | Hne]; [|rewrite <- (Ho t Hne); assumption].
      rewrite Hph in Hp. exact (pcore_to_prompt _ _ _ _ Hp Esp). }
    destruct (Hold _ Hph') as (H1 & H2). split; [auto using in_or_app|].
    destruct e; try discriminate; auto.
    (* a prompt closes: that of another trace; the stored PromptInfo names its trace, so the
       prompt numbers differ *)
    cbn [ev_trace] in *. destruct (pcore_ep _ _ _ _ _ _ _ Hp) as [Hq Hq1].
    destruct (IH _ _ _ Hq) as (_ & Hd). destruct (IH _ _ _ Hph') as (_ & Hd'). rewrite Hd.
    replace (p0 =? p) with false; auto. symmetry. apply Z.eqb_neq. intros ->.
    assert (t0 = t) as -> by (rewrite Hd in Hd'; unfold open_info in Hd'; congruence).
    rewrite Hph in Hq1. discriminate.
Qed.

Definition prompt_events_known (es : list event) : Prop :=
  forall e, In e es ->
    match e with
    | StartPrompt _ _ c p _ | EndPrompt _ _ c p _ => In c (call_starts es) /\ In p (prompt_starts es)
    | _ => True
    end.

Lemma wfp_prompt_events_known r : forall es, wf_prefix r es = true -> prompt_events_known es.
Proof.
  apply wfp_ind; [intros e []|]. intros es e Hwf Hwf' IH x Hx.
  destruct (phase_snoc _ _ _ Hwf) as (Hp & _ & _).
  pose proof (call_invariant _ _ Hwf' (ev_trace e)) as Hc. pose proof (prompt_invariant _ _ Hwf' (ev_trace e)) as Hq.
  rewrite call_starts_app, prompt_starts_app. apply in_app_or in Hx. destruct Hx as [Hx | [<- | []]].
  - specialize (IH x Hx). destruct x; auto; split; apply in_or_app; tauto.
  - destruct e; auto; cbn [ev_trace] in *.
    + apply pcore_sp in Hp. destruct Hp as [Hcc _]. rewrite Hcc in Hc. split; apply in_or_app; [tauto | simpl; auto].
    + apply pcore_ep in Hp. destruct Hp as [Hp _]. rewrite Hp in Hc. simpl in Hc. destruct (Hq _ _ Hp) as (? & _).
      split; apply in_or_app; tauto.
Qed.

(** the notices expected from the history: one per prompt start, in order, carrying the
    location of the trace call that contains the prompt *)
Definition notices (r : Z) (full es : list event) : list (option value) :=
  flat_map (fun e => match e with
                     | StartPrompt _ t c p txt => [Some (VNotice r t p txt (snd (call_payload full c)))]
                     | _ => []
                     end) es.

Lemma pn_on_notice rn m e :
  on_topic TPromptNotice (snd (pn_on rn m e)) =
  match e with
  | StartPrompt _ t _ p txt =>
      match dget m t with Some (_, info) => [Some (VNotice rn t p txt info)] | None => [] end
  | _ => []
  end.
Proof. destruct e; auto. simpl. unfold pn_start_prompt. destruct (dget m t) as [[]|]; reflexivity. Qed.

Theorem notice_bijection r es : wf_prefix r es = true ->
  on_topic TPromptNotice (pubs_events r es) = notices r es es.
Proof.
  revert es. apply wfp_ind; [reflexivity|]. intros es e Hwf Hwf' IH.
  destruct (phase_snoc _ _ _ Hwf) as (Hp & _ & _). pose proof (wfp_prompt_events_known _ _ Hwf') as Hk.
  rewrite pubs_events_snoc, on_topic_app, IH, on_event_topic, pn_on_notice. unfold notices. rewrite flat_map_app. f_equal.
  - apply flat_map_ext_in. intros x Hx. specialize (Hk x Hx). destruct x; auto.
    rewrite call_payload_app, if_in by tauto. reflexivity.
  - simpl. rewrite app_nil_r. destruct e; auto.
    cbn [ev_trace] in Hp. apply pcore_sp in Hp. destruct Hp as [Hcc _].
    pose proof (call_invariant _ _ Hwf' t) as Hc. rewrite Hcc in Hc. destruct Hc as (Hin & ->).
    rewrite call_payload_app, if_in by assumption. destruct (call_payload es c). reflexivity.
Qed.

(** a publication that reports on a prompt: a PromptInfo carrying the prompt text (the
    trace_call_end notice and the dummy published at trace start carry none) *)
Definition is_report (x : option value) : bool :=
  match x with
  | Some (VPromptInfo i) => match pi_txt i with Some _ => true | None => false end
  | _ => false
  end.

(** THE expected reports, a function of the history alone: one "open" per prompt start, one
    "closed" per prompt end carrying the command of that end event (and the numbers, location
    and text of the prompt), in stream order; nothing else *)
Definition prompt_reports (r : Z) (full es : list event) : list (option value) :=
  flat_map (fun e => match e with
                     | StartPrompt _ t c p txt =>
                         [Some (VPromptInfo (mkPinfo r t p true (Some (snd (call_payload full c))) (Some txt) None false))]
                     | EndPrompt _ t c p cmd =>
                         [Some (VPromptInfo (mkPinfo r t p false (Some (snd (call_payload full c)))
                                               (Some (prompt_txt full p)) (Some cmd) false))]
                     | _ => []
                     end) es.

(** what PromptInfoRegistrar reports for one event, on prompt_info and on the trace's own topic *)
Definition report_of (rn : Z) (s : PI) (e : event) : list (option value) :=
  match e with
  | StartPrompt _ t _ p txt =>
      match dget (pi_call s) t with
      | Some (_, info) => [Some (VPromptInfo (open_info rn t p info txt))]
      | None => []
      end
  | EndPrompt _ _ _ p cmd =>
      match dget (pi_prompt s) p with
      | Some i => match pi_txt i with Some _ => [Some (VPromptInfo (close_info i cmd))] | None => [] end
      | None => []
      end
  | _ => []
  end.

Lemma pi_on_reports rn s e : filter is_report (on_topic TPromptInfo (snd (pi_on rn s e))) = report_of rn s e.
Proof.
  destruct e; cbn [pi_on report_of]; auto.
  - unfold pi_end_trace. destruct (existsb (Z.eqb t) (pi_keys s)); reflexivity.
  - unfold pi_end_call.
    destruct (dget (pi_call s) t) as [[fid info]|]; [destruct (dget (pi_frame s) t) as [f|]; [destruct (fid =? f)|]|]; reflexivity.
  - unfold pi_start_prompt. destruct (dget (pi_call s) t) as [[]|]; reflexivity.
  - unfold pi_end_prompt. destruct (dget (pi_prompt s) p) as [i|]; [unfold close_info; simpl; destruct (pi_txt i)|]; reflexivity.
Qed.

Lemma pi_on_reports_for rn s e t :
  filter is_report (on_topic (TPromptInfoFor t) (snd (pi_on rn s e))) = if t =? ev_trace e then report_of rn s e else [].
Proof.
  destruct (t =? ev_trace e) eqn:Et; [|apply Z.eqb_neq in Et; rewrite pi_on_for_other by assumption; reflexivity].
  apply Z.eqb_eq in Et. subst. rewrite <- pi_on_reports.
  destruct e; cbn [pi_on ev_trace]; auto.
  - simpl. rewrite Z.eqb_refl. reflexivity.
  - unfold pi_end_trace. destruct (existsb (Z.eqb t) (pi_keys s)); simpl; rewrite ?Z.eqb_refl; reflexivity.
  - unfold pi_end_call.
    destruct (dget (pi_call s) t) as [[fid info]|]; [destruct (dget (pi_frame s) t) as [f|]; [destruct (fid =? f)|]|];
      simpl; rewrite ?Z.eqb_refl; reflexivity.
  - unfold pi_start_prompt. destruct (dget (pi_call s) t) as [[]|]; simpl; rewrite ?Z.eqb_refl; reflexivity.
  - unfold pi_end_prompt. destruct (dget (pi_prompt s) p) as [i|]; unfold close_info; simpl; rewrite ?Z.eqb_refl; [destruct (pi_txt i)|]; reflexivity.
Qed.

Lemma prompt_reports_stable r es l sub sub' :
  prompt_events_known es -> (forall e, In e sub -> In e es) ->
  prompt_reports r (es ++ l) (sub ++ sub') = prompt_reports r es sub ++ prompt_reports r (es ++ l) sub'.
Proof.
  intros Hk Hsub. unfold prompt_reports. rewrite flat_map_app. f_equal.
  apply flat_map_ext_in. intros e He. specialize (Hk e (Hsub e He)).
  destruct e; auto; destruct Hk as [Hc Hp]; rewrite call_payload_app, ?prompt_txt_app, !if_in by assumption; reflexivity.
Qed.

Definition reports_inv (r : Z) (es : list event) : Prop :=
  filter is_report (on_topic TPromptInfo (pubs_events r es)) = prompt_reports r es es /\
  forall t, filter is_report (on_topic (TPromptInfoFor t) (pubs_events r es)) = prompt_reports r es (proj t es).

Lemma reports_invariant r : forall es, wf_prefix r es = true -> reports_inv r es.
Proof.
  apply wfp_ind; [split; reflexivity|]. intros es e Hwf Hwf' [IH1 IH2].
  destruct (phase_snoc _ _ _ Hwf) as (Hp & Hr & _). pose proof (wfp_prompt_events_known _ _ Hwf') as Hk.
  pose proof (call_invariant _ _ Hwf' (ev_trace e)) as Hc. pose proof (prompt_invariant _ _ Hwf' (ev_trace e)) as Hq.
  (* what the event itself contributes *)
  assert (He : report_of r (r_pi (state_events r es)) e = prompt_reports r (es ++ [e]) [e]).
  { destruct e; try reflexivity; cbn [ev_trace ev_run] in *; subst r0.
    - apply pcore_sp in Hp. destruct Hp as [Hcc _]. rewrite Hcc in Hc. destruct Hc as (Hcin & Hdc).
      unfold report_of, prompt_reports. simpl. rewrite call_maps_agree, Hdc, call_payload_app, if_in by assumption.
      destruct (call_payload es c). reflexivity.
    - apply pcore_ep in Hp. destruct Hp as [Hp _]. rewrite Hp in Hc. destruct Hc as (Hcin & _).
      destruct (Hq _ _ Hp) as (Hpin & Hd).
      unfold report_of, prompt_reports. simpl. rewrite Hd, call_payload_app, prompt_txt_app, !if_in by assumption.
      reflexivity. }
  unfold reports_inv. rewrite pubs_events_snoc. split; [|intros t].
  - rewrite on_topic_app, filter_app, IH1, on_event_topic, pi_on_reports, He, prompt_reports_stable; auto.
  - rewrite on_topic_app, filter_app, IH2, on_event_topic, pi_on_reports_for, proj_app, prompt_reports_stable; auto.
    + f_equal. unfold proj. simpl. rewrite (Z.eqb_sym t). destruct (ev_trace e =? t); [exact He | reflexivity].
    + intros x Hx. apply filter_In in Hx. tauto.
Qed.

Lemma pi_end_run_no_report k s : filter is_report (on_topic k (snd (pi_end_run s))) = [].
Proof.
  unfold pi_end_run. cbn [snd]. induction (pi_keys s) as [|t l IH]; simpl; auto.
  destruct (topic_eqb k (TPromptInfoFor t)); auto.
Qed.

(** C11, prompts: over the whole run -- the events of any truncated stream followed by
    on_end_run -- the prompt reports on prompt_info, and on prompt_info_<t> for the prompts of
    trace t, are exactly [prompt_reports]: open for each prompt start, then closed with the
    command of its end event; a prompt still open at the kill gets no closing report *)
Theorem prompt_open_close r es : wf_prefix r es = true ->
  filter is_report (on_topic TPromptInfo (pubs_run r es)) = prompt_reports r es es /\
  forall t, filter is_report (on_topic (TPromptInfoFor t) (pubs_run r es)) = prompt_reports r es (proj t es).
Proof.
  intros Hwf. destruct (reports_invariant _ _ Hwf) as [H1 H2].
  unfold pubs_run, pubs_end. split; [|intros t];
    rewrite on_topic_app, filter_app, on_end_run_topic; cbv iota; rewrite pi_end_run_no_report, app_nil_r; auto.
Qed.
