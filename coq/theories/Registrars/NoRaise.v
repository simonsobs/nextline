(** C11 -- a well-formed stream, cut anywhere, makes no hook implementation of a registrar raise.

    [Raise] is recorded by Registrars/Model.v at: `self._trace_call_map[trace_no]` of
    PromptInfoRegistrar / PromptNoticeRegistrar.on_start_prompt (KeyError when the trace has
    no open trace call), `self._prompt_info_map.pop(prompt_no)` of on_end_prompt (KeyError when
    the prompt is not open) and the asserts of RunInfoRegistrar.  The grammar (C09) puts every
    OnStartPrompt inside a trace call of its trace and every OnEndPrompt after its
    OnStartPrompt: the invariants [call_invariant] / [prompt_invariant] of Registrars/Proofs.v
    say the maps then hold the keys.

    This matters because in the code a raising hook kills the relay task (`_monitor`): the
    remaining events are not relayed and `on_end_run` is not awaited.  The model (and the
    theorems of Props/C11.v, which read publications per topic) go on after a [Raise]; by the
    theorem below that continuation is never taken for a stream accepted by [wf_prefix]. *)
From NL Require Import Events.Grammar Events.GrammarProofs Registrars.Model Registrars.Proofs.
Open Scope Z_scope.

Lemma raised_app a b : raised (a ++ b) = raised a || raised b.
Proof. apply existsb_app. Qed.

Lemma raised_app_l a b : raised (a ++ b) = false -> raised a = false.
Proof. rewrite raised_app. intros H. apply orb_false_iff in H. tauto. Qed.

Lemma on_event_no_raise rn s e :
  (forall r t c p txt, e = StartPrompt r t c p txt ->
     dget (pi_call (r_pi s)) t <> None /\ dget (r_pn s) t <> None) ->
  (forall r t c p cmd, e = EndPrompt r t c p cmd -> dget (pi_prompt (r_pi s)) p <> None) ->
  raised (snd (on_event rn s e)) = false.
Proof.
  intros Hsp Hep. rewrite on_event_split. destruct e; simpl; try reflexivity.
  - (* EndTrace *) autounfold with methods; destruct_lookups; reflexivity.
  - (* EndTraceCall *) autounfold with methods; destruct_lookups; reflexivity.
  - (* StartPrompt *) destruct (Hsp _ _ _ _ _ eq_refl) as [H1 H2]. unfold pi_start_prompt, pn_start_prompt.
    destruct (dget (pi_call (r_pi s)) t) as [[]|]; [|congruence].
    destruct (dget (r_pn s) t) as [[]|]; [|congruence]. reflexivity.
  - (* EndPrompt *) pose proof (Hep _ _ _ _ _ eq_refl) as H. unfold pi_end_prompt.
    destruct (dget (pi_prompt (r_pi s)) p); [|congruence]. reflexivity.
Qed.

Lemma state_events_ri rn es : r_ri (state_events rn es) = Some 1.
Proof.
  apply (state_events_ind rn (fun s => r_ri s = Some 1)); [reflexivity|].
  intros s e H. rewrite on_event_split. exact H.
Qed.

Theorem events_no_raise r : forall es, wf_prefix r es = true -> raised (pubs_events r es) = false.
Proof.
  apply wfp_ind; [reflexivity|]. intros es e Hwf Hwf' IH.
  rewrite pubs_events_snoc, raised_app, IH. simpl.
  destruct (phase_snoc _ _ _ Hwf) as (Hp & _ & _).
  pose proof (call_invariant _ _ Hwf' (ev_trace e)) as Hc. pose proof (prompt_invariant _ _ Hwf' (ev_trace e)) as Hq.
  apply on_event_no_raise.
  - intros r0 t c p txt ->. cbn [ev_trace] in *. apply pcore_sp in Hp. destruct Hp as [Hp _].
    rewrite Hp in Hc. destruct Hc as (_ & H). rewrite call_maps_agree, H. split; discriminate.
  - intros r0 t c p cmd ->. cbn [ev_trace] in *. apply pcore_ep in Hp. destruct Hp as [Hp _].
    destruct (Hq _ _ Hp) as (_ & H). rewrite H. discriminate.
Qed.

Lemma on_end_run_no_raise rn s : r_ri s <> None -> raised (snd (on_end_run rn s)) = false.
Proof.
  intros H. unfold on_end_run, ri_end_run, ti_end_run, pi_end_run. destruct (r_ri s); [|congruence]. simpl.
  rewrite !raised_app. unfold raised. simpl. rewrite orb_false_r. apply orb_false_iff. split.
  - induction (rev (r_ti s)); simpl; auto.
  - induction (pi_keys (r_pi s)); simpl; auto.
Qed.

(** the whole run, on_end_run included *)
Theorem no_raise r es : wf_prefix r es = true -> raised (pubs_run r es) = false.
Proof.
  intros Hwf. unfold pubs_run, pubs_end. rewrite raised_app, (events_no_raise _ _ Hwf). apply on_end_run_no_raise.
  rewrite state_events_ri. discriminate.
Qed.

(** every prefix of the relay: what has been handed to the broker when event number n has been
    dispatched contains no Raise either (wf_prefix is prefix closed) *)
Corollary no_raise_prefix r a b : wf_prefix r (a ++ b) = true -> raised (pubs_events r a) = false.
Proof. intros H. apply events_no_raise. eapply wf_prefix_app; eauto. Qed.
