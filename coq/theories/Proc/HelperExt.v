(** The interpreter of Proc/HelperInterp.v depends on the functions it is given (how other
    programs are called; how the listener coroutine runs) only through their VALUES: two towers
    built from pointwise-equal listener functions compute the same results.  This is what allows
    Proc/HelperTie.v to replace the interpretation of `_listen` by its closed form (proved equal
    at every state) before evaluating a program.  No functional extensionality is used. *)
From Coq Require Import List ZArith Bool String Arith.
From NL Require Import Proc.HelperSyntax Gen.ProcHelpers Proc.HelperInterp.
Import ListNotations.

Definition cf_eq (c1 c2 : string -> list val -> st -> completion * st) : Prop :=
  forall name args s, c1 name args s = c2 name args s.

Section Ext.
Variable E : env.
Variables c1 c2 : string -> list val -> st -> completion * st.
Hypothesis H : cf_eq c1 c2.

Lemma finish_ext : forall q, finish c1 q = finish c2 q.
Proof.
  intros [r | name args s p]; simpl; [reflexivity | ].
  destruct p; rewrite (H name args s); reflexivity.
Qed.

Lemma do_call_ext : forall f a s, do_call E c1 f a s = do_call E c2 f a s.
Proof. intros. unfold do_call. apply finish_ext. Qed.

Lemma do_await_ext : forall v s, do_await E c1 v s = do_await E c2 v s.
Proof. intros. unfold do_await. apply finish_ext. Qed.

(** [ext_sub IH]: replace the evaluation of a sub-expression under [c1] by the one under [c2] (induction
    hypothesis [IH]) and split on its result; [ext_list IH]: the same along a list of arguments *)
Ltac ext_sub IH :=
  match goal with |- context [eval E c1 ?x ?s] =>
    rewrite (IH x s); destruct (eval E c2 x s) as [[? | ?] ?]; [ | reflexivity] end.

Ltac ext_list IH :=
  match goal with |- match ?f ?l ?s with _ => _ end = match ?g ?l ?s with _ => _ end =>
    let HL := fresh "HL" in
    assert (HL : f l s = g l s);
    [ revert s; induction l as [ | x r IHr]; intros s; [reflexivity | ]; try destruct x as [k x];
      ext_sub IH; rewrite (IHr _); reflexivity
    | rewrite HL ] end.

Lemma eval_ext : forall e s, eval E c1 e s = eval E c2 e s.
Proof.
  fix IH 1. intros e s. destruct e; simpl; try reflexivity; try ext_list IH; repeat ext_sub IH;
    try (match goal with |- (let (_, _) := ?a in _) = _ => destruct a as [[? | ?] ?] end);
    first [reflexivity | apply do_call_ext | apply do_await_ext].
Qed.

Lemma while_loop_ext : forall (f1 f2 : st -> res * st) (b1 b2 : st -> completion * st),
  (forall s, f1 s = f2 s) -> (forall s, b1 s = b2 s) -> forall k s, while_loop f1 b1 k s = while_loop f2 b2 k s.
Proof.
  intros f1 f2 b1 b2 Hf Hb k. induction k as [ | k IH]; intros s; simpl; [reflexivity | ].
  rewrite Hf. destruct (f2 s) as [[v | c] s1]; [ | reflexivity].
  destruct (truthy v); [ | reflexivity]. rewrite Hb. destruct (b2 s1) as [c s2]; destruct c; try reflexivity; apply IH.
Qed.

Lemma for_loop_ext : forall x (b1 b2 : st -> completion * st),
  (forall s, b1 s = b2 s) -> forall l s, for_loop x b1 l s = for_loop x b2 l s.
Proof.
  intros x b1 b2 Hb l. induction l as [ | v r IH]; intros s; simpl; [reflexivity | ].
  rewrite Hb. destruct (b2 (set_var x v s)) as [c s2]; destruct c; try reflexivity; apply IH.
Qed.

Lemma try_sem_ext : forall r1 r1' (h1 h2 : exn -> st -> completion * st) (o1 o2 f1 f2 : st -> completion * st),
  r1 = r1' -> (forall x s, h1 x s = h2 x s) -> (forall s, o1 s = o2 s) -> (forall s, f1 s = f2 s) ->
  try_sem r1 h1 o1 f1 = try_sem r1' h2 o2 f2.
Proof.
  intros r1 r1' h1 h2 o1 o2 f1 f2 Hr Hh Ho Hf. subst r1'. unfold try_sem.
  destruct (is_abrupt_stop (fst r1)); [reflexivity | ].
  destruct r1 as [c s1]; destruct c; simpl; rewrite ?Hh, ?Ho, ?Hf; reflexivity.
Qed.

Lemma unwind_ext : forall k o s, unwind c1 k o s = unwind c2 k o s.
Proof.
  induction k as [ | k IH]; intros o s; simpl; [reflexivity | ].
  destruct (cms s); [reflexivity | ]. rewrite H.
  destruct (c2 _ _ s) as [c s']; destruct c; try reflexivity; apply IH.
Qed.

Lemma exec_ext : forall n p m s, exec E c1 n m p s = exec E c2 n m p s.
Proof.
  intros n. fix IH 1. intros p m s. destruct p; cbn -[try_sem]; try reflexivity;
    try (destruct m; try reflexivity; rewrite eval_ext; reflexivity).
  - (* SSeq *)
    destruct m; [ | | destruct (has_yield p1); [ | apply IH]];
      rewrite (IH p1 _ s); destruct (exec E c2 n _ p1 s) as [[] ?]; try reflexivity; apply IH.
  - (* SIf *)
    destruct m; [ | | destruct (has_yield p1); [apply IH | ]; destruct (has_yield p2); [apply IH | reflexivity]];
      rewrite eval_ext; (destruct (eval E c2 c s) as [[v | x] s1]; [ | reflexivity]); destruct (truthy v); apply IH.
  - (* SWhile *)
    destruct m; try reflexivity; apply while_loop_ext; intros; try apply eval_ext; apply IH.
  - (* SFor *)
    destruct m; try reflexivity; rewrite eval_ext; destruct (eval E c2 it s) as [[v | x0] s1]; try reflexivity;
      destruct v; try reflexivity; apply for_loop_ext; intros; apply IH.
  - (* STry *)
    apply try_sem_ext.
    + destruct m; try apply IH. destruct (has_yield p1); [apply IH | reflexivity].
    + intros x s1. induction hs as [ | [cl bind hb] r IHr]; [reflexivity | ].
      destruct (matches cl x); [ | exact IHr]. rewrite IH. reflexivity.
    + intros s1. apply IH.
    + intros s1. apply IH.
  - (* SAsyncWithStack *)
    destruct m; try reflexivity; rewrite IH; destruct (exec E c2 n _ p _) as [c s1];
      (destruct (is_abrupt_stop c); [reflexivity | ]); rewrite unwind_ext; reflexivity.
Qed.

End Ext.

Lemma dispatch_ext : forall E (l1 l2 : st -> completion * st) c1 c2 n,
  (forall s, l1 s = l2 s) -> cf_eq c1 c2 -> cf_eq (dispatch E l1 c1 n) (dispatch E l2 c2 n).
Proof.
  intros E l1 l2 c1 c2 n Hl Hc name args s. unfold dispatch.
  repeat match goal with
         | |- (if ?b then _ else _) = (if ?b then _ else _) => destruct b
         end; try reflexivity;
  try (unfold call_fn; destruct (bind_params _ args); [ | reflexivity]; rewrite (exec_ext E c1 c2 Hc); reflexivity).
  - apply Hl.
  - unfold cm_enter. destruct (bind_params _ args); [ | reflexivity]. rewrite (exec_ext E c1 c2 Hc). reflexivity.
  - unfold cm_exit. destruct (cms s); [reflexivity | ]. rewrite (exec_ext E c1 c2 Hc). reflexivity.
  - rewrite (exec_ext E c1 c2 Hc). reflexivity.
  - rewrite (exec_ext (with_answer E ANever) c1 c2 Hc). reflexivity.
Qed.

Lemma cfn_ext : forall E (l1 l2 : st -> completion * st) n, (forall s, l1 s = l2 s) ->
  forall d, cf_eq (cfn E l1 n d) (cfn E l2 n d).
Proof.
  intros E l1 l2 n Hl d. induction d as [ | d IH]; simpl.
  - intros name args s. reflexivity.
  - apply dispatch_ext; assumption.
Qed.
