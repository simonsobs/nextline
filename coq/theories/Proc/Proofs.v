(** Proofs about Proc/Model.v: tie to the generated skeleton, and the facts
    C17 needs, for every configuration and every answer of the executor. *)
From NL Require Import Proc.Model.
Open Scope Z_scope.

(** the programs interpreted by the model are the ones extracted from
    /repo/nextline/utils/run.py and multiprocessing_logging.py at this check *)
Lemma tie_run : run_prog = run_skeleton. Proof. reflexivity. Qed.
Lemma tie_call : call_prog = call_skeleton. Proof. reflexivity. Qed.
Lemma tie_outer : outer_prog = outer_skeleton. Proof. reflexivity. Qed.
Lemma tie_init : init_prog = init_skeleton. Proof. reflexivity. Qed.
Lemma tie_await : await_prog = await_skeleton. Proof. reflexivity. Qed.
Lemma tie_interrupt : interrupt_prog = interrupt_skeleton. Proof. reflexivity. Qed.
Lemma tie_send_signal : send_signal_prog = send_signal_skeleton. Proof. reflexivity. Qed.
Lemma tie_terminate : terminate_prog = terminate_skeleton. Proof. reflexivity. Qed.
Lemma tie_kill : kill_prog = kill_skeleton. Proof. reflexivity. Qed.
Lemma tie_logging : logging_prog = logging_skeleton. Proof. reflexivity. Qed.
Lemma tie_exited : exited_prog = exited_fields. Proof. reflexivity. Qed.

Lemma tie_all :
  run_prog = run_skeleton /\ outer_prog = outer_skeleton /\ init_prog = init_skeleton /\
  await_prog = await_skeleton /\ interrupt_prog = interrupt_skeleton /\
  send_signal_prog = send_signal_skeleton /\ terminate_prog = terminate_skeleton /\
  kill_prog = kill_skeleton /\ logging_prog = logging_skeleton /\ exited_prog = exited_fields /\
  call_prog = call_skeleton.
Proof.
  exact (conj tie_run (conj tie_outer (conj tie_init (conj tie_await (conj tie_interrupt (conj tie_send_signal
        (conj tie_terminate (conj tie_kill (conj tie_logging (conj tie_exited tie_call)))))))))).
Qed.

(** when does the cleanup get stuck (see the environment fact in Model.v) *)
Definition stuck (w : world) : option hang_stage :=
  if collect_logging w && died_in_log_write w then Some HListener else None.

Definition expected_trace (clog : bool) : list ev :=
  (if clog then [VListenerStarted; VInitializerWrapped] else [])
  ++ [VExecutorCreated; VSubmitted; VProcessKnown; VEventSet; VFutureAwaited; VExecutorShutdown]
  ++ (if clog then [VListenerSentinel; VListenerAwaited] else []).

Ltac cases_w w :=
  destruct w as [clog a dw]; destruct clog; destruct a as [v | e | e]; try destruct e;
  destruct dw.

Lemma run_trace_exact : forall w,
  run_trace w =
  match stuck w with
  | None => expected_trace (collect_logging w)
  | Some _ => firstn 9 (expected_trace true)
  end.
Proof. intros w. cases_w w; reflexivity. Qed.

(** what `_run` returns, as a function of the answer alone *)
Definition expected_outcome (a : answer) : option Z * option exn :=
  match a with
  | AValue v => (Some v, None)
  | ARaise EBrokenPool => (None, None)
  | ARaise e => (None, Some e)
  | AData e => (None, Some e)
  end.

Lemma run_task_exact : forall w,
  run_task w =
  match stuck w with
  | Some h => THang h
  | None => TDone (fst (expected_outcome (ans w))) (snd (expected_outcome (ans w)))
  end.
Proof. intros w. cases_w w; reflexivity. Qed.

Lemma start_exact : forall w, start w = SHandle (if collect_logging w then 6%nat else 4%nat).
Proof. intros w. cases_w w; reflexivity. Qed.

Lemma await_exact : forall w,
  await_handle w =
  match stuck w with
  | Some h => Hangs h
  | None =>
    Yields (mkExited (fst (expected_outcome (ans w))) (snd (expected_outcome (ans w)))
                     (if collect_logging w then 6%nat else 4%nat)
                     (length (expected_trace (collect_logging w))))
  end.
Proof.
  intros w. unfold await_handle. rewrite start_exact, run_task_exact, run_trace_exact.
  destruct (stuck w); reflexivity.
Qed.

Lemma never_raises : forall w e, await_handle w <> Raises e.
Proof. intros w e. rewrite await_exact. destruct (stuck w); discriminate. Qed.

Lemma hang_iff : forall w h, await_handle w = Hangs h <-> stuck w = Some h.
Proof.
  intros w h. rewrite await_exact. destruct (stuck w) as [h' | ]; split; intros H;
    try discriminate; inversion H; reflexivity.
Qed.

Lemma yields_partial : forall w, stuck w = None -> exists x, await_handle w = Yields x.
Proof. intros w H. rewrite await_exact, H. eexists. reflexivity. Qed.

Lemma yields_without_logging : forall w, collect_logging w = false -> exists x, await_handle w = Yields x.
Proof. intros w H. apply yields_partial. unfold stuck. rewrite H. reflexivity. Qed.

(** a worker that was not killed while logging: always yields, however much it logged and
    whatever it raised *)
Lemma yields_when_not_killed_logging : forall w, died_in_log_write w = false -> exists x, await_handle w = Yields x.
Proof. intros w H. apply yields_partial. unfold stuck. rewrite H, andb_false_r. reflexivity. Qed.

(** the exception the function raised -- whatever its class: it travels as data -- is yielded exactly *)
Lemma exception_yielded_exactly : forall w e,
  ans w = AData e -> stuck w = None ->
  exists c t, await_handle w = Yields (mkExited None (Some e) c t).
Proof. intros w e Ha Hs. rewrite await_exact, Hs, Ha. simpl. eauto. Qed.

Lemma yields_refuted_killed_while_logging :
  exists w, ans w = ARaise EBrokenPool /\ await_handle w = Hangs HListener.
Proof. exists (mkWorld true (ARaise EBrokenPool) true). split; reflexivity. Qed.

Lemma handle_returned : forall w, exists c, start w = SHandle c.
Proof. intros w. rewrite start_exact. eexists. reflexivity. Qed.

(** the outcome required for a scenario: list of (returned, raised) pairs *)
Definition allowed (sc : scenario) : list (option Z * option exn) :=
  match sc with
  | (Ret v, None) => [(Some v, None)]
  | (Exn e, None) => [(None, Some (EWorker e))]
  | (Unpicklable, None) => [(None, Some EPickle)]
  | (SysExit n, None) => [(None, Some (ESysExit n))]
  | (HardExit _, None) => [(None, None)]
  | (_, Some (SInt, Running)) => [(None, Some EKeyboardInt)]
  | (_, Some (_, Boot)) => [(None, None)]
  | (_, Some (_, Running)) => [(None, None)]
  | (b, Some (s, Racing)) =>
      [ match b with
        | Ret v => (Some v, None) | Exn e => (None, Some (EWorker e)) | Unpicklable => (None, Some EPickle)
        | SysExit n => (None, Some (ESysExit n)) | HardExit _ => (None, None) end;
        match s with SInt => (None, Some EKeyboardInt) | _ => (None, None) end;
        (None, None) ]
  end.

Lemma allowed_is_map : forall sc, allowed sc = map expected_outcome (answers sc).
Proof.
  intros [b [[s i] | ]]; destruct b; try destruct s; try destruct i; reflexivity.
Qed.

Lemma outcome_shape : forall w sc x,
  consistent sc (ans w) -> await_handle w = Yields x ->
  In (returned x, raised x) (allowed sc).
Proof.
  intros w sc x Hc Hx. rewrite await_exact in Hx. destruct (stuck w); [discriminate | ].
  inversion Hx; subst; clear Hx. simpl.
  rewrite allowed_is_map. rewrite <- surjective_pairing. apply in_map. exact Hc.
Qed.

Lemma value_xor_exception : forall w x,
  await_handle w = Yields x -> returned x = None \/ raised x = None.
Proof.
  intros w x Hx. rewrite await_exact in Hx. destruct (stuck w); [discriminate | ].
  inversion Hx; subst; clear Hx. simpl.
  destruct (ans w) as [v | e | e]; simpl; auto. destruct e; simpl; auto.
Qed.

Lemma cleanup_partial : forall w, stuck w = None ->
  run_trace w = expected_trace (collect_logging w) /\
  helpers_left (run_trace w) = 0%nat /\
  joined (run_trace w) = true.
Proof.
  intros w H. rewrite run_trace_exact, H. destruct (collect_logging w); repeat split; reflexivity.
Qed.

(** safety part, unconditional: whatever happens, the effects are a prefix of the full sequence *)
Lemma cleanup_prefix : forall w, exists rest, expected_trace (collect_logging w) = run_trace w ++ rest.
Proof.
  intros w. rewrite run_trace_exact. unfold stuck.
  destruct (collect_logging w); destruct (died_in_log_write w); eexists; reflexivity.
Qed.

(** the worker process is joined even when the listener is stuck *)
Lemma process_always_joined : forall w, joined (run_trace w) = true.
Proof.
  intros w. rewrite run_trace_exact. unfold stuck.
  destruct (collect_logging w); destruct (died_in_log_write w); reflexivity.
Qed.

Lemma cleanup_refuted :
  exists w, joined (run_trace w) = true /\ helpers_left (run_trace w) = 1%nat.
Proof. exists (mkWorld true (ARaise EBrokenPool) true). split; reflexivity. Qed.

Lemma times_ordered : forall w x, await_handle w = Yields x -> (created_at x < exited_at x)%nat.
Proof.
  intros w x Hx. rewrite await_exact in Hx. destruct (stuck w); [discriminate | ].
  inversion Hx; subst; clear Hx. simpl.
  destruct (collect_logging w); simpl; repeat constructor.
Qed.

(** every await of the handle after the first yields the same outcome and creation time; its
    exit time is not earlier *)
Lemma await_idempotent : forall w late x,
  await_handle w = Yields x ->
  await_late w late = Yields (mkExited (returned x) (raised x) (created_at x) (exited_at x + late)).
Proof. intros w late x H. unfold await_late. rewrite H. reflexivity. Qed.

Lemma late_await_never_raises : forall w late e, await_late w late <> Raises e.
Proof.
  intros w late e. unfold await_late. pose proof (never_raises w e) as N.
  destruct (await_handle w); try exact N; try discriminate.
Qed.

Lemma signals_before_exit : forall m p, p <> PReaped -> call m p = MDelivered (sig_of m).
Proof.
  intros m p Hp. destruct m; destruct p; try congruence; reflexivity.
Qed.

(** outside the property (after exit), for the record: `interrupt()`/`send_signal()` use a
    bare os.kill and raise ProcessLookupError once the child is reaped; terminate/kill do not *)
Lemma late_requests :
  call MInterrupt PReaped = MRaisesLookup /\ (forall s, call (MSendSignal s) PReaped = MRaisesLookup) /\
  call MTerminate PReaped = MNoop /\ call MKill PReaped = MNoop.
Proof. repeat split; reflexivity. Qed.

Lemma exn_eqb_eq : forall a b, exn_eqb a b = true <-> a = b.
Proof.
  intros a b; split.
  - destruct a; destruct b; simpl; try discriminate; try reflexivity;
      intros H; apply Z.eqb_eq in H; subst; reflexivity.
  - intros ->. destruct b; simpl; try reflexivity; apply Z.eqb_refl.
Qed.

Lemma answer_eqb_eq : forall a b, answer_eqb a b = true <-> a = b.
Proof.
  intros a b; split.
  - destruct a; destruct b; simpl; try discriminate; intros H.
    + apply Z.eqb_eq in H; subst; reflexivity.
    + apply exn_eqb_eq in H; subst; reflexivity.
    + apply exn_eqb_eq in H; subst; reflexivity.
  - intros ->. destruct b; simpl; try apply Z.eqb_refl; apply exn_eqb_eq; reflexivity.
Qed.

Lemma consistentb_spec : forall sc a, consistentb sc a = true <-> consistent sc a.
Proof.
  intros sc a. unfold consistentb, consistent. rewrite existsb_exists. split.
  - intros [b [Hin Heq]]. apply answer_eqb_eq in Heq. subst. exact Hin.
  - intros Hin. exists a. split; [exact Hin | apply answer_eqb_eq; reflexivity].
Qed.
