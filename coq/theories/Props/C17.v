(** C17 -- waiting on a child process always yields its outcome and reaps it.
    Property theorems only; each is closed by [exact] of a lemma of Proc/Proofs.v (the model, first
    part) or of Proc/HelperTie.v (the `C17_tie_*`, second part).

    Model: Proc/Model.v interprets the control skeleton of
    nextline/utils/run.py (run_in_process._run, RunningProcess.__await__,
    interrupt/terminate/kill/send_signal) and of the exit path of
    multiprocessing_logging.py; Gen/RunSkeleton.v is regenerated from the source
    at every check and [C17_skeleton_tie] states that the interpreted programs
    are the extracted ones.

    PARTIAL: the executor and the OS are an oracle.  [w : world] = (log
    collection on/off, the answer of `await future`: the worker's value, the
    worker's exception, or BrokenProcessPool; and one fact about the worker's
    log traffic, see Proc/Model.v).  All statements quantify over
    EVERY world; [consistent sc a] says which answers a worker behaviour
    [sc = (behaviour, optional (signal, instant))] allows -- that relation and
    "shutdown(wait=True) joins the process" are validated by the real matrix
    of harness/props/c17.py (spawn context), not proved. *)
From NL Require Import Proc.Model Proc.Proofs.
Open Scope Z_scope.

(** the programs the model interprets are the ones extracted from /repo *)
Theorem C17_skeleton_tie :
  run_prog = run_skeleton /\ outer_prog = outer_skeleton /\ init_prog = init_skeleton /\
  await_prog = await_skeleton /\ interrupt_prog = interrupt_skeleton /\
  send_signal_prog = send_signal_skeleton /\ terminate_prog = terminate_skeleton /\
  kill_prog = kill_skeleton /\ logging_prog = logging_skeleton /\ exited_prog = exited_fields /\
  call_prog = call_skeleton.
Proof. exact tie_all. Qed.

(** starting returns a handle (event.set() happens, with `process` assigned, before
    `_run` first waits for the future) *)
Theorem C17_handle_returned : forall w, exists c, start w = SHandle c.
Proof. exact handle_returned. Qed.

(** awaiting the handle never raises, whatever the future answers (full strength) *)
Theorem C17_never_raises : forall w e, await_handle w <> Raises e.
Proof. exact never_raises. Qed.

(** "ALWAYS yields its outcome" is REFUTED by the faithful model (and by the real code: known
    finding `hang:log-listener-never-ends`): with log collection on, a worker that dies
    (os._exit / SIGTERM / SIGKILL) while its feeder thread writes a log record leaves the
    queue's write lock taken: the listener's sentinel is never written and `await task` never
    completes. *)
Theorem C17_yields_refuted_killed_while_logging :
  exists w, ans w = ARaise EBrokenPool /\ await_handle w = Hangs HListener.
Proof. exact yields_refuted_killed_while_logging. Qed.

(** exactly that situation: the added hypothesis of the partial theorems below is
    [stuck w = None], i.e. no log collection, or the worker did not die inside a log write *)
Theorem C17_hang_iff : forall w h, await_handle w = Hangs h <-> stuck w = Some h.
Proof. exact hang_iff. Qed.

Theorem C17_yields_partial : forall w, stuck w = None -> exists x, await_handle w = Yields x.
Proof. exact yields_partial. Qed.

Theorem C17_yields_without_logging : forall w,
  collect_logging w = false -> exists x, await_handle w = Yields x.
Proof. exact yields_without_logging. Qed.

(** however much the worker logged and whatever it raised: if it was not killed inside a log
    write the handle yields *)
Theorem C17_yields_when_not_killed_logging : forall w,
  died_in_log_write w = false -> exists x, await_handle w = Yields x.
Proof. exact yields_when_not_killed_logging. Qed.

(** the exception the function raised is yielded EXACTLY, whatever its class: it travels as data
    in the result of the wrapper `_call`, not through Future.set_exception (which refuses
    StopIteration and converts concurrent.futures.CancelledError) -- repaired findings
    hang:future-never-completes, wrong-exception-class:cf_cancelled, exception-lost:unloadable_exc *)
Theorem C17_exception_yielded_exactly : forall w e,
  ans w = AData e -> stuck w = None ->
  exists c t, await_handle w = Yields (mkExited None (Some e) c t).
Proof. exact exception_yielded_exactly. Qed.

(** value xor exception xor neither, matching the behaviour:
    return -> that value; raise -> that exception (any class); a return value or an exception
    that cannot be pickled or rebuilt -> the pickling error as `raised`; SystemExit ->
    `raised` = that SystemExit; hard exit, SIGTERM, SIGKILL, SIGINT before the function
    runs -> neither; SIGINT while the function runs -> `raised` = KeyboardInterrupt;
    a signal racing completion -> one of: the natural outcome, the signal's outcome, neither *)
Theorem C17_outcome_shape : forall w sc x,
  consistent sc (ans w) -> await_handle w = Yields x ->
  In (returned x, raised x)
     match sc with
     | (Ret v, None) => [(Some v, None)]
     | (Exn e, None) => [(None, Some (EWorker e))]
     | (Unpicklable, None) => [(None, Some EPickle)]
     | (SysExit n, None) => [(None, Some (ESysExit n))]
     | (HardExit _, None) => [(None, None)]
     | (_, Some (SInt, Running)) => [(None, Some EKeyboardInt)]
     | (_, Some (_, Boot)) => [(None, None)]
     | (_, Some (_, Running)) => [(None, None)]
     | (b, Some (s, Racing)) =>
         [ match b with
           | Ret v => (Some v, None) | Exn e => (None, Some (EWorker e)) | Unpicklable => (None, Some EPickle)
           | SysExit n => (None, Some (ESysExit n)) | HardExit _ => (None, None) end;
           match s with SInt => (None, Some EKeyboardInt) | _ => (None, None) end;
           (None, None) ]
     end.
Proof. exact outcome_shape. Qed.

(** never both a value and an exception *)
Theorem C17_value_xor_exception : forall w x,
  await_handle w = Yields x -> returned x = None \/ raised x = None.
Proof. exact value_xor_exception. Qed.

(** cleanup.  Unconditionally the effects are a prefix of the full sequence (nothing out of
    order, nothing twice) ... *)
Theorem C17_cleanup_prefix : forall w,
  exists rest,
    (if collect_logging w then [VListenerStarted; VInitializerWrapped] else [])
    ++ [VExecutorCreated; VSubmitted; VProcessKnown; VEventSet; VFutureAwaited; VExecutorShutdown]
    ++ (if collect_logging w then [VListenerSentinel; VListenerAwaited] else [])
    = run_trace w ++ rest.
Proof. exact cleanup_prefix. Qed.

(** ... the worker process is joined (exit code set) in EVERY world ... *)
Theorem C17_process_always_joined : forall w, joined (run_trace w) = true.
Proof. exact process_always_joined. Qed.

(** ... and, outside the stuck situation, on every path: the executor is shut down (wait=True, in
    a helper thread that is awaited: the process is joined, exit code set) after the future was awaited, then --
    with log collection -- the listener is sent its sentinel and awaited; nothing is left open *)
Theorem C17_cleanup_partial : forall w, stuck w = None ->
  run_trace w =
    (if collect_logging w then [VListenerStarted; VInitializerWrapped] else [])
    ++ [VExecutorCreated; VSubmitted; VProcessKnown; VEventSet; VFutureAwaited; VExecutorShutdown]
    ++ (if collect_logging w then [VListenerSentinel; VListenerAwaited] else []) /\
  helpers_left (run_trace w) = 0%nat /\
  joined (run_trace w) = true.
Proof. exact cleanup_partial. Qed.

(** in the stuck situation the process is joined but the listener task is left pending *)
Theorem C17_cleanup_refuted :
  exists w, joined (run_trace w) = true /\ helpers_left (run_trace w) = 1%nat.
Proof. exact cleanup_refuted. Qed.

(** any number of awaiters, at any time: every further await of the handle (started before
    completion, in the loop iteration in which the helper task finished, after the process exited,
    much later) never raises and yields the same returned / raised / creation time, with an exit
    time that is not earlier ([late] = how much later it completes).  Holds because __await__
    takes the exit time itself after the task result is there (part of the skeleton tie). *)
Theorem C17_await_idempotent : forall w late x,
  await_handle w = Yields x ->
  await_late w late = Yields (mkExited (returned x) (raised x) (created_at x) (exited_at x + late)).
Proof. exact await_idempotent. Qed.

Theorem C17_late_await_never_raises : forall w late e, await_late w late <> Raises e.
Proof. exact late_await_never_raises. Qed.

(** creation and exit times are present and ordered *)
Theorem C17_times_ordered : forall w x, await_handle w = Yields x -> (created_at x < exited_at x)%nat.
Proof. exact times_ordered. Qed.

(** interrupt / terminate / kill / send_signal never raise while the process has not
    been reaped (booting, running, or exited-but-not-yet-waited-for) *)
Theorem C17_signals_before_exit : forall m p, p <> PReaped -> call m p = MDelivered (sig_of m).
Proof. exact signals_before_exit. Qed.

(** non-vacuity: a worker that returns 7 while SIGTERM races it, with log collection:
    the allowed answers give different, allowed outcomes; the trace is the full one *)
Example C17_example_nonvacuous :
  let sc := (Ret 7, Some (STerm, Racing)) in
  consistent sc (AValue 7) /\ consistent sc (ARaise EBrokenPool) /\
  stuck (mkWorld true (AValue 7) false) = None /\
  await_handle (mkWorld true (AValue 7) false) = Yields (mkExited (Some 7) None 6 10) /\
  await_handle (mkWorld true (ARaise EBrokenPool) false) = Yields (mkExited None None 6 10) /\
  await_handle (mkWorld false (AData (EWorker 3)) true) = Yields (mkExited None (Some (EWorker 3)) 4 6) /\
  run_trace (mkWorld true (AData EKeyboardInt) false) =
    [VListenerStarted; VInitializerWrapped; VExecutorCreated; VSubmitted; VProcessKnown; VEventSet;
     VFutureAwaited; VExecutorShutdown; VListenerSentinel; VListenerAwaited] /\
  run_trace (mkWorld true (ARaise EBrokenPool) true) =
    [VListenerStarted; VInitializerWrapped; VExecutorCreated; VSubmitted; VProcessKnown; VEventSet;
     VFutureAwaited; VExecutorShutdown; VListenerSentinel] /\
  call MInterrupt PZombie = MDelivered SInt.
Proof. vm_compute. repeat split; auto. Qed.

Print Assumptions C17_skeleton_tie.
Print Assumptions C17_handle_returned.
Print Assumptions C17_never_raises.
Print Assumptions C17_yields_refuted_killed_while_logging.
Print Assumptions C17_hang_iff.
Print Assumptions C17_yields_partial.
Print Assumptions C17_yields_without_logging.
Print Assumptions C17_yields_when_not_killed_logging.
Print Assumptions C17_exception_yielded_exactly.
Print Assumptions C17_outcome_shape.
Print Assumptions C17_value_xor_exception.
Print Assumptions C17_cleanup_prefix.
Print Assumptions C17_process_always_joined.
Print Assumptions C17_cleanup_partial.
Print Assumptions C17_cleanup_refuted.
Print Assumptions C17_await_idempotent.
Print Assumptions C17_late_await_never_raises.
Print Assumptions C17_times_ordered.
Print Assumptions C17_signals_before_exit.

(** TIE of the helper code around `_run`.
    Gen/ProcHelpers.v = the statement trees of MultiprocessingLogging, _listen, _initializer,
    RunningProcess.__init__/_log_created/_log_exited/_format_time/interrupt/send_signal/terminate/
    kill/__await__, _call_all, _call, run_in_process and _run, regenerated at every check by
    translate/proc_helpers.py; Proc/HelperInterp.v interprets them over an environment [env]
    (the child's log records before / after the sentinel, died inside a queue write, the parent's
    logger levels and raising handlers, the with-body's outcome incl. cancellation, the future's
    answer, the function's and the initializer's outcome, pickle.dumps / loads succeeding, pid,
    exit code incl. positive ones, the name table, the OS state of the process, the clock).
    Everything below is proved in Proc/HelperTie.v for ALL environments.
    Genuine = a statement about the interpretation of a REGENERATED term, proved
    by evaluating that term.  C17_tie_signatures is a PIN (reflexivity against hand-copied parameter lists / field
    names / method names / default expressions).  Three programs are HAND-WRITTEN, not regenerated: [client_prog] (the
    client `async with MultiprocessingLogging() as initializer: BODY`, written with an exit stack holding that one
    context), [worker_init_prog] (one line of concurrent.futures.process._process_worker) and the mapping of Model's
    worlds to environments ([realises], [proj_ev], [proj_result]); what they CALL is regenerated.  The meaning of the
    known callables (executor, queue, logging, pickle, os.kill, Process.terminate/kill, the clock) and of the two
    concurrency abstractions (the listener task and the `_run` task are run when they are awaited; `await
    event.wait()` peeks at the prefix of `_run` up to its first real wait) is the interpreter's, i.e. hand-written and
    trusted; a second cancellation arriving INSIDE the context manager's `finally` is not modelled.  try / except /
    else / finally, `async with AsyncExitStack()`, asynccontextmanager's enter / exit protocol and the bare `raise` have
    their real meaning: a raise or a cancellation at the with-body reaches the `finally`; a hang does not.
    (From here on the names of Proc/HelperInterp.v shadow those of Proc/Model.v; the model's are
    written Model.x.) *)
From Coq Require Import String.
From NL Require Import Proc.HelperSyntax Gen.ProcHelpers Proc.HelperInterp Proc.HelperTie.
Open Scope string_scope.
Open Scope list_scope.

(** signatures of the translated functions, the fields of ExitedProcess, the shape of the keys of
    _exitcode_to_name *)
Theorem C17_tie_signatures :
  logging_params = ["mp_context"] /\ initializer_params = ["queue"] /\
  rp_init_params = ["process"; "task"] /\ rp_log_exited_params = ["exited_at"] /\
  rp_send_signal_params = ["sig"] /\ rp_await_params = [] /\ rp_interrupt_params = [] /\
  rp_terminate_params = [] /\ rp_kill_params = [] /\
  call_all_params = ["*funcs"] /\ call_params = ["func"] /\
  outer_params = ["func"; "mp_context"; "initializer"; "collect_logging"] /\
  exited_fields = ["returned"; "raised"; "process"; "process_created_at"; "process_exited_at"] /\
  exitcode_keys_negated = true /\
  rp_methods = ["__init__"; "__repr__"; "_log_created"; "_log_exited"; "_format_time"; "interrupt"; "send_signal";
                "terminate"; "kill"; "__await__"] /\
  logging_defaults = [("mp_context", ENone)] /\
  outer_defaults = [("mp_context", ENone); ("initializer", ENone); ("collect_logging", EBool false)].
Proof. exact signatures. Qed.

(** the default argument values are regenerated and EVALUATED: `run_in_process(func)` runs without a given
    context, without an initializer and WITHOUT log collection; `MultiprocessingLogging()` without a given context *)
Theorem C17_tie_default_call_frames : forall E,
  call_frame E outer_params outer_defaults [("func", VUserFunc)] = Some (outer_args false VNone VNone) /\
  call_frame E logging_params logging_defaults [] = Some [("mp_context", VNone)].
Proof. exact default_call_frames. Qed.

Theorem C17_tie_start_with_defaults : forall E f,
  call_frame E outer_params outer_defaults [("func", VUserFunc)] = Some f ->
  fst (run E outer_prog (st0 f)) = CReturn (VHandle (handle_attrs (e_tick E 0))) /\
  task_frame (snd (run E outer_prog (st0 f))) = run_frame false VNone VNone.
Proof. exact start_with_defaults. Qed.

(** the regenerated coroutine `_listen`, at EVERY state in which its closure variable `queue` is the
    queue: completion, remaining queue and handled records are the closed form (induction over the
    queue content); nothing else changes *)
Theorem C17_tie_listener_closed_form : forall E s, has_queue s ->
  listen_real E s =
  let q := listener_queue E (putq s) in
  (listen_result E q,
   mkSt (vars s) (selfa s) (putq s) (listen_rest E q) (handled s ++ listen_handled E q) (trace s)
        (listener s) (cms s) (clock s) (reads s) (cur s) (task_frame s)).
Proof. exact listen_real_spec. Qed.

(** `async with MultiprocessingLogging() as initializer: BODY`, for every environment:
    the listener task is started exactly once ... *)
Theorem C17_tie_listener_started_once : forall E, count_started (trace (snd (client_run E))) = 1%nat.
Proof. exact listener_started_once. Qed.

(** ... on EVERY exit path of the block (BODY ends normally, raises an exception of any class, is
    cancelled) the effects are: queue, initializer, listener started, BODY, sentinel put, and then
    nothing more or the listener awaited to its end ... *)
Theorem C17_tie_sentinel_on_every_exit_path : forall E,
  exists rest,
    trace (snd (client_run E)) =
      [HQueueCreated; HPartial "_initializer"; HListenerStarted; HClientBody; HSentinelPut] ++ rest /\
    (rest = [] \/ rest = [HListenerAwaited]).
Proof. exact sentinel_on_every_exit_path. Qed.

(** ... and whenever the block is left at all (normally or by an exception), no listener task is left running *)
Theorem C17_tie_no_listener_left_when_block_exits : forall E,
  (forall h, fst (client_run E) <> CHang h) -> listener (snd (client_run E)) <> LRunning.
Proof. exact no_listener_left_when_block_exits. Qed.

(** exactly when it is left, and how: a raising handler of the parent's logger comes out of the block;
    a child that died inside a queue write makes `await task` wait for ever (known finding
    hang:log-listener-never-ends); otherwise the block's outcome is BODY's *)
Theorem C17_tie_client_outcome : forall E,
  fst (client_run E) =
  match first_bad E (e_before E) with
  | Some x => CRaise x
  | None => if e_killed E then CHang HgListener else match e_body E with None => CNormal | Some x => CRaise x end
  end.
Proof. exact client_outcome. Qed.

Theorem C17_tie_listener_awaited_on_every_exit_path : forall E,
  no_bad_records E -> e_killed E = false ->
  fst (client_run E) = match e_body E with None => CNormal | Some x => CRaise x end /\
  trace (snd (client_run E)) =
    [HQueueCreated; HPartial "_initializer"; HListenerStarted; HClientBody; HSentinelPut] ++ [HListenerAwaited] /\
  listener (snd (client_run E)) = LDone.
Proof. exact listener_awaited_on_every_exit_path. Qed.

Theorem C17_tie_block_exit_refuted_killed_mid_write :
  exists E, no_bad_records E /\ e_body E = None /\
            fst (client_run E) = CHang HgListener /\ listener (snd (client_run E)) = LRunning.
Proof. exact block_exit_refuted_killed_mid_write. Qed.

(** every record put before the sentinel is handled exactly once, in order -- those the level test
    of `_listen` lets through -- whatever BODY does; records put after the sentinel are not handled *)
Theorem C17_tie_handled_in_order_exactly_once : forall E, no_bad_records E ->
  handled (snd (client_run E)) = filter (fun r => Z.leb (e_loglevel E (Some (r_name r))) (r_level r)) (e_before E).
Proof. exact handled_in_order_exactly_once. Qed.

Theorem C17_tie_handled_exact : forall E, handled (snd (client_run E)) = handled_of E (e_before E).
Proof. exact handled_exact. Qed.

(** `_call` returns exactly one of (value, None) / (None, wrapped exception) and calls the function
    once; it raises only the pickling error, exactly when the exception does not survive the round
    trip (commit 957cca5); with that answer `_run` returns (None, the pickling error) *)
Theorem C17_tie_call_exact : forall E,
  fst (call_run E) =
  match e_func E with
  | FRet v => CReturn (VTuple [VInt v; VNone])
  | FExn x => if e_dumps E && e_loads E then CReturn (VTuple [VNone; VWrapped x]) else CRaise XPickle
  end.
Proof. exact call_exact. Qed.

Theorem C17_tie_call_calls_once : forall E, trace (snd (call_run E)) = [HFuncCalled].
Proof. exact call_calls_once. Qed.

Theorem C17_tie_call_never_raises_when_picklable : forall E, e_dumps E = true -> e_loads E = true ->
  forall x, fst (call_run E) <> CRaise x.
Proof. exact call_never_raises_when_picklable. Qed.

Theorem C17_tie_call_raises_only_pickling_error : forall E x, fst (call_run E) = CRaise x ->
  x = XPickle /\ exists y, e_func E = FExn y /\ (e_dumps E = false \/ e_loads E = false).
Proof. exact call_raises_only_pickling_error. Qed.

Theorem C17_tie_call_then_run_outcome : forall E,
  run_outcome (transport (fst (call_run E))) =
  Some match e_func E with
       | FRet v => (VInt v, VNone)
       | FExn x => if e_dumps E && e_loads E then (VNone, VExn x) else (VNone, VExn XPickle)
       end.
Proof. exact call_then_run_outcome. Qed.

(** the regenerated `_run` (exit stack, MultiprocessingLogging entered on it when collect_logging,
    executor, submit, event, await of the future with its handlers, shutdown in a thread, return):
    completion, effects in order, handled records, state of the listener -- for every environment
    whose future answers with a pair / raises / never completes *)
Theorem C17_tie_run_exact : forall E clog given_ctx ini, wf_answer (e_answer E) ->
  obs4 (run_run E clog given_ctx ini) = run_spec E clog ini.
Proof. exact run_exact. Qed.

(** the executor has max_workers=1 and, with log collection, the initializer
    `_call_all(logging_initializer, initializer)`, else the user's *)
Theorem C17_tie_executor_construction : forall E (clog : bool) given_ctx ini, wf_answer (e_answer E) ->
  In (HExecutorCreated (VInt 1) (if clog then VPartial "_call_all" [VPartial "_initializer" [VObj OQueue]; ini] else ini))
     (trace (snd (run_run E clog given_ctx ini))).
Proof. exact executor_construction. Qed.

(** ... which in the child installs the QueueHandler BEFORE the user's initializer runs (also when
    that one then raises) *)
Theorem C17_tie_initializer_chain : forall E,
  worker_init E (init_value true VUserInit) = (user_init_outcome E, [HSetLevel (VInt 10); HHandlerInstalled; HUserInit]) /\
  worker_init E (init_value true VNone) = (CNormal, [HSetLevel (VInt 10); HHandlerInstalled]) /\
  worker_init E (init_value false VUserInit) = (user_init_outcome E, [HUserInit]) /\
  worker_init E (init_value false VNone) = (CNormal, []).
Proof. exact initializer_chain. Qed.

(** the skeleton interpreter of Proc/Model.v is justified by the regenerated code: for every world of
    the model and every environment realising it, the regenerated `_run` with the regenerated
    context manager on its exit stack and the regenerated `_listen` behind `await task` produces the
    model's trace (Listener started / sentinel / awaited included) and the model's task result.
    Every theorem above about [run_trace] / [run_task] / [await_handle] of the model is thereby
    about what the source says now. *)
Theorem C17_tie_run_simulates_model : forall E w given_ctx ini, realises E w ->
  let r := run_run E (Model.collect_logging w) given_ctx ini in
  flat_map proj_ev (trace (snd r)) = Model.run_trace w /\ proj_result (fst r) = Model.run_task w.
Proof. exact run_simulates_model. Qed.

(** run_in_process returns a handle in every environment, created at the first clock reading, whose
    task is `_run` over the closure [run_frame] *)
Theorem C17_tie_start_returns_handle : forall E clog given_ctx ini,
  let r := start E clog given_ctx ini in
  fst r = CReturn (VHandle (handle_attrs (e_tick E 0))) /\
  trace (snd r) = [HRunTaskCreated] /\ task_frame (snd r) = run_frame clog (ctxv given_ctx) ini /\
  clock (snd r) = e_tick E 0 /\ reads (snd r) = 1%nat /\ selfa (snd r) = [] /\ cms (snd r) = [] /\
  listener (snd r) = LNotStarted /\ putq (snd r) = [] /\ handled (snd r) = [].
Proof. exact start_exact. Qed.

(** RunningProcess.__await__ on that handle, for EVERY exit code (None, 0, negative, positive),
    pid and content of _exitcode_to_name *)
Theorem C17_tie_await_exact : forall E clog given_ctx ini, wf_answer (e_answer E) ->
  fst (await_handle E clog given_ctx ini) = await_spec E clog.
Proof. exact await_exact. Qed.

Theorem C17_tie_await_never_raises : forall E clog given_ctx ini, wf_answer (e_answer E) -> no_bad_records E ->
  forall x, fst (await_handle E clog given_ctx ini) <> CRaise x.
Proof. exact await_never_raises. Qed.

Theorem C17_tie_await_times_ordered : forall E clog given_ctx ini v,
  wf_answer (e_answer E) -> fst (await_handle E clog given_ctx ini) = CReturn v ->
  exists u w t0 t1, v = VExited [("returned", u); ("raised", w); ("process", VObj OProcess);
                                 ("process_created_at", VTime t0); ("process_exited_at", VTime t1)] /\
                    run_outcome (e_answer E) = Some (u, w) /\ (t0 <= t1)%nat.
Proof. exact await_yields_times_ordered. Qed.

(** added hypothesis of C17_tie_await_never_raises: no handler / filter of the parent's loggers raises.
    Without it the statement is refuted by the faithful interpretation *)
Theorem C17_tie_await_raises_refuted_raising_log_filter :
  exists E, wf_answer (e_answer E) /\ e_answer E = AResult (VTuple [VInt 7; VNone]) /\
            fst (await_handle E true false VNone) = CRaise (XUser KdException 1).
Proof. exact await_raises_refuted_raising_log_filter. Qed.

(** interrupt / send_signal / terminate / kill: exactly what the code does in each state *)
Theorem C17_tie_signal_table_started : forall E q sg, e_pid E = Some (Zpos q) -> e_pstate E <> PNotCreated ->
  sig_call E "interrupt" [] =
    match e_pstate E with PReaped => (CRaise XProcessLookup, []) | _ => (CReturn VNone, [HOsKill (VInt 2)]) end /\
  sig_call E "send_signal" [VInt sg] =
    match e_pstate E with PReaped => (CRaise XProcessLookup, []) | _ => (CReturn VNone, [HOsKill (VInt sg)]) end /\
  sig_call E "terminate" [] =
    match e_pstate E with PReaped => (CReturn VNone, []) | _ => (CReturn VNone, [HTerminate]) end /\
  sig_call E "kill" [] =
    match e_pstate E with PReaped => (CReturn VNone, []) | _ => (CReturn VNone, [HKill]) end.
Proof. exact signal_table_started. Qed.

Theorem C17_tie_signal_table_not_created : forall E sg, e_pid E = None -> e_pstate E = PNotCreated ->
  sig_call E "interrupt" [] = (CReturn VNone, []) /\
  sig_call E "send_signal" [VInt sg] = (CReturn VNone, []) /\
  sig_call E "terminate" [] = (CRaise XAttribute, []) /\
  sig_call E "kill" [] = (CRaise XAttribute, []).
Proof. exact signal_table_not_created. Qed.

Theorem C17_tie_signals_never_raise_before_exit : forall E q sg m args x,
  e_pid E = Some (Zpos q) -> (e_pstate E = PAlive \/ e_pstate E = PZombie) ->
  In (m, args) [("interrupt", []); ("send_signal", [VInt sg]); ("terminate", []); ("kill", [])] ->
  fst (sig_call E m args) <> CRaise x.
Proof. exact signals_never_raise_before_exit. Qed.

Theorem C17_tie_signals_refuted_after_reaping :
  exists E, e_pid E = Some 4242%Z /\ e_pstate E = PReaped /\ fst (sig_call E "interrupt" []) = CRaise XProcessLookup.
Proof. exact signals_refuted_after_reaping. Qed.

(** the table [call] of Proc/Model.v is what the regenerated methods do *)
Theorem C17_tie_signals_agree_with_model : forall E q m p, e_pid E = Some (Zpos q) -> e_pstate E = inj_pstate p ->
  mres_of (sig_call E (fst (method_call m)) (snd (method_call m))) = Some (Model.call m p).
Proof. exact signals_agree_with_model. Qed.

(** non-vacuity of the tie: a child that logged three records (one below the level of the parent's
    logger) before the sentinel and one after it, a body that is cancelled; and a realised world *)
Example C17_tie_example_nonvacuous :
  let E := mkEnv [mkRec 1 20 1; mkRec 1 5 2; mkRec 2 30 3] [mkRec 1 40 4] false (fun _ => 10%Z) (fun _ => None)
                 (Some (XUser KdCancelled 0)) None (AResult (VTuple [VInt 7; VNone])) (FRet 7) true true
                 (Some 4242%Z) (Some 3%Z) None PReaped (fun k => k) in
  no_bad_records E /\
  fst (client_run E) = CRaise (XUser KdCancelled 0) /\
  handled (snd (client_run E)) = [mkRec 1 20 1; mkRec 2 30 3] /\
  listener (snd (client_run E)) = LDone /\
  realises E (Model.mkWorld true (Model.AValue 7) false) /\
  fst (await_handle E true false VUserInit) =
    CReturn (VExited [("returned", VInt 7); ("raised", VNone); ("process", VObj OProcess);
                      ("process_created_at", VTime 0%nat); ("process_exited_at", VTime 1%nat)]).
Proof. cbv zeta. repeat split; try (intros r; reflexivity); vm_compute; reflexivity. Qed.

Print Assumptions C17_tie_signatures.
Print Assumptions C17_tie_default_call_frames.
Print Assumptions C17_tie_start_with_defaults.
Print Assumptions C17_tie_listener_closed_form.
Print Assumptions C17_tie_listener_started_once.
Print Assumptions C17_tie_sentinel_on_every_exit_path.
Print Assumptions C17_tie_no_listener_left_when_block_exits.
Print Assumptions C17_tie_client_outcome.
Print Assumptions C17_tie_listener_awaited_on_every_exit_path.
Print Assumptions C17_tie_block_exit_refuted_killed_mid_write.
Print Assumptions C17_tie_handled_in_order_exactly_once.
Print Assumptions C17_tie_handled_exact.
Print Assumptions C17_tie_call_exact.
Print Assumptions C17_tie_call_calls_once.
Print Assumptions C17_tie_call_never_raises_when_picklable.
Print Assumptions C17_tie_call_raises_only_pickling_error.
Print Assumptions C17_tie_call_then_run_outcome.
Print Assumptions C17_tie_run_exact.
Print Assumptions C17_tie_executor_construction.
Print Assumptions C17_tie_initializer_chain.
Print Assumptions C17_tie_run_simulates_model.
Print Assumptions C17_tie_start_returns_handle.
Print Assumptions C17_tie_await_exact.
Print Assumptions C17_tie_await_never_raises.
Print Assumptions C17_tie_await_times_ordered.
Print Assumptions C17_tie_await_raises_refuted_raising_log_filter.
Print Assumptions C17_tie_signal_table_started.
Print Assumptions C17_tie_signal_table_not_created.
Print Assumptions C17_tie_signals_never_raise_before_exit.
Print Assumptions C17_tie_signals_refuted_after_reaping.
Print Assumptions C17_tie_signals_agree_with_model.
