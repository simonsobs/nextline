(** C18 -- done-callbacks fire exactly once for every registered thread and task.
    Property theorems only; each is closed by [exact] of a lemma proved in
    DoneCb/{Safety,Inv,Main,Live,Term,Progress,Late,TaskProofs,TaskTie,SkelFacts}.v; the concrete examples
    are closed by evaluation ([vm_compute]).

    Thread half.  Model: DoneCb/Model.v (thread.py WITH the lock) -- the monitor
    thread, the thread calling close() and ANY NUMBER of registering threads, each
    executing the shared accesses of its bytecode (Gen/DoneCbSkeleton.v, regenerated
    from /repo on every run), interleaved by an adversarial scheduler: every statement
    quantifies over EVERY label list [ls] (Step who / Arrive t / Die t / CloseCall) and
    every choice [raises] of callbacks that raise.  A thread at a LockAcquire is disabled
    while the lock is held; the scheduler may pick any thread at every step.
    No usage contract is built into the labels (a thread may start registering at any
    time, close() may be called at any time): the contract of close() appears in the
    statements as [registered_before_close] = the threads whose register() had RETURNED
    when close() was called.  Structural assumptions of the model (listed in
    harness/props/c18.py ASSUMPTIONS): a thread registers itself, once, and ends only
    after its register() returned; close() is called at most once and not from a
    registered thread.
    [called], [registered], [registered_before_close], [ended], [close_results],
    [monitor_exits], [first_raised] are functions of the observable history alone
    (Inv.ghost_of); so is [registered_while_close_waits] (Late.late_of): the threads that
    registered after close() was called while it was still waiting for an earlier one.
    Task half.  Model: DoneCb/Task.v (sequential); every operation sequence = every
    completion order; hypothesis [twf]: no task is registered again after it ended. *)
From NL Require Import DoneCb.Model DoneCb.Safety DoneCb.Inv DoneCb.Main
                       DoneCb.Live DoneCb.Term DoneCb.Progress DoneCb.Late
                       DoneCb.Task DoneCb.TaskProofs.

(** tie: the model's programs are exactly the shared accesses of the regenerated skeleton *)
Theorem C18_skeleton_register : filter shared register_skeleton = register_prog.
Proof. exact register_skeleton_ok. Qed.
Theorem C18_skeleton_close : filter shared close_skeleton = close_prog.
Proof. exact close_skeleton_ok. Qed.
Theorem C18_skeleton_monitor : filter shared monitor_skeleton = monitor_prog.
Proof. exact monitor_skeleton_ok. Qed.

(** at any time, for every schedule: never twice, never for an unregistered thread, never
    before the thread ended *)
Theorem C18_thread_at_most_once : forall raises ls,
  NoDup (called raises ls) /\
  forall t, In t (called raises ls) -> In t (ended raises ls) /\ In t (registered raises ls).
Proof. exact thread_at_most_once. Qed.

(** once close() has returned, every thread registered before close() was called has ended and
    its callback was invoked exactly once *)
Theorem C18_thread_exactly_once : forall raises ls e,
  In e (close_results raises ls) ->
  forall t, In t (registered_before_close raises ls) ->
    count_occ Nat.eq_dec (called raises ls) t = 1 /\ In t (ended raises ls).
Proof. exact thread_exactly_once. Qed.

(** close() returns only after all of them have ended and been called back ... *)
Theorem C18_close_waits : forall raises ls e,
  In e (close_results raises ls) ->
  forall t, In t (registered_before_close raises ls) -> In t (called raises ls) /\ In t (ended raises ls).
Proof. exact close_waits. Qed.

(** ... and only after the monitor thread ended, reporting how it ended *)
Theorem C18_close_after_monitor : forall raises ls e,
  In e (close_results raises ls) -> In e (monitor_exits raises ls).
Proof. exact close_after_monitor. Qed.

(** close() re-raises exactly the first callback exception (returns normally if none raised) *)
Theorem C18_exception_reraised : forall raises ls e,
  In e (close_results raises ls) -> e = first_raised raises ls.
Proof. exact exception_reraised. Qed.

(** the monitor thread never dies of "Set changed size during iteration": it ends only with the
    first callback exception or normally -- so no callback exception can be lost that way *)
Theorem C18_no_iteration_error : forall raises ls e,
  In e (monitor_exits raises ls) -> e = first_raised raises ls /\ e <> Some ExSetChanged.
Proof. exact no_iteration_error. Qed.

(** the lock: a thread inside register()'s `with` block excludes the monitor's scan, rebuild and
    exit check, and every other registering thread *)
Theorem C18_lock_excludes : forall raises ls t,
  let s := run raises ls in
  reg_locked (regs s t) -> ~ mon_locked (m_pc s) /\ forall t', reg_locked (regs s t') -> t' = t.
Proof. exact lock_excludes. Qed.

(** Progress ("every trace that starts is eventually reported as ended").

    [unfinished s w]: thread w of the program has started its method and not finished it (the
    monitor thread has not ended / close() was called and has not returned / thread t is inside
    register()).  [enabled s w]: w's next access can be executed now.
    Legitimate waits, and the only ones: (a) a thread about to acquire the lock while it is held --
    then the holder is inside its critical section, unfinished and ENABLED (it can always proceed
    to its release); (b) close() in join() while the monitor thread has not ended -- then the
    monitor is itself enabled or in case (a).  The monitor thread loops until close() is called,
    so it is "unfinished" by design; that is not a deadlock. *)
Theorem C18_no_deadlock : forall raises ls w,
  let s := run raises ls in
  unfinished s w ->
    enabled raises s w
    \/ (at_acquire s w /\ exists h, lock s = Some h /\ h <> w /\ unfinished s h /\ enabled raises s h)
    \/ (w = Closer /\ closer s = CJoining /\ unfinished s Mon).
Proof. exact no_deadlock. Qed.

(** hence in every reachable state with an unfinished thread, some unfinished thread has an enabled
    step, and that step changes the state: no state in which every unfinished thread is blocked *)
Theorem C18_no_deadlock_some : forall raises ls,
  let s := run raises ls in
  (exists w, unfinished s w) ->
  exists w, unfinished s w /\ enabled raises s w /\ fst (step raises s (Step w)) <> s.
Proof. exact no_deadlock_some. Qed.

(** the termination measure [mu] (DoneCb/Term.v: remaining accesses of the monitor's current
    iteration + one more iteration over the elements its scan has passed as alive + remaining
    accesses of close()) strictly decreases on every effective step, once every thread that
    started has ended ([all_ended]) and `_closed` is set *)
Theorem C18_step_decreases : forall raises g s w,
  Inv g s -> Inv2 g s -> all_ended s -> closed s = true -> enabled raises s w ->
  mu (fst (step raises s (Step w))) < mu s.
Proof. exact step_decreases. Qed.

(** under ANY scheduler: after the threads have ended and `_closed` is set, a continuation of Step
    labels contains at most [mu] effective steps (no fairness assumption) ... *)
Theorem C18_bounded_after_end : forall raises ls ls',
  steps_only ls' -> all_ended (run raises ls) -> closed (run raises ls) = true ->
  effective raises (run raises ls) ls' <= mu (run raises ls).
Proof. exact bounded_after_end. Qed.

(** ... and when nothing is enabled any more, close() has returned: every maximal schedule is
    finite and ends with close() returned *)
Theorem C18_stuck_means_returned : forall raises ls ls',
  steps_only ls' -> closer (run raises ls) <> CNone ->
  (forall w, ~ enabled raises (run raises (ls ++ ls')) w) ->
  exists e, closer (run raises (ls ++ ls')) = CDone e.
Proof. exact stuck_means_returned. Qed.

(** close() can always return: from every reachable state in which close() has been called and
    every thread that started has ended, SOME continuation of Step labels makes close() return, and
    then every thread registered before close() was called has been called back exactly once.
    (Before `self._closed = True` is executed the monitor may loop any number of times, so
    "eventually" needs the scheduler to run the <= 3 remaining lock-free accesses of close():
    weak fairness towards the closing thread is the ONLY fairness assumption; after that
    C18_bounded_after_end needs none.) *)
Theorem C18_close_can_return : forall raises ls,
  closer (run raises ls) <> CNone -> all_ended (run raises ls) ->
  exists ls', steps_only ls' /\ close_results raises (ls ++ ls') <> [] /\
    forall t, In t (registered_before_close raises ls) ->
      count_occ Nat.eq_dec (called raises (ls ++ ls')) t = 1 /\ In t (ended raises (ls ++ ls')).
Proof. exact close_can_return. Qed.

(** non-vacuity of the progress hypotheses: the former lost-update schedule cut where close() is
    called (threads 1, 2 ended) and where close() waits in join(): measure 20, the remaining 19
    steps are all effective, close() returns; close() itself is legitimately blocked there *)
Example C18_example_progress :
  (all_ended (run nobody pre_close) /\ all_ended (run nobody pre_closed)) /\
  steps_only rest_closed /\
  closer (run nobody pre_close) = CLoad /\ closed (run nobody pre_close) = false
  /\ closer (run nobody pre_closed) = CJoining /\ closed (run nobody pre_closed) = true
  /\ mu (run nobody pre_closed) = 20
  /\ effective nobody (run nobody pre_closed) rest_closed = 19
  /\ pre_closed ++ rest_closed = w_lost_update
  /\ close_results nobody w_lost_update = [None]
  /\ unfinished (run nobody pre_closed) Closer /\ ~ enabled nobody (run nobody pre_closed) Closer
  /\ enabled nobody (run nobody pre_closed) Mon.
Proof. exact (conj all_ended_example (conj steps_only_rest example_progress)). Qed.

(** Late registrations ("no matter when other threads register").
    [registered_while_close_waits raises ls] (DoneCb/Late.v, a function of the observable history
    alone): the threads whose register() returned after close() was called, at a point of the
    history where some thread registered before the call had not yet been called back -- i.e.
    while close() was still waiting.  C18_late_registration_spec restates the definition with
    prefixes of the schedule, without the ghost. *)
Theorem C18_late_registration_spec : forall raises ls t,
  In t (registered_while_close_waits raises ls) <->
  exists ls1 ls2, ls = ls1 ++ Step (Reg t) :: ls2 /\
    In (EvRegistered t) (evs_of (snd (step raises (run raises ls1) (Step (Reg t))))) /\
    exists u, In u (registered_before_close raises ls1) /\ ~ In u (called raises ls1).
Proof. exact late_spec. Qed.

(** they are registered threads, distinct from those registered before the call *)
Theorem C18_late_registration_disjoint : forall raises ls t,
  In t (registered_while_close_waits raises ls) ->
  In t (registered raises ls) /\ ~ In t (registered_before_close raises ls).
Proof. exact late_registered. Qed.

(** once close() has returned, every thread registered before close() was called AND every thread
    that registered while close() was still waiting for one of those has ended and its callback
    was invoked exactly once (for every schedule, every number of threads, every [raises]) *)
Theorem C18_late_registration_exactly_once : forall raises ls e,
  In e (close_results raises ls) ->
  forall t, In t (registered_before_close raises ls ++ registered_while_close_waits raises ls) ->
    count_occ Nat.eq_dec (called raises ls) t = 1 /\ In t (ended raises ls).
Proof. exact all_exactly_once. Qed.

(** close() returns only after all of them have ended and been called back ... *)
Theorem C18_late_registration_close_waits : forall raises ls e,
  In e (close_results raises ls) ->
  forall t, In t (registered_before_close raises ls ++ registered_while_close_waits raises ls) ->
    In t (called raises ls) /\ In t (ended raises ls).
Proof. exact all_close_waits. Qed.

(** ... because the monitor thread itself does not end before *)
Theorem C18_late_registration_monitor_waits : forall raises ls e,
  In e (monitor_exits raises ls) ->
  forall t, In t (registered_before_close raises ls ++ registered_while_close_waits raises ls) ->
    In t (called raises ls) /\ In t (ended raises ls).
Proof. exact late_monitor_waits. Qed.

(** non-vacuity: thread 2 registers during close()'s wait -- while the callback for thread 1 is
    pending (1 already removed from `_active`), resp. while 1 is still alive -- and is called back
    before close() returns; if its callback raises, close() re-raises that *)
Example C18_late_registration_example_nonvacuous :
  (m_pc (run nobody (reg4 1 ++ [Die 1] ++ close4 ++ mon 10)) = MCallback
   /\ close_results nobody w_late_pending = [None]
   /\ registered_before_close nobody w_late_pending = [1]
   /\ registered_while_close_waits nobody w_late_pending = [2]
   /\ called nobody w_late_pending = [2; 1] /\ ended nobody w_late_pending = [2; 1])
  /\ (close_results nobody w_late_alive = [None]
      /\ registered_before_close nobody w_late_alive = [1]
      /\ registered_while_close_waits nobody w_late_alive = [2]
      /\ called nobody w_late_alive = [2; 1] /\ ended nobody w_late_alive = [2; 1])
  /\ (close_results only2 w_late_pending = [Some (ExCb 2)]
      /\ registered_while_close_waits only2 w_late_pending = [2]
      /\ called only2 w_late_pending = [2; 1]).
Proof. exact example_late. Qed.

(** the hypothesis is needed: a thread whose register() returns after everything close() waited for
    was called back and the monitor thread ended is never called back (outside close()'s contract) *)
Example C18_late_registration_example_boundary :
  close_results nobody w_after_exit = [None]
  /\ registered_before_close nobody w_after_exit = [1]
  /\ registered_while_close_waits nobody w_after_exit = []
  /\ registered nobody w_after_exit = [2; 1] /\ ended nobody w_after_exit = [2; 1]
  /\ called nobody w_after_exit = [1].
Proof. exact example_after_exit. Qed.

(** The GENERAL form (any number of generations of late threads, close() with nothing registered):
    [registered_before_monitor_exit raises ls] (DoneCb/Late.v, a function of the observable history
    alone) = the threads whose register() returned before the monitor thread ended (t is recorded at its
    EvRegistered iff no EvMonExit has occurred).  That is the exact boundary: the monitor's final exit
    check runs under the lock up to the release that ends the thread, a register() returns with the
    release of the same lock after its `add` (C18_late_registration_general_example_boundary). *)
Theorem C18_late_registration_general_spec : forall raises ls t,
  In t (registered_before_monitor_exit raises ls) <->
  exists ls1 ls2, ls = ls1 ++ Step (Reg t) :: ls2 /\
    In (EvRegistered t) (evs_of (snd (step raises (run raises ls1) (Step (Reg t))))) /\
    monitor_exits raises ls1 = [].
Proof. exact general_spec. Qed.

(** it includes the threads registered before close() was called and the one-generation late threads *)
Theorem C18_late_registration_general_includes : forall raises ls t,
  In t (registered_before_close raises ls ++ registered_while_close_waits raises ls) ->
  In t (registered_before_monitor_exit raises ls).
Proof. exact general_includes. Qed.

(** only registered threads; and as long as the monitor thread runs, EVERY registered thread *)
Theorem C18_late_registration_general_registered : forall raises ls t,
  In t (registered_before_monitor_exit raises ls) -> In t (registered raises ls).
Proof. exact general_registered. Qed.

Theorem C18_late_registration_general_all_while_running : forall raises ls,
  monitor_exits raises ls = [] ->
  forall t, In t (registered raises ls) -> In t (registered_before_monitor_exit raises ls).
Proof. exact general_all_while_running. Qed.

(** once close() has returned, every thread whose register() returned before the monitor thread ended
    has ended and its callback was invoked exactly once (every schedule, every number of threads and
    of generations of late threads, every [raises]) *)
Theorem C18_late_registration_general_exactly_once : forall raises ls e,
  In e (close_results raises ls) ->
  forall t, In t (registered_before_monitor_exit raises ls) ->
    count_occ Nat.eq_dec (called raises ls) t = 1 /\ In t (ended raises ls).
Proof. exact general_exactly_once. Qed.

Theorem C18_late_registration_general_close_waits : forall raises ls e,
  In e (close_results raises ls) ->
  forall t, In t (registered_before_monitor_exit raises ls) ->
    In t (called raises ls) /\ In t (ended raises ls).
Proof. exact general_close_waits. Qed.

(** the monitor thread itself does not end before (exactly once, at the moment it ends) *)
Theorem C18_late_registration_general_monitor_waits : forall raises ls e,
  In e (monitor_exits raises ls) ->
  forall t, In t (registered_before_monitor_exit raises ls) ->
    count_occ Nat.eq_dec (called raises ls) t = 1 /\ In t (ended raises ls).
Proof. exact general_monitor_exactly_once. Qed.

(** non-vacuity: a CHAIN of two late threads (3 registers while close() waits only for the late
    thread 2: outside [registered_while_close_waits], inside the general set, called back); close()
    called with nothing registered yet; a raising callback of the chain-late thread is re-raised *)
Example C18_late_registration_general_example_nonvacuous :
  (close_results nobody w_chain = [None]
   /\ registered_before_close nobody w_chain = [1]
   /\ registered_while_close_waits nobody w_chain = [2]
   /\ registered_before_monitor_exit nobody w_chain = [3; 2; 1]
   /\ called nobody w_chain = [3; 2; 1] /\ ended nobody w_chain = [3; 2; 1])
  /\ (close_results nobody w_close_first = [None]
      /\ registered_before_close nobody w_close_first = []
      /\ registered_while_close_waits nobody w_close_first = []
      /\ registered_before_monitor_exit nobody w_close_first = [1]
      /\ called nobody w_close_first = [1] /\ ended nobody w_close_first = [1])
  /\ (close_results (fun t => t =? 3) w_chain = [Some (ExCb 3)]
      /\ called (fun t => t =? 3) w_chain = [3; 2; 1]).
Proof. exact example_general. Qed.

(** the boundary witness: a register() that returns after the monitor thread ended is not in the set
    and is never called back *)
Example C18_late_registration_general_example_boundary :
  close_results nobody w_after_exit = [None] /\ monitor_exits nobody w_after_exit = [None]
  /\ registered nobody w_after_exit = [2; 1] /\ ended nobody w_after_exit = [2; 1]
  /\ registered_before_monitor_exit nobody w_after_exit = [1]
  /\ called nobody w_after_exit = [1].
Proof. exact example_general_boundary. Qed.

(** task half: exactly once for every task registered and ended, for every completion order *)
Theorem C18_task_exactly_once : forall raises os, twf os ->
  NoDup (tcalled (touts raises os)) /\
  forall t, In t (tcalled (touts raises os)) <-> In (TReg t) os /\ In (TComplete t) os.
Proof. exact task_exactly_once. Qed.

(** task half: callbacks only in the step in which the task ends; close() returns only when all
    tasks registered so far have ended, with the first exception raised so far *)
Theorem C18_task_close_waits : forall raises os, twf os -> steps_ok [] [] [] os (touts raises os).
Proof. exact task_steps_ok. Qed.

(** non-vacuity: the three schedules on which the unrepaired code lost a callback (as executed on
    the repaired class, drain included): close() returns, every thread is called back *)
Example C18_example_former_witnesses :
  (close_results nobody w_iteration = [None] /\ registered_before_close nobody w_iteration = [1]
   /\ called nobody w_iteration = [1] /\ monitor_exits nobody w_iteration = [None])
  /\ (close_results nobody w_lost_update = [None] /\ registered_before_close nobody w_lost_update = [2; 1]
      /\ called nobody w_lost_update = [2; 1])
  /\ (close_results nobody w_exit_race = [None] /\ registered nobody w_exit_race = [1]
      /\ called nobody w_exit_race = [1]).
Proof. exact example_former_witnesses. Qed.

(** the same races aimed at the repaired code: the registering thread is blocked (2-3 disabled
    steps) while the monitor is inside the scan / between `-` and the store / in the exit check *)
Example C18_example_nonvacuous :
  (close_results nobody w_iteration_locked = [None] /\ called nobody w_iteration_locked = [1]
   /\ blocked_steps w_iteration_locked = 3)
  /\ (close_results nobody w_lost_update_locked = [None] /\ called nobody w_lost_update_locked = [2; 1]
      /\ blocked_steps w_lost_update_locked = 3)
  /\ (close_results nobody w_exit_race_locked = [None] /\ called nobody w_exit_race_locked = [1]
      /\ registered_before_close nobody w_exit_race_locked = [1] /\ blocked_steps w_exit_race_locked = 2).
Proof. exact example_locked. Qed.

Example C18_example_raises :
  close_results only1 w_lost_update = [Some (ExCb 1)] /\ first_raised only1 w_lost_update = Some (ExCb 1)
  /\ called only1 w_lost_update = [2; 1] /\ ended only1 w_lost_update = [2; 1].
Proof. exact example_raises. Qed.

Example C18_example_task_nonvacuous :
  twf [TReg 1; TReg 2; TReg 1; TComplete 2; TClose; TComplete 3; TComplete 1] /\
  touts (fun t => t =? 2) [TReg 1; TReg 2; TReg 1; TComplete 2; TClose; TComplete 3; TComplete 1]
  = [[]; []; []; [TCb 2 true]; []; []; [TCb 1 false; TCloseRet (Some 2)]].
Proof. vm_compute. intuition; discriminate. Qed.

(** Tie of the asyncio-task half to the source (DoneCb/TaskTie.v).
    translate/taskdone_funs.py regenerates Gen/TaskDoneFuns.v on every run: every method of
    TaskDoneCallback (task.py), ThreadTaskDoneCallback (union.py), ExcThread (thread_exception.py) and
    current_task_or_thread (aio.py) as a statement AST (DoneCb/TaskSyntax.v).  DoneCb/TaskInterp.v
    interprets the regenerated bodies (method lookup by name, frames, `time.sleep` as the suspension
    point of the close methods, asyncio's add_done_callback / call_soon as primitives) under a driver
    with the operations of DoneCb/Task.v.  [u] = false: TaskDoneCallback, true: ThreadTaskDoneCallback;
    [m]: close / aclose / __exit__ / __aexit__; [cur]: who calls the close method (no loop / a loop but
    no task / task t); [thr_exc]: how the (primitive) thread helper's close() ends;
    [op_ok cur o]: the task that calls the close method is not the one being registered. *)
From NL Require Import DoneCb.TaskInterp DoneCb.TaskTie.

(** step equality: for EVERY well-formed state and EVERY operation one step of the interpreter on the
    regenerated bodies yields the model's next state and the model's events, and stays well-formed *)
Theorem C18_tie_task_step : forall raises cur cur_thread thr_exc u m st k o,
  (needs_loop m = true -> cur <> NoLoop) ->
  WF raises cur cur_thread thr_exc None u (st, k) -> op_ok cur o ->
  let r := step_of raises cur cur_thread thr_exc u m (st, k) o in
  let mo := tstep raises (abs (st, k)) o in
  WF raises cur cur_thread thr_exc None u (fst r) /\ abs (fst r) = fst mo
  /\ snd r = flat_map (evmap thr_exc u) (snd mo).
Proof. exact tie_task_step. Qed.

Theorem C18_tie_task_wf_reachable : forall raises cur cur_thread thr_exc u m os,
  (needs_loop m = true -> cur <> NoLoop) -> Forall (op_ok cur) os ->
  WF raises cur cur_thread thr_exc None u (final_of raises cur cur_thread thr_exc u m os).
Proof. exact tie_task_wf_reachable. Qed.

(** whole histories: for ALL operation sequences (every completion order, any number of tasks,
    re-registrations and unregistered tasks included) outputs and final state = DoneCb/Task.v *)
Theorem C18_tie_task_outputs : forall raises cur cur_thread thr_exc u m os,
  (needs_loop m = true -> cur <> NoLoop) -> Forall (op_ok cur) os ->
  outs_of raises cur cur_thread thr_exc u m os = map (flat_map (evmap thr_exc u)) (touts raises os)
  /\ abs (final_of raises cur cur_thread thr_exc u m os) = trun raises os.
Proof. exact tie_task_outputs. Qed.

(** C18_task_exactly_once OF THE REGENERATED CODE (either helper, any of the four close methods) *)
Theorem C18_tie_task_exactly_once : forall raises cur cur_thread thr_exc u m os,
  (needs_loop m = true -> cur <> NoLoop) -> Forall (op_ok cur) os -> twf os ->
  NoDup (icalled (outs_of raises cur cur_thread thr_exc u m os)) /\
  forall t, In t (icalled (outs_of raises cur cur_thread thr_exc u m os)) <-> In (TReg t) os /\ In (TComplete t) os.
Proof. exact tie_task_exactly_once. Qed.

(** C18_task_close_waits OF THE REGENERATED CODE: a callback only in the step in which its task ends;
    the close method ends only when every task registered so far has ended and been called back, with
    the FIRST callback exception (for the union: the thread helper's close() is invoked in that very step,
    on every path, and its exception, if any, takes precedence) *)
Theorem C18_tie_task_close_waits : forall raises cur cur_thread thr_exc u m os,
  (needs_loop m = true -> cur <> NoLoop) -> Forall (op_ok cur) os -> twf os ->
  isteps_ok thr_exc u [] [] [] os (outs_of raises cur cur_thread thr_exc u m os).
Proof. exact tie_task_close_waits. Qed.

(** the close method never ends with an exception of the helper's own making: the thread helper's
    exception (union), else that of a task callback, else a normal return *)
Theorem C18_tie_task_close_result : forall raises cur cur_thread thr_exc u m os e,
  (needs_loop m = true -> cur <> NoLoop) -> Forall (op_ok cur) os ->
  In (ICloseRet e) (List.concat (outs_of raises cur cur_thread thr_exc u m os)) ->
  match (if u then thr_exc else None) with
  | Some y => e = Some y
  | None => (exists t, e = Some (PXCb t)) \/ e = None
  end.
Proof. exact tie_task_close_result. Qed.

(** the guard: called from a registered task every close method of TaskDoneCallback raises RuntimeError
    at once and nothing else happens ... *)
Theorem C18_tie_task_guard : forall raises cur_thread thr_exc m st t,
  mem t (i_active st) = true ->
  invoke raises true (InTask t) cur_thread thr_exc None (PVMeth ObTask (close_name m)) (close_args m) st
  = (st, QRaise PXRuntime).
Proof. exact tie_task_guard. Qed.

(** ... and of the union: the same RuntimeError, through the `finally` -- the thread helper is closed
    first (its exception, if any, replaces the RuntimeError) *)
Theorem C18_tie_task_union_guard : forall raises cur_thread thr_exc m st t,
  mem t (i_active st) = true ->
  invoke raises true (InTask t) cur_thread thr_exc None (PVMeth ObUnion (close_name m)) (close_args m) st
  = (add_log (with_thr st (i_thr_reg st) true) IThrClose,
     match thr_exc with Some y => QRaise y | None => QRaise PXRuntime end).
Proof. exact tie_union_guard. Qed.

(** the union's dispatch *)
Theorem C18_tie_task_union_register_task : forall raises cur cur_thread thr_exc st t,
  invoke raises true cur cur_thread thr_exc None (PVMeth ObUnion "register"%string) [PVTask t] st
  = invoke raises true cur cur_thread thr_exc None (PVMeth ObTask "register"%string) [PVTask t] st
  /\ i_thr_reg (fst (invoke raises true cur cur_thread thr_exc None (PVMeth ObUnion "register"%string) [PVTask t] st))
     = i_thr_reg st.
Proof. exact tie_union_register_task. Qed.

Theorem C18_tie_task_union_register_thread : forall raises cur cur_thread thr_exc st v,
  invoke raises true cur cur_thread thr_exc None (PVMeth ObUnion "register"%string) [PVThread v] st
  = (with_thr st (i_thr_reg st ++ [v]) (i_thr_closed st), QNormal).
Proof. exact tie_union_register_thread. Qed.

Theorem C18_tie_task_union_register_default : forall raises cur cur_thread thr_exc st,
  invoke raises true cur cur_thread thr_exc None (PVMeth ObUnion "register"%string) [] st
  = match cur with
    | InTask t => invoke raises true cur cur_thread thr_exc None (PVMeth ObTask "register"%string) [PVTask t] st
    | _ => (with_thr st (i_thr_reg st ++ [cur_thread]) (i_thr_closed st), QNormal)
    end.
Proof. exact tie_union_register_default. Qed.

(** the union's close methods once every registered task has ended
    (`try: <task helper close> finally: <thread helper close>`) *)
Theorem C18_tie_task_union_close_outcome : forall raises cur cur_thread thr_exc m st,
  (needs_loop m = true -> cur <> NoLoop) -> cur_ok cur st -> i_active st = [] ->
  invoke raises true cur cur_thread thr_exc None (PVMeth ObUnion (close_name m)) (close_args m) st
  = (add_log (with_thr st (i_thr_reg st) true) IThrClose,
     match thr_exc with
     | Some y => QRaise y
     | None => match i_excs st with x :: _ => QRaise x | [] => QNormal end
     end).
Proof. exact tie_union_close_outcome. Qed.

(** it raises IFF one of the helpers raised *)
Theorem C18_tie_task_union_close_reraises : forall raises cur cur_thread thr_exc m st,
  (needs_loop m = true -> cur <> NoLoop) -> cur_ok cur st -> i_active st = [] ->
  ((exists x, snd (invoke raises true cur cur_thread thr_exc None (PVMeth ObUnion (close_name m)) (close_args m) st)
              = QRaise x)
   <-> (i_excs st <> [] \/ thr_exc <> None))
  /\ (snd (invoke raises true cur cur_thread thr_exc None (PVMeth ObUnion (close_name m)) (close_args m) st) = QNormal
      <-> (i_excs st = [] /\ thr_exc = None)).
Proof. exact tie_union_close_reraises. Qed.

(** "close closes both", IN FULL (the repaired union.py): every close method of the union closes BOTH
    helpers on every path -- the thread helper's close() is invoked, once, whether or not a task callback
    raised -- and it raises iff one of them raised: the thread helper's exception if it raised, else the
    task helper's.  (Along whole histories: C18_tie_task_close_waits with u = true -- IThrClose in the
    very step in which the close method ends.) *)
Theorem C18_tie_task_union_close_both : forall raises cur cur_thread thr_exc m st,
  (needs_loop m = true -> cur <> NoLoop) -> cur_ok cur st -> i_active st = [] ->
  let r := invoke raises true cur cur_thread thr_exc None (PVMeth ObUnion (close_name m)) (close_args m) st in
  i_thr_closed (fst r) = true
  /\ i_log (fst r) = i_log st ++ [IThrClose]
  /\ i_active (fst r) = [] /\ i_excs (fst r) = i_excs st
  /\ snd r = match thr_exc, i_excs st with
             | Some y, _ => QRaise y
             | None, x :: _ => QRaise x
             | None, [] => QNormal
             end.
Proof. exact tie_union_close_both. Qed.

(** ExcThread: join() re-raises what run() caught *)
Theorem C18_tie_task_excthread_join_reraises : forall raises cur cur_thread thr_exc target_exc st,
  let st1 := fst (invoke raises true cur cur_thread thr_exc target_exc (PVMeth ObExcThread "run"%string) [] st) in
  snd (invoke raises true cur cur_thread thr_exc target_exc (PVMeth ObExcThread "run"%string) [] st) = QNormal
  /\ snd (invoke raises true cur cur_thread thr_exc target_exc (PVMeth ObExcThread "join"%string) [] st1)
     = match target_exc with Some x => QRaise x | None => QNormal end.
Proof. exact tie_excthread_join_reraises. Qed.

(** the __init__ tables: the tracked attributes and their initial values; both helpers of the union get
    the same `done` *)
Theorem C18_tie_task_init : exists d,
  task_init_params = [(d, Some ENone)] /\
  forall f e, In (f, e) task_init <->
    (f, e) = (FDone, EVar d) \/ (f, e) = (FActive, ENewSet) \/ (f, e) = (FExceptions, ENewList).
Proof. exact tie_task_init. Qed.

Theorem C18_tie_task_union_init : exists d i,
  union_init_params = [(d, Some ENone); (i, Some EOpaque)] /\
  forall f e, In (f, e) union_init <->
    (f, e) = (FThreadCb, ENew "ThreadDoneCallback" [("done"%string, EVar d); ("interval"%string, EVar i)])
    \/ (f, e) = (FTaskCb, ENew "TaskDoneCallback" [("done"%string, EVar d)]).
Proof. exact tie_union_init. Qed.

(** non-vacuity (interpreter on the regenerated bodies, by computation): the history of
    C18_example_task_nonvacuous under TaskDoneCallback.close from a thread, TaskDoneCallback.__aexit__
    from an unregistered task, the union's aclose with a thread-helper exception (re-raised), the
    union's __exit__ with BOTH a task-callback and a thread-helper exception (the thread helper is closed,
    its exception wins), with a task-callback exception only (thread helper closed, the task callback's
    exception re-raised), and close from the registered task 1 (thread helper closed, RuntimeError) *)
Example C18_tie_task_example_nonvacuous :
  Forall (op_ok (InTask 7)) ex_os /\ twf ex_os
  /\ outs_of (fun t => t =? 2) NoLoop 0 None false MClose ex_os
     = [[]; []; []; [ICb 2 true]; []; []; [ICb 1 false; ICloseRet (Some (PXCb 2))]]
  /\ outs_of (fun t => t =? 2) (InTask 7) 0 None false MAexit ex_os
     = [[]; []; []; [ICb 2 true]; []; []; [ICb 1 false; ICloseRet (Some (PXCb 2))]]
  /\ outs_of (fun _ => false) (InTask 7) 0 (Some (PXOther 5)) true MAclose ex_os
     = [[]; []; []; [ICb 2 false]; []; []; [ICb 1 false; IThrClose; ICloseRet (Some (PXOther 5))]]
  /\ outs_of (fun t => t =? 2) LoopNoTask 0 (Some (PXOther 5)) true MExit ex_os
     = [[]; []; []; [ICb 2 true]; []; []; [ICb 1 false; IThrClose; ICloseRet (Some (PXOther 5))]]
  /\ outs_of (fun t => t =? 2) LoopNoTask 0 None true MExit ex_os
     = [[]; []; []; [ICb 2 true]; []; []; [ICb 1 false; IThrClose; ICloseRet (Some (PXCb 2))]]
  /\ outs_of (fun _ => false) (InTask 1) 0 None true MClose ex_os
     = [[]; []; []; [ICb 2 false]; [IThrClose; ICloseRet (Some PXRuntime)]; []; [ICb 1 false]].
Proof. exact tie_task_example. Qed.

(** Tie, thread half, second layer: polarity, stored values, call arguments, __init__.
    translate/donecb_skeleton.py also regenerates (with `ast`) every method of ThreadDoneCallback as a
    statement tree (Gen/DoneCbSkeleton.v: init_ast, register_ast, close_ast, monitor_ast, enter_ast,
    exit_ast; syntax DoneCb/SkelSyntax.v).  DoneCb/SkelFacts.v pins the control SHAPE of each method with
    a matcher and INTERPRETS THE LEAVES over the model's state: [step_mon_ast], [step_reg_ast],
    [step_closer_ast] are the model's step functions in which every data-dependent decision (the filter
    `not t.is_alive()` of the scan, the exit test `not self._active and self._closed` and its `break`,
    `while True`, `if self._done`, `if exc`, the guard of close()), every stored value (`self._active -
    done`, `_closed = True`), every iterated expression and every call argument (`self._done(d)`,
    `exc.append(e)`, `add(thread)`, `join()`, `exc[0]`) is computed from the regenerated expression.
    Kind: pin of the control shape + interpretation of the leaves, for ALL states. *)
From NL Require DoneCb.SkelSyntax DoneCb.SkelFacts.

(** __init__ interpreted = Model.init: a new empty builtin set, _closed False, a new lock, the monitor
    thread ExcThread(target=self._monitor, daemon=True) started after all stores; _monitor's `exc = []` *)
Theorem C18_skelfacts_init :
  match SkelFacts.exec_init (SkelSyntax.pm_body init_ast) (fun _ => None, false),
        SkelFacts.monitor_facts (SkelSyntax.pm_body monitor_ast) with
  | Some o, Some f => SkelFacts.state_of o (SkelFacts.mf_exc_init f)
  | _, _ => None
  end = Some DoneCb.Model.init.
Proof. exact SkelFacts.skel_init. Qed.

(** defaults (pin): done=None, interval=0.001; register(thread=None) *)
Theorem C18_skelfacts_defaults :
  SkelSyntax.pm_defaults init_ast = [Some SkelSyntax.PNone; Some (SkelSyntax.PFloat "0.001")]
  /\ SkelSyntax.pm_defaults register_ast = [Some SkelSyntax.PNone] /\ SkelSyntax.pm_nparams register_ast = 1
  /\ SkelSyntax.pm_nparams close_ast = 0 /\ SkelSyntax.pm_nparams monitor_ast = 0.
Proof. exact SkelFacts.skel_defaults. Qed.

(** __enter__ returns self, __exit__ calls self.close() (pin) *)
Theorem C18_skelfacts_enter_exit :
  enter_ast = SkelSyntax.mkMeth 0 [] [SkelSyntax.KReturn SkelSyntax.PSelfObj]
  /\ exit_ast = SkelSyntax.mkMeth 3 [None; None; None]
       [SkelSyntax.KDel [0; 1; 2];
        SkelSyntax.KExpr (SkelSyntax.PCall (SkelSyntax.PSelf SkelSyntax.FClose) [] [])].
Proof. exact SkelFacts.skel_enter_exit. Qed.

(** _monitor: at EVERY program point, for EVERY state and every [raises], the step computed from the
    regenerated leaves is the model's step *)
Theorem C18_skelfacts_monitor_step : forall raises s,
  SkelFacts.step_mon_ast raises s = DoneCb.Model.step_mon raises s.
Proof. exact SkelFacts.skel_monitor_step. Qed.

(** register(arg) in thread cur adds (and returns) arg, or cur by default *)
Theorem C18_skelfacts_register_value : forall cur arg,
  SkelFacts.reg_value_ast cur arg = Some (match arg with Some u => u | None => cur end).
Proof. exact SkelFacts.skel_register_value. Qed.

(** register called by thread t for itself: the model's step, for every state *)
Theorem C18_skelfacts_register_step : forall arg s t, (arg = None \/ arg = Some t) ->
  SkelFacts.step_reg_ast arg s t = DoneCb.Model.step_reg s t.
Proof. exact SkelFacts.skel_register_step. Qed.

(** close() called by a thread that is not registered: the model's step, for every state *)
Theorem C18_skelfacts_close_step : forall s,
  SkelFacts.step_closer_ast false s = DoneCb.Model.step_closer s.
Proof. exact SkelFacts.skel_close_step. Qed.

(** close() called by a registered thread raises at the membership test; _closed is not stored *)
Theorem C18_skelfacts_close_registered : forall s r, closer s = CContains r ->
  SkelFacts.step_closer_ast true s =
  (with_closer s (CDone (Some ExRegistered)), OAcc Contains [EvCloseRet (Some ExRegistered)]).
Proof. exact SkelFacts.skel_close_registered. Qed.

(** the labelled step and every run: the theorems above about [run]/[outs]/[history] of the
    hand-written model are theorems about the runs of the interpreted regenerated code *)
Theorem C18_skelfacts_step : forall raises s l,
  SkelFacts.step_ast raises s l = DoneCb.Model.step raises s l.
Proof. exact SkelFacts.skel_step. Qed.
Theorem C18_skelfacts_run : forall raises ls s,
  SkelFacts.run_from_ast raises s ls = DoneCb.Model.run_from raises s ls.
Proof. exact SkelFacts.skel_run. Qed.

(** No callback given (`done=None`, the default): `if self._done:` is false.  [SkelFacts.step_mon_ast_nocb] is
    the monitor step computed from the regenerated leaves with `self._done` falsy; [SkelFacts.step_mon_nocb] is the
    model's monitor step with the one difference that after the scan section (MRel1) the monitor goes straight to the
    exit check.  Step-level statements, for ALL states; run-level: no callback is ever invoked.  (That close() waits
    for the registered threads in whole runs is proved for the model WITH a callback, C18_close_waits; for the
    no-callback system only the step-level exit path below is proved.) *)
Theorem C18_skelfacts_no_callback_step : forall raises s,
  SkelFacts.step_mon_ast_nocb raises s = SkelFacts.step_mon_nocb raises s.
Proof. exact SkelFacts.skel_nocb_step. Qed.

(** the scanned thread goes into `done` iff it is NOT alive; the set stored is the loaded one minus exactly `done` *)
Theorem C18_skelfacts_no_callback_removes_ended : forall raises s,
  (forall t, m_pc s = MIsAlive t ->
     m_done (fst (SkelFacts.step_mon_ast_nocb raises s))
       = (if DoneCb.Model.is_alive (regs s t) then m_done s else ins t (m_done s))
     /\ m_pc (fst (SkelFacts.step_mon_ast_nocb raises s)) = MIterNext)
  /\ (forall r, m_pc s = MSetDiff r ->
     heap (fst (SkelFacts.step_mon_ast_nocb raises s)) = heap s ++ [diff (obj (heap s) r) (m_done s)]
     /\ m_pc (fst (SkelFacts.step_mon_ast_nocb raises s)) = MStore (List.length (heap s)))
  /\ (forall n, m_pc s = MStore n -> active (fst (SkelFacts.step_mon_ast_nocb raises s)) = n).
Proof. exact SkelFacts.skel_nocb_removes_ended. Qed.

(** the monitor thread ends only from the `break` of the exit check (reached only with _closed read True after
    the set was found empty) or from the exception of the scan: join() in close() still waits for that *)
Theorem C18_skelfacts_no_callback_exit_path : forall raises s,
  let s' := fst (SkelFacts.step_mon_ast_nocb raises s) in
  ((exists e, m_pc s' = MExited e) -> m_pc s = MRelBreak \/ m_pc s = MRelExc \/ exists e, m_pc s = MExited e)
  /\ (m_pc s' = MRelBreak -> (m_pc s = MLoadClosed /\ closed s = true) \/ m_pc s = MRelBreak)
  /\ (m_pc s' = MLoadClosed -> (exists r, m_pc s = MTruth r /\ obj (heap s) r = []) \/ m_pc s = MLoadClosed).
Proof. exact SkelFacts.skel_nocb_exit_path. Qed.

(** in EVERY run (every label list, from every state that is not at the call) no callback is invoked *)
Theorem C18_skelfacts_no_callback_never_calls : forall raises ls s, m_pc s <> MCallback ->
  m_pc (fst (SkelFacts.run_from_nocb raises s ls)) <> MCallback
  /\ forallb (fun o => negb (SkelFacts.is_cb_out o)) (snd (SkelFacts.run_from_nocb raises s ls)) = true.
Proof. exact SkelFacts.skel_nocb_never_calls. Qed.

Print Assumptions C18_skeleton_register.
Print Assumptions C18_skeleton_close.
Print Assumptions C18_skeleton_monitor.
Print Assumptions C18_thread_at_most_once.
Print Assumptions C18_thread_exactly_once.
Print Assumptions C18_close_waits.
Print Assumptions C18_close_after_monitor.
Print Assumptions C18_exception_reraised.
Print Assumptions C18_no_iteration_error.
Print Assumptions C18_lock_excludes.
Print Assumptions C18_no_deadlock.
Print Assumptions C18_no_deadlock_some.
Print Assumptions C18_step_decreases.
Print Assumptions C18_bounded_after_end.
Print Assumptions C18_stuck_means_returned.
Print Assumptions C18_close_can_return.
Print Assumptions C18_example_progress.
Print Assumptions C18_late_registration_spec.
Print Assumptions C18_late_registration_disjoint.
Print Assumptions C18_late_registration_exactly_once.
Print Assumptions C18_late_registration_close_waits.
Print Assumptions C18_late_registration_monitor_waits.
Print Assumptions C18_late_registration_example_nonvacuous.
Print Assumptions C18_late_registration_example_boundary.
Print Assumptions C18_late_registration_general_spec.
Print Assumptions C18_late_registration_general_includes.
Print Assumptions C18_late_registration_general_registered.
Print Assumptions C18_late_registration_general_all_while_running.
Print Assumptions C18_late_registration_general_exactly_once.
Print Assumptions C18_late_registration_general_close_waits.
Print Assumptions C18_late_registration_general_monitor_waits.
Print Assumptions C18_late_registration_general_example_nonvacuous.
Print Assumptions C18_late_registration_general_example_boundary.
Print Assumptions C18_task_exactly_once.
Print Assumptions C18_task_close_waits.
Print Assumptions C18_example_former_witnesses.
Print Assumptions C18_example_nonvacuous.
Print Assumptions C18_example_raises.
Print Assumptions C18_example_task_nonvacuous.
Print Assumptions C18_tie_task_step.
Print Assumptions C18_tie_task_wf_reachable.
Print Assumptions C18_tie_task_outputs.
Print Assumptions C18_tie_task_exactly_once.
Print Assumptions C18_tie_task_close_waits.
Print Assumptions C18_tie_task_close_result.
Print Assumptions C18_tie_task_guard.
Print Assumptions C18_tie_task_union_guard.
Print Assumptions C18_tie_task_union_register_task.
Print Assumptions C18_tie_task_union_register_thread.
Print Assumptions C18_tie_task_union_register_default.
Print Assumptions C18_tie_task_union_close_outcome.
Print Assumptions C18_tie_task_union_close_reraises.
Print Assumptions C18_tie_task_union_close_both.
Print Assumptions C18_tie_task_excthread_join_reraises.
Print Assumptions C18_tie_task_init.
Print Assumptions C18_tie_task_union_init.
Print Assumptions C18_tie_task_example_nonvacuous.
Print Assumptions C18_skelfacts_init.
Print Assumptions C18_skelfacts_defaults.
Print Assumptions C18_skelfacts_enter_exit.
Print Assumptions C18_skelfacts_monitor_step.
Print Assumptions C18_skelfacts_register_value.
Print Assumptions C18_skelfacts_register_step.
Print Assumptions C18_skelfacts_close_step.
Print Assumptions C18_skelfacts_close_registered.
Print Assumptions C18_skelfacts_step.
Print Assumptions C18_skelfacts_run.
Print Assumptions C18_skelfacts_no_callback_step.
Print Assumptions C18_skelfacts_no_callback_removes_ended.
Print Assumptions C18_skelfacts_no_callback_exit_path.
Print Assumptions C18_skelfacts_no_callback_never_calls.
