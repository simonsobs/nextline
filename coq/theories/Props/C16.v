(** C16 -- non-interactive mode is confined to the run that requested it.
    Property theorems only; each is closed by [exact] of a lemma proved in Life/ContFlag.v (the
    invariant and the history theorems), Life/ContTie.v (from C16_tie_requested_all_env on: the regenerated
    code against the model) or Life/ContSys.v (C16_tie_sys_*: whole histories on the regenerated code).

    Model: Life/Model.v (the lifecycle LTS; nextline/continuous.py after the
    `fix:` commits, including Continuous.close() publishing False first).  [cont_plugins s : list (nat * bool)] = the registered
    [Continue] plugins as (requesting task, run started); a plugin [(_, true)]
    is one that answers prompts ([_run_started]).  [run_cont s] = the run in
    progress was requested by run_and_continue / run_continue_and_wait (the
    ContextVar seen by the run task), [run_owner s] = the task that requested it.
    [enabled_of (trace s)] (Life/Hist.v) = the latest value published on the
    `continuous enabled` item; [cont_closed s] = that item is closed.
    Every statement quantifies over EVERY label list [ls]: every history of
    start / run / run-and-continue / run-continue-and-wait / run_session /
    reset / close / signal calls from any number of tasks, valid or refused,
    under every interleaving of the tasks, the run task and the child's exit. *)
From NL Require Import Life.Model Life.LockInv Life.FsmInv Life.Hist Life.ContFlag Life.ContTie Life.ContSys.
Open Scope Z_scope.

(** The structural invariant ([cont_inv], Life/ContFlag.v):
    - a not-yet-started plugin [(t, false)] belongs to a continue call of task
      [t] that is in flight and waits for / has just been given the lifecycle
      lock, or has been accepted and waits at `started.wait()` while the run
      task has not reached on_start_run ([pend_ok]);
    - no plugin is registered twice;
    - a started plugin [(t, true)] is the plugin of the request that started
      the run in progress ([t = run_owner s], [run_cont s = true]) and the run
      task is between on_start_run and on_finished ([mid]);
    - nothing is registered before start(). *)
Theorem C16_cont_inv : forall stmt start th md ls,
  cont_inv (run_labels (init_state stmt start th md) ls).
Proof. exact cont_inv_reachable. Qed.

(** at most one plugin answers prompts at any time *)
Theorem C16_at_most_one_started : forall stmt start th md ls,
  let s := run_labels (init_state stmt start th md) ls in
  (length (filter (fun x => snd x) (cont_plugins s)) <= 1)%nat.
Proof. exact started_at_most_one. Qed.

(** a plugin answers prompts only during the run its own request started *)
Theorem C16_started_only_in_own_run : forall stmt start th md ls t,
  let s := run_labels (init_state stmt start th md) ls in
  In (t, true) (cont_plugins s) ->
  t = run_owner s /\ run_cont s = true /\ mid (runt s) = true.
Proof. exact started_own_run. Qed.

(** a run started with plain run() / run_session() is never auto-answered,
    whatever happened before it.  (The hypothesis [runt s <> None] is not needed: Life/ContFlag.v
    [plain_run_reachable].) *)
Theorem C16_plain_run_never_auto : forall stmt start th md ls,
  let s := run_labels (init_state stmt start th md) ls in
  run_cont s = false -> runt s <> None ->
  forall x, In x (cont_plugins s) -> snd x = false.
Proof. exact plain_run_never_auto. Qed.

(** the flag: once start() has been requested and until Continuous.close(),
    the published value is true exactly while a continue request is pending or
    its run is in progress (= some plugin is registered).  Before start():
    nothing is registered and the flag has never been left true. *)
Theorem C16_flag : forall stmt start th md ls,
  let s := run_labels (init_state stmt start th md) ls in
  (nl_started s = true -> cont_closed s = false ->
   enabled_of (trace s) = Some (nonempty (cont_plugins s))) /\
  (nl_started s = false ->
   cont_plugins s = [] /\ cont_closed s = false /\ enabled_of (trace s) <> Some true).
Proof. exact flag_reachable. Qed.

(** a refused continue request (MachineError out of the API call): its plugin
    is gone; while the continuous item is open the flag is re-published (false
    unless another request is still pending or running); once the item is closed
    the flag stays off and nothing is published *)
Theorem C16_refused_restores : forall stmt start th md ls l t c,
  let s := run_labels (init_state stmt start th md) ls in
  let s' := step s l in
  is_cont c = true -> In (EvRet t c RMachineError) (appended s s') ->
  ~ In (t, false) (cont_plugins s') /\
  (cont_closed s' = false -> enabled_of (trace s') = Some (nonempty (cont_plugins s'))) /\
  (cont_closed s' = true -> enabled_of (trace s') = Some false) /\
  (cont_plugins s' = [] -> enabled_of (trace s') = Some false) /\
  (cont_closed s = true -> forall b, ~ In (EvPub (PCont b)) (appended s s')).
Proof. exact refused_reachable. Qed.

(** what the repair of Continuous.close() buys: once the continuous item is
    closed the flag is off -- the last value published on it is [false] -- in
    every reachable state, whatever requests were pending behind the close *)
Theorem C16_closed_flag_off : forall stmt start th md ls,
  let s := run_labels (init_state stmt start th md) ls in
  cont_closed s = true -> enabled_of (trace s) = Some false.
Proof. exact flag_closed. Qed.

(** a continue request that was waiting for the lock when the object got closed
    is refused with MachineError (not RuntimeError) as soon as it is given the
    lock; that step appends the return and nothing else, its plugin is removed *)
Theorem C16_refused_after_close : forall stmt start th md ls t c,
  let s := run_labels (init_state stmt start th md) ls in
  cont_closed s = true -> is_cont c = true -> find_task (tasks s) t = Some (c, Granted1) ->
  let s' := step s (Step t) in
  trace s' = EvRet t c RMachineError :: trace s /\
  ~ In (t, false) (cont_plugins s') /\ find_task (tasks s') t = None /\ cont_closed s' = true.
Proof. exact refused_after_close. Qed.

(** no step from a closed state publishes on the flag *)
Theorem C16_closed_silent : forall stmt start th md ls l b,
  let s := run_labels (init_state stmt start th md) ls in
  cont_closed s = true -> ~ In (EvPub (PCont b)) (appended s (step s l)).
Proof. exact closed_step_silent. Qed.

(** the step in which the run task performs on_finished: every started plugin
    has unregistered itself, the others stay, and the flag follows *)
Theorem C16_finished_clears : forall stmt start th md ls,
  let s := run_labels (init_state stmt start th md) ls in
  runt s = Some RT_G_end ->
  let s' := step s StepRun in
  runt s' = Some RT_G_fin /\
  cont_plugins s' = filter unstarted (cont_plugins s) /\
  (forall x, In x (cont_plugins s') -> snd x = false) /\
  (cont_closed s = false -> enabled_of (trace s') = Some (nonempty (cont_plugins s'))).
Proof. exact finished_step. Qed.

(** after Continuous.close() nothing is ever published on the flag again ... *)
Theorem C16_closed : forall stmt start th md ls ls',
  let s := run_labels (init_state stmt start th md) ls in
  cont_closed s = true ->
  cpubs (trace (run_labels s ls')) = cpubs (trace s) /\ cont_closed (run_labels s ls') = true.
Proof. exact closed_forever. Qed.

(** ... and a continue request fails at once with RuntimeError, changing nothing else *)
Theorem C16_closed_request : forall stmt start th md ls t c,
  let s := run_labels (init_state stmt start th md) ls in
  cont_closed s = true -> is_cont c = true -> find_task (tasks s) t = None ->
  step s (Call t c) =
  set_trace (set_tasks s (remove_task (tasks s) t)) (EvRet t c RRuntimeError :: EvCall t c :: trace s).
Proof. intros stmt start th md ls t c s. apply closed_request. Qed.

(** the converse of the invariant: a continue request whose call waits for /
    has just got the lock has its plugin registered; once accepted, the plugin
    of the request that started the run is registered, and it is a STARTED one
    (it answers prompts) from on_start_run until on_finished *)
Theorem C16_registered : forall stmt start th md ls,
  let s := run_labels (init_state stmt start th md) ls in
  (forall t c p, find_task (tasks s) t = Some (c, p) -> is_cont c = true ->
                 p = WaitLock1 \/ p = Granted1 -> In (t, false) (cont_plugins s)) /\
  (run_cont s = true -> fresh (runt s) = true -> In (run_owner s, false) (cont_plugins s)) /\
  (run_cont s = true -> mid (runt s) = true -> In (run_owner s, true) (cont_plugins s)).
Proof. exact registered_reachable. Qed.

(** the flag, exactly ([active], Life/ContFlag.v): between start() and
    Continuous.close() the published value is true while a continue request is
    active -- its call waits for / has just got the lock, or it was accepted and
    its run has not yet performed on_finished -- and false otherwise *)
Theorem C16_flag_exact : forall stmt start th md ls,
  let s := run_labels (init_state stmt start th md) ls in
  nl_started s = true -> cont_closed s = false ->
  (active s -> enabled_of (trace s) = Some true) /\
  (~ active s -> enabled_of (trace s) = Some false).
Proof. exact flag_exact. Qed.

(** Non-vacuity: start; task 1 run_and_continue accepted; while its run is in
    progress task 2's run_and_continue is refused (the flag stays true: request
    1's run is in progress); the run finishes (flag false); reset; task 4 plain
    run(); while it runs task 5's run_and_continue is refused (true, then false)
    and no plugin is ever started during the plain run; the run finishes;
    close; task 7's run_and_continue fails with RuntimeError, nothing published. *)
Definition ex_o0 := mkOpts None None None None.
Definition ex_p1 : list label :=
  [Call 0 CStart; Step 0; Step 0; Step 0;
   Call 1 CRunCont; StepRun; StepRun; StepRun; Step 1; Step 1].
Definition ex_p2 : list label :=
  [ChildExit OReturn; StepRun].
Definition ex_p3 : list label :=
  [StepRun; StepRun; StepRun;
   Call 3 (CReset ex_o0); Step 3; Step 3; Step 3;
   Call 4 CRun; StepRun; StepRun; StepRun; Step 4; Step 4;
   Call 5 CRunCont].
Definition ex_p4 : list label :=
  [ChildExit OReturn; StepRun; StepRun; StepRun; StepRun;
   Call 6 CClose; Step 6; Step 6; Call 7 CRunCont].
Definition ex_i := init_state 7 1 true false.

Example C16_example_nonvacuous :
  let s0 := run_labels ex_i ex_p1 in                                   (* run of request 1 in progress *)
  let s1 := step s0 (Call 2 CRunCont) in                               (* request 2 refused *)
  let s2 := run_labels s1 ex_p2 in                                     (* about to perform on_finished *)
  let s3 := run_labels (step s2 StepRun) ex_p3 in                      (* plain run in progress, 5 refused *)
  let s4 := run_labels s3 ex_p4 in                                     (* closed *)
  (cont_plugins s0 = [(1%nat, true)] /\ run_cont s0 = true /\ runt s0 = Some RT_WaitChild) /\
  (appended s0 s1 = [EvCall 2 CRunCont; EvPub (PCont true); EvPub (PCont true); EvRet 2 CRunCont RMachineError]
   /\ cont_plugins s1 = [(1%nat, true)] /\ enabled_of (trace s1) = Some true) /\
  (runt s2 = Some RT_G_end /\ cont_plugins (step s2 StepRun) = [] /\
   enabled_of (trace (step s2 StepRun)) = Some false) /\
  (run_cont s3 = false /\ runt s3 = Some RT_WaitChild /\ cont_plugins s3 = [] /\
   rev (cpubs (trace s3)) = [false; true; true; true; false; true; false] /\
   nl_started s3 = true /\ cont_closed s3 = false) /\
  (cont_closed s4 = true /\ rev (cpubs (trace s4)) = [false; true; true; true; false; true; false] /\
   rev (rets_of (trace s4)) =
   [(0%nat, CStart, ROk); (1%nat, CRunCont, ROk); (2%nat, CRunCont, RMachineError);
    (3%nat, CReset ex_o0, ROk); (4%nat, CRun, ROk); (5%nat, CRunCont, RMachineError);
    (6%nat, CClose, ROk); (7%nat, CRunCont, RRuntimeError)]).
Proof. vm_compute. repeat split; reflexivity. Qed.


(** The repaired defect: a continuous run in progress, close() waiting for it,
    one more run_and_continue pending behind the close.  The run finishes (flag
    still true: request 3 pending), close() publishes false and closes the item,
    request 3 is then refused with MachineError and publishes nothing. *)
Definition ex_q1 : list label :=
  [Call 0 CStart; Step 0; Step 0; Step 0;
   Call 1 CRunCont; StepRun; StepRun; StepRun; Step 1; Step 1;
   Call 2 CClose; Call 3 CRunCont].
Definition ex_q2 : list label :=
  [ChildExit OReturn; StepRun; StepRun; StepRun; StepRun; Step 2; Step 2; Step 2].

Example C16_example_close_pending :
  let s1 := run_labels ex_i ex_q1 in
  let s2 := run_labels s1 ex_q2 in
  let s3 := step s2 (Step 3) in
  (tasks s1 = [(2%nat, (CClose, C_WaitRunFinished)); (3%nat, (CRunCont, WaitLock1))] /\
   runt s1 = Some RT_WaitChild /\ cont_plugins s1 = [(1%nat, true); (3%nat, false)]) /\
  (cont_closed s2 = true /\ tasks s2 = [(3%nat, (CRunCont, Granted1))] /\
   cont_plugins s2 = [(3%nat, false)] /\ enabled_of (trace s2) = Some false) /\
  (appended s2 s3 = [EvRet 3 CRunCont RMachineError] /\ cont_plugins s3 = [] /\ tasks s3 = [] /\
   rev (cpubs (trace s3)) = [false; true; true; true; false] /\
   skipn 8 (pubs_of (history s3)) =
     [PEndAll; PCont true; PRunInfo 1 RFinished 7 (Some OReturn); PCont true;
      PState Finished; PState Closed; PEndAll; PCont false; PEndCont] /\
   rev (rets_of (trace s3)) =
     [(0%nat, CStart, ROk); (1%nat, CRunCont, ROk); (2%nat, CClose, ROk); (3%nat, CRunCont, RMachineError)]).
Proof. vm_compute. repeat split; reflexivity. Qed.

(** Tie of the Continuous part of the model to nextline/continuous.py and the call sites in
    nextline/main.py.  Gen/ContinuousSkel.v is REGENERATED from the source on every check by
    the fail-closed translator translate/continuous_skeleton.py (every method of Continue,
    Continuous and the Nextline methods that start/close/use the mode, as statement programs);
    Life/ContTie.v interprets the programs ([exec (prog m) e cur sh fr], environment [e]:
    for every await that is not translated code an ARBITRARY interference on the shared state
    and whether / with which kind of exception it raises) and proves the statements below.
    [sh_m sh] is a state of the model, [sh_cnt sh] the counter `_n_requests` (the model uses
    [length (cont_plugins s)]: [counted]), [sh_item sh] the closed flag of the PubSubItem (the
    model uses [cont_closed]: [coherent]). *)

(** Continuous._requested, for ALL environments: up to the `yield` it is the model's entry
    ([entry_m]: publish True, register (t, false)), counter + 1, ContextVar = own plugin (the
    second argument of [e_interf]); after the body: accepted -> nothing; raised (any class
    but the interpreter's own [XStuck]) -> if the plugin of this request is still registered:
    exactly that ONE plugin unregistered, counter - 1, flag re-published from the counter
    unless closed, exception re-raised; if it is gone (its run has finished meanwhile and
    on_finished has unregistered it): pluggy's AssertionError leaves `unregister`, disable()
    is NOT called (the request has been uncounted by on_finished), that exception propagates;
    the ContextVar is restored on every path ([after_with]).  Cancellation at the `yield` is
    the case [XBaseOnly]; Life/Model.v has no cancel label, so that branch is tied to no model
    transition.  The handler's `await self.disable()` is atomic (PubSubItem.publish never
    suspends: C08's atomicity check), so no cancellation is delivered inside it. *)
Theorem C16_tie_requested_all_env : forall e cur sh fr,
  env_ok e -> coherent sh -> cont_closed (sh_m sh) = false ->
  let t := fr_me fr in
  let sh1 := mkSh (entry_m (sh_m sh) t) (sh_cnt sh + 1) false in
  let sh2 := e_interf e CBody (Some t) sh1 in
  exec (prog MRequested) e cur sh fr =
  match e_exc e CBody with
  | None => (Fin, sh2, after_with fr)
  | Some XStuck => (Exc XStuck, sh2, after_with fr)
  | Some x =>
      (if has_plugin (sh_m sh2) t (e_own_started e)
       then (Exc x, disable_sh (set_m sh2 (unreg_m (sh_m sh2) t (e_own_started e))), after_with fr)
       else (Exc XOrdinary, sh2, after_with fr))
  end.
Proof. exact requested_all_env. Qed.

(** the request against the model's [do_call]: open -> [acquire] is entered with exactly the
    state the generator hands to its body, and [counted] is kept; closed -> RuntimeError out
    of publish(True), nothing registered or published *)
Theorem C16_tie_entry : forall s t c e cur fr n,
  is_cont c = true -> find_task (tasks s) t = None -> fr_me fr = t -> env_ok e ->
  let s0 := set_trace s (EvCall t c :: trace s) in
  let sh := mkSh s0 n (cont_closed s0) in
  (cont_closed s = false ->
     let sh1 := mkSh (entry_m s0 t) (n + 1) false in
     do_call s t c = acquire (sh_m sh1) t c false /\
     (counted sh -> counted sh1) /\
     exec (prog MRequested) e cur sh fr =
       (let sh2 := e_interf e CBody (Some t) sh1 in
        match e_exc e CBody with
        | None => (Fin, sh2, after_with fr)
        | Some XStuck => (Exc XStuck, sh2, after_with fr)
        | Some x => (if has_plugin (sh_m sh2) t (e_own_started e)
       then (Exc x, disable_sh (set_m sh2 (unreg_m (sh_m sh2) t (e_own_started e))), after_with fr)
       else (Exc XOrdinary, sh2, after_with fr))
        end)) /\
  (cont_closed s = true ->
     do_call s t c = finish_call s0 t c RRuntimeError /\
     exec (prog MRequested) e cur sh fr = (Exc XOrdinary, set_cnt sh (n + 1), fr)).
Proof. exact tie_entry. Qed.

(** the refusal path against the model's [refuse] (MachineError = an ordinary exception,
    raised before the run exists: the plugin is unstarted).  ONE-STEP link: the interference
    hypothesis says "whatever happened since the request was made, the refusal finds the state
    [release s] with the counter = the length of its registry"; that the counter IS that
    length along every history is [C16_tie_sys_flag] (for the regenerated code) -- it is an
    assumption here, as are NoDup / In (theorems on reachable model states: next entry) *)
Theorem C16_tie_refuse : forall s t c e cur sh0 fr,
  is_cont c = true -> fr_me fr = t -> env_ok e -> coherent sh0 -> cont_closed (sh_m sh0) = false ->
  e_exc e CBody = Some XOrdinary -> e_own_started e = false ->
  let s1 := release s in
  (forall v x, e_interf e CBody v x = mkSh s1 (Z.of_nat (length (cont_plugins s1))) (cont_closed s1)) ->
  NoDup (cont_plugins s1) -> In (t, false) (cont_plugins s1) ->
  exists sh',
    exec (prog MRequested) e cur sh0 fr = (Exc XOrdinary, sh', after_with fr) /\
    refuse s t c = finish_call (sh_m sh') t c RMachineError /\
    counted sh' /\ coherent sh'.
Proof. exact tie_refuse. Qed.

(** ... and on every reachable state of the model in which a continue request that has just
    been given the lock is refused (the hypotheses NoDup / In are theorems there) *)
Theorem C16_tie_refuse_reachable : forall a b c d ls t c0 e cur sh0 fr,
  let s := run_labels (init_state a b c d) ls in
  find_task (tasks s) t = Some (c0, Granted1) -> is_cont c0 = true -> st_fsm s <> Initialized ->
  fr_me fr = t -> env_ok e -> coherent sh0 -> cont_closed (sh_m sh0) = false ->
  e_exc e CBody = Some XOrdinary -> e_own_started e = false ->
  (forall v x, e_interf e CBody v x =
               mkSh (release s) (Z.of_nat (length (cont_plugins (release s)))) (cont_closed (release s))) ->
  exists sh',
    exec (prog MRequested) e cur sh0 fr = (Exc XOrdinary, sh', after_with fr) /\
    step s (Step t) = finish_call (sh_m sh') t c0 RMachineError /\
    counted sh' /\ coherent sh'.
Proof. exact tie_refuse_reachable. Qed.

(** Continuous.disable: never raises; decrements; publishes `counter > 0` unless closed *)
Theorem C16_tie_disable : forall e cur sh fr,
  coherent sh ->
  exec (prog MDisable) e cur sh fr = (Fin, disable_sh sh, fr).
Proof. exact disable_exec. Qed.

Theorem C16_tie_disable_model : forall sh,
  cont_closed (sh_m sh) = false -> sh_cnt sh = Z.of_nat (S (length (cont_plugins (sh_m sh)))) ->
  sh_m (disable_sh sh) = cont_disable (sh_m sh) /\ counted (disable_sh sh).
Proof. exact disable_model. Qed.

(** Continuous.close = the model's [close_cont] *)
Theorem C16_tie_close : forall e cur sh fr,
  sh_item sh = false ->
  exec (prog MClose) e cur sh fr = (Fin, close_sh sh, fr).
Proof. exact close_exec. Qed.

Theorem C16_tie_close_model : forall sh, counted sh ->
  sh_m (close_sh sh) = close_cont (sh_m sh) /\ coherent (close_sh sh) /\ counted (close_sh sh).
Proof. exact close_model. Qed.

(** Nextline.start against [do_call ... CStart]: False is published before Imp.aopen *)
Theorem C16_tie_nl_start : forall s t e cur n fr,
  find_task (tasks s) t = None -> nl_started s = false ->
  let s0 := set_trace s (EvCall t CStart :: trace s) in
  let x := publish (set_nl_started s0 true) (PCont false) in
  do_call s t CStart = acquire x t CStart false /\
  exec (prog MNlStart) e cur (mkSh s0 n false) fr =
    (match e_exc e CImpOpen with Some y => Exc y | None => Fin end, e_interf e CImpOpen (fr_ctx fr) (mkSh x n false), fr).
Proof. exact tie_nl_start. Qed.

(** Nextline.close: Imp.aclose first; Continuous.close after it and only if it returned; when
    Imp.aclose raises (any class, cancellation included) nothing of Continuous changes,
    `Nextline._closed` is reset and the exception re-raised *)
Theorem C16_tie_nl_close_order : forall e cur sh fr,
  nl_started (sh_m sh) = true ->
  let sh0 := set_m sh (set_nl_closed (sh_m sh) true) in
  let sh1 := e_interf e CImpClose (fr_ctx fr) sh0 in
  sh_item sh1 = false ->
  exec (prog MNlClose) e cur sh fr =
  if nl_closed (sh_m sh) then (Fin, sh, fr)
  else match e_exc e CImpClose with
       | Some XStuck => (Exc XStuck, sh1, fr)
       | Some x => (Exc x, set_m sh1 (set_nl_closed (sh_m sh1) false), fr)
       | None => (Fin, close_sh sh1, fr)
       end.
Proof. exact nl_close_exec. Qed.

(** ... and when Continuous.close itself raises, the flag is reset as well *)
Theorem C16_tie_nl_close_cont_raises : forall e cur sh fr,
  nl_started (sh_m sh) = true -> nl_closed (sh_m sh) = false -> e_exc e CImpClose = None ->
  let sh0 := set_m sh (set_nl_closed (sh_m sh) true) in
  let sh1 := e_interf e CImpClose (fr_ctx fr) sh0 in
  sh_item sh1 = true -> sh_cnt sh1 > 0 ->
  exec (prog MNlClose) e cur sh fr =
  (Exc XOrdinary, set_m sh1 (set_nl_closed (set_cont_closed (sh_m sh1) true) false), fr).
Proof. exact nl_close_cont_raises. Qed.

Theorem C16_tie_nl_close : forall s1 e cur sh fr,
  nl_started (sh_m sh) = true -> nl_closed (sh_m sh) = false -> e_exc e CImpClose = None ->
  (forall v x, e_interf e CImpClose v x = mkSh s1 (Z.of_nat (length (cont_plugins s1))) false) ->
  exists sh', exec (prog MNlClose) e cur sh fr = (Fin, sh', fr) /\
              sh_m sh' = close_cont s1 /\ coherent sh' /\ counted sh'.
Proof. exact tie_nl_close. Qed.

(** plain run(): Continuous is not touched and the ContextVar of the caller is what the run
    task inherits *)
Theorem C16_tie_plain_run : forall e cur sh fr,
  exec (prog MNlRun) e cur sh fr =
  (match e_exc e CImpRun with Some x => Exc x | None => Fin end, e_interf e CImpRun (fr_ctx fr) sh, fr).
Proof. exact nl_run_exec. Qed.

(** run_and_continue = `_requested` around exactly Imp.run() *)
Theorem C16_tie_run_and_continue : forall e cur sh fr,
  env_ok e -> coherent sh -> cont_closed (sh_m sh) = false ->
  exec (prog MNlRunAndContinue) e cur sh fr = exec (prog MRequested) (env_body e CImpRun) cur sh fr.
Proof. exact (fun e cur sh fr _ _ _ => run_and_continue_exec e cur sh fr). Qed.

(** run_continue_and_wait: `_requested` covers exactly the entering of run_session
    (= Imp.run()); the wait for the end of the run comes after it, only if accepted *)
Theorem C16_tie_run_continue_and_wait : forall e cur sh fr,
  env_ok e -> coherent sh -> cont_closed (sh_m sh) = false -> fr_deferred fr = [] ->
  exec (prog MNlRunContinueAndWait) e cur sh fr =
  let '(o, sh', fr') := exec (prog MRequested) (env_body e CImpRun) cur sh fr in
  match o with
  | Fin => (match e_exc e CImpWait with Some x => Exc x | None => Fin end, e_interf e CImpWait (fr_ctx fr') sh', fr')
  | _ => (o, sh', fr')
  end.
Proof. exact (fun e cur sh fr _ _ _ => run_continue_and_wait_exec e cur sh fr). Qed.

(** Continue.on_start_run over the registry = the model's [arm]: `_run_started` is set only
    for the plugin whose own request created the run task's context *)
Theorem C16_tie_arm : forall e cur sh requested owner l,
  map (fun x => (fst x, fr_started (snd (exec (prog MOnStartRun) e cur sh (plugin_frame x (run_ctx requested owner)))))) l
  = arm requested owner l.
Proof. exact tie_arm. Qed.

(** Continue.on_start_prompt sends the command iff `_run_started` *)
Theorem C16_tie_on_start_prompt : forall e cur sh fr,
  exec (prog MOnStartPrompt) e cur sh fr =
  if fr_started fr
  then (match e_exc e CSendCmd with Some x => Exc x | None => Fin end,
        e_interf e CSendCmd (fr_ctx fr) sh, set_sent fr (S (fr_sent fr)))
  else (Fin, sh, fr).
Proof. exact on_start_prompt_exec. Qed.

(** Continue.on_finished acts iff `_run_started`: unregisters itself, then disable() *)
Theorem C16_tie_on_finished : forall e cur sh fr,
  coherent sh ->
  exec (prog MOnFinished) e cur sh fr =
  if fr_started fr then
    if has_plugin (sh_m sh) (fr_me fr) true
    then (Fin, disable_sh (set_m sh (unreg_m (sh_m sh) (fr_me fr) true)), fr)
    else (Exc XOrdinary, sh, fr)
  else (Fin, sh, fr).
Proof. exact on_finished_exec. Qed.

(** one unrolling of the model's [cont_finished] = the interpreted on_finished of the first
    started plugin *)
Theorem C16_tie_cont_finished : forall e cur m n t b rest fuel,
  cont_closed m = false -> NoDup (cont_plugins m) ->
  filter (fun x => snd x) (cont_plugins m) = (t, b) :: rest ->
  let sh := mkSh m (Z.of_nat (length (cont_plugins m))) false in
  let r := exec (prog MOnFinished) e cur sh (plugin_frame (t, true) n) in
  cont_finished m (S fuel) = cont_finished (sh_m (snd (fst r))) fuel /\ counted (snd (fst r)).
Proof. exact tie_cont_finished. Qed.

(** who writes what: `_run_started` only Continue.__init__ / on_start_run; the ContextVar
    only `_requested`; counter, `_closed`, the item, registration only the five methods of
    Continuous that the theorems above cover *)
Theorem C16_tie_writers :
  forallb (fun m => negb (writes is_set_started (resolve m)) || meth_in m [MCInit; MOnStartRun]) all_meths = true /\
  forallb (fun m => negb (writes is_ctx_write (resolve m)) || meth_in m [MRequested]) all_meths = true /\
  forallb (fun m => negb (writes is_cont_write (resolve m)) || meth_in m [MInit; MStart; MClose; MRequested; MDisable]) all_meths = true.
Proof. exact writers. Qed.

(** the published flag is `counter > 0` unless closed (then off) after __init__ + start,
    after disable, after close, and on every way out of `_requested` for all environments
    whose interference keeps it (a per-call postcondition under a rely condition; the
    statement without rely condition, for all schedules, is [C16_tie_sys_flag]) *)
Theorem C16_tie_flag_init_start : forall e cur sh fr,
  let sh0 := snd (fst (exec (prog MInit) e cur sh fr)) in
  flag_inv (snd (fst (exec (prog MStart) e cur sh0 fr))).
Proof. exact flag_init_start. Qed.

Theorem C16_tie_flag_disable : forall sh, flag_inv sh -> flag_inv (disable_sh sh).
Proof. exact flag_disable. Qed.

Theorem C16_tie_flag_close : forall sh, flag_inv sh -> cont_closed (sh_m sh) = false -> flag_inv (close_sh sh).
Proof. exact flag_close. Qed.

Theorem C16_tie_flag_requested : forall e cur sh fr,
  env_ok e -> coherent sh -> cont_closed (sh_m sh) = false -> 0 <= sh_cnt sh ->
  (forall c v x, flag_inv x -> flag_inv (e_interf e c v x)) ->
  flag_inv (snd (fst (exec (prog MRequested) e cur sh fr))).
Proof. exact flag_requested. Qed.

(** non-vacuity of the tie: a concrete environment and state (one run in progress, task 3's
    run_and_continue cancelled inside Imp.run()) *)
Example C16_tie_example_nonvacuous :
  let '(o, sh', fr') := exec (prog MNlRunAndContinue) ex_env None ex_sh ex_fr in
  o = Exc XBaseOnly /\ sh_cnt sh' = 1 /\ cont_plugins (sh_m sh') = [(7%nat, true)] /\
  rev (cpubs (trace (sh_m sh'))) = [true; true; true] /\ fr_ctx fr' = None /\
  env_ok ex_env /\ coherent ex_sh /\ counted ex_sh /\ flag_inv ex_sh /\ flag_inv sh'.
Proof. exact ex_refused_nonvacuous. Qed.

(** `async with continuous:` = start / close; the two read accessors are exactly
    `return self._pubsub_enabled.latest()` / `return self._pubsub_enabled.subscribe()` *)
Theorem C16_tie_aenter : forall e cur sh fr,
  exec (prog MAenter) e cur sh fr = exec (prog MStart) e cur sh fr.
Proof. exact aenter_exec. Qed.

Theorem C16_tie_aexit : forall e cur sh fr,
  exec (prog MAexit) e cur sh fr = exec (prog MClose) e cur sh fr.
Proof. exact aexit_exec. Qed.

Theorem C16_tie_accessors_pinned :
  resolve MEnabled = ReturnLatest /\ resolve MSubscribeEnabled = ReturnSubscribe.
Proof. exact accessors_pinned. Qed.

(** WHOLE HISTORIES on the regenerated code (Life/ContSys.v): a task-pool system whose every
    step is [exec] on a generated program -- a request is [LEnter] (the generator up to its
    yield) and [LExit] (the WHOLE generator re-run from the state it was started in, in the
    environment "the rest of the system has produced the current state, then the body returns
    / raises r"), plus the on_start_run / on_finished hooks of a run, Continuous.close and
    foreign events -- scheduled by an arbitrary label list.  The state handed to the body at
    the yield is the one [LEnter] computes: *)
Theorem C16_tie_sys_enter_state : forall sh fr,
  coherent sh -> cont_closed (sh_m sh) = false ->
  exec (prog MRequested) env_pass None sh fr =
  (Fin, mkSh (entry_m (sh_m sh) (fr_me fr)) (sh_cnt sh + 1) false, after_with fr).
Proof. exact enter_state. Qed.

(** the invariant, for ALL schedules: coherent, flag = counter > 0 unless closed
    (then off), counter = number of registered plugins (>= once closed); every suspended
    request was started open *)
Theorem C16_tie_sys_inv : forall a b c d ls, SInv (srun (sys_init a b c d) ls).
Proof. exact SInv_reachable. Qed.

Theorem C16_tie_sys_flag : forall a b c d ls,
  let sh := y_sh (srun (sys_init a b c d) ls) in
  coherent sh /\
  (cont_closed (sh_m sh) = false ->
     sh_cnt sh = Z.of_nat (length (cont_plugins (sh_m sh))) /\
     enabled_of (trace (sh_m sh)) = Some (nonempty (cont_plugins (sh_m sh)))) /\
  (cont_closed (sh_m sh) = true -> enabled_of (trace (sh_m sh)) = Some false).
Proof. exact sys_flag. Qed.

(** non-vacuity: two requests refused in FIFO order (the history of seed C16-1), one accepted,
    armed, finished, one pending across close and then cancelled *)
Example C16_tie_sys_example :
  let y1 := srun (sys_init 7 1 true false)
              [LEnter 1 None; LEnter 2 None; LExit 1 (Some XOrdinary) false; LExit 2 (Some XOrdinary) false] in
  let y2 := srun y1 [LEnter 3 None; LArm true 3; LExit 3 None false] in
  let y3 := srun y2 [LFinished; LEnter 4 None; LClose; LExit 4 (Some XBaseOnly) false] in
  (rev (cpubs (trace (sh_m (y_sh y1)))) = [false; true; true; true; false] /\ cont_plugins (sh_m (y_sh y1)) = [] /\ sh_cnt (y_sh y1) = 0) /\
  (cont_plugins (sh_m (y_sh y2)) = [(3%nat, true)] /\ sh_cnt (y_sh y2) = 1 /\ enabled_of (trace (sh_m (y_sh y2))) = Some true) /\
  (rev (cpubs (trace (sh_m (y_sh y3)))) = [false; true; true; true; false; true; false; true; false] /\
   cont_plugins (sh_m (y_sh y3)) = [] /\ sh_cnt (y_sh y3) = 0 /\ sh_item (y_sh y3) = true /\ y_pend y3 = []).
Proof. exact sys_example. Qed.

Print Assumptions C16_cont_inv.
Print Assumptions C16_at_most_one_started.
Print Assumptions C16_started_only_in_own_run.
Print Assumptions C16_plain_run_never_auto.
Print Assumptions C16_flag.
Print Assumptions C16_refused_restores.
Print Assumptions C16_finished_clears.
Print Assumptions C16_closed.
Print Assumptions C16_closed_request.
Print Assumptions C16_registered.
Print Assumptions C16_flag_exact.
Print Assumptions C16_closed_flag_off.
Print Assumptions C16_refused_after_close.
Print Assumptions C16_closed_silent.
Print Assumptions C16_example_nonvacuous.
Print Assumptions C16_example_close_pending.
Print Assumptions C16_tie_requested_all_env.
Print Assumptions C16_tie_entry.
Print Assumptions C16_tie_refuse.
Print Assumptions C16_tie_refuse_reachable.
Print Assumptions C16_tie_disable.
Print Assumptions C16_tie_disable_model.
Print Assumptions C16_tie_close.
Print Assumptions C16_tie_close_model.
Print Assumptions C16_tie_nl_start.
Print Assumptions C16_tie_nl_close_order.
Print Assumptions C16_tie_nl_close.
Print Assumptions C16_tie_plain_run.
Print Assumptions C16_tie_run_and_continue.
Print Assumptions C16_tie_run_continue_and_wait.
Print Assumptions C16_tie_arm.
Print Assumptions C16_tie_on_start_prompt.
Print Assumptions C16_tie_on_finished.
Print Assumptions C16_tie_cont_finished.
Print Assumptions C16_tie_writers.
Print Assumptions C16_tie_flag_init_start.
Print Assumptions C16_tie_flag_disable.
Print Assumptions C16_tie_flag_close.
Print Assumptions C16_tie_flag_requested.
Print Assumptions C16_tie_example_nonvacuous.
Print Assumptions C16_tie_nl_close_cont_raises.
Print Assumptions C16_tie_aenter.
Print Assumptions C16_tie_aexit.
Print Assumptions C16_tie_accessors_pinned.
Print Assumptions C16_tie_sys_enter_state.
Print Assumptions C16_tie_sys_inv.
Print Assumptions C16_tie_sys_flag.
Print Assumptions C16_tie_sys_example.
