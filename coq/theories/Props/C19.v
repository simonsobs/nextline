(** C19 -- async-iterator helpers neither lose, duplicate nor reorder items.
    Property theorems; the C19_merge_*, C19_agen_* and C19_to_aiter_* ones are closed by [exact] of a
    lemma proved in Aio/{Merge,Agen,ToAiter}.v, the C19_tie_* ones by [exact] of a lemma of Aio/Tie*.v;
    [C19_agen_chronological_refuted] is proved here on a witness schedule, and the two examples by
    [vm_compute].

    Model: Aio/Model.v (transcription of nextline/utils/aio.py).  All
    statements quantify over EVERY label sequence [ls]: every order in which
    the sources' pending `__anext__` complete, every moment at which
    `asyncio.wait(FIRST_COMPLETED)` returns (with one or SEVERAL done tasks),
    every pop/iteration order of the returned set (it is part of the label),
    every moment at which the consumer resumes -- and over every number and
    length of sources.  No bounds. *)
From NL Require Import Aio.Model Aio.Merge Aio.Agen Aio.ToAiter.
Open Scope Z_scope.

(** every yielded pair carries the tag of an existing source, and the items
    yielded with tag i are, in order and without gap or repetition, a prefix of
    source i's items *)
Theorem C19_merge_projection : forall (items : list (list V)) (ls : list mlabel) (i : nat),
  (forall j v, In (j, v) (yields (mouts items ls)) -> (j < length items)%nat) /\
  exists rest, nth i items [] = proj i (yields (mouts items ls)) ++ rest.
Proof. exact merge_projection. Qed.

(** exact accounting at every moment: items of source i = yielded with tag i ++
    (at most one item whose anext is done but which is not yielded yet) ++ not produced yet *)
Theorem C19_merge_accounting : forall items ls i s,
  nth_error (m_srcs (mrun items ls)) i = Some s ->
  nth i items [] = proj i (yields (mouts items ls)) ++ inflight s ++ fst s.
Proof. exact merge_accounting. Qed.

(** the merged iterator is finished exactly when it has been started and every
    source's StopAsyncIteration has been consumed; then the projection on every
    tag is the whole source: nothing lost *)
Theorem C19_merge_terminates : forall items ls,
  (m_phase (mrun items ls) = MFin <->
   (m_phase (mrun items ls) <> MFresh /\ forall s, In s (m_srcs (mrun items ls)) -> s = ([], LDropped))) /\
  (m_phase (mrun items ls) = MFin -> forall i, proj i (yields (mouts items ls)) = nth i items []).
Proof. exact merge_terminates. Qed.

(** it cannot get stuck: every run has a continuation after which it has finished;
    and once finished it stays finished and yields nothing more *)
Theorem C19_merge_can_finish : forall items ls, exists ls', m_phase (mrun items (ls ++ ls')) = MFin.
Proof. exact merge_can_finish. Qed.

Theorem C19_merge_finished_stays : forall items ls ls',
  m_phase (mrun items ls) = MFin ->
  m_phase (mrun items (ls ++ ls')) = MFin /\ yields (mouts items (ls ++ ls')) = yields (mouts items ls).
Proof. exact merge_finished_stays. Qed.

(** the items yielded are a prefix of the wrapped iterator's items (exact
    accounting), and a normally finished iteration has yielded all of them *)
Theorem C19_agen_items : forall (items : list V) (ls : list glabel),
  items = gitems (gouts items ls) ++ ainfl (g_anext (grun items ls)) ++ g_rest (grun items ls) /\
  (g_phase (grun items ls) = GFin -> gitems (gouts items ls) = items).
Proof. exact agen_items_full. Qed.

(** exceptions of awaited tasks are surfaced:
    (1) a return of asyncio.wait while an awaited task has failed raises -- for
        every iteration order of the done-set -- the exception of an awaited failed task;
    (2) so no item and no normal end is produced while an awaited task has failed;
    (3) a task stays awaited until it has ended without exception;
    (4) whatever is raised is the exception with which a task handed over by asend ended;
    (5) without a failing task the iteration never raises. *)
Theorem C19_agen_first_exception :
  (forall st ord t e, g_phase st = GWait -> In t (g_pending st) -> texc (g_tasks st) t = Some e ->
     exists e' t', snd (snd (gstep st (GWake ord))) = GVRaise e' /\ g_phase (fst (gstep st (GWake ord))) = GRaised /\
                   In t' (g_pending st) /\ texc (g_tasks st) t' = Some e') /\
  (forall st ord, g_phase st = GWait ->
     (forall v, snd (snd (gstep st (GWake ord))) <> GVItem v) /\ snd (snd (gstep st (GWake ord))) <> GVStop \/
     forall t, In t (g_pending st) -> texc (g_tasks st) t = None) /\
  (forall st l t, In t (g_pending st) ->
     In t (g_pending (fst (gstep st l))) \/ (tdone (g_tasks st) t = true /\ texc (g_tasks st) t = None)) /\
  (forall items ls x e, In (x, GVRaise e) (gouts items ls) ->
     exists t ts, In (GTaskEnd t (TExc e)) ls /\ In (GSend (Some ts)) ls /\ In t ts) /\
  (forall items ls, (forall t e, ~ In (GTaskEnd t (TExc e)) ls) ->
     g_phase (grun items ls) <> GRaised /\ forall x e, ~ In (x, GVRaise e) (gouts items ls)).
Proof. exact agen_first_exception. Qed.

(** "first" read chronologically is NOT what the code does: two awaited tasks
    fail one after the other while the generator is suspended at its yield; the
    next wake-up sees both in one done-set and raises whichever the set iterates
    first -- here the LATER failure.  (witness schedule; the same schedule is
    reproduced against the real code by the harness, see evidence
    strict_first_exception_deviations) *)
Definition chrono_ls : list glabel :=
  [GSend None; GSrc; GWake []; GSpawn; GSpawn; GSend (Some [0%nat; 1%nat]);
   GTaskEnd 0 (TExc 1); GTaskEnd 1 (TExc 2); GSend None; GWake [1%nat; 0%nat]].

Theorem C19_agen_chronological_refuted :
  exists items pre mid post t1 e1 t2 e2,
    pre ++ GTaskEnd t1 (TExc e1) :: mid ++ GTaskEnd t2 (TExc e2) :: post = chrono_ls /\
    (forall t e, ~ In (GTaskEnd t (TExc e)) pre) /\ e1 <> e2 /\
    In t1 (g_pending (grun items (pre ++ [GTaskEnd t1 (TExc e1)]))) /\
    last (gouts items chrono_ls) ((false, []), GVNone) = ((false, [0%nat; 1%nat]), GVRaise e2).
Proof.
  exists [10; 11], [GSend None; GSrc; GWake []; GSpawn; GSpawn; GSend (Some [0%nat; 1%nat])],
         [], [GSend None; GWake [1%nat; 0%nat]], 0%nat, 1, 1%nat, 2.
  split; [reflexivity|]. split.
  - intros t e H. simpl in H. repeat (destruct H as [H|H]; [discriminate|]). exact H.
  - split; [discriminate|]. vm_compute. auto.
Qed.

(** ... strongest chronological statement that holds (added hypothesis: the
    failed awaited tasks visible at the wake-up all carry the same exception,
    e.g. there is exactly one): then exactly that exception is raised *)
Theorem C19_agen_chronological_partial : forall st ord t e,
  g_phase st = GWait -> In t (g_pending st) -> texc (g_tasks st) t = Some e ->
  (forall t' e', In t' (g_pending st) -> texc (g_tasks st) t' = Some e' -> e' = e) ->
  snd (snd (gstep st (GWake ord))) = GVRaise e.
Proof. exact agen_single_failure. Qed.

(** thread and no-thread variants, any interleaving of anext calls, worker
    executions and deliveries: the successive executions of next() obtain exactly
    the iterable's items in order, then StopIteration; every call delivers what
    its own execution obtained *)
Theorem C19_to_aiter_items : forall (thread : bool) (items : list V) (ls : list tlabel),
  let st := trun thread items ls in
  map snd (t_log st) = map (res_at items) (seq 0 (length (t_log st))) /\
  t_rest st = skipn (length (t_log st)) items /\
  forall c r, In (TORes c r) (touts thread items ls) -> In (c, r) (t_log st).
Proof. exact to_aiter_items. Qed.

(** `async for` (each anext awaited before the next): exactly the items, then the end *)
Theorem C19_to_aiter_sequential : forall thread items k,
  delivered (touts thread items (seq_labels thread k)) = map (res_at items) (seq 0 k).
Proof. exact to_aiter_sequential. Qed.

(** three sources (one empty); sources 0 and 1 complete in the same step and the
    done-set is popped in the order 1, 0; the consumer is slow; the run ends *)
Definition ex_items : list (list V) := [[1; 2]; [3]; []].
Definition ex_ls : list mlabel :=
  [MNext; MComplete 0; MComplete 1; MWake [1%nat; 0%nat]; MComplete 2; MNext; MNext;
   MWake []; MComplete 0; MComplete 1; MWake [1%nat]; MNext; MComplete 0; MWake []].

Example C19_example_nonvacuous :
  yields (mouts ex_items ex_ls) = [(1%nat, 3); (0%nat, 1); (0%nat, 2)] /\
  map fst (mouts ex_items ex_ls) =
    [[]; []; []; [0%nat; 1%nat]; []; []; []; [2%nat]; []; []; [0%nat; 1%nat]; []; []; [0%nat]] /\
  m_phase (mrun ex_items ex_ls) = MFin /\
  proj 0 (yields (mouts ex_items ex_ls)) = [1; 2] /\
  gitems (gouts [10; 11] chrono_ls) = [10] /\
  delivered (touts true [7; 8] (seq_labels true 3)) = [RItem 7; RItem 8; RStop].
Proof. vm_compute. repeat split; reflexivity. Qed.

(** Tie of the hand-written model to the source (second kind; harness/TIE_TASK.md).

    translate/aio_funs.py regenerates Gen/AioFuns.v from nextline/utils/aio.py on every run: the bodies of
    merge_aiters / agen_with_wait and the methods of to_aiter as terms of the statement AST of Aio/Syntax.v
    (`x = e`, `x |= e`, `x &= e`, `x = y`, `.add/.remove/.pop/.clear`, `m[k] = v`, arming an anext,
    `await asyncio.wait(.., FIRST_COMPLETED)`, `yield`, `t.result()` under `except StopAsyncIteration`,
    `t.exception()`, `cancel`, `raise`, if/while/for/break/continue are all DIFFERENT constructors).
    Aio/Interp.v runs those terms on a small continuation machine whose nondeterminism is driven by the SAME
    labels as Model.v.  The theorems below are about the REGENERATED definitions [merge_aiters_body],
    [agen_with_wait_body], [to_aiter_methods]/[to_aiter_selector]: for ALL label sequences the machine
    produces exactly the outputs of the model's step functions and remains in a state related to the model's
    ([MR], [GR]: same sources / tasks / sets `pending`, `done`, matching program point; never stuck).
    Obligation kind (b) of harness/TIE_TASK.md, proved by a simulation relation and induction over the label list --
    with this HONEST LABEL: for merge_aiters and agen_with_wait it is "PIN + SIMULATION OF THE PINNED TERM":
    Aio/TieMerge.v and TieAgen.v pin the regenerated bodies to hand-copied terms ([merge_body_shape],
    [agen_body_shape], by reflexivity) and simulate the pinned term, so every change of their AST, also a
    behaviour-preserving one, breaks the obligation.  The to_aiter theorems are symbolic executions of the
    regenerated methods themselves.  The translator fails closed on class bases other than AsyncIterator[T],
    class-level statements, other methods, decorators, a rewritten `aiterable`, re-bound / monkeypatched names
    (`asyncio`, `set`, `next`, the translated definitions) and on ignored statements that contain calls or
    mention tracked names.
    Not covered by any label: sources raising something else than StopAsyncIteration, cancelled awaited tasks,
    athrow(); an early stop of the consumer (aclose / cancellation) only through C19_tie_*_close_loss. *)
From NL Require Import Aio.Tie.

Theorem C19_tie_merge : forall (items : list (list V)) (ls : list mlabel),
  imouts items ls = mouts items ls /\ MR (mrun items ls) (imrun items ls).
Proof. exact merge_tie. Qed.

Theorem C19_tie_merge_never_stuck : forall items ls, stuck (imrun items ls) = false.
Proof. exact tie_merge_never_stuck. Qed.

(** the projection property transferred to what the regenerated body yields *)
Theorem C19_tie_merge_projection : forall (items : list (list V)) (ls : list mlabel) (i : nat),
  (forall j v, In (j, v) (yields (imouts items ls)) -> (j < List.length items)%nat) /\
  exists rest, nth i items [] = proj i (yields (imouts items ls)) ++ rest.
Proof. exact tie_merge_projection. Qed.

Theorem C19_tie_merge_complete : forall items ls i,
  c_st (imrun items ls) = StFinished -> proj i (yields (imouts items ls)) = nth i items [].
Proof. exact tie_merge_complete. Qed.

Theorem C19_tie_agen : forall (items : list V) (ls : list glabel),
  igouts items ls = gouts items ls /\ GR (grun items ls) (igrun items ls).
Proof. exact agen_tie. Qed.

Theorem C19_tie_agen_never_stuck : forall items ls, stuck (igrun items ls) = false.
Proof. exact tie_agen_never_stuck. Qed.

Theorem C19_tie_agen_items : forall items ls, exists rest, items = gitems (igouts items ls) ++ rest.
Proof. exact tie_agen_items. Qed.

Theorem C19_tie_agen_raise_identity : forall items ls x e,
  In (x, GVRaise e) (igouts items ls) ->
  exists t ts, In (GTaskEnd t (TExc e)) ls /\ In (GSend (Some ts)) ls /\ In t ts.
Proof. exact tie_agen_raise_identity. Qed.

Theorem C19_tie_to_aiter : forall (thread : bool) (items : list V) (ls : list tlabel),
  itouts thread items ls = touts thread items ls /\
  it_rest (itrun thread items ls) = t_rest (trun thread items ls) /\
  it_log (itrun thread items ls) = t_log (trun thread items ls) /\
  map abs_call (it_calls (itrun thread items ls)) = t_calls (trun thread items ls) /\
  it_stuck (itrun thread items ls) = false.
Proof. exact to_aiter_tie. Qed.

Theorem C19_tie_to_aiter_sequential : forall thread items k,
  delivered (itouts thread items (seq_labels thread k)) = map (res_at items) (seq 0 k).
Proof. exact tie_to_aiter_sequential. Qed.

(** the sync-to-async wrapper is usable with `async for` (only base AsyncIterator[T], inherited __aiter__: the
    translator refuses anything else), its default is the thread variant, and its deprecated alias `aiterable(it)`
    is `to_aiter(it, thread=False)` with the iterable passed unchanged *)
Theorem C19_tie_to_aiter_class_facts :
  to_aiter_aiter_inherited = true /\ to_aiter_flag_default = true /\ aiterable_thread = Some false.
Proof. exact (conj to_aiter_async_iterable (conj to_aiter_default_thread eq_refl)). Qed.

Theorem C19_tie_aiterable_sequential : forall items k,
  delivered (snd (itrun_from to_aiter_methods to_aiter_selector (flag_of aiterable_thread) (itinit items)
                             (seq_labels false k))) = map (res_at items) (seq 0 k).
Proof. exact tie_aiterable_sequential. Qed.

Theorem C19_tie_to_aiter_default_sequential : forall items k,
  delivered (itouts (flag_of None) items (seq_labels true k)) = map (res_at items) (seq 0 k).
Proof. exact tie_to_aiter_default_sequential. Qed.

(** early stop of the consumer (aclose / cancellation at ANY moment; Model.v has no label for it, the machine
    has [iclose]): the generator ends at its suspension point, the armed anext tasks are not cancelled and may
    still complete in any number and order; per source, items = yielded before the close ++ AT MOST ONE item
    consumed and never yielded ++ what the source still holds *)
Theorem C19_tie_merge_close_loss : forall items ls ks i s,
  nth_error (m_srcs (mrun items (ls ++ map MComplete ks))) i = Some s ->
  let c' := fst (imrun_from (iclose (imrun items ls)) (map MComplete ks)) in
  c_st c' = StFinished /\
  nth i items [] = proj i (yields (imouts items ls)) ++ inflight s ++ nth i (w_srcs (i_w (c_m c'))) [] /\
  (List.length (inflight s) <= 1)%nat.
Proof. exact merge_close_loss. Qed.

Theorem C19_tie_agen_close_loss : forall items ls es,
  Forall (fun l => glabel_env l = true) es ->
  let c' := fst (igrun_from (iclose (igrun items ls)) es) in
  let lost := ainfl (g_anext (grun items (ls ++ es))) in
  (c_st c' = StFinished \/ c_st c' = StRaised) /\
  items = gitems (igouts items ls) ++ lost ++ nth 0 (w_srcs (i_w (c_m c'))) [] /\
  (List.length lost <= 1)%nat.
Proof. exact agen_close_loss. Qed.

(** the machine really runs the regenerated bodies (not a vacuous equality of two empty lists) *)
Example C19_tie_example_nonvacuous :
  yields (imouts ex_items ex_ls) = [(1%nat, 3); (0%nat, 1); (0%nat, 2)] /\
  c_st (imrun ex_items ex_ls) = StFinished /\
  last (igouts [10; 11] chrono_ls) ((false, []), GVNone) = ((false, [0%nat; 1%nat]), GVRaise 2) /\
  delivered (itouts true [7; 8] (seq_labels true 3)) = [RItem 7; RItem 8; RStop].
Proof. vm_compute. repeat split; reflexivity. Qed.

Print Assumptions C19_merge_projection.
Print Assumptions C19_merge_accounting.
Print Assumptions C19_merge_terminates.
Print Assumptions C19_merge_can_finish.
Print Assumptions C19_merge_finished_stays.
Print Assumptions C19_agen_items.
Print Assumptions C19_agen_first_exception.
Print Assumptions C19_agen_chronological_refuted.
Print Assumptions C19_agen_chronological_partial.
Print Assumptions C19_to_aiter_items.
Print Assumptions C19_to_aiter_sequential.
Print Assumptions C19_tie_merge.
Print Assumptions C19_tie_merge_never_stuck.
Print Assumptions C19_tie_merge_projection.
Print Assumptions C19_tie_merge_complete.
Print Assumptions C19_tie_agen.
Print Assumptions C19_tie_agen_never_stuck.
Print Assumptions C19_tie_agen_items.
Print Assumptions C19_tie_agen_raise_identity.
Print Assumptions C19_tie_to_aiter.
Print Assumptions C19_tie_to_aiter_sequential.
Print Assumptions C19_tie_to_aiter_class_facts.
Print Assumptions C19_tie_aiterable_sequential.
Print Assumptions C19_tie_to_aiter_default_sequential.
Print Assumptions C19_tie_merge_close_loss.
Print Assumptions C19_tie_agen_close_loss.
