(** C01 -- the lifecycle state only moves along the documented state diagram.

    Spec (written by hand, independent of the code): [edge] in Life/Hist.v --
    created->initialized, initialized->running, running->finished,
    initialized|finished->initialized (reset), any->closed, closed never left.
    Table: Gen/FsmConfig.v, REGENERATED from nextline/fsm/config.py on every run.
    Model: Life/Model.v; "for every history and schedule" = for every label list.
    Proofs: Life/Table.v (table), Life/FsmMoves.v (state attribute), Life/StatePubs.v ([C01_subscription]),
    Life/Single.v (refusal as [enter = refuse]), Life/Refusal.v (refusal on histories), Life/ImpTie.v,
    Life/MachineTie.v, Life/MachineCont.v, Life/MachineImpTie.v (ties). *)
From NL Require Import Life.Close Life.Protocol Life.Refusal.
From NL Require Import Life.Model Life.LockInv Life.FsmInv Life.Hist Life.Single Life.FsmMoves Life.Table Life.StatePubs Gen.FsmConfig.

(** the configured transition table is exactly the documented diagram *)
Theorem C01_table_sound : forall tr a d b, In (tr, a, d, b) table ->
  match d with Some x => edge a x | None => a = Closed /\ tr = TClose end.
Proof. exact table_sound. Qed.

Theorem C01_table_complete : forall a b, edge a b ->
  (exists tr bf, In (tr, a, Some b, bf) table) \/ (a = Closed /\ b = Closed /\ lookup TClose Closed = Some (None, BNone)).
Proof. exact table_complete. Qed.

(** the model accepts a trigger exactly where the table has an entry, moves to the table's
    destination, and an invalid trigger is an error (`ignore_invalid_triggers`, `queued` off) *)
Theorem C01_model_follows_table :
  (forall f, accepts TRun f = true <-> f = Initialized) /\
  (forall f, accepts TReset f = true <-> f = Initialized \/ f = Finished) /\
  (forall f, accepts TInitialize f = true <-> f = Created) /\
  (forall f, accepts TFinish f = true <-> f = Running) /\
  (forall f, accepts TClose f = true) /\
  lookup TRun Initialized = Some (Some Running, BNone) /\
  lookup TReset Initialized = Some (Some Initialized, BReset) /\
  lookup TReset Finished = Some (Some Initialized, BReset) /\
  lookup TInitialize Created = Some (Some Initialized, BNone) /\
  lookup TFinish Running = Some (Some Finished, BNone) /\
  lookup TClose Created = Some (Some Closed, BNone) /\
  lookup TClose Initialized = Some (Some Closed, BNone) /\
  lookup TClose Finished = Some (Some Closed, BNone) /\
  lookup TClose Running = Some (Some Closed, BCloseWhileRunning) /\
  lookup TClose Closed = Some (None, BNone) /\
  initial = Created /\ queued = false /\ ignore_invalid_triggers = false.
Proof.
  exact (conj accepts_run (conj accepts_reset (conj accepts_initialize (conj accepts_finish (conj accepts_close dests))))).
Qed.

(** the state attribute: in EVERY reachable state, whatever happens next (any call from any
    task, any task resuming at any suspension point, the run completing, the child exiting),
    the state stays or moves along an edge of the diagram *)
Theorem C01_state_attr : forall stmt start th md ls l,
  let s := run_labels (init_state stmt start th md) ls in
  st_fsm (step s l) = st_fsm s \/ edge (st_fsm s) (st_fsm (step s l)).
Proof. exact state_attr_edges. Qed.

(** 'closed' is never left *)
Theorem C01_closed_absorbing : forall stmt start th md ls l,
  let s := run_labels (init_state stmt start th md) ls in
  st_fsm s = Closed -> st_fsm (step s l) = Closed.
Proof. exact FsmMoves.closed_absorbing. Qed.

(** the state subscription: for every history and schedule, what `subscribe_state()` yields
    starts at 'initialized' and every two consecutive values are equal or an edge of the diagram
    (assumption F of the model is what keeps the run's completion from overtaking 'running') *)
Theorem C01_subscription : forall stmt start th md ls,
  let s := run_labels (init_state stmt start th md) ls in
  path_from_initialized (states_of (pubs_of (history s))).
Proof. exact state_pubs_path. Qed.

(** a run request that the state does not allow is refused ... *)
Theorem C01_invalid_run_refused : forall s t c part2,
  runlike c = true -> st_fsm s <> Initialized -> enter s t c part2 = refuse s t c.
Proof. exact second_run_refused. Qed.

(** ... so is a reset ... *)
Theorem C01_invalid_reset_refused : forall s t o,
  st_fsm s <> Initialized -> st_fsm s <> Finished -> enter s t (CReset o) false = refuse s t (CReset o).
Proof. exact no_reset_during_run. Qed.

(** ... with an error, and it changes nothing (state, run task, run arguments, script,
    numbering, child, hooks) except the record of the call itself *)
Theorem C01_refused_changes_nothing : forall s t c,
  st_fsm (refuse s t c) = st_fsm s /\ runt (refuse s t c) = runt s /\ run_finished (refuse s t c) = run_finished s
  /\ run_arg (refuse s t c) = run_arg s /\ alive (refuse s t c) = alive s /\ pending_exit (refuse s t c) = pending_exit s
  /\ c_stmt (refuse s t c) = c_stmt s /\ c_next (refuse s t c) = c_next s
  /\ c_threads (refuse s t c) = c_threads s /\ c_modules (refuse s t c) = c_modules s
  /\ (exists r, hd_error (trace (refuse s t c)) = Some (EvRet t c r) /\ r <> ROk)
  /\ hooks_of (trace (refuse s t c)) = hooks_of (trace s).
Proof. exact refuse_effect. Qed.

(** Refusal stated on histories (Life/Refusal.v).
    A request is judged when it gets the lifecycle lock: at its own [Step] when it had to
    queue (pc [Granted1]), inside its [Call] label when the lock was free. *)

(** a step that appends `EvRet t c MachineError`, in any reachable state: it is the request's
    own label; it appends exactly that return (after the call record when judged inside [Call];
    for a continuous request also the re-publication of the flag); the state did not allow the
    request; and NOTHING else changes -- state, run task, run arguments, child, result, script
    and numbering, every flag, the hook log -- except the lock hand-over, the task table entry
    of the call and, for a continuous request, its own (never started) registration *)
Theorem C01_refused_on_history : forall stmt start th md ls l t c,
  let s := run_labels (init_state stmt start th md) ls in
  let s' := step s l in
  let r := EvRet t c RMachineError in
  In r (appended s s') ->
  ((l = Step t /\ holder s = Some t /\ find_task (tasks s) t = Some (c, Granted1) /\
    (appended s s' = [r] \/ (is_cont c = true /\ exists b, appended s s' = [EvPub (PCont b); r])) /\
    holder s' = rel_holder (lockq s) /\ lockq s' = tl (lockq s) /\
    tasks s' = remove_task (rel_tasks (lockq s) (tasks s)) t)
   \/
   (l = Call t c /\ holder s = None /\ lockq s = [] /\ find_task (tasks s) t = None /\
    ((is_cont c = false /\ appended s s' = [EvCall t c; r]) \/
     (is_cont c = true /\ exists b, appended s s' = [EvCall t c; EvPub (PCont true); EvPub (PCont b); r])) /\
    holder s' = None /\ lockq s' = [] /\ tasks s' = tasks s))
  /\ disallowed c false (st_fsm s)
  /\ (st_fsm s' = st_fsm s /\ runt s' = runt s /\ run_finished s' = run_finished s /\ alive s' = alive s /\
      pending_exit s' = pending_exit s /\ run_arg s' = run_arg s /\ exited_proc s' = exited_proc s /\
      started_ev s' = started_ev s /\
      c_stmt s' = c_stmt s /\ c_next s' = c_next s /\ c_threads s' = c_threads s /\ c_modules s' = c_modules s /\
      nl_started s' = nl_started s /\ nl_closed s' = nl_closed s /\ run_owner s' = run_owner s /\
      run_cont s' = run_cont s /\ running_process s' = running_process s /\ send_command s' = send_command s /\
      cont_closed s' = cont_closed s)
  /\ cont_plugins s' = (if is_cont c then filter (unreg t) (cont_plugins s) else cont_plugins s)
  /\ hooks_of (history s') = hooks_of (history s).
Proof.
  intros stmt start th md ls l t c s s' r Hin. destruct (Close.all_inv stmt start th md ls) as (HL & _ & HC).
  pose proof (refused_on_history s l t c HL HC Hin) as H. pose proof (refused_fields _ _ _ _ _ H) as Hf.
  destruct H as (H1 & H2 & _ & _ & H5 & H6). auto.
Qed.

(** WHEN: a run request (run, run_and_continue, run_continue_and_wait, run_session) that has
    the lock ends in MachineError at its next step iff the state is not 'initialized' (so also
    after close); otherwise it becomes the run in progress *)
Theorem C01_error_iff_state_disallows : forall stmt start th md ls t c,
  let s := run_labels (init_state stmt start th md) ls in
  runlike c = true -> find_task (tasks s) t = Some (c, Granted1) ->
  let s' := step s (Step t) in
  holder s = Some t /\
  (In (EvRet t c RMachineError) (appended s s') <-> st_fsm s <> Initialized) /\
  (st_fsm s = Initialized ->
   st_fsm s' = Running /\ runt s' = Some RT_New /\ run_finished s' = Some false /\ run_owner s' = t /\
   find_task (tasks s') t = Some (c, R_WaitStarted) /\ trace s' = trace s).
Proof.
  intros stmt start th md ls t c s Hc Ef s'. destruct (Close.all_inv stmt start th md ls) as (HL & _ & _).
  destruct (granted_outcome s t c HL Ef (or_introl Hc)) as (Hh & Hiff & Hacc).
  rewrite (runlike_disallowed c _ Hc) in Hiff, Hacc. split; [exact Hh|]. split; [exact Hiff|].
  intros Hi. destruct Hacc as (Ha & Ht); [tauto|]. unfold accepted_effect in Ha.
  destruct c; try discriminate Hc; destruct Ha as (? & ? & ? & ? & ?); auto 10.
Qed.

(** a reset that has the lock ends in MachineError iff the state is neither 'initialized' nor
    'finished'; otherwise it proceeds (to its first gates) *)
Theorem C01_reset_error_iff_state_disallows : forall stmt start th md ls t o,
  let s := run_labels (init_state stmt start th md) ls in
  find_task (tasks s) t = Some (CReset o, Granted1) ->
  let s' := step s (Step t) in
  holder s = Some t /\
  (In (EvRet t (CReset o) RMachineError) (appended s s') <-> (st_fsm s <> Initialized /\ st_fsm s <> Finished)) /\
  (st_fsm s = Initialized \/ st_fsm s = Finished ->
   st_fsm s' = st_fsm s /\ runt s' = runt s /\
   exists p, (p = Z_G1 \/ p = Z_G1b) /\ find_task (tasks s') t = Some (CReset o, p)).
Proof.
  intros stmt start th md ls t o s Ef s'. destruct (Close.all_inv stmt start th md ls) as (HL & _ & _).
  destruct (granted_outcome s t (CReset o) HL Ef) as (Hh & Hiff & Hacc); [right; eauto|].
  split; [exact Hh|]. split; [exact Hiff|]. intros Hi. apply Hacc. simpl. tauto.
Qed.

(** the same when the lock is free and the request is judged inside its [Call] label
    ([disallowed c false f] is `f <> Initialized` for a run request and
    `f <> Initialized /\ f <> Finished` for a reset); with the lock busy it only queues *)
Theorem C01_error_iff_state_disallows_call : forall stmt start th md ls t c,
  let s := run_labels (init_state stmt start th md) ls in
  find_task (tasks s) t = None -> (runlike c = true \/ exists o, c = CReset o) ->
  (is_cont c = true -> cont_closed s = false) ->
  let s' := step s (Call t c) in
  (holder s = None -> lockq s = [] ->
   (In (EvRet t c RMachineError) (appended s s') <-> disallowed c false (st_fsm s)) /\
   (~ disallowed c false (st_fsm s) ->
    match c with
    | CReset o => st_fsm s' = st_fsm s /\ runt s' = runt s /\
                  exists p, (p = Z_G1 \/ p = Z_G1b) /\ find_task (tasks s') t = Some (c, p)
    | _ => st_fsm s' = Running /\ runt s' = Some RT_New /\ run_finished s' = Some false /\ run_owner s' = t /\
           find_task (tasks s') t = Some (c, R_WaitStarted)
    end)) /\
  (holder s <> None \/ lockq s <> [] ->
   find_task (tasks s') t = Some (c, WaitLock1) /\
   forall t0 c0 r, ~ In (EvRet t0 c0 r) (appended s s')).
Proof.
  intros stmt start th md ls t c s Ef Hc Hcc s'. destruct (Close.all_inv stmt start th md ls) as (HL & _ & HC).
  destruct (direct_outcome s t c Ef Hc Hcc) as (H1 & H2). split.
  - intros Hh Hq. destruct (H1 Hh Hq) as (Ha & Hb). repeat split; auto.
    intros Hin. apply (refused_on_history s (Call t c) t c HL HC Hin).
  - intros Hb. destruct (H2 Hb) as (A & _ & B). auto.
Qed.

(** a refused request in the middle of a history (run_and_continue that queued behind run()
    and gets its turn while the child is running), refused requests judged inside [Call], and
    an accepted one (the run() of task 1, accepted inside its [Call] in state 'initialized') *)
Example C01_example_refusal_nonvacuous :
  let s := refusal_state in
  st_fsm s = Running /\ runt s = Some RT_WaitChild /\ find_task (tasks s) 2%nat = Some (CRunCont, Granted1)
  /\ appended s (step s (Step 2%nat)) = [EvPub (PCont false); EvRet 2%nat CRunCont RMachineError]
  /\ (let s2 := step s (Step 2%nat) in
      appended s2 (step s2 (Call 3%nat CRun)) = [EvCall 3%nat CRun; EvRet 3%nat CRun RMachineError]
      /\ appended s2 (step s2 (Call 3%nat CRunCont))
         = [EvCall 3%nat CRunCont; EvPub (PCont true); EvPub (PCont false); EvRet 3%nat CRunCont RMachineError])
  /\ (let s0 := run_labels (init_state 7 1 false false) (firstn 4 refusal_labels) in
      st_fsm s0 = Initialized /\
      find_task (tasks (step s0 (Call 1%nat CRun))) 1%nat = Some (CRun, R_WaitStarted) /\
      st_fsm (step s0 (Call 1%nat CRun)) = Running).
Proof. vm_compute. repeat split; reflexivity. Qed.

(** non-vacuity: a history through every state, with refused requests on the way *)
Example C01_example_nonvacuous :
  let ls := [Call 1 CRun; Call 1 CStart; Step 1; Step 1; Step 1; Call 2 (CReset (mkOpts None None None None)); Step 2; Step 2; Step 2;
             Call 1 CRun; StepRun; StepRun; StepRun; Step 1; Step 1; Call 3 CRun; ChildExit OReturn; StepRun; StepRun; StepRun; StepRun;
             Call 2 (CReset (mkOpts (Some 2%Z) None None None)); Step 2; Step 2; Step 2; Step 2; Step 2; Call 1 CClose; Step 1; Step 1; Call 2 CRun] in
  let s := run_labels (init_state 1 1 false false) ls in
  states_of (pubs_of (history s)) = [Initialized; Initialized; Running; Finished; Initialized; Closed]
  /\ st_fsm s = Closed
  /\ length (filter (fun e => match e with EvRet _ _ RMachineError => true | _ => false end) (trace s)) = 3%nat.
Proof. vm_compute. repeat split; reflexivity. Qed.

Print Assumptions C01_table_sound.
Print Assumptions C01_table_complete.
Print Assumptions C01_model_follows_table.
Print Assumptions C01_state_attr.
Print Assumptions C01_closed_absorbing.
Print Assumptions C01_subscription.
Print Assumptions C01_invalid_run_refused.
Print Assumptions C01_invalid_reset_refused.
Print Assumptions C01_refused_changes_nothing.
Print Assumptions C01_refused_on_history.
Print Assumptions C01_error_iff_state_disallows.
Print Assumptions C01_reset_error_iff_state_disallows.
Print Assumptions C01_error_iff_state_disallows_call.
Print Assumptions C01_example_refusal_nonvacuous.

(** Tie of the serialised transitions of the model to nextline/imp.py + nextline/main.py.
    Gen/ImpSkeleton.v is REGENERATED from the source by translate/imp_skeleton.py at every check;
    Life/ImpTie.v interprets it ([exec]: an oracle decides at every await whether it raises and
    the value of every untracked condition).  All statements are for every oracle. *)
From Coq Require Import String.
From NL Require Import Life.ImpSyntax Gen.ImpSkeleton Life.ImpTie.

(** no transition is triggered BY A METHOD OF Imp / Nextline outside the lock (so no API request can
    cancel another half way); the run task's own `finish` trigger (fsm/callback.py) is outside the
    lock by design and not covered here; the lock is free at the end of every path *)
Theorem C01_tie_lock_discipline : forall ob m, In m (names ob) -> forall st cl o,
  let x := exec ob m st cl o in
  res_of x <> RBad /\ lock_ok false (trace_of x) = true /\ lk_held (cfg_of x) = false.
Proof. exact lock_discipline. Qed.

(** each API call fires the trigger whose transition the model puts it in *)
Theorem C01_tie_call_trigger : forall c m, In m (nl_methods_of c) ->
  code_first_trigger true false m = model_first_trigger st_initialized c /\
  (c = CStart \/ c = CClose -> code_first_trigger false false m = model_first_trigger st_created c).
Proof. exact call_trigger_agrees. Qed.

(** the tests and assignments of `_started` / `_closed` are in one atomic segment ([do_call]) *)
Theorem C01_tie_flags_atomic : forall m, In m (names ONextline) -> forall st cl o,
  sets_atomic false (trace_of (exec ONextline m st cl o)) = true.
Proof. exact flags_set_atomically. Qed.

(** a second start() returns at the `_started` guard *)
Theorem C01_tie_second_start_does_nothing : forall cl o,
  exec ONextline "start"%string true cl o =
    (RNorm, mkCfg true cl false, [EEnter ONextline "start"%string; EGuard (GFlag FStarted) true]).
Proof. exact second_start_does_nothing. Qed.

(** Imp.aopen: the `init` hook, then the `initialize` transition, under the lock *)
Theorem C01_tie_aopen_shape :
  trace_of (exec OImp "aopen"%string false false []) =
    [EEnter OImp "aopen"%string; EAcq true; EHook false "init"%string true; ETrig TAopen true; ERel].
Proof. exact aopen_shape. Qed.

(** Nextline reaches the machine only through Imp's methods *)
Theorem C01_tie_only_through_imp :
  forallb (fun x => no_direct (snd x)) nextline_methods = true /\
  forallb flag_sets_ok nextline_methods = true /\
  forallb (fun x => locked_text false (snd x)) imp_methods = true /\
  imp_locks = ["_lock"%string] /\
  (forall a b c d, nextline_init_flags =
     [(FStarted, nl_started (init_state a b c d)); (FClosed, nl_closed (init_state a b c d))]).
Proof. exact nextline_reaches_machine_only_through_imp. Qed.

(** per-call refinement against Model.do_call / do_step (Life/ImpTie.v), every oracle *)
Theorem C01_tie_call_refinement : forall s c m, In s ref_states -> In c ref_calls -> In m (nl_methods_of c) ->
  (forall o, let x := exec ONextline m (nl_started s) (nl_closed s) o in
     verdict_of s c x <> VMismatch /\ (verdict_of s c x = VEqual -> end_agrees s c x = true)) /\
  (exists o, verdict_of s c (exec ONextline m (nl_started s) (nl_closed s) o) = VEqual).
Proof. exact call_refinement. Qed.

(** fsm/machine.py: aopen = initialize, aclose = close, callbacks -> Callback methods *)
Theorem C01_tie_machine_wrappers_pin :
  machine_wrappers = [("aclose", "close"); ("aopen", "initialize")]%string /\
  machine_callbacks =
    [("after_state_change", ["on_change_state"]); ("on_exit_created", ["start"]);
     ("on_enter_initialized", ["initialize_run"]); ("on_enter_running", ["start_run"]);
     ("on_close_while_running", ["wait_for_run_finish"]); ("on_enter_finished", ["finish"]);
     ("on_exit_finished", ["on_exit_finished"]); ("on_enter_closed", ["close"]); ("on_reset", ["reset"])]%string.
Proof. exact machine_wrappers_pin. Qed.

Print Assumptions C01_tie_lock_discipline.
Print Assumptions C01_tie_call_trigger.
Print Assumptions C01_tie_flags_atomic.
Print Assumptions C01_tie_second_start_does_nothing.
Print Assumptions C01_tie_aopen_shape.
Print Assumptions C01_tie_only_through_imp.
Print Assumptions C01_tie_call_refinement.
Print Assumptions C01_tie_machine_wrappers_pin.

(** Tie of the callback wiring: nextline/fsm/machine.py + callback.py regenerated as
    Gen/MachineWiring.v by translate/machine_wiring.py; Life/MachineTie.v derives, from the regenerated
    CONFIG FsmConfig.table and method set, the callbacks the `transitions` library runs for one trigger (trusted:
    the order written there, with references to the installed source), expands them through the
    regenerated method bodies and proves, for ALL model states, that the model's segments are that program. *)
From NL Require Life.MachineSyntax Gen.MachineWiring Life.MachineTie.

(** the scripts of all ten rows, derived by computation from the regenerated files *)
Theorem C01_tie_machine_script_table :
  MachineTie.script Created FsmConfig.TInitialize = Some (Some Initialized, [MachineTie.Cb "on_exit_created"; MachineTie.SetState Initialized; MachineTie.Cb "on_enter_initialized"; MachineTie.Cb "after_state_change"]) /\
  MachineTie.script Initialized FsmConfig.TRun = Some (Some Running, [MachineTie.SetState Running; MachineTie.Cb "on_enter_running"; MachineTie.Cb "after_state_change"]) /\
  MachineTie.script Running FsmConfig.TFinish = Some (Some Finished, [MachineTie.SetState Finished; MachineTie.Cb "on_enter_finished"; MachineTie.Cb "after_state_change"]) /\
  MachineTie.script Initialized FsmConfig.TReset = Some (Some Initialized, [MachineTie.Cb "on_reset"; MachineTie.SetState Initialized; MachineTie.Cb "on_enter_initialized"; MachineTie.Cb "after_state_change"]) /\
  MachineTie.script Finished FsmConfig.TReset = Some (Some Initialized, [MachineTie.Cb "on_reset"; MachineTie.Cb "on_exit_finished"; MachineTie.SetState Initialized; MachineTie.Cb "on_enter_initialized"; MachineTie.Cb "after_state_change"]) /\
  MachineTie.script Created FsmConfig.TClose = Some (Some Closed, [MachineTie.Cb "on_exit_created"; MachineTie.SetState Closed; MachineTie.Cb "on_enter_closed"; MachineTie.Cb "after_state_change"]) /\
  MachineTie.script Initialized FsmConfig.TClose = Some (Some Closed, [MachineTie.SetState Closed; MachineTie.Cb "on_enter_closed"; MachineTie.Cb "after_state_change"]) /\
  MachineTie.script Running FsmConfig.TClose = Some (Some Closed, [MachineTie.Cb "on_close_while_running"; MachineTie.SetState Closed; MachineTie.Cb "on_enter_closed"; MachineTie.Cb "after_state_change"]) /\
  MachineTie.script Finished FsmConfig.TClose = Some (Some Closed, [MachineTie.Cb "on_exit_finished"; MachineTie.SetState Closed; MachineTie.Cb "on_enter_closed"; MachineTie.Cb "after_state_change"]) /\
  MachineTie.script Closed FsmConfig.TClose = Some (None, [MachineTie.Cb "after_state_change"]).
Proof. exact MachineTie.script_table. Qed.

(** a trigger is refused (MachineError) exactly for the (trigger, state) pairs without a row *)
Theorem C01_tie_machine_refused : forall src tr,
  MachineTie.script src tr = None <->
  match tr, src with
  | FsmConfig.TInitialize, Created | FsmConfig.TRun, Initialized | FsmConfig.TFinish, Running | FsmConfig.TClose, _
  | FsmConfig.TReset, Initialized | FsmConfig.TReset, Finished => False
  | _, _ => True
  end.
Proof. exact MachineTie.script_refused. Qed.

(** every state change of every script goes along a row of CONFIG: exactly one per accepted trigger, none for the internal one *)
Theorem C01_tie_machine_moves : forall src tr dest acts, MachineTie.script src tr = Some (dest, acts) ->
  exists b, In (tr, src, dest, b) FsmConfig.table /\
  filter (fun a => match a with MachineTie.SetState _ => true | _ => false end) acts =
  match dest with Some d => [MachineTie.SetState d] | None => [] end.
Proof. exact MachineTie.script_moves_along_table. Qed.

(** the model's first segment of start / run / reset = the program derived from the regenerated code, all states *)
Theorem C01_tie_machine_enter_start : forall s t c, enter_start s t c = MachineTie.api_trigger t c FsmConfig.TInitialize s.
Proof. exact MachineTie.tie_enter_start. Qed.
Theorem C01_tie_machine_enter_run : forall s t c, enter_run s t c = MachineTie.api_trigger t c FsmConfig.TRun s.
Proof. exact MachineTie.tie_enter_run. Qed.
Theorem C01_tie_machine_enter_reset : forall s t o, enter_reset s t o = MachineTie.api_trigger t (CReset o) FsmConfig.TReset s.
Proof. exact MachineTie.tie_enter_reset. Qed.

(** ... and every later segment of the same trigger (the task stepped at a gate / wait inside it) *)
Theorem C01_tie_machine_step_initialize : forall s t c p, find_task (tasks s) t = Some (c, p) ->
  In p [S_G1; S_G2; S_G3] ->
  do_step s t = MachineTie.api_resume t c FsmConfig.TInitialize p (MachineTie.api_cont t c FsmConfig.TInitialize Created p) s.
Proof. exact MachineTie.tie_step_initialize. Qed.
Theorem C01_tie_machine_step_run : forall s t c p, find_task (tasks s) t = Some (c, p) ->
  In p [R_WaitStarted; R_G] ->
  do_step s t = MachineTie.api_resume t c FsmConfig.TRun p (MachineTie.api_cont t c FsmConfig.TRun Initialized p) s.
Proof. exact MachineTie.tie_step_run. Qed.
Theorem C01_tie_machine_step_reset_before : forall s t o p, find_task (tasks s) t = Some (CReset o, p) ->
  (st_fsm s = Initialized \/ st_fsm s = Finished) ->
  (p = Z_G1 /\ o_stmt o <> None) \/ p = Z_G1b \/ (p = Z_WaitRunTask /\ st_fsm s = Finished) ->
  do_step s t = MachineTie.api_resume t (CReset o) FsmConfig.TReset p (MachineTie.api_cont t (CReset o) FsmConfig.TReset (st_fsm s) p) s.
Proof. exact MachineTie.tie_step_reset_before. Qed.
Theorem C01_tie_machine_step_reset_after : forall s t o p src, find_task (tasks s) t = Some (CReset o, p) ->
  (src = Initialized \/ src = Finished) -> In p [Z_G3; Z_G4] ->
  do_step s t = MachineTie.api_resume t (CReset o) FsmConfig.TReset p (MachineTie.api_cont t (CReset o) FsmConfig.TReset src p) s.
Proof. exact MachineTie.tie_step_reset_after. Qed.

(** the run task: finally of Callback._run + Callback._finish + the trigger `finish` inside try/finally *)
Theorem C01_tie_machine_run_finish : forall s,
  exists k, MachineTie.run_tail (st_fsm s) = Some k /\ run_finish s = MachineTie.run_embed (MachineTie.run k s).
Proof. exact MachineTie.tie_run_finish. Qed.
Theorem C01_tie_machine_step_run_task : forall s p, runt s = Some p -> In p [RT_G_fin; RT_G_cs] ->
  exists k, MachineTie.run_tail Running = Some k /\
            do_step_run s = MachineTie.run_embed (MachineTie.run (MachineTie.after_rpc p k) s).
Proof. exact MachineTie.tie_step_run_task. Qed.

(** what __init__ wires and what CONFIG sets: no queueing, invalid triggers raise, model=self, the one after_state_change *)
Theorem C01_tie_machine_wiring : FsmConfig.ignore_invalid_triggers = false /\ FsmConfig.queued = false /\ MachineTie.model_is_self = true /\
  MachineTie.wired_after_state_change = ["after_state_change"%string] /\ MachineTie.callback_backref = true.
Proof. exact MachineTie.config_flags. Qed.

Print Assumptions C01_tie_machine_script_table.
Print Assumptions C01_tie_machine_refused.
Print Assumptions C01_tie_machine_moves.
Print Assumptions C01_tie_machine_enter_start.
Print Assumptions C01_tie_machine_enter_run.
Print Assumptions C01_tie_machine_enter_reset.
Print Assumptions C01_tie_machine_step_initialize.
Print Assumptions C01_tie_machine_step_run.
Print Assumptions C01_tie_machine_step_reset_before.
Print Assumptions C01_tie_machine_step_reset_after.
Print Assumptions C01_tie_machine_run_finish.
Print Assumptions C01_tie_machine_step_run_task.
Print Assumptions C01_tie_machine_wiring.

(** Composition of Gen/ImpSkeleton.v with Gen/MachineWiring.v (Life/MachineImpTie.v).  The regenerated tree
    of an Imp method is compiled to effects / waits / ONE trigger (resolved through the regenerated StateMachine) / the
    release of the lock; [MachineImpTie.imp_run m t c s] runs it from the moment the lock is held.  What remains copied from
    the model: [MachineImpTie.after_imp] (what the Nextline wrapper does with the returned call), see the header there. *)
From NL Require Life.MachineImpTie.

(** which trigger each Imp method fires under the lock, what precedes and follows it *)
Theorem C01_tie_machine_imp_shapes :
  (exists r, MachineImpTie.imp_prog "aopen"%string = Some r /\
     MachineImpTie.split_trigger r = Some ([], FsmConfig.TInitialize, [MachineImpTie.IDo release])) /\
  (exists r, MachineImpTie.imp_prog "run"%string = Some r /\
     MachineImpTie.split_trigger r = Some ([], FsmConfig.TRun, [MachineImpTie.IDo release])) /\
  (exists r, MachineImpTie.imp_prog "reset"%string = Some r /\
     MachineImpTie.split_trigger r = Some ([], FsmConfig.TReset, [MachineImpTie.IDo release])) /\
  (exists r a rd, MachineImpTie.imp_prog "aclose"%string = Some r /\
     MachineTie.wait_for_run_finish_prims = Some [MachineTie.PWait a rd C_WaitRunFinished] /\
     MachineImpTie.split_trigger r =
       Some ([MachineImpTie.IDo (fun s => publish s PEndAll);
              MachineImpTie.IWait (fun s => if MachineImpTie.state_is "running"%string s then a s else MachineTie.WPass) rd C_WaitRunFinished],
             FsmConfig.TClose,
             [MachineImpTie.IDo (fun s => publish s PEndAll); MachineImpTie.IDo release])) /\
  MachineImpTie.nextline_close_tail = Some [MachineImpTie.IDo close_cont].
Proof. exact MachineImpTie.imp_method_shapes. Qed.

(** the trigger calls of the regenerated Imp pass exactly the event data the tie assumes (reset: reset_options=; others none) *)
Theorem C01_tie_machine_imp_event_data :
  forallb MachineImpTie.call_agrees MachineWiring.imp_trigger_calls = true /\
  map (fun x => fst (fst (fst x))) MachineWiring.imp_trigger_calls = ["run"; "reset"; "aopen"; "aclose"]%string.
Proof. exact MachineImpTie.imp_event_data. Qed.

(** the model's first segment under the lock = the regenerated Imp method (lock held; trigger; release), all states *)
Theorem C01_tie_machine_imp_aopen : forall s t c, enter_start s t c = MachineImpTie.imp_run "aopen"%string t c s.
Proof. exact MachineImpTie.imp_run_aopen. Qed.
Theorem C01_tie_machine_imp_reset : forall s t o, enter_reset s t o = MachineImpTie.imp_run "reset"%string t (CReset o) s.
Proof. exact MachineImpTie.imp_run_reset. Qed.

(** the epilogue after the trigger, which Life/MachineTie.v takes from the model, IS the regenerated rest of the Imp method *)
Theorem C01_tie_machine_imp_epilogue_aopen : forall s t c,
  MachineTie.epilogue t c FsmConfig.TInitialize s = MachineImpTie.derived_epilogue "aopen"%string t c s.
Proof. exact MachineImpTie.imp_epilogue_aopen. Qed.
Theorem C01_tie_machine_imp_epilogue_reset : forall s t c,
  MachineTie.epilogue t c FsmConfig.TReset s = MachineImpTie.derived_epilogue "reset"%string t c s.
Proof. exact MachineImpTie.imp_epilogue_reset. Qed.

Print Assumptions C01_tie_machine_imp_shapes.
Print Assumptions C01_tie_machine_imp_event_data.
Print Assumptions C01_tie_machine_imp_aopen.
Print Assumptions C01_tie_machine_imp_reset.
Print Assumptions C01_tie_machine_imp_epilogue_aopen.
Print Assumptions C01_tie_machine_imp_epilogue_reset.

(** The continuation a task stores when it parks is [api_cont] = [after_pc p] of the ONE program of the
    trigger -- at the first park and at every later one (Life/MachineCont.v: generic in the program, needs only pairwise
    distinct program counters, proved for every program [api_prog] produces).  With C01_tie_machine_step_* (which start
    from [api_cont ... p]) the successive segments of the model follow the one program derived from the regenerated code. *)
From NL Require Life.MachineCont.
Theorem C01_tie_machine_continuations : forall t c tr src k, MachineTie.api_prog t c tr src = Some k ->
  (forall s s' p k', MachineTie.run k s = (s', MachineTie.KPark p k') -> k' = MachineTie.api_cont t c tr src p) /\
  (forall p s s' p2 k2, MachineTie.run (MachineTie.api_cont t c tr src p) s = (s', MachineTie.KPark p2 k2) ->
     k2 = MachineTie.api_cont t c tr src p2) /\
  (forall p a r q rest s s' p2 k2, MachineTie.api_cont t c tr src p = MachineTie.PWait a r q :: rest ->
     MachineTie.run rest s = (s', MachineTie.KPark p2 k2) -> k2 = MachineTie.api_cont t c tr src p2).
Proof. exact MachineCont.api_continuations. Qed.
Print Assumptions C01_tie_machine_continuations.
