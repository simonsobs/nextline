(** C10 -- events are relayed to the main process completely, in order, within the run.
    Property theorems only, each closed by [exact]: the model's properties by lemmas of Relay/Proofs.v,
    the tie_* ones (from C10_tie_simulation on) by lemmas of Relay/Tie.v, Relay/TieSkeleton.v and
    Relay/TieExn.v.

    Model: Relay/Model.v (child with its queue buffer, the FIFO pipe shared with the
    sentinel, the monitor task, the main task with the drain loop and its timer).
    Every statement quantifies over EVERY list of labels [ls] = every interleaving of
    the child, the feeder, the monitor (with arbitrarily slow hooks: [MonDeliver] can
    be delayed at will), the drain loop and an early [Timeout], and every kill point.

    Environment assumptions (hypotheses of the model, listed in ASSUMPTIONS of
    harness/props/c10.py and validated by the real runs):
    - FIFO: the multiprocessing.Queue pipe delivers in the order written; puts of one
      process are written in the order they were made;
    - flush-before-exit: a child that exits normally has written everything to the
      pipe ([ChildExit] is enabled only then);
    - boot ([run true]): the child cannot emit before `on_start_run` is called.
      Needed only for C10_bracketed; [C10_bracket_needs_boot] shows the model violates
      the bracket without it.
    PARTIAL: the pipe, the feeder threads and the process are modelled, not verified. *)
From NL Require Import Relay.Model Relay.Proofs.
Open Scope Z_scope.

(** normal exit: when `on_end_run` is called the plugin has been given exactly the events
    the child emitted = the script's stream: same order, each once *)
Theorem C10_complete_in_order : forall boot script ls,
  let s := run boot script ls in
  main s = PEndRun -> child s = CExited ->
  delivered s = script /\ emitted s = script /\ deliveries (log s) = script.
Proof. exact complete_in_order. Qed.

(** at every moment, in particular whenever and however the child is killed: what has been
    delivered is a prefix of what was emitted (itself a prefix of the script's stream), and the
    plugin's log shows exactly those deliveries *)
Theorem C10_prefix_on_kill : forall boot script ls,
  let s := run boot script ls in
  (exists rest, emitted s = delivered s ++ rest) /\ (exists rest, script = emitted s ++ rest) /\
  deliveries (log s) = delivered s.
Proof. exact prefix_always. Qed.

(** every delivery (call and completion of the hooks) lies after the `on_start_run` call and
    before the `on_end_run` call, whatever the interleaving, slow hooks and early timeout *)
Theorem C10_bracketed : forall script ls, bracketed (log (run true script ls)) = true.
Proof. exact bracketed_always. Qed.

(** and none after: once `on_end_run` has been called the plugin's log never changes again *)
Theorem C10_nothing_after_end : forall boot script ls l,
  main (run boot script ls) = PEndRun ->
  log (run boot script (ls ++ [l])) = log (run boot script ls).
Proof. exact nothing_after_end. Qed.

(** the monitor awaits the hooks of one event before it takes the next: calls and
    completions alternate *)
Theorem C10_hooks_never_overlap : forall boot script ls, alternating None (log (run boot script ls)) = true.
Proof. exact hooks_never_overlap. Qed.

(** the boot assumption is necessary in the model *)
Theorem C10_bracket_needs_boot :
  bracketed (log (run false [5] [StartProc; Emit; Flush; MonTake; StartRun])) = false.
Proof. exact bracket_needs_boot. Qed.

(** liveness is NOT part of C10, but for the record (found by the real runs): a child killed
    inside a pipe write takes the queue's write lock with it; the sentinel is never written, the
    monitor never ends and `on_end_run` is never called, whatever happens afterwards *)
Theorem C10_kill_mid_write_never_ends : forall boot script ls1 ls2,
  child (run boot script ls1) = CRunning ->
  main (run boot script (ls1 ++ KillMidWrite :: ls2)) <> PEndRun.
Proof. exact kill_mid_write_wedges. Qed.

(** non-vacuity: three events; the hooks of the first are slow; the drain loop times out while
    two events are still in the pipe; the sentinel is queued behind them; everything is
    delivered, in order, inside the bracket *)
Definition ex_ls : list label :=
  [StartProc; StartRun; Emit; Emit; Flush; MonTake; Emit; Flush; Flush; ChildExit; ProcExitSeen;
   DrainTick; Timeout; PutSentinel; MonSeesSentinel; MonDeliver; MonTake; MonDeliver; MonTake;
   EndRun; MonDeliver; MonSeesSentinel; EndRun; MonTake].

Example C10_example_nonvacuous :
  let s := run true [1; 2; 3] ex_ls in
  main s = PEndRun /\ child s = CExited /\ delivered s = [1; 2; 3] /\
  log s = [OStartRun; ODeliver 1; ODone 1; ODeliver 2; ODone 2; ODeliver 3; ODone 3; OEndRun] /\
  (* a kill after the second emit, with the second event still in the child's buffer: prefix *)
  delivered (run true [1; 2; 3] [StartProc; StartRun; Emit; Emit; Flush; Kill; ProcExitSeen; MonTake; MonDeliver;
                                 DrainTick; PutSentinel; MonSeesSentinel; EndRun]) = [1] /\
  main (run true [1; 2; 3] [StartProc; StartRun; Emit; Emit; Flush; Kill; ProcExitSeen; MonTake; MonDeliver;
                            DrainTick; PutSentinel; MonSeesSentinel; EndRun]) = PEndRun.
Proof. vm_compute. repeat split; reflexivity. Qed.

Print Assumptions C10_complete_in_order.
Print Assumptions C10_prefix_on_kill.
Print Assumptions C10_bracketed.
Print Assumptions C10_nothing_after_end.
Print Assumptions C10_hooks_never_overlap.
Print Assumptions C10_bracket_needs_boot.
Print Assumptions C10_kill_mid_write_never_ends.

(** TIE of Relay/Model.v to the code, by proof (Relay/Tie.v, Relay/TieSkeleton.v).
    Gen/RelaySkel.v = the statement trees of RunSession.run, _on_start_run, _on_end_run,
    relay_events, _monitor, Timer, wait_until_queue_empty, spawned.main, regenerated from /repo at
    every check by translate/relay_skeleton.py (fail closed).  [irun] interprets those trees
    (main task + monitor task with continuations, the child, the same pipe) under the SAME labels
    as the model; [K]/[KM] are the control points computed from the trees. *)
From NL Require Import Relay.Syntax Gen.RelaySkel Relay.Tie Relay.TieSkeleton Relay.TieExn.

(** for EVERY list of labels the interpreter of the regenerated code and the model are in lock
    step: same pipe, same child, same histories and plugin log, corresponding control points *)
Theorem C10_tie_simulation : forall boot script ls, R (irun boot script ls) (run boot script ls).
Proof. exact sim. Qed.

Theorem C10_tie_same_log : forall boot script ls,
  let s := irun boot script ls in
  let m := run boot script ls in
  d_log (dd s) = log m /\ d_delivered (dd s) = delivered m /\ d_emitted (dd s) = emitted m /\
  d_pipe (dd s) = pipe m /\ d_child (dd s) = child m /\ k_main s = K (main m) /\ k_mon s = KM (mon m).
Proof. exact tie_same_histories. Qed.

(** hence the theorems above hold of the regenerated code *)
Theorem C10_tie_complete_in_order : forall boot script ls,
  let s := irun boot script ls in
  In OEndRun (d_log (dd s)) -> d_child (dd s) = CExited ->
  d_delivered (dd s) = script /\ d_emitted (dd s) = script /\ deliveries (d_log (dd s)) = script.
Proof. exact tie_complete_in_order. Qed.

Theorem C10_tie_prefix_on_kill : forall boot script ls,
  let s := irun boot script ls in
  (exists rest, d_emitted (dd s) = d_delivered (dd s) ++ rest) /\ (exists rest, script = d_emitted (dd s) ++ rest) /\
  deliveries (d_log (dd s)) = d_delivered (dd s).
Proof. exact tie_prefix_on_kill. Qed.

Theorem C10_tie_bracketed : forall script ls, bracketed (d_log (dd (irun true script ls))) = true.
Proof. exact tie_bracketed. Qed.

Theorem C10_tie_nothing_after_end : forall boot script ls l,
  In OEndRun (d_log (dd (irun boot script ls))) ->
  d_log (dd (irun boot script (ls ++ [l]))) = d_log (dd (irun boot script ls)).
Proof. exact tie_nothing_after_end. Qed.

(** direct corollaries on the regenerated code.
    No second `queue.get` before the hooks of the previous event returned *)
Theorem C10_tie_one_event_at_a_time : forall boot script ls,
  alternating None (d_log (dd (irun boot script ls))) = true.
Proof. exact tie_one_event_at_a_time. Qed.

Theorem C10_tie_no_get_before_hook_returned : forall boot script ls z l,
  mon (run boot script ls) = MBusy z -> (l = MonTake \/ l = MonSeesSentinel) ->
  istep boot (irun boot script ls) l = irun boot script ls.
Proof. exact tie_no_get_before_hook_returned. Qed.

(** `_on_end_run` only after `await task`: the monitor coroutine has run to its end *)
Theorem C10_tie_end_run_after_await_task : forall boot script ls,
  let s := irun boot script ls in
  In OEndRun (d_log (dd s)) -> k_mon s = Some [] /\ k_main s = K_endrun.
Proof. exact tie_end_run_after_await_task. Qed.

(** the sentinel only after the child was awaited, behind everything the child wrote *)
Theorem C10_tie_sentinel_after_child_awaited : forall boot script ls,
  let s := irun boot script ls in
  nosent (d_pipe (dd s)) = false ->
  dead (d_child (dd s)) = true /\ sent_last (d_pipe (dd s)) = true /\ k_main s = K_awaitmon.
Proof. exact tie_sentinel_after_child_awaited. Qed.

(** Timer (utils/timer.py), translated (the restarts themselves are no-ops in [irun]: the model
    leaves the firing time to the scheduler, so only `is_timeout` and the timeout value matter): is_timeout() is false for ever without a timeout, else
    true iff MORE than the timeout has elapsed since the last restart(); so DrainTick (no time
    elapsed) never leaves the drain loop by the break and Timeout (more than the timeout) does *)
Theorem C10_tie_timer_is_timeout : forall tm now,
  timer_fired tm now = match t_timeout tm with None => false | Some t => (now - t_start tm >? t)%Z end.
Proof. exact timer_fired_spec. Qed.

Theorem C10_tie_timer_restart : forall tm now, timer_restarted tm now = mkT (t_timeout tm) now.
Proof. exact timer_restarted_spec. Qed.

Theorem C10_tie_drain_labels : relay_timer_says false = false /\ relay_timer_says true = true.
Proof. exact drain_labels_meaning. Qed.

(** PINS of the regenerated child program (constants checked by computation; [irun] passes
    wait_until_queue_empty without a condition, as the model does), except C10_tie_child_wait which
    interprets the regenerated loop.  The child (spawned.main): all the puts, then wait_until_queue_empty (which, called without a
    timeout, returns exactly when it sees the queue empty and never raises), then return; at exit
    the feeder thread is joined (nothing cancels it); the queue is the one relay_events reads *)
Theorem C10_tie_child_flush_order : child_order 0 child_main_prog = true.
Proof. exact child_flush_order. Qed.

Theorem C10_tie_child_wait : forall t0 obs, wait_exec None t0 obs = wait_spec obs.
Proof. exact wait_returns_iff_seen_empty. Qed.

Theorem C10_tie_child_waits_without_timeout :
  forallb (fun t => match tmo_val t None with None => true | Some _ => false end) (child_wait_tmos child_main_prog) = true.
Proof. exact child_waits_without_timeout. Qed.

Theorem C10_tie_child_exit_flushes : child_exit_joins_feeder = true.
Proof. exact child_exit_flushes. Qed.

Theorem C10_tie_queue_wiring : set_queues_out_pos = session_out_pos.
Proof. exact queue_wiring. Qed.

(** PIN BETWEEN TWO REGENERATED FILES (both sides change with the source): the two translators read
    the same structure (Gen/CallbackSkeleton.v is what C12's exception analysis uses) *)
Theorem C10_tie_skeletons_agree :
  mkseq (erase session_prog) = CS.session_skeleton /\ mkseq (erase relay_prog) = CS.relay_skeleton.
Proof. exact skeletons_agree. Qed.

(** OnEvent.on_event_in_process, every statement translated, against nextline/events.py: every
    subclass of Event the child constructs has a case, every case is a subclass of Event, the classes
    without a case are the ones the main process constructs itself, and each case awaits exactly the
    hook of its own name as its last statement *)
Theorem C10_tie_dispatch :
  forallb case_ok dispatch = true /\ nodupb (map fst dispatch) = true /\
  forallb (fun c => mem c (map fst dispatch)) child_event_classes = true /\
  forallb (fun c => mem c event_classes) (map fst dispatch) = true /\
  forallb (fun c => mem c (map fst dispatch) || mem c main_event_classes) event_classes = true /\
  forallb (fun c => negb (mem c (map fst dispatch))) main_event_classes = true /\
  negb (Nat.eqb (List.length child_event_classes) 0) = true.
Proof. exact dispatch_complete. Qed.

(** try/finally with its real meaning (Relay/TieExn.v): for EVERY execution of the regenerated
    RunSession.run (relay_events inlined) in which any await, assert or the body at the yield raises,
    or the task is cancelled at any await: the `finally` of relay_events is reached from every await
    of its body (the monitor task, once created, is always sent the sentinel and awaited, unless the
    drain loop's own sleep(0) or the put raises); the spawned process is awaited; on_end_run is called
    only if nothing raised and `await task` returned.  [xrun_in_outcomes]: every derivation of the
    big-step semantics is among the finitely many [outcomes] (loops: any number of iterations).
    Not covered: raising INSIDE the monitor task (seen as "`await task` raises"), GeneratorExit. *)
Theorem C10_tie_finally_semantics : forall r t, xrun main_program r t -> xsafe t = true.
Proof. exact finally_semantics. Qed.

Theorem C10_tie_outcomes_complete : forall s r t, xrun s r t -> loops_silent s = true -> In (r, t) (outcomes s).
Proof. exact xrun_in_outcomes. Qed.

Example C10_tie_cancel_at_process_await_nonvacuous :
  In (XRaise, [(LCreate, true); (LSpawn, true); (LHook HOnStartRun, true); (LBody, true); (LProc, false); (LInFinally, true);
               (LPut, true); (LMon, true)]) (outcomes main_program).
Proof. exact xrun_cancel_at_process_await. Qed.

Example C10_tie_example_nonvacuous :
  let s := irun true [1; 2; 3] ex_ls in
  d_log (dd s) = [OStartRun; ODeliver 1; ODone 1; ODeliver 2; ODone 2; ODeliver 3; ODone 3; OEndRun] /\
  k_main s = K_endrun /\ k_mon s = Some [] /\ d_child (dd s) = CExited.
Proof. exact tie_example. Qed.

Print Assumptions C10_tie_simulation.
Print Assumptions C10_tie_same_log.
Print Assumptions C10_tie_complete_in_order.
Print Assumptions C10_tie_prefix_on_kill.
Print Assumptions C10_tie_bracketed.
Print Assumptions C10_tie_nothing_after_end.
Print Assumptions C10_tie_one_event_at_a_time.
Print Assumptions C10_tie_no_get_before_hook_returned.
Print Assumptions C10_tie_end_run_after_await_task.
Print Assumptions C10_tie_sentinel_after_child_awaited.
Print Assumptions C10_tie_timer_is_timeout.
Print Assumptions C10_tie_timer_restart.
Print Assumptions C10_tie_drain_labels.
Print Assumptions C10_tie_child_flush_order.
Print Assumptions C10_tie_child_wait.
Print Assumptions C10_tie_child_waits_without_timeout.
Print Assumptions C10_tie_child_exit_flushes.
Print Assumptions C10_tie_queue_wiring.
Print Assumptions C10_tie_skeletons_agree.
Print Assumptions C10_tie_dispatch.
Print Assumptions C10_tie_finally_semantics.
Print Assumptions C10_tie_outcomes_complete.
