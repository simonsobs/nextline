(** C05 -- prompts appear exactly at the executed lines of the user's script, in order.

    Model: Bdb/Model.v -- the raw trace-event stream of one thread/task is the INPUT
    (every list of events; no bound on length, depth, number of frames); the filter
    chain is evaluated over the GENERATED registration order (Gen/ChildHookOrder.v,
    Gen/SkipList.v).  Property theorems; the proofs are in Bdb/{Basics,Filters,StepMode,
    ContinueMode,NextMode,NextProps}.v and, for the tie_* ones, Bdb/{Tie,TieFilter,TieProps}.v; the three
    _refuted theorems and the examples are proved here on concrete streams.

    Proved at full strength: C05_filters (all four filter clauses), C05_threads_off, C05_step.
    Three clauses do NOT hold of the faithful model; each is refuted with a concrete stream
    (re-established against the real code on every run by harness/props/c05.py; the signatures
    are KNOWN FINDINGS) and the strongest statement that holds is proved as _partial:
      C05_callable_refuted   module tracing off, callable statement: its module is not
                             _script, nothing is ever prompted
      C05_next_refuted       all-next: after an exception event whose traceback goes
                             into a callee, while botframe is not on the f_back chain,
                             Pdb selects the dead callee frame; the stepped frame is
                             never prompted again          -> C05_next_partial (hyp. simple_tb)
      C05_continue_refuted   all-continue: botframe is a generator/coroutine frame;
                             StopIteration events prompt again
                                                           -> C05_continue_partial (hyp. not_gen_frame) *)
From NL Require Import Bdb.Model Bdb.Basics Bdb.Filters Bdb.StepMode Bdb.ContinueMode Bdb.NextMode Bdb.NextProps.
From NL Require Bdb.Options.
From NL Require Bdb.Interp Gen.BdbFuns Bdb.Tie Bdb.TieProps.
Open Scope list_scope.
Open Scope Z_scope.

(** every prompt is at an event of the stream (same kind, line, frame); that event is never in a
    frame whose code name is <lambda>; with module tracing off it is in the script module; with module
    tracing on it is not in a skip-listed module.  (Hypothesis: a frame's module and code name do not
    change during its life.) *)
Theorem C05_filters : forall c pol evs p,
  frame_attrs_const evs -> In p (prompts c pol evs) ->
  exists e, nth_error evs (p_idx p) = Some e /\
            p_kind p = e_kind e /\ p_line p = e_line e /\ p_fid p = e_fid e /\
            e_lam e = false /\
            (c_modules c = false -> e_mc e = MScript) /\
            (c_modules c = true -> e_mc e <> MSkip).
Proof. exact filters_full. Qed.

(** no prompt (and no trace call) in a thread other than the main one when thread tracing is off.
    By construction: this is the [else] branch of [run] ([stream_traced c = c_main c || c_threads c]).  The content of the
    clause -- sys_trace installs threading.settrace only if trace_threads -- rests on the tie (correspondence runs with
    trace_threads off: no trace for any non-main thread), not on this theorem. *)
Theorem C05_threads_off : forall c pol evs,
  c_threads c = false -> c_main c = false -> prompts c pol evs = [] /\ trace_calls c pol evs = [].
Proof. exact no_prompt_in_untraced_thread. Qed.

(** program  f = lambda: 1 ; f()  under all-step, module tracing off *)
Definition ev (k : kind) (f : Z) (p : option Z) (l : Z) (mc : mclass) (lam gen : bool) : event :=
  mkE k f p l mc 0 lam gen noX.
Definition cfg_off : cfg := mkC true false true true [].
Definition cfg_on : cfg := mkC true true true true [].

Definition lambda_stream : list event :=
  [ev KCall 1 (Some 0) 0 MScript false false; ev KLine 1 (Some 0) 1 MScript false false;
   ev KLine 1 (Some 0) 2 MScript false false;
   ev KCall 2 (Some 1) 1 MScript true false; ev KLine 2 (Some 1) 1 MScript true false;
   ev KReturn 2 (Some 1) 1 MScript true false; ev KReturn 1 (Some 0) 2 MScript false false].

(** regression (repaired in /repo e4beda9): no prompt inside the lambda, for both settings *)
Example C05_lambda_regression :
  map p_idx (prompts cfg_off (all Step) lambda_stream) = [1; 2; 6]%nat /\
  map p_idx (prompts cfg_on (all Step) lambda_stream) = [1; 2; 6]%nat.
Proof. vm_compute. auto. Qed.

(** a callable statement: the user's lines are in a module that is not _script *)
Definition callable_stream : list event :=
  [ev KCall 1 (Some 0) 1 MLib false false; ev KLine 1 (Some 0) 2 MLib false false;
   ev KLine 1 (Some 0) 3 MLib false false; ev KReturn 1 (Some 0) 3 MLib false false].

Theorem C05_callable_refuted :
  exists evs, (exists e, In e evs /\ e_kind e = KLine) /\
              prompts cfg_off (all Step) evs = [] /\
              map p_idx (prompts cfg_on (all Step) evs) = [1; 2; 3]%nat.
Proof.
  exists callable_stream. split; [exists (ev KLine 1 (Some 0) 2 MLib false false); simpl; auto |].
  vm_compute. auto.
Qed.

(** all-next: B is being stepped (prompts at 3, 4); at the exception event 6 the traceback goes
    into the callee C and botframe (100) is not on B's f_back chain; the line event 7 of B --
    B has not returned -- is not prompted *)
Definition next_stream : list event :=
  [ev KCall 1 (Some 100) 1 MScript false false; ev KLine 1 (Some 100) 2 MScript false false;
   ev KReturn 1 (Some 100) 2 MScript false false;
   ev KCall 2 (Some 101) 5 MScript false false; ev KLine 2 (Some 101) 6 MScript false false;
   ev KCall 3 (Some 2) 1 MScript false false;
   mkE KException 2 (Some 101) 6 MScript 0 false false (mkX false false false (Some 3) 2 (Some 2) false);
   ev KLine 2 (Some 101) 7 MScript false false].

Theorem C05_next_refuted :
  exists evs i j f e,
    In i (map p_idx (prompts cfg_off (all Next) evs)) /\ (i < j)%nat /\
    nth_error evs j = Some e /\ e_kind e = KLine /\ e_fid e = f /\
    (exists e0, nth_error evs i = Some e0 /\ e_fid e0 = f) /\
    (forall e1, In e1 evs -> e_fid e1 = f -> e_kind e1 <> KReturn) /\
    ~ In j (map p_idx (prompts cfg_off (all Next) evs)).
Proof.
  exists next_stream, 4%nat, 7%nat, 2, (ev KLine 2 (Some 101) 7 MScript false false).
  split; [vm_compute; auto 10|]. split; [lia|]. split; [reflexivity|]. split; [reflexivity|]. split; [reflexivity|].
  split; [eexists; split; reflexivity|]. split.
  - intros e1 H1 Hf. simpl in H1. repeat (destruct H1 as [H1|H1]; [subst e1; simpl in *; try discriminate|]); try contradiction.
  - vm_compute. intuition discriminate.
Qed.

(** all-continue: the first accepted frame (11) is called from a coroutine frame (10) of a library
    (asyncio.wait_for): botframe = 10; after `continue` a StopIteration event in 11 prompts again *)
Definition continue_stream : list event :=
  [ev KCall 10 (Some 9) 400 MSkip false true;
   ev KCall 11 (Some 10) 2 MScript false true; ev KLine 11 (Some 10) 3 MScript false true;
   ev KLine 11 (Some 10) 4 MScript false true;
   mkE KException 11 (Some 10) 4 MScript 0 false true (mkX true false false (Some 11) 4 (Some 10) true);
   ev KLine 11 (Some 10) 5 MScript false true].

Theorem C05_continue_refuted :
  exists evs, (1 < List.length (prompts cfg_off (all Continue) evs))%nat.
Proof. exists continue_stream. vm_compute. lia. Qed.

(** the filter chain is COMPLETE: in terms of the event's own attributes only ([accept_attr], Bdb/Filters.v -- no plugin,
    no registration order, no pluggy), the chain rejects an event iff [accept_attr] does not accept it ... *)
Theorem C05_filter_complete : forall c e fs,
  rejected c e fs = (negb (fst (accept_attr c e fs)), snd (accept_attr c e fs)).
Proof. exact filter_complete. Qed.

(** ... in particular, module tracing off: an event of the script module that is not in a lambda IS accepted; *)
Theorem C05_filter_complete_modules_off : forall c e fs,
  c_modules c = false -> e_mc e = MScript -> e_lam e = false -> fst (rejected c e fs) = false.
Proof. exact accepted_modules_off. Qed.

(** module tracing on: an event that is not skip-listed and not in a lambda IS accepted once its thread/task is entered
    (already traced, or its module is one of the modules to trace, or it is the first event of the entering thread) *)
Theorem C05_filter_complete_modules_on : forall c e fs,
  c_modules c = true -> e_mc e <> MSkip -> e_lam e = false ->
  (f_traced fs = true \/ existsb (Z.eqb (e_mod e)) (f_mods fs) = true \/ (f_first fs = false /\ c_entering c = true)) ->
  fst (rejected c e fs) = false.
Proof. exact accepted_modules_on. Qed.

(** all-step: the prompted line events are exactly the line events of the frames entered by an accepted call, in order,
    where "accepted" is [accept_attr]: written with e_mc / e_lam / e_mod and the thread's entered-state only *)
Theorem C05_step : forall c evs,
  stream_traced c = true ->
  map p_idx (filter (fun p => match p_kind p with KLine => true | _ => false end) (prompts c (all Step) evs))
  = step_spec_attr c 0%nat (s_filter (init c)) [] evs.
Proof. exact step_lines_attr. Qed.

(** module tracing off, no state at all: every line event of every frame entered by a call in the script module and not
    in a lambda is prompted, in order, and no other line event *)
Theorem C05_step_modules_off : forall c evs,
  stream_traced c = true -> c_modules c = false ->
  map p_idx (filter (fun p => match p_kind p with KLine => true | _ => false end) (prompts c (all Step) evs))
  = script_lines 0%nat [] evs.
Proof. exact step_lines_off. Qed.

(** the same list with the filter chain itself in place of [accept_attr] (StepMode.step_lines, from
    which C05_step follows) *)
Theorem C05_step_filter_chain : forall c evs,
  stream_traced c = true ->
  map p_idx (filter (fun p => match p_kind p with KLine => true | _ => false end) (prompts c (all Step) evs))
  = step_spec c 0%nat (s_filter (init c)) [] evs.
Proof. exact step_lines. Qed.

(** all-continue, PARTIAL.  Hypothesis added (the one [C05_continue_refuted] shows cannot be dropped): the frame [b] below the
    first accepted frame exists and is never entered as a generator/coroutine frame.  [pre] = the
    events before the first accepted call (every call in it is rejected), [e0] that call, [l] the
    line event that follows it: exactly one prompt, at that line, none after. *)
Theorem C05_continue_partial : forall c pre e0 l post b fs1,
  stream_traced c = true ->
  skip_pre c (s_filter (init c)) pre = Some fs1 ->
  e_kind e0 = KCall -> fst (rejected c e0 fs1) = false -> e_par e0 = Some b ->
  e_kind l = KLine -> e_fid l = e_fid e0 ->
  not_gen_frame b (pre ++ e0 :: l :: post) ->
  prompts c (all Continue) (pre ++ e0 :: l :: post) = [mkP (S (List.length pre)) KLine (e_line l) (e_fid l)].
Proof. exact continue_once. Qed.

(** all-next, PARTIAL.  Hypothesis added (the one [C05_next_refuted] shows cannot be dropped): [simple_tb] -- at every event the
    frame Pdb selects is the event's frame (no exception event whose traceback goes into another
    frame).  The debugger then refines the small history automaton [next_spec] (NextMode.v) ... *)
Theorem C05_next_partial : forall c evs,
  (forall e, In e evs -> simple_tb e) -> prompts c (all Next) evs = next_spec c evs.
Proof. exact next_refines. Qed.

(** ... and, in the words of the property: if frame [f] (not a generator) is prompted at [ei] (not its
    return) and [ej] is the next event of [f], then NOTHING in between is prompted -- nothing inside
    the calls it makes -- *)
Theorem C05_next_nothing_inside_calls : forall c pre mid post ei ej f,
  (forall e, In e (pre ++ ei :: mid ++ ej :: post) -> simple_tb e) ->
  e_fid ei = f -> (forall e, In e mid -> e_fid e <> f) ->
  (forall e, In e (pre ++ [ei]) -> e_kind e = KCall -> e_fid e = f -> e_gen e = false) ->
  e_kind ei <> KReturn ->
  In (List.length pre) (map p_idx (prompts c (all Next) (pre ++ ei :: mid ++ ej :: post))) ->
  forall k, (List.length pre < k < S (List.length pre) + List.length mid)%nat ->
  ~ In k (map p_idx (prompts c (all Next) (pre ++ ei :: mid ++ ej :: post))).
Proof. exact next_nothing_inside. Qed.

(** ... [ej] itself is prompted if it is a line: every line of the frame being stepped ... *)
Theorem C05_next_every_line : forall c pre mid post ei ej f,
  (forall e, In e (pre ++ ei :: mid ++ ej :: post) -> simple_tb e) ->
  e_fid ei = f -> e_fid ej = f -> (forall e, In e mid -> e_fid e <> f) ->
  (forall e, In e (pre ++ [ei]) -> e_kind e = KCall -> e_fid e = f -> e_gen e = false) ->
  e_kind ei <> KReturn ->
  In (List.length pre) (map p_idx (prompts c (all Next) (pre ++ ei :: mid ++ ej :: post))) ->
  e_kind ej = KLine -> 0 <= e_line ej ->
  In (S (List.length pre) + List.length mid)%nat (map p_idx (prompts c (all Next) (pre ++ ei :: mid ++ ej :: post))).
Proof. exact next_line_prompted. Qed.

(** ... and after the prompt of a return, the next line of a frame prompted before (its caller) is prompted *)
Theorem C05_next_after_return : forall c pre ei ej post p,
  (forall e, In e (pre ++ ei :: ej :: post) -> simple_tb e) ->
  e_kind ei = KReturn -> In (List.length pre) (map p_idx (prompts c (all Next) (pre ++ ei :: ej :: post))) ->
  e_kind ej = KLine ->
  In p (prompts c (all Next) (pre ++ ei :: ej :: post)) -> p_fid p = e_fid ej -> (p_idx p < List.length pre)%nat ->
  In (S (List.length pre)) (map p_idx (prompts c (all Next) (pre ++ ei :: ej :: post))).
Proof. exact next_after_return. Qed.

(** the options in force for a run (the RunArg the child receives): each of trace_threads / trace_modules
    is the last value explicitly given to reset(), else the constructor's value (Bdb/Options.v; compared with
    the real Nextline object on random option histories on every run) *)
Theorem C05_options_in_force : forall (hist : list (option bool)) (init : bool),
  Bdb.Options.in_force init hist =
  match Bdb.Options.last_given hist with Some v => v | None => init end.
Proof. exact (@Bdb.Options.opts_last_given bool). Qed.

Example C05_options_example :
  Bdb.Options.in_force true [None; Some false; None] = false /\
  Bdb.Options.in_force false [Some true; Some false; Some true; None] = true.
Proof. vm_compute. auto. Qed.

(** non-vacuity: def f(a): b = a + 1; return b / x = f(1) -- all-step prompts at every line,
    all-next not inside f, all-continue once *)
Definition ex_stream : list event :=
  [ev KCall 1 (Some 0) 0 MScript false false; ev KLine 1 (Some 0) 1 MScript false false;
   ev KLine 1 (Some 0) 4 MScript false false;
   ev KCall 2 (Some 1) 1 MScript false false; ev KLine 2 (Some 1) 2 MScript false false;
   ev KLine 2 (Some 1) 3 MScript false false; ev KReturn 2 (Some 1) 3 MScript false false;
   ev KLine 1 (Some 0) 5 MScript false false; ev KReturn 1 (Some 0) 5 MScript false false].

Example C05_example_nonvacuous :
  frame_attrs_const ex_stream /\
  map p_idx (prompts cfg_off (all Step) ex_stream) = [1; 2; 3; 4; 5; 6; 7; 8]%nat /\
  script_lines 0%nat [] ex_stream = [1; 2; 4; 5; 7]%nat /\
  map p_idx (prompts cfg_off (all Next) ex_stream) = [1; 2; 7; 8]%nat /\
  map p_idx (prompts cfg_off (all Continue) ex_stream) = [1]%nat /\
  (* hypotheses of C05_continue_partial: pre = [], e0 = the call of <module>, l = its first line, b = 0 *)
  skip_pre cfg_off (s_filter (init cfg_off)) [] = Some (s_filter (init cfg_off)) /\
  fst (rejected cfg_off (ev KCall 1 (Some 0) 0 MScript false false) (s_filter (init cfg_off))) = false /\
  not_gen_frame 0 ex_stream /\
  (* hypotheses of the C05_next_* theorems: ei = line 4 of <module> (index 2, calls f), mid = the four
     events of f, ej = line 5 of <module> (index 7) *)
  (forall e, In e ex_stream -> simple_tb e) /\
  In 2%nat (map p_idx (prompts cfg_off (all Next) ex_stream)) /\
  next_spec cfg_off ex_stream = prompts cfg_off (all Next) ex_stream.
Proof.
  split.
  - intros e1 e2 H1 H2. simpl in H1, H2.
    repeat (destruct H1 as [H1|H1]; [subst e1|]); try contradiction;
    repeat (destruct H2 as [H2|H2]; [subst e2|]); try contradiction; simpl; intro; try discriminate; auto.
  - split; [vm_compute; reflexivity|]. split; [vm_compute; reflexivity|]. split; [vm_compute; reflexivity|].
    split; [vm_compute; reflexivity|]. split; [reflexivity|]. split; [vm_compute; reflexivity|].
    split.
    { intros e H K F. simpl in H. repeat (destruct H as [H|H]; [subst e; simpl in *; try discriminate|]); try contradiction. }
    split.
    { intros e H. simpl in H. repeat (destruct H as [H|H]; [subst e; exact I|]). contradiction. }
    split; [vm_compute; auto|]. vm_compute. reflexivity.
Qed.

(** TIE: theorems about the REGENERATED code (Gen/BdbFuns.v, translate/bdb_funs.py: the installed CPython
    bdb.py; custom.py, factory.py, filter.py, plugins/__init__.py, global_.py, utils.py, call.py of /repo) interpreted
    by Bdb/Interp.v; proofs in Bdb/Tie.v, Bdb/TieFilter.v, Bdb/TieProps.v.  Each says: for ALL debugger states, frames and events the
    interpretation of the current source is never stuck and equals the function of the hand-written Bdb/Model.v. *)
Section Tie.
Import Bdb.Interp Gen.BdbFuns Bdb.Tie Bdb.TieProps.
Local Open Scope string_scope.

(** Bdb.stop_here *)
Theorem C05_tie_stop_here : forall e user s f vw,
  call methods e user FUEL "stop_here" [VFrame f (Some vw)] s
  = Some (VBool (stop_here (s_dbg (i_st s)) f (v_line vw)), s).
Proof. exact tie_stop_here. Qed.

(** Bdb._set_stopinfo (quitting is reset, the default stoplineno is 0) *)
Theorem C05_tie_set_stopinfo : forall e user st fr q out sf rf ln,
  call methods e user FUEL "_set_stopinfo" [of_opt sf; of_opt rf; VInt ln] (mkI st fr q out)
  = Some (VNone, mkI (set_dbg st (set_stopinfo (s_dbg st) sf rf ln)) fr false out).
Proof. exact tie_set_stopinfo. Qed.

(** the five commands: Bdb.set_step / set_next / set_return / set_until and CustomizedPdb.set_continue (the override
    shadows Bdb.set_continue: no sys.settrace(None), no f_trace deleted) on the frame Pdb selected *)
Theorem C05_tie_commands : forall c e st returning out,
  run_cmd methods e c (cur_val st e) (mkI st (fr_of e returning) false out)
  = Some (mkI (apply_cmd c st e returning) (fr_of e returning) false out).
Proof. exact tie_commands. Qed.

(** Bdb.user_X -> Pdb.interaction -> CustomizedPdb.cmdloop inside CmdloopHook: one prompt and one command when the
    event came through a WithContext closure, NOTHING (no prompt, no change of the stop info) otherwise *)
Theorem C05_tie_interaction : forall pol i w e returning st out,
  interact pol i w e (mkI st (fr_of e returning) false out)
  = Some (let '(st', p) := interaction pol i w returning st e in
          mkI st' (fr_of e returning) false (app out (opt_list p))).
Proof. exact tie_interaction. Qed.

(** the four dispatch functions *)
Theorem C05_tie_dispatch_line : forall pol i w st e,
  dcall pol i w e "dispatch_line" [eframe e] st = (let '(st', p) := dispatch_line pol i w st e in res VTrace st' p).
Proof. exact tie_dispatch_line. Qed.

Theorem C05_tie_dispatch_call : forall pol i st e,
  dcall pol i true e "dispatch_call" [eframe e; VArg] st
  = (let '(st', p, t) := dispatch_call pol i st e in res (if t then VTrace else VNone) st' p).
Proof. exact tie_dispatch_call. Qed.

Theorem C05_tie_dispatch_return : forall pol i w st e,
  dcall pol i w e "dispatch_return" [eframe e; VArg] st = (let '(st', p) := dispatch_return pol i w st e in res VTrace st' p).
Proof. exact tie_dispatch_return. Qed.

Theorem C05_tie_dispatch_exception : forall pol i w st e,
  dcall pol i w e "dispatch_exception" [eframe e; VArg] st = (let '(st', p) := dispatch_exception pol i w st e in res VTrace st' p).
Proof. exact tie_dispatch_exception. Qed.

(** Bdb.trace_dispatch (the function factory.py installs for every trace) selects them by the event name *)
Theorem C05_tie_trace_dispatch : forall pol i w st e,
  (e_kind e = KCall -> w = true) ->
  dcall pol i w e "trace_dispatch" [eframe e; VStr (kname (e_kind e)); VArg] st = expected pol i w st e.
Proof. exact tie_trace_dispatch. Qed.

(** CustomizedPdb.__init__: botframe None, stop info (None, None, 0) *)
Theorem C05_tie_init : forall c e user st fr q out,
  exec methods e user FUEL (m_body custom_init) [] (mkI st fr q out)
  = Some (ONext, [], mkI (set_dbg st (s_dbg (init c))) fr false out).
Proof. exact tie_init. Qed.

(** PIN (no interpretation): the methods CustomizedPdb defines besides __init__; the translator refuses any other one *)
Theorem C05_tie_overrides :
  forallb (fun x => existsb (String.eqb x) ["_cmdloop"; "cmdloop"; "set_continue"]) custom_overrides = true
  /\ existsb (String.eqb "set_continue") custom_overrides = true
  /\ existsb (String.eqb "cmdloop") custom_overrides = true.
Proof. exact tie_overrides. Qed.

(** filter.py: each `filter` implementation; plugins/__init__.py register(): the registration order; pluggy's LIFO,
    trylast-last, first-result rule over them; GlobalTraceFunc.global_trace_func *)
Theorem C05_tie_filter_class : forall f c e s,
  match find_class (fname_str f) filter_classes with Some k => run_class c e k s | None => None end
  = Some (run_filter c f e s).
Proof. exact tie_filter_class. Qed.

Theorem C05_tie_registered : forall c,
  map (fun kt => (fc_name (fst kt), snd kt)) (iregistered (c_modules c))
  = map (fun ft => (fname_str (fst ft), snd ft)) (registered c).
Proof. exact tie_registered. Qed.

Theorem C05_tie_first_result : forall c e s,
  ichain filter_classes register_prog c e s = Some (first_result c (call_order (registered c)) e s).
Proof. exact tie_first_result. Qed.

Theorem C05_tie_rejected : forall c e s,
  irejected filter_classes register_prog global_trace_prog c e s = Some (rejected c e s).
Proof. exact tie_rejected. Qed.

(** ... and against the attribute-level specification [accept_attr] directly (the registration
    order of Gen/ChildHookOrder.v is not involved; its per-filter decisions are, through [run_filter]) *)
Theorem C05_tie_filter_chain_attr : forall c e fs,
  irejected filter_classes register_prog global_trace_prog c e fs
  = Some (negb (fst (accept_attr c e fs)), snd (accept_attr c e fs)).
Proof. exact tie_filter_chain_attr. Qed.

Theorem C05_tie_lambda_rejected : forall c e s,
  e_lam e = true -> exists s1, irejected filter_classes register_prog global_trace_prog c e s = Some (true, s1).
Proof. exact tie_lambda_rejected. Qed.

(** WithContext._local_trace, called with a live next_trace: `assert next_trace` holds and the closure stays on the
    frame iff the wrapped function returned non-None.
    C05_tie_sys_trace is a PIN: the translator checks the shape of sys_trace (threading.settrace only under `if thread:`)
    and of its one call in runner.py (thread=run_arg.trace_threads) and emits `true`; nothing is interpreted. *)
Theorem C05_tie_local_trace : forall r, wexec FUEL local_trace_prog true r = Some r.
Proof. exact tie_local_trace. Qed.

Theorem C05_tie_sys_trace : sys_trace_thread_guarded = true.
Proof. exact tie_sys_trace. Qed.

(** one raw event, and a whole stream, through the regenerated code = the model: every theorem above about
    [prompts] / [trace_calls] is a theorem about the interpretation of the current source ... *)
Theorem C05_tie_step : forall c pol i st e, istep c pol i st e = Some (step c pol i st e).
Proof. exact tie_step. Qed.

Theorem C05_tie_run : forall c pol evs, irun c pol evs = Some (run c pol evs).
Proof. exact tie_run. Qed.

(** ... for instance C05_filters *)
Theorem C05_tie_filters_transfer : forall c pol evs ps tcs p,
  frame_attrs_const evs -> irun c pol evs = Some (ps, tcs) -> In p ps ->
  exists e, nth_error evs (p_idx p) = Some e /\
            p_kind p = e_kind e /\ p_line p = e_line e /\ p_fid p = e_fid e /\
            e_lam e = false /\
            (c_modules c = false -> e_mc e = MScript) /\
            (c_modules c = true -> e_mc e <> MSkip).
Proof. exact tie_filters_transfer. Qed.

Example C05_tie_example_nonvacuous :
  option_map (fun r => map p_idx (fst r)) (irun tie_cfg (all Step) tie_stream) = Some [1; 2; 3; 4; 5; 6; 7; 8]%nat /\
  option_map (fun r => map p_idx (fst r)) (irun tie_cfg (all Next) tie_stream) = Some [1; 2; 7; 8]%nat /\
  option_map (fun r => map p_idx (fst r)) (irun tie_cfg (all Continue) tie_stream) = Some [1]%nat.
Proof. exact tie_example. Qed.
End Tie.

Print Assumptions C05_filters.
Print Assumptions C05_threads_off.
Print Assumptions C05_callable_refuted.
Print Assumptions C05_next_refuted.
Print Assumptions C05_continue_refuted.
Print Assumptions C05_step.
Print Assumptions C05_filter_complete.
Print Assumptions C05_filter_complete_modules_off.
Print Assumptions C05_filter_complete_modules_on.
Print Assumptions C05_step_modules_off.
Print Assumptions C05_step_filter_chain.
Print Assumptions C05_options_in_force.
Print Assumptions C05_continue_partial.
Print Assumptions C05_next_partial.
Print Assumptions C05_next_nothing_inside_calls.
Print Assumptions C05_next_every_line.
Print Assumptions C05_next_after_return.
Print Assumptions C05_tie_stop_here.
Print Assumptions C05_tie_set_stopinfo.
Print Assumptions C05_tie_commands.
Print Assumptions C05_tie_interaction.
Print Assumptions C05_tie_dispatch_line.
Print Assumptions C05_tie_dispatch_call.
Print Assumptions C05_tie_dispatch_return.
Print Assumptions C05_tie_dispatch_exception.
Print Assumptions C05_tie_trace_dispatch.
Print Assumptions C05_tie_init.
Print Assumptions C05_tie_overrides.
Print Assumptions C05_tie_filter_class.
Print Assumptions C05_tie_registered.
Print Assumptions C05_tie_first_result.
Print Assumptions C05_tie_rejected.
Print Assumptions C05_tie_filter_chain_attr.
Print Assumptions C05_tie_lambda_rejected.
Print Assumptions C05_tie_local_trace.
Print Assumptions C05_tie_sys_trace.
Print Assumptions C05_tie_step.
Print Assumptions C05_tie_run.
Print Assumptions C05_tie_filters_transfer.
