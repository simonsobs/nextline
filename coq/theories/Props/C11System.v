(** C11 (and C10, C09) at SYSTEM level -- the event pipeline end to end.
    Property theorems only; each is closed by [exact] of a theorem of System/Pipeline.v or, for the
    [C11_system_code_*] theorems, of System/PipelineCode.v; both only COMPOSE the
    per-property theorems (emitter C09, relay C10, registrars C11, broker C08); no new fact about the code enters.

    Quantifiers: every list of per-actor structured programs [ps] and every interleaving [sched] of them in the
    subprocess (Events/Emitter.v); every interleaving [ls] of the child, its feeder thread, the monitor task, the drain
    loop, an early timeout and a kill at any point (Relay/Model.v) -- "subscribers scheduled in every order relative to
    the relay", "truncated at every prefix length to model a kill".  No hypothesis of well-formedness: it is supplied
    by the emitter theorem.  [delivered_events boot es ls] = the events for which the main-process hooks are called.
    Tie to /repo: harness/props/c11_system.py (the registrars inside a real Nextline, the relay held in a slow hook while
    the run ends) + the ties of the three component models. *)
From NL Require Import Events.Grammar Events.Emitter Registrars.Model Registrars.Proofs System.Pipeline System.PipelineCode.
From Coq Require Import Lia.
Open Scope Z_scope.

(** C10 lifted to events: whatever the interleaving and the kill point, the hooks are called with a prefix of the
    emitted stream, in order, each event once *)
Theorem C11_system_delivered_is_prefix : forall boot es ls, exists k, delivered_events boot es ls = firstn k es.
Proof. exact delivered_is_prefix. Qed.

(** ... and with all of it when the run ends normally *)
Theorem C11_system_delivered_is_everything : forall boot es ls,
  R.main (R.run boot (encode es) ls) = R.PEndRun -> R.child (R.run boot (encode es) ls) = R.CExited ->
  delivered_events boot es ls = es.
Proof. exact delivered_is_everything. Qed.

(** what a recording plugin sees in the relay's log is that same prefix, and nothing is delivered once on_end_run was called:
    the theorems below about [pubs_run] (= init, start, the delivered events, then on_end_run) are about runs whose relay ends *)
Theorem C11_system_log_shows_delivered : forall boot es ls,
  decode es (R.deliveries (R.log (R.run boot (encode es) ls))) = delivered_events boot es ls.
Proof. exact log_shows_delivered. Qed.

Theorem C11_system_nothing_delivered_after_end_run : forall boot es ls l,
  R.main (R.run boot (encode es) ls) = R.PEndRun ->
  delivered_events boot es (ls ++ [l]) = delivered_events boot es ls.
Proof. exact nothing_delivered_after_end_run. Qed.

(** C09 + C10: what reaches the main process is always a well-formed stream cut at some point *)
Theorem C11_system_delivered_wf_prefix : forall r ps sched boot ls,
  wf_prefix r (delivered_events boot (emitted r ps sched) ls) = true.
Proof. exact delivered_wf_prefix. Qed.

Theorem C11_system_delivered_wf_when_complete : forall r ps sched boot ls,
  finished r ps sched = true ->
  R.main (R.run boot (encode (emitted r ps sched)) ls) = R.PEndRun ->
  R.child (R.run boot (encode (emitted r ps sched)) ls) = R.CExited ->
  WF r (delivered_events boot (emitted r ps sched) ls).
Proof. exact delivered_wf_when_complete. Qed.

(** C09 + C10 + C11: the published run state, end to end *)
Theorem C11_system_active_set : forall r ps sched boot ls,
  let del := delivered_events boot (emitted r ps sched) ls in
  last_nos (pubs_events r del) = active del.
Proof. exact e2e_active_set. Qed.

Theorem C11_system_closed_out_active_set : forall r ps sched boot ls,
  last_nos (pubs_run r (delivered_events boot (emitted r ps sched) ls)) = [].
Proof. exact e2e_closed_out_active_set. Qed.

Theorem C11_system_trace_info_once : forall r ps sched boot ls,
  let del := delivered_events boot (emitted r ps sched) ls in
  forall t,
    filter (about t) (on_topic TTraceInfo (pubs_run r del)) =
    if in_dec Z.eq_dec t (trace_starts del)
    then [Some (VTraceInfo r t (pl_of t del) true); Some (VTraceInfo r t (pl_of t del) false)]
    else [].
Proof. exact e2e_trace_info_once. Qed.

Theorem C11_system_notice_bijection : forall r ps sched boot ls,
  let del := delivered_events boot (emitted r ps sched) ls in
  on_topic TPromptNotice (pubs_events r del) = notices r del del.
Proof. exact e2e_notice_bijection. Qed.

Theorem C11_system_closed_out_prompt_topics : forall r ps sched boot ls,
  let del := delivered_events boot (emitted r ps sched) ls in
  (forall t, In t (trace_starts del) ->
     exists vs, on_topic (TPromptInfoFor t) (pubs_run r del) = map Some vs ++ [None]) /\
  (exists vs, on_topic TPromptNotice (pubs_run r del) = map Some vs ++ [None]).
Proof. exact e2e_closed_out_prompt_topics. Qed.

(** ... + C08: every subscriber of a per-trace prompt topic terminates, whenever it attached and however it was scheduled
    against the registrar's publications *)
Theorem C11_system_subscribers_terminate : forall r ps sched boot ls,
  let del := delivered_events boot (emitted r ps sched) ls in
  forall t ops,
    In t (trace_starts del) ->
    map forget (filter is_publisher_op ops) = map to_op (on_topic (TPromptInfoFor t) (pubs_run r del)) ->
    forall s, (s < length (PS.i_subs (PS.run false ops)))%nat ->
    exists n,
      let tail := skipn (length ops) (PS.outs false (ops ++ repeat (PS.Next s) (S n))) in
      last tail PS.OBlocked = PS.OStop /\ ~ In PS.OBlocked tail.
Proof. exact e2e_subscribers_terminate. Qed.

(** The same, on the REGENERATED CODE of the components that have a regenerated-source tie (System/PipelineCode.v):
    the subprocess' emitter code, the relay code and the registrars' code, interpreted (and, for the last theorem, the
    broker item's code); [code_delivered] = the events for
    which the relay code calls the hooks when the emitter code runs [ps] under [sched] *)
Theorem C11_system_code_delivered_is_prefix : forall r ps sched boot ls,
  exists k, code_delivered r ps sched boot ls = firstn k (EI.iemitted r ps sched).
Proof. exact code_delivered_is_prefix. Qed.

Theorem C11_system_code_delivered_wf_prefix : forall r ps sched boot ls,
  wf_prefix r (code_delivered r ps sched boot ls) = true.
Proof. exact code_delivered_wf_prefix. Qed.

(** the registrars' code, fed what the relay code delivers, never raises, is never cut short, and publishes exactly [pubs_run] *)
Theorem C11_system_code_whole_run : forall r ps sched boot ls,
  let del := code_delivered r ps sched boot ls in
  GT.run_whole_stop r del =
  Some (GT.loadR r (fst (on_end_run r (state_events r del))),
        GT.GPub (NL.Registrars.Syntax.VStr k_run_no) (NL.Registrars.Syntax.VInt r) :: map GT.enc_pub (pubs_run r del), false).
Proof. exact code_whole_run. Qed.

Theorem C11_system_code_topics : forall r ps sched boot ls,
  let del := code_delivered r ps sched boot ls in
  exists G pubs, GT.run_whole r del = Some (G, pubs) /\
    forall k, GT.g_on_topic k pubs = map (option_map GT.enc_value) (on_topic k (pubs_run r del)).
Proof. exact code_topics. Qed.

Theorem C11_system_code_closed_out : forall r ps sched boot ls,
  let del := code_delivered r ps sched boot ls in
  last_nos (pubs_run r del) = [] /\
  (forall t, In t (trace_starts del) ->
     exists vs, on_topic (TPromptInfoFor t) (pubs_run r del) = map Some vs ++ [None]) /\
  (exists vs, on_topic TPromptNotice (pubs_run r del) = map Some vs ++ [None]).
Proof. exact code_closed_out. Qed.

(** ... and the subscribers of a closed-out topic are stopped by the broker item's CODE (C08's regenerated PubSubItem) *)
Theorem C11_system_code_subscribers_terminate : forall r ps sched boot ls,
  let del := code_delivered r ps sched boot ls in
  forall t ops,
    In t (trace_starts del) ->
    map forget (filter is_publisher_op ops) = map to_op (on_topic (TPromptInfoFor t) (pubs_run r del)) ->
    forall s, (s < List.length (PS.i_subs (PS.run false ops)))%nat ->
    exists n outs,
      PI.iouts false (ops ++ repeat (PS.Next s) (S n)) = Some outs /\
      let tail := skipn (List.length ops) outs in
      last tail PS.OBlocked = PS.OStop /\ ~ In PS.OBlocked tail.
Proof. exact code_subscribers_terminate. Qed.

(** non-vacuity: two actors (a trace with a prompt, a trace without), interleaved; the relay is killed after three events
    were put of which two got through: the delivered stream is the 2-event prefix, still a well-formed prefix, and the
    close-out leaves no active trace *)
Definition ex_progs : list prog :=
  [mkProg 10 [ICall 5 7 None; IOut 4; ICall 5 7 (Some ((0, 9), [(0, 8)]))];
   mkProg 11 [ICall 6 8 (Some ((0, 9), []))]].
Definition ex_sched : list nat :=
  [0; 1; 1; 0; 0; 1; 0; 1; 0; 0; 1; 1; 0; 1; 0; 0; 1; 1; 0; 0; 0; 0; 1; 0; 0; 0; 0; 1; 0; 1; 0; 1; 0]%nat.
Definition ex_relay : list R.label :=
  [R.StartProc; R.StartRun; R.Emit; R.Flush; R.MonTake; R.MonDeliver; R.Emit; R.Flush; R.MonTake; R.Emit; R.Kill;
   R.ProcExitSeen; R.DrainTick; R.MonDeliver; R.PutSentinel; R.MonSeesSentinel; R.EndRun].

Example C11_system_example_nonvacuous :
  let es := emitted 1 ex_progs ex_sched in
  let del := delivered_events true es ex_relay in
  (4 <= length es)%nat /\ del = firstn 2 es /\ length del = 2%nat /\
  R.main (R.run true (encode es) ex_relay) = R.PEndRun /\
  last_nos (pubs_events 1 del) <> [] /\ last_nos (pubs_run 1 del) = [].
Proof. vm_compute. repeat split; try reflexivity; try lia; discriminate. Qed.

Print Assumptions C11_system_delivered_is_prefix.
Print Assumptions C11_system_delivered_is_everything.
Print Assumptions C11_system_log_shows_delivered.
Print Assumptions C11_system_nothing_delivered_after_end_run.
Print Assumptions C11_system_delivered_wf_prefix.
Print Assumptions C11_system_delivered_wf_when_complete.
Print Assumptions C11_system_active_set.
Print Assumptions C11_system_closed_out_active_set.
Print Assumptions C11_system_trace_info_once.
Print Assumptions C11_system_notice_bijection.
Print Assumptions C11_system_closed_out_prompt_topics.
Print Assumptions C11_system_subscribers_terminate.
Print Assumptions C11_system_code_delivered_is_prefix.
Print Assumptions C11_system_code_delivered_wf_prefix.
Print Assumptions C11_system_code_whole_run.
Print Assumptions C11_system_code_topics.
Print Assumptions C11_system_code_closed_out.
Print Assumptions C11_system_code_subscribers_terminate.
