(** C06 -- each thread and each asyncio task is debugged as its own independent
    trace.  Property theorems only; each is closed by [exact] of a lemma of Ids/Inv.v (the
    model), Ids/Text.v ([C06_prompt_text_is_own]), Prompt/Indep.v (the independence theorems, one of them
    after instantiating [Rel_blocked]) or Ids/Tie.v (the C06_tie_*, about the regenerated code); the
    examples are evaluations.

    Model: Ids/Model.v (TaskAndThreadKeeper, ThreadTaskIdComposer,
    TaskOrThreadToTraceMapper as counters and finite maps) and, for the
    independence of traces, the per-trace command queues of Prompt/Model.v.
    [started tr a] is a function of the history: the numbers of the OnStartTrace
    event of actor a.  All statements quantify over EVERY label sequence.

    WHAT RESTS ON WHAT -- read this before citing the theorems.
    * Numbering and attribution (C06_trace_no_injective,
      C06_trace_numbers_sequential, C06_thread_task_pair_identifies,
      C06_numbers_stable, C06_attribution, C06_end_attribution) are invariants
      proved over every interleaving of the counter calls of Ids/Model.v, whose
      every transition is compared with the real code on each run.
    * Independence (C06_independent, C06_independent_of_blocked_trace,
      C06_answer_is_delivered) is TRUE BY CONSTRUCTION of Prompt/Model.v: the
      model has one unbounded queue per trace and no lock, so no label of one
      trace can be disabled by another trace.  These theorems only document
      that modelling decision (the command path itself -- queue_in, relay
      thread, per-trace queues -- has no shared blocking resource); they say
      nothing about resources OUTSIDE that path.  A lock taken around the
      trace-function dispatch, the GIL, or a blocking
      call in a plugin are invisible to them.
    * The independence clause of the property ("a prompt left unanswered in one
      trace never prevents other threads from running, being prompted and being
      answered") therefore rests on the RUNS of harness/props/c06.py against the
      real code, not on a theorem: the victim scenarios (a prompt at a
      call / return / exception / line event is withheld; every unit that never
      waits for the victim, already running or started afterwards, must run to
      its end) and the withholding responder of the generated programs.  That
      is evidence for the generated programs and switch intervals only; the
      clause is labelled partial.
    * Attribution of the debugger's own TEXT (stop location, --Call-- /
      --Return-- banners, output of debugger commands in OnStartPrompt.prompt_text):
      C06_prompt_text_is_own is likewise TRUE BY CONSTRUCTION of Ids/Text.v, which
      has one text buffer per trace because pdb_/factory.py creates one StdInOut
      per trace.  Whether the code really keeps the buffers apart
      is checked by the text clause of the oracle in
      harness/props/c06.py on every prompt of every run, in particular in the
      barrier scenarios that hold two or three threads between Pdb's location
      print and its prompt (gate at OnStartCmdloop) in every prompt order. *)
From NL Require Import Ids.Model Ids.Inv.
From NL Require Ids.Text.
From NL Require Prompt.Model Prompt.Hist Prompt.Indep.
Open Scope Z_scope.

(** distinct actors <-> distinct trace numbers *)
Theorem C06_trace_no_injective : forall ls a b ta ida tb idb,
  started (trace ls) a = Some (ta, ida) -> started (trace ls) b = Some (tb, idb) ->
  (a = b <-> ta = tb).
Proof. exact trace_no_injective. Qed.

(** trace numbers are handed out as 1, 2, 3, ... in the order of the starts *)
Theorem C06_trace_numbers_sequential : forall ls,
  map (fun x => fst (snd x)) (starts (trace ls)) = map Z.of_nat (seq 1 (length (starts (trace ls)))).
Proof. exact start_numbers. Qed.

(** same thread <-> same thread number; two actors of one thread have different
    task numbers; the (thread no, task no) pair determines the actor; a thread
    (not a task) has task number None and vice versa *)
Theorem C06_thread_task_pair_identifies : forall ls a b ta na ka tb nb kb,
  started (trace ls) a = Some (ta, (na, ka)) -> started (trace ls) b = Some (tb, (nb, kb)) ->
  (fst a = fst b <-> na = nb) /\
  (fst a = fst b -> a <> b -> ka <> kb) /\
  ((na, ka) = (nb, kb) -> a = b) /\
  (snd a = None <-> ka = None).
Proof. exact thread_task_pair_identifies. Qed.

(** the numbers of an actor never change *)
Theorem C06_numbers_stable : forall pre post a v,
  started pre a = Some v -> started (pre ++ post) a = Some v.
Proof. exact started_stable. Qed.

(** every event emitted by an actor's action carries that actor's trace number *)
Theorem C06_attribution : forall ls pre a x o post,
  trace ls = pre ++ (Emit a x, o) :: post ->
  o = OEv (option_map fst (started pre a)) x.
Proof. exact attribution. Qed.

Theorem C06_end_attribution : forall ls pre a o post,
  trace ls = pre ++ (End a, o) :: post ->
  o = match started pre a with Some (t, _) => OEnd t | None => OErr end.
Proof. exact end_attribution. Qed.

(** whatever trace t does or fails to do -- in particular staying blocked at an
    open prompt -- every label of the other traces, of the sender and of the
    relay thread does exactly what it would do otherwise *)
Theorem C06_independent : forall t ls s1 s2,
  Prompt.Indep.Rel t s1 s2 ->
  Forall (fun l => Prompt.Indep.other t l = true) ls ->
  map snd (Prompt.Model.trace_from s1 ls) = map snd (Prompt.Model.trace_from s2 ls).
Proof. exact Prompt.Indep.indep_run. Qed.

(** instance: t blocked at prompt p with an empty queue, versus any state *)
Theorem C06_independent_of_blocked_trace : forall s t p ls,
  Prompt.Model.s_map s t <> None ->
  Forall (fun l => Prompt.Indep.other t l = true) ls ->
  map snd (Prompt.Model.trace_from s ls) =
  map snd (Prompt.Model.trace_from (Prompt.Indep.blocked_at s t p) ls).
Proof. intros s t p ls H F. exact (Prompt.Indep.indep_run t ls _ _ (Prompt.Indep.Rel_blocked s t p H) F). Qed.

(** a trace waiting at its prompt is answered, whatever the others do *)
Theorem C06_answer_is_delivered : forall s t p x,
  Prompt.Model.s_open s t = Some p -> Prompt.Model.s_map s t = Some [] -> Prompt.Model.s_in s = [] ->
  map snd (Prompt.Model.trace_from s
             [Prompt.Model.Send (Prompt.Model.mkCmd t p x); Prompt.Model.Relay; Prompt.Model.Take t]) =
  [Prompt.Model.OSent (Prompt.Model.s_nsent s); Prompt.Model.ORelayed (Prompt.Model.s_nsent s);
   Prompt.Model.OExec p (Prompt.Model.s_nsent s) (Prompt.Model.mkCmd t p x)].
Proof. exact Prompt.Indep.answer_is_delivered. Qed.

(** a readline of trace t returns exactly what t's own Pdb wrote since t's
    previous readline ([pending] is a function of the history) -- by construction *)
Theorem C06_prompt_text_is_own : forall pre t post,
  nth_error (snd (Ids.Text.trun Ids.Text.tinit (pre ++ Ids.Text.TRead t :: post))) (length pre) =
  Some (Some (Ids.Text.pending t (rev pre))).
Proof. exact Ids.Text.read_returns_own_text. Qed.

Example C06_example_prompt_text :
  snd (Ids.Text.trun Ids.Text.tinit
         [Ids.Text.TWrite 2 10; Ids.Text.TWrite 3 20; Ids.Text.TWrite 2 11; Ids.Text.TRead 2;
          Ids.Text.TWrite 3 21; Ids.Text.TRead 3; Ids.Text.TRead 2]) =
  [None; None; None; Some [10; 11]; None; Some [20; 21]; Some []].
Proof. vm_compute. reflexivity. Qed.

(** non-vacuity: main thread, a task of the main thread, a second thread whose
    first traced frame belongs to a task, a second task there *)
Definition ex_run : list label :=
  [Filtered (1, None); Mapped (1, None); Emit (1, None) 10; Filtered (1, Some 7); Mapped (1, Some 7);
   (* two threads start concurrently: thread numbers in one order, trace numbers in the other *)
   Filtered (2, Some 8); Filtered (3, None); Mapped (3, None); Mapped (2, Some 8); Emit (2, Some 8) 11;
   Filtered (1, None); Filtered (2, Some 9); Mapped (2, Some 9); Emit (4, None) 12; Filtered (2, None); Mapped (2, None);
   End (1, Some 7); Emit (1, Some 7) 13].

Example C06_example_nonvacuous :
  outs ex_run =
  [OComposed; OStart 1 1 None; OEv (Some 1) 10; OComposed; OStart 2 1 (Some 1);
   OComposed; OComposed; OStart 3 3 None; OStart 4 2 (Some 1); OEv (Some 4) 11;
   OSeen; OComposed; OStart 5 2 (Some 2); OEv None 12; OComposed; OStart 6 2 None;
   OEnd 2; OEv (Some 2) 13] /\
  started (trace ex_run) (2, Some 9) = Some (5, (2, Some 2)).
Proof. vm_compute. split; reflexivity. Qed.

(** non-vacuity of independence: trace 1 blocked at its prompt; trace 2 is
    prompted, answered and finishes *)
Example C06_example_independent :
  let s := Prompt.Model.final [Prompt.Model.StartTrace 1; Prompt.Model.StartTrace 2; Prompt.Model.OpenPrompt 1] in
  Prompt.Model.s_open s 1 = Some 1 /\
  map snd (Prompt.Model.trace_from s
    [Prompt.Model.OpenPrompt 2; Prompt.Model.Send (Prompt.Model.mkCmd 2 2 5); Prompt.Model.Relay;
     Prompt.Model.Take 2; Prompt.Model.EndTrace 2]) =
  [Prompt.Model.OOpened 2; Prompt.Model.OSent 0; Prompt.Model.ORelayed 0;
   Prompt.Model.OExec 2 0 (Prompt.Model.mkCmd 2 2 5); Prompt.Model.OEnded].
Proof. vm_compute. split; reflexivity. Qed.

(** TIE to the code regenerated from /repo.
    translate/ids_funs.py regenerates Gen/IdsFuns.v (a statement/expression AST of
    ThreadTaskIdComposer, TaskAndThreadKeeper, TaskOrThreadToTraceMapper, Repeater.on_start_trace /
    on_end_trace, current_task_or_thread and the counter constructors) from the CURRENT source on
    every check; Ids/Interp.v interprets that AST; Ids/Tie.v proves that the interpreter run on the
    regenerated bodies computes exactly the operations of the hand-written Ids/Model.v.  The
    theorems below are about the REGENERATED definitions ([program]): a behavioural change of a
    tracked method changes [program] and the proofs in Ids/Tie.v are re-checked against it.
    [Rst lt lm st s] relates an interpreter state to a model state (Ids/TieBase.v): same counters,
    same maps (task counters: one per thread NUMBER, created by the defaultdict on demand); [Pre s]
    is the part of the model's invariant [Inv] the code relies on (numbers are never 0, ...). *)
From NL Require Import Ids.Interp Gen.IdsFuns Ids.TieBase Ids.Tie.

(** the regenerated __init__ bodies produce the model's initial state *)
Theorem C06_tie_init : exists lt lm, Rsys lt lm (pview st_init) (iinit program) init.
Proof. exact tie_init. Qed.

(** thread number and task number of an actor: `self._counter()` of the keeper
    (ThreadTaskIdComposer.__call__ -> _current_thread_task, _map.get, _compose, _map[key] = ..)
    is [composer_call] of the model -- for ALL related states, actors, answers of
    asyncio.current_task() (task / None / RuntimeError) and event-loop assignments *)
Theorem C06_tie_thread_task_numbers : forall n th ok nl lp st en lt lm s, (36 <= n)%nat ->
  Rst lt lm st s -> Pre s ->
  exists st',
    eval program (mkCx (th, ok) nl lp) n st en (ECall (EAttr Keeper "_counter"%string))
      = EV st' en (enc_id (snd (composer_call s (th, ok)))) /\
    Rst lt lm st' (fst (composer_call s (th, ok))) /\ rest_of st' = rest_of st.
Proof. exact composer_call_tie. Qed.

(** the trace number every plugin attributes its events with: the hook current_trace_no() is a
    pure read of TaskOrThreadToTraceMapper._map BY THE CURRENT TASK-OR-THREAD *)
Theorem C06_tie_trace_no_lookup : forall n th ok nl lp st en lt lm s, (14 <= n)%nat ->
  Rst lt lm st s ->
  eval program (mkCx (th, ok) nl lp) n st en (EHook "current_trace_no"%string) = EV st en (enc_oz (m_map s (th, ok))).
Proof. exact eval_current_trace_no. Qed.

(** ONE label executed by the regenerated code (Filtered: `filtered` up to the call of
    on_start_task_or_thread; Mapped: trace number at the first filtered event, _map[current] = ..,
    on_start_trace -> OnStartTrace(trace_no, current_thread_no(), current_task_no()), _set.add;
    Emit: current_trace_no(); End: _on_end -> _map[ending] -> OnEndTrace, the entry is KEPT)
    = ONE step of the model, for ALL related states *)
Theorem C06_tie_step : forall nl lp lt lm pv y s l, Rsys lt lm pv y s -> Pre s ->
  Rsys lt lm pv (fst (istep program nl lp y l)) (fst (step s l)) /\
  snd (istep program nl lp y l) = snd (step s l).
Proof. exact tie_step. Qed.

(** hence every run of the regenerated code is the run of the model *)
Theorem C06_tie_simulation : forall nl lp ls, itrace program nl lp ls = trace ls.
Proof. exact tie_trace. Qed.

Theorem C06_tie_final_state : forall nl lp ls, exists lt lm, Rsys lt lm (pview st_init) (ifinal program nl lp ls) (final ls).
Proof. exact tie_final. Qed.

(** and the C06 invariants hold of the regenerated code *)
Theorem C06_tie_trace_no_injective : forall nl lp ls a b ta ida tb idb,
  started (itrace program nl lp ls) a = Some (ta, ida) -> started (itrace program nl lp ls) b = Some (tb, idb) ->
  (a = b <-> ta = tb).
Proof. exact tie_trace_no_injective. Qed.

Theorem C06_tie_trace_numbers_sequential : forall nl lp ls,
  map (fun x => fst (snd x)) (starts (itrace program nl lp ls)) =
  map Z.of_nat (seq 1 (length (starts (itrace program nl lp ls)))).
Proof. exact tie_trace_numbers_sequential. Qed.

Theorem C06_tie_thread_task_pair_identifies : forall nl lp ls a b ta na ka tb nb kb,
  started (itrace program nl lp ls) a = Some (ta, (na, ka)) -> started (itrace program nl lp ls) b = Some (tb, (nb, kb)) ->
  (fst a = fst b <-> na = nb) /\
  (fst a = fst b -> a <> b -> ka <> kb) /\
  ((na, ka) = (nb, kb) -> a = b) /\
  (snd a = None <-> ka = None).
Proof. exact tie_thread_task_pair_identifies. Qed.

Theorem C06_tie_numbers_stable : forall nl lp ls ls' a v,
  started (itrace program nl lp ls) a = Some v -> started (itrace program nl lp (ls ++ ls')) a = Some v.
Proof. exact tie_numbers_stable. Qed.

Theorem C06_tie_attribution : forall nl lp ls pre a x o post,
  itrace program nl lp ls = pre ++ (Emit a x, o) :: post ->
  o = OEv (option_map fst (started pre a)) x.
Proof. exact tie_attribution. Qed.

Theorem C06_tie_end_attribution : forall nl lp ls pre a o post,
  itrace program nl lp ls = pre ++ (End a, o) :: post ->
  o = match started pre a with Some (t, _) => OEnd t | None => OErr end.
Proof. exact tie_end_attribution. Qed.

(** the two methods of ThreadTaskIdComposer the run does not use: has_id() is a pure read;
    reset() installs a NEW thread counter from 1 and drops every task counter but keeps the maps
    from objects to numbers (nextline never calls it; numbers would repeat after it) *)
Theorem C06_tie_has_id : forall n th ok nl lp st en lt lm s, (16 <= n)%nat -> Rst lt lm st s ->
  eval program (mkCx (th, ok) nl lp) n st en (EMethod Composer "has_id"%string []) = EV st en (VBool (is_some (c_map s (th, ok)))).
Proof. exact tie_has_id. Qed.

Theorem C06_tie_reset : forall n cx st en lt lm s, (8 <= n)%nat -> Rst lt lm st s ->
  exists st' lt',
    eval program cx n st en (EMethod Composer "reset"%string []) = EV st' en VNone /\
    Rst lt' lm st' (w_tkctr (w_thctr s 1) (fun _ => 1)).
Proof. exact tie_reset. Qed.


(** The USE of the trace number: one debugger per trace.
    LocalTraceFunc.local_trace_func / init (local_.py), PdbInstanceFactory.init / create_local_trace_func and the
    bodies of the two closures `Factory(hook)._factory` (local_.py, pdb_/factory.py) are TRANSLATED and interpreted;
    the shape of the two `Factory` functions around `_factory` and three facts about WithContext are PINNED by the
    translator (pin + interpretation of the translated bodies).  [pv] is the debugger side of the interpreter's state
    (LocalTraceFunc._map, the number of objects created, ..); [PInv pv]: every entry of _map is a WithContext around
    the trace_dispatch of its own CustomizedPdb with its own StdInOut, and no two entries share either. *)

(** a call of local_trace_func in actor a reaches the Pdb stored under a's current trace number (a new
    StdInOut + CustomizedPdb pair is created and stored if there is none); no other entry changes *)
Theorem C06_tie_dispatch : forall nl lp lt lm pv y s a x, Rsys lt lm pv y s -> PInv pv ->
  exists pv',
    Rsys lt lm pv' (fst (idispatch program nl lp y a x)) s /\ PInv pv' /\
    snd (idispatch program nl lp y a x) = pdb_at pv' (m_map s a) /\ snd (idispatch program nl lp y a x) <> None /\
    (forall o, o <> m_map s a -> pv_map pv' (enc_oz o) = pv_map pv (enc_oz o)) /\
    (pv_map pv (enc_oz (m_map s a)) <> None -> pv' = pv).
Proof. exact tie_dispatch. Qed.

(** two different started actors are never served by the same Pdb nor by the same StdInOut *)
Theorem C06_tie_dispatch_separates : forall nl lp lt lm pv y s tr a b ta tb x x',
  Rsys lt lm pv y s -> PInv pv -> Inv tr s ->
  m_map s a = Some ta -> m_map s b = Some tb -> a <> b ->
  exists ls lpp ls' lpp',
    snd (idispatch program nl lp y a x) = Some (pdb_obj ls lpp) /\
    snd (idispatch program nl lp (fst (idispatch program nl lp y a x)) b x') = Some (pdb_obj ls' lpp') /\
    lpp <> lpp' /\ ls <> ls'.
Proof. exact tie_dispatch_separates. Qed.

(** the same actor is served by the same Pdb again, whatever numbering labels and calls of local_trace_func of
    any actors happen in between *)
Theorem C06_tie_dispatch_same_pdb : forall nl lp lt lm pv y s tr a t x x' xls,
  Rsys lt lm pv y s -> PInv pv -> Inv tr s -> m_map s a = Some t ->
  snd (idispatch program nl lp (xexec nl lp (fst (idispatch program nl lp y a x)) xls) a x') =
  snd (idispatch program nl lp y a x).
Proof. exact tie_dispatch_same_pdb. Qed.

(** the hypotheses of the three theorems hold in every state reachable by numbering labels interleaved with calls
    of local_trace_func, and the interleaved calls do not disturb the numbering *)
Theorem C06_tie_xrun : forall nl lp xls,
  exists lt lm pv tr, Rsys lt lm pv (xexec nl lp (iinit program) xls) (final (xproj xls)) /\ PInv pv /\
                      Inv tr (final (xproj xls)) /\ xouts nl lp (iinit program) xls = outs (xproj xls).
Proof. exact tie_xrun. Qed.

(** non-vacuity: thread 1 and its task 7 get different Pdb objects (1 and 4) with different StdInOut objects
    (0 and 3); thread 1 gets Pdb 1 again *)
Example C06_tie_example_dispatch :
  let y1 := ifinal program (fun _ => false) (fun _ _ => 0) [Filtered (1, None); Mapped (1, None); Filtered (1, Some 7); Mapped (1, Some 7)] in
  let d1 := idispatch program (fun _ => false) (fun _ _ => 0) y1 (1, None) 5 in
  let d2 := idispatch program (fun _ => false) (fun _ _ => 0) (fst d1) (1, Some 7) 6 in
  let d3 := idispatch program (fun _ => false) (fun _ _ => 0) (fst d2) (1, None) 8 in
  (snd d1, snd d2, snd d3) = (Some (pdb_obj 0 1), Some (pdb_obj 3 4), Some (pdb_obj 0 1)).
Proof. vm_compute. reflexivity. Qed.

(** non-vacuity: the regenerated code, interpreted, on the run of C06_example_nonvacuous (current_task()
    raising RuntimeError in the threads with an even number), plus an End of an unknown actor and a
    Mapped without Filtered *)
Example C06_tie_example_nonvacuous :
  iouts program (fun a => Z.even (fst a)) (fun _ _ => 0) (ex_run ++ [End (9, None); Mapped (5, None)]) =
  [OComposed; OStart 1 1 None; OEv (Some 1) 10; OComposed; OStart 2 1 (Some 1);
   OComposed; OComposed; OStart 3 3 None; OStart 4 2 (Some 1); OEv (Some 4) 11;
   OSeen; OComposed; OStart 5 2 (Some 2); OEv None 12; OComposed; OStart 6 2 None;
   OEnd 2; OEv (Some 2) 13; OErr; OErr].
Proof. vm_compute. reflexivity. Qed.

Print Assumptions C06_trace_no_injective.
Print Assumptions C06_trace_numbers_sequential.
Print Assumptions C06_thread_task_pair_identifies.
Print Assumptions C06_numbers_stable.
Print Assumptions C06_attribution.
Print Assumptions C06_end_attribution.
Print Assumptions C06_independent.
Print Assumptions C06_independent_of_blocked_trace.
Print Assumptions C06_answer_is_delivered.
Print Assumptions C06_prompt_text_is_own.
Print Assumptions C06_tie_init.
Print Assumptions C06_tie_thread_task_numbers.
Print Assumptions C06_tie_trace_no_lookup.
Print Assumptions C06_tie_step.
Print Assumptions C06_tie_simulation.
Print Assumptions C06_tie_final_state.
Print Assumptions C06_tie_trace_no_injective.
Print Assumptions C06_tie_trace_numbers_sequential.
Print Assumptions C06_tie_thread_task_pair_identifies.
Print Assumptions C06_tie_numbers_stable.
Print Assumptions C06_tie_attribution.
Print Assumptions C06_tie_end_attribution.
Print Assumptions C06_tie_has_id.
Print Assumptions C06_tie_reset.
Print Assumptions C06_tie_dispatch.
Print Assumptions C06_tie_dispatch_separates.
Print Assumptions C06_tie_dispatch_same_pdb.
Print Assumptions C06_tie_xrun.
