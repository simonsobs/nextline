(** C14 -- runs are numbered uniquely and execute the script that is on display.
    Property theorems only; each is closed by [exact] of a lemma proved in
    Life/Numbering.v (from the step classification of Life/NumKind.v and the
    lock / state-machine invariants of Life/LockInv.v, Life/FsmInv.v) or, for the
    C14_tie_* ones, in Life/ArgTie.v.

    Model: Life/Model.v (the lifecycle LTS; RunArgComposer = [c_stmt c_next
    c_threads c_modules], Context.run_arg = [run_arg]).  Every statement
    quantifies over EVERY initial configuration and EVERY label list [ls]
    (= every history of calls from any number of tasks and every schedule of
    their atomic segments).

    Vocabulary (Life/Hist.v, Life/Numbering.v).  [history s] is the
    chronological list of observable events.  [is_init e n]: [e] is an
    on_initialize_run record carrying run number [n]; [no_init l]: no such
    record in [l].  For a chronological prefix [h]:
    [latest_init_no h] = number of the last on_initialize_run record in [h],
    [latest_statement h] = last published statement,
    [latest_run_info h] = (number, phase, statement) of the last published run info,
    [latest_initialized_info h] = (number, statement) of the last run info of
    phase `initialized`. *)
From NL Require Import Life.Model Life.LockInv Life.FsmInv Life.Hist Life.NumKind Life.Numbering.
Open Scope Z_scope.

(** the first initialisation carries the configured start number *)
Theorem C14_run_no_first : forall stmt start th md ls h1 e n h2,
  let s := run_labels (init_state stmt start th md) ls in
  history s = h1 ++ e :: h2 -> is_init e n -> no_init h1 -> n = start.
Proof. exact thm_first_init. Qed.

(** two consecutive initialisations carry n and n+1, unless a reset record
    asking for exactly the new number lies between them *)
Theorem C14_run_no_consecutive : forall stmt start th md ls h1 a n mid b m h2,
  let s := run_labels (init_state stmt start th md) ls in
  history s = h1 ++ a :: mid ++ b :: h2 -> is_init a n -> is_init b m -> no_init mid ->
  m = n + 1 \/ exists r, In (EvHook r) mid /\ h_hook r = HReset /\ h_start r = Some m.
Proof. exact thm_consecutive. Qed.

(** every on_initialize_run record carries a number and a statement and is
    immediately preceded by the publication of that run number and of the
    `initialized` run info with the same number and statement *)
Theorem C14_init_record_block : forall stmt start th md ls h1 r h2,
  let s := run_labels (init_state stmt start th md) ls in
  history s = h1 ++ EvHook r :: h2 -> h_hook r = HInitRun ->
  exists n x h0, h_runno r = Some n /\ h_stmt r = Some x /\
                 h1 = h0 ++ [EvPub (PRunNo n); EvPub (PRunInfo n RInitialized x None)].
Proof. exact thm_init_has_number. Qed.

(** numbers carried: the direct form is false, see [C14_numbers_carried_refuted];
    the four theorems below are the strongest true form *)

(** a run-number publication is always the first event of an initialisation:
    it is followed by the `initialized` run info and the on_initialize_run
    record with the same number *)
Theorem C14_numbers_carried_run_no : forall stmt start th md ls h1 k h2,
  let s := run_labels (init_state stmt start th md) ls in
  history s = h1 ++ EvPub (PRunNo k) :: h2 ->
  exists x r h3, h2 = EvPub (PRunInfo k RInitialized x None) :: EvHook r :: h3 /\
                 h_hook r = HInitRun /\ h_runno r = Some k /\ h_stmt r = Some x.
Proof. exact thm_run_no_block. Qed.

Theorem C14_numbers_carried_initialized_info : forall stmt start th md ls h1 k x res h2,
  let s := run_labels (init_state stmt start th md) ls in
  history s = h1 ++ EvPub (PRunInfo k RInitialized x res) :: h2 ->
  exists r h3, h2 = EvHook r :: h3 /\ h_hook r = HInitRun /\ h_runno r = Some k /\ h_stmt r = Some x.
Proof. exact thm_initialized_info_block. Qed.

(** the `running` / `finished` run infos carry the number of the latest
    preceding on_initialize_run record (there is one) *)
Theorem C14_numbers_carried_run_info : forall stmt start th md ls h1 k ph x res h2,
  let s := run_labels (init_state stmt start th md) ls in
  history s = h1 ++ EvPub (PRunInfo k ph x res) :: h2 -> ph <> RInitialized -> latest_init_no h1 = Some k.
Proof. exact thm_carried_info. Qed.

(** on_end_run likewise (on_start_run: [C14_executed_is_displayed]) *)
Theorem C14_numbers_carried_end_run : forall stmt start th md ls h1 r h2,
  let s := run_labels (init_state stmt start th md) ls in
  history s = h1 ++ EvHook r :: h2 -> h_hook r = HEndRun ->
  exists n, h_runno r = Some n /\ latest_init_no h1 = Some n.
Proof. exact thm_carried_end. Qed.

(** what [latest_init_no] is: after a record with number n and no later one, it is n *)
Theorem C14_spec_latest_init_no : forall h1 a n mid,
  is_init a n -> no_init mid -> latest_init_no (h1 ++ a :: mid) = Some n.
Proof. exact t_init_after_init. Qed.

(** the direct form -- "every PRunNo k between an
    on_initialize_run record (number n) and the next one has k = n" -- fails:
    the publications of an initialisation precede its hook record *)
Theorem C14_numbers_carried_refuted :
  exists h1 a n mid k h2,
    history (run_labels (init_state 1 1 true false) refute_ls) = h1 ++ a :: mid ++ EvPub (PRunNo k) :: h2 /\
    is_init a n /\ no_init mid /\ k <> n.
Proof. exact carried_original_refuted. Qed.

(** at every on_start_run record: it carries a number n and a statement x;
    the last published statement is x; the last on_initialize_run record has
    number n; the last `initialized` run info is (n, x); the last run info is
    (n, running, x) *)
Theorem C14_executed_is_displayed : forall stmt start th md ls h1 r h2,
  let s := run_labels (init_state stmt start th md) ls in
  history s = h1 ++ EvHook r :: h2 -> h_hook r = HStartRun ->
  exists n x, h_runno r = Some n /\ h_stmt r = Some x /\
    latest_statement h1 = Some x /\ latest_init_no h1 = Some n /\
    latest_initialized_info h1 = Some (n, x) /\ latest_run_info h1 = Some (n, RRunning, x).
Proof. exact thm_executed. Qed.

(** [run_arg] is what the composer holds (statement, flags, and the counter is
    one ahead) in every reachable state in which no reset is between
    enter_reset and its re-initialisation ... *)
Theorem C14_run_arg_is_composer : forall stmt start th md ls ra,
  let s := run_labels (init_state stmt start th md) ls in
  run_arg s = Some ra ->
  (forall t c p, find_task (tasks s) t = Some (c, p) -> zmid p = false) ->
  ra_stmt ra = c_stmt s /\ ra_threads ra = c_threads s /\ ra_modules ra = c_modules s /\ c_next s = ra_no ra + 1.
Proof. exact thm_composer. Qed.

(** ... in particular, unconditionally, whenever the run task has not finished
    (RT_New, RT_Created: the moment the child process is given [run_arg]) *)
Theorem C14_run_arg_is_composer_at_run_start : forall stmt start th md ls ra x,
  let s := run_labels (init_state stmt start th md) ls in
  runt s = Some x -> early x = true -> run_arg s = Some ra ->
  ra_stmt ra = c_stmt s /\ ra_threads ra = c_threads s /\ ra_modules ra = c_modules s /\ c_next s = ra_no ra + 1.
Proof. exact thm_composer_at_run_start. Qed.

(** no run starts or is in progress while a reset is half way
    ([early] = RT_New, RT_Created, RT_G_start, RT_WaitChild, RT_G_end) *)
Theorem C14_no_run_during_reset : forall stmt start th md ls t c p,
  let s := run_labels (init_state stmt start th md) ls in
  find_task (tasks s) t = Some (c, p) -> zmid p = true ->
  forall x, runt s = Some x -> early x = false.
Proof. exact thm_no_run_during_reset. Qed.

(** when reset(o) returns normally the object is `initialized` and [run_arg]
    is the composer as it was when this reset began ([snapshot]: the composer
    fields just before the step that logged the latest reset record, which is
    this reset's: same statement / start options) with the options of [o]
    written over it *)
Theorem C14_reset_atomic : forall stmt start th md ls l t o,
  let s := run_labels (init_state stmt start th md) ls in
  let s' := step s l in
  In (EvRet t (CReset o) ROk) (appended s s') ->
  st_fsm s' = Initialized /\
  run_arg s' = Some (ra_of (merged (fst (snapshot stmt start th md ls)) o)) /\
  exists r, snd (snapshot stmt start th md ls) = Some r /\ h_hook r = HReset /\
            h_stmt r = o_stmt o /\ h_start r = o_start o.
Proof. exact thm_reset_ok. Qed.

(** spelled out for the options that were given *)
Theorem C14_reset_options_applied : forall stmt start th md ls l t o,
  let s := run_labels (init_state stmt start th md) ls in
  let s' := step s l in
  In (EvRet t (CReset o) ROk) (appended s s') ->
  exists ra, run_arg s' = Some ra /\
    (forall x, o_stmt o = Some x -> ra_stmt ra = x) /\
    (forall n, o_start o = Some n -> ra_no ra = n) /\
    (forall b, o_threads o = Some b -> ra_threads ra = b) /\
    (forall b, o_modules o = Some b -> ra_modules ra = b).
Proof. exact thm_reset_options. Qed.

(** a refused reset changes nothing and shows nothing: in the step in which it
    raises, composer and run_arg are unchanged and the only events appended
    are the call itself and its exception *)
Theorem C14_reset_refused_changes_nothing : forall stmt start th md ls l t o,
  let s := run_labels (init_state stmt start th md) ls in
  let s' := step s l in
  In (EvRet t (CReset o) RMachineError) (appended s s') ->
  comp s' = comp s /\ run_arg s' = run_arg s /\
  forall e, In e (appended s s') -> e = EvRet t (CReset o) RMachineError \/ call_ev e.
Proof. exact thm_reset_refused. Qed.

Definition ex_o1 : opts := mkOpts (Some 2) (Some 10) None None.
Definition ex_o0 : opts := mkOpts None None None None.

(** start; reset(statement=2, run_no_start_from=10) by task 1, held at its
    first gate while task 2 requests run (it has to wait for the lock); the
    reset completes; the run starts with statement 2 / number 10 and
    finishes; a plain reset; run number 11 *)
Definition ex_ls : list label :=
  [Call 0 CStart; Step 0; Step 0; Step 0;
   Call 1 (CReset ex_o1); Call 2 CRun; Step 2; Step 1; Step 1; Step 1; Step 1;
   Step 2; StepRun; StepRun; StepRun; Step 2; Step 2;
   ChildExit OReturn; StepRun; StepRun; StepRun; StepRun;
   Call 3 (CReset ex_o0); Step 3; Step 3; Step 3].

Example C14_example_nonvacuous :
  let s := run_labels (init_state 1 1 true false) ex_ls in
  let s7 := run_labels (init_state 1 1 true false) (firstn 7 ex_ls) in
  (* while the reset is at its gate the run request waits and no run task exists *)
  (find_task (tasks s7) 1%nat = Some (CReset ex_o1, Z_G1) /\ find_task (tasks s7) 2%nat = Some (CRun, WaitLock1) /\
   runt s7 = None /\ c_stmt s7 = 2 /\ c_next s7 = 2) /\
  init_nos (history s) = [1; 10; 11] /\
  In (EvHook (mkHook HStartRun Running (Some 10) (Some 2) None)) (history s) /\
  In (EvRet 1 (CReset ex_o1) ROk) (history s) /\ In (EvRet 2 CRun ROk) (history s) /\
  In (EvRet 3 (CReset ex_o0) ROk) (history s) /\
  run_arg s = Some (mkRunArg 11 2 true false) /\ st_fsm s = Initialized.
Proof.
  vm_compute. repeat split.
  (* the four events, by how many of the 40 events of the history stand before each *)
  - do 23 right. left. reflexivity.
  - do 21 right. left. reflexivity.
  - do 26 right. left. reflexivity.
  - do 39 right. left. reflexivity.
Qed.

(** a refused reset (during a run) *)
Example C14_example_refused :
  let s := run_labels (init_state 1 1 true false)
             [Call 0 CStart; Step 0; Step 0; Step 0; Call 2 CRun; StepRun; StepRun; StepRun; Step 2; Step 2] in
  st_fsm s = Running /\
  In (EvRet 5 (CReset ex_o1) RMachineError) (appended s (step s (Call 5 (CReset ex_o1)))).
Proof. vm_compute. auto. Qed.

(** tie of the composer part of the model to the source (Life/ArgTie.v).
    Gen/ArgComposer.v is regenerated from argument.py, count.py, types.py, spawned/types.py, main.py and the
    registrars run_no.py / run_info.py / script.py by translate/arg_composer.py on every run.  The functions of
    Life/Model.v that stand for RunArgComposer are EQUAL, for every state and every option record, to the
    transcribed ones ([get_comp]/[put_comp]: the four composer fields of a model state; [ropts]: the
    ResetOptions that Nextline.reset builds from the model's [opts]); so all theorems above are theorems about
    the transcribed code. *)
From NL Require Import Gen.ArgComposer Life.ArgTie.

Theorem C14_tie_init : forall stmt start th md,
  get_comp (init_state stmt start th md) = RunArgComposer_init (Nextline_init_options stmt start th md).
Proof. exact tie_init. Qed.

(** compose_run_arg, then what RunNoRegistrar / RunInfoRegistrar publish at on_initialize_run.
    [gen_initialize_run] (Life/ArgTie.v) is a hand-written wrapper -- "compose once, store run_arg,
    RunNo before RunInfo, then the hook record" is the model's own glue ([set_run_arg]/[publish]/[log_hook]; the order of
    the plugins is Gen/HookOrder.v's business, Callback.initialize_run -- compose_run_arg, then the
    on_initialize_run hook -- is the entry "initialize_run" of [callback] in Gen/RunRecord.v); what comes from the
    source here is the RunArg value, the composer after the call and the two publication lists, with
    isinstance(statement, str) = true only (the model's statements are scripts) *)
Theorem C14_tie_initialize_run : forall s, initialize_run s = gen_initialize_run s.
Proof. exact tie_initialize_run. Qed.

Theorem C14_tie_enter_start : forall s t c, Some (enter_start s t c) = gen_enter_start s t c.
Proof. exact tie_enter_start. Qed.

Theorem C14_tie_start_resume : forall c,
  exists k, RunArgComposer_start c = Await c (OnChangeScript (a_statement c) (a_filename c)) k /\
            forall c', k c' = Ret c'.
Proof. exact tie_start_resume. Qed.

(** the reset hook up to its first suspension (the nested on_change_script, or its end) *)
Theorem C14_tie_enter_reset : forall s t o, Some (enter_reset s t o) = gen_enter_reset s t o.
Proof. exact tie_enter_reset. Qed.

(** ... and its continuation after the gate, applied to the state as it is then *)
Theorem C14_tie_resume_reset : forall s0 s o, o_stmt o <> None -> Some (apply_rest s o) = gen_resume_reset s0 s o.
Proof. exact tie_resume_reset. Qed.

Theorem C14_tie_reset_whole : forall s o,
  model_reset s o = put_comp s (finish (RunArgComposer_reset (get_comp s) (ropts o))).
Proof. exact tie_reset_whole. Qed.

Theorem C14_tie_registrars : forall ra cx x,
  decode_res (ScriptRegistrar_on_change_script cx x SCRIPT_FILE_NAME) = Some [PStatement x] /\
  decode_res (RunNoRegistrar_on_initialize_run (HookContext_mk (Some ra))) = Some [PRunNo (rg_run_no ra)] /\
  decode_res (RunInfoRegistrar_on_initialize_run (HookContext_mk (Some ra)) true)
    = Some [PRunInfo (rg_run_no ra) RInitialized (rg_statement ra) None].
Proof. exact tie_registrars. Qed.

(** `assert context.run_arg` in the two registrars is a raising branch of the translation *)
Theorem C14_tie_registrars_assert : forall b,
  RunNoRegistrar_on_initialize_run (HookContext_mk None) = None /\
  RunInfoRegistrar_on_initialize_run (HookContext_mk None) b = None.
Proof. exact registrars_assert. Qed.

(** start and reset contain no assert that can fail ([Raise] is what an assert translates to) *)
Theorem C14_tie_never_raises : forall c o,
  raises (RunArgComposer_reset c o) = false /\ raises (RunArgComposer_start c) = false /\
  (forall c1 k, RunArgComposer_reset c o = Await (set_statement c (dflt (a_statement c) (ro_statement o)))
                                             (OnChangeScript (dflt (a_statement c) (ro_statement o)) (a_filename c)) k ->
                raises (k c1) = false).
Proof. exact never_raises. Qed.

(** exceptions / cancellation at the nested await.  NOT a statement about the model: Life/Model.v has no label for a
    raising hook or a cancelled transition (raising user plugins are excluded, DESIGN 6.1; the lock of imp.py keeps other
    calls out).  On the transcribed code (which has no try/with -- the translator refuses them): if on_change_script
    raises inside reset, or the task is cancelled there, the composer is left with the new statement and none of the
    other options, and the exception leaves reset() *)
Theorem C14_tie_reset_interrupted_at_hook : forall c o,
  interrupted_at_hook (RunArgComposer_reset c o) = option_map (set_statement c) (ro_statement o).
Proof. exact reset_interrupted_at_hook. Qed.

(** a reset applies exactly the given options (an explicit False / 0 included) and nothing else *)
Theorem C14_tie_reset_exact : forall c o,
  let c' := finish (RunArgComposer_reset c o) in
  a_statement c' = dflt (a_statement c) (ro_statement o) /\
  a_run_no_count c' = dflt (a_run_no_count c) (ro_run_no_start_from o) /\
  a_trace_threads c' = dflt (a_trace_threads c) (ro_trace_threads o) /\
  a_trace_modules c' = dflt (a_trace_modules c) (ro_trace_modules o) /\
  a_filename c' = a_filename c.
Proof. exact reset_exact. Qed.

(** on_change_script is awaited iff a statement is given, showing that statement, when only the statement has
    been stored; the other options are applied after it to the composer as it is then *)
Theorem C14_tie_reset_hook_position : forall c o,
  match ro_statement o with
  | Some x => exists k, RunArgComposer_reset c o = Await (set_statement c x) (OnChangeScript x (a_filename c)) k /\
                        forall c1, exists c2, k c1 = Ret c2 /\
                          a_statement c2 = a_statement c1 /\
                          a_run_no_count c2 = dflt (a_run_no_count c1) (ro_run_no_start_from o) /\
                          a_trace_threads c2 = dflt (a_trace_threads c1) (ro_trace_threads o) /\
                          a_trace_modules c2 = dflt (a_trace_modules c1) (ro_trace_modules o) /\
                          a_filename c2 = a_filename c1
  | None => exists c2, RunArgComposer_reset c o = Ret c2
  end.
Proof. exact reset_hook_position. Qed.

Theorem C14_tie_reset_no_options_is_identity : forall c,
  finish (RunArgComposer_reset c ResetOptions_defaults) = c /\ hooks_in (RunArgComposer_reset c ResetOptions_defaults) = [].
Proof. exact reset_no_options_is_identity. Qed.

(** compose_run_arg consumes exactly one number and copies the other attributes *)
Theorem C14_tie_compose_one : forall c,
  let '(ra, c') := RunArgComposer_compose_run_arg c in
  rg_run_no ra = a_run_no_count c /\ rg_statement ra = a_statement c /\ rg_filename ra = Some (a_filename c) /\
  rg_trace_threads ra = a_trace_threads c /\ rg_trace_modules ra = a_trace_modules c /\
  c' = set_run_no_count c (a_run_no_count c + 1).
Proof. exact compose_one. Qed.

(** the numbers handed out by n initialisations in a row are consecutive: from the configured start of a new
    object, from the restart value after a reset that gives one, going on after a reset that gives none *)
Theorem C14_tie_numbers_from_init : forall n io,
  fst (compose_n n (RunArgComposer_init io)) = map (fun i => io_run_no_start_from io + Z.of_nat i) (seq 0 n).
Proof. exact numbers_from_init. Qed.

Theorem C14_tie_numbers_after_restart : forall n c o start,
  ro_run_no_start_from o = Some start ->
  fst (compose_n n (finish (RunArgComposer_reset c o))) = map (fun i => start + Z.of_nat i) (seq 0 n).
Proof. exact numbers_after_restart. Qed.

Theorem C14_tie_numbers_after_plain_reset : forall n c o,
  ro_run_no_start_from o = None ->
  fst (compose_n n (finish (RunArgComposer_reset c o))) = map (fun i => a_run_no_count c + Z.of_nat i) (seq 0 n).
Proof. exact numbers_after_plain_reset. Qed.

(** defaults and argument wiring of Nextline(...) / Nextline.reset(...): [Nextline_init_options] / [Nextline_reset_options]
    are the record HANDED to Imp(...) / Imp.reset(...), computed by the translated statement lists of the two methods
    (a store through the record, an `if`, a re-binding by an untranslatable expression are refused by the translator);
    Imp.__init__ -> hook.init and Imp.reset -> the reset hook are NOT followed here (imp.py, fsm/) *)
Theorem C14_tie_defaults :
  (forall stmt, Nextline_init_options stmt Nextline_init_default_run_no_start_from
                  Nextline_init_default_trace_threads Nextline_init_default_trace_modules
                = InitOptions_defaults stmt) /\
  (forall stmt, cfields_of (RunArgComposer_init (InitOptions_defaults stmt)) = (stmt, 1, false, false)) /\
  Nextline_reset_options Nextline_reset_default_statement Nextline_reset_default_run_no_start_from
    Nextline_reset_default_trace_threads Nextline_reset_default_trace_modules = ResetOptions_defaults /\
  ResetOptions_defaults = ResetOptions_kw None None None None /\
  RunNoCounter_default_start = 1.
Proof. exact tie_defaults. Qed.

Theorem C14_tie_option_wiring :
  (forall a b c d, Nextline_init_options a b c d = InitOptions_kw a b c d) /\
  (forall a b c d, Nextline_reset_options a b c d = ResetOptions_kw a b c d).
Proof. exact tie_option_wiring. Qed.

(** [C14_reset_atomic] read on the transcribed code: when reset(o) returns normally, [run_arg] is the
    transcribed compose_run_arg of the transcribed reset of the composer as it was when this reset began *)
Theorem C14_tie_reset_atomic : forall stmt start th md ls l t o,
  let s := run_labels (init_state stmt start th md) ls in
  let s' := step s l in
  In (EvRet t (CReset o) ROk) (appended s s') ->
  st_fsm s' = Initialized /\
  run_arg s' = Some (runarg_of (fst (RunArgComposer_compose_run_arg
                 (finish (RunArgComposer_reset (composer_of (fst (snapshot stmt start th md ls))) (ropts o)))))).
Proof. exact reset_atomic_gen. Qed.

(** non-vacuity on the transcribed functions: reset(trace_threads=False) switches thread tracing off;
    reset(statement=2, run_no_start_from=3) given at counter value 3 restarts at 3 *)
Example C14_tie_example :
  a_trace_threads (finish (RunArgComposer_reset (Composer_mk 3 1 SCRIPT_FILE_NAME true true)
                                                 (ResetOptions_kw None None (Some false) None))) = false /\
  fst (compose_n 3 (finish (RunArgComposer_reset (Composer_mk 3 1 SCRIPT_FILE_NAME true true)
                                                  (ResetOptions_kw (Some 2) (Some 3) None None)))) = [3; 4; 5].
Proof. exact reset_false_is_applied. Qed.

Print Assumptions C14_run_no_first.
Print Assumptions C14_run_no_consecutive.
Print Assumptions C14_init_record_block.
Print Assumptions C14_numbers_carried_run_no.
Print Assumptions C14_numbers_carried_initialized_info.
Print Assumptions C14_numbers_carried_run_info.
Print Assumptions C14_numbers_carried_end_run.
Print Assumptions C14_spec_latest_init_no.
Print Assumptions C14_numbers_carried_refuted.
Print Assumptions C14_executed_is_displayed.
Print Assumptions C14_run_arg_is_composer.
Print Assumptions C14_run_arg_is_composer_at_run_start.
Print Assumptions C14_no_run_during_reset.
Print Assumptions C14_reset_atomic.
Print Assumptions C14_reset_options_applied.
Print Assumptions C14_reset_refused_changes_nothing.
Print Assumptions C14_tie_init.
Print Assumptions C14_tie_initialize_run.
Print Assumptions C14_tie_enter_start.
Print Assumptions C14_tie_start_resume.
Print Assumptions C14_tie_enter_reset.
Print Assumptions C14_tie_resume_reset.
Print Assumptions C14_tie_reset_whole.
Print Assumptions C14_tie_registrars.
Print Assumptions C14_tie_reset_exact.
Print Assumptions C14_tie_reset_hook_position.
Print Assumptions C14_tie_reset_no_options_is_identity.
Print Assumptions C14_tie_compose_one.
Print Assumptions C14_tie_numbers_from_init.
Print Assumptions C14_tie_numbers_after_restart.
Print Assumptions C14_tie_numbers_after_plain_reset.
Print Assumptions C14_tie_defaults.
Print Assumptions C14_tie_option_wiring.
Print Assumptions C14_tie_reset_atomic.
Print Assumptions C14_tie_example.
Print Assumptions C14_tie_registrars_assert.
Print Assumptions C14_tie_never_raises.
Print Assumptions C14_tie_reset_interrupted_at_hook.
