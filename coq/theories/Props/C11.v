(** C11 -- published run state agrees with the event stream and is closed out at run end.
    Property theorems only: those of the first half are closed by [exact] of a lemma of
    Registrars/Proofs.v, those of the tie (second half) by lemmas of Registrars/Tie.v and
    Registrars/NoRaise.v; [C11_tie_untranslated_pinned] is read off [Tie.untranslated_pinned].

    Model: Registrars/Model.v ([pubs_events r es]: what the registrars hand to the broker for
    on_initialize_run, on_start_run and the events [es]; [pubs_run r es]: the same followed by
    on_end_run).  Every statement quantifies over EVERY stream [es] accepted by C09's prefix
    recogniser, i.e. (C09_prefix_closed) every well-formed stream cut at any point: a kill.
    The expected values ([active], [pl_of], [notices] ...) are functions of the history alone.
 *)
From NL Require Import Events.Grammar Events.GrammarProofs Registrars.Model Registrars.Proofs Registrars.Order.
Open Scope Z_scope.

(** after each event the last tuple published on trace_nos is the list of traces started and
    not yet ended, in start order *)
Theorem C11_active_set : forall r es, wf_prefix r es = true ->
  last_nos (pubs_events r es) = active es.
Proof. exact active_set. Qed.

(** over the whole run (including the leftovers closed by on_end_run after a kill) the
    trace_info publications about a trace are: running, finished -- exactly once each -- if
    the trace started, and nothing otherwise *)
Theorem C11_trace_info_once : forall r es, wf_prefix r es = true ->
  forall t,
    filter (about t) (on_topic TTraceInfo (pubs_run r es)) =
    if in_dec Z.eq_dec t (trace_starts es)
    then [Some (VTraceInfo r t (pl_of t es) true); Some (VTraceInfo r t (pl_of t es) false)]
    else [].
Proof. exact trace_info_once. Qed.

(** the notices published on prompt_notice are, in order, exactly one per prompt start of the
    stream, each carrying the trace/prompt numbers and text of that start and the location of
    the trace call that contains it *)
Theorem C11_notice_bijection : forall r es, wf_prefix r es = true ->
  on_topic TPromptNotice (pubs_events r es) = notices r es es.
Proof. exact notice_bijection. Qed.

(** prompts are reported open and then closed with the command that answered them.  Exactly:
    over the whole run (the events of any truncated stream, then on_end_run) the publications
    that report on a prompt ([is_report]: a PromptInfo carrying the prompt text) are, on
    prompt_info, in stream order: one open=true report for each OnStartPrompt (numbers and
    text of that event, location of the enclosing trace call) and one open=false report for
    each OnEndPrompt carrying the command of THAT event and the numbers/location/text of the
    prompt -- nothing else; on prompt_info_<t> the same for the prompts of trace t.  By the
    grammar (C09) the OnEndPrompt of a prompt follows its OnStartPrompt, at most once; a prompt
    still open when the stream is cut (kill) has no OnEndPrompt and gets no closing report,
    neither from the events nor from on_end_run *)
Theorem C11_prompt_open_close : forall r es, wf_prefix r es = true ->
  filter is_report (on_topic TPromptInfo (pubs_run r es)) = prompt_reports r es es /\
  forall t, filter is_report (on_topic (TPromptInfoFor t) (pubs_run r es)) = prompt_reports r es (proj t es).
Proof. exact prompt_open_close. Qed.

(** closed out: after on_end_run the published active set is () *)
Theorem C11_closed_out_active_set : forall r es, last_nos (pubs_run r es) = [].
Proof. exact active_set_closed. Qed.

(** closed out: the per-trace prompt topic of every started trace has been ended exactly
    once, as the last thing sent on it; likewise prompt_notice *)
Theorem C11_closed_out_prompt_topics : forall r es, wf_prefix r es = true ->
  (forall t, In t (trace_starts es) ->
     exists vs, on_topic (TPromptInfoFor t) (pubs_run r es) = map Some vs ++ [None]) /\
  (exists vs, on_topic TPromptNotice (pubs_run r es) = map Some vs ++ [None]).
Proof. exact closed_out_prompt_topics. Qed.

(** closed out: with the pub/sub theorems (C08): whatever the subscribers of such a topic
    did and whenever they attached to it (any interleaving [ops] of their operations with the
    registrar's publications [obs] on the topic), each of them terminates *)
Theorem C11_closed_out_subscribers_terminate : forall obs ops,
  (exists vs, obs = map Some vs ++ [None]) ->
  map forget (filter is_publisher_op ops) = map to_op obs ->
  forall s, (s < length (PS.i_subs (PS.run false ops)))%nat ->
  exists n,
    let tail := skipn (length ops) (PS.outs false (ops ++ repeat (PS.Next s) (S n))) in
    last tail PS.OBlocked = PS.OStop /\ ~ In PS.OBlocked tail.
Proof. exact ended_topic_terminates. Qed.

(** non-vacuity: a run killed with two traces live, one of them at an open prompt *)
Definition ex_killed : list event :=
  [StartTrace 1 1 10; StartTraceCall 1 1 1 5 7; StartCmdloop 1 1 1; StartPrompt 1 1 1 1 3;
   StartTrace 1 2 11; EndPrompt 1 1 1 1 9; EndCmdloop 1 1 1; EndTraceCall 1 1 1;
   StartTrace 1 3 12; EndTrace 1 3;
   StartTraceCall 1 2 2 6 8; StartCmdloop 1 2 2; StartPrompt 1 2 2 2 3].

Example C11_example_nonvacuous :
  wf_prefix 1 ex_killed = true /\ wf 1 ex_killed = false /\
  active ex_killed = [1; 2] /\
  last_nos (pubs_events 1 ex_killed) = [1; 2] /\
  last_nos (pubs_run 1 ex_killed) = [] /\
  on_topic TTraceInfo (pubs_run 1 ex_killed) =
    [Some (VTraceInfo 1 1 10 true); Some (VTraceInfo 1 2 11 true); Some (VTraceInfo 1 3 12 true);
     Some (VTraceInfo 1 3 12 false); Some (VTraceInfo 1 2 11 false); Some (VTraceInfo 1 1 10 false)] /\
  last (on_topic (TPromptInfoFor 2) (pubs_run 1 ex_killed)) (Some (VNos [])) = None /\
  length (on_topic (TPromptInfoFor 2) (pubs_run 1 ex_killed)) = 3%nat /\
  on_topic TPromptNotice (pubs_run 1 ex_killed) =
    [Some (VNotice 1 1 1 3 7); Some (VNotice 1 2 2 3 8); None] /\
  notices 1 ex_killed ex_killed = [Some (VNotice 1 1 1 3 7); Some (VNotice 1 2 2 3 8)] /\
  filter is_report (on_topic TPromptInfo (pubs_run 1 ex_killed)) =
    [Some (VPromptInfo (mkPinfo 1 1 1 true (Some 7) (Some 3) None false));
     Some (VPromptInfo (mkPinfo 1 1 1 false (Some 7) (Some 3) (Some 9) false));
     Some (VPromptInfo (mkPinfo 1 2 2 true (Some 8) (Some 3) None false))] /\
  prompt_reports 1 ex_killed (proj 2 ex_killed) =
    [Some (VPromptInfo (mkPinfo 1 2 2 true (Some 8) (Some 3) None false))] /\
  raised (pubs_run 1 ex_killed) = false.
Proof. vm_compute. repeat split; reflexivity. Qed.

(** Tie of Registrars/Model.v to the source (Registrars/Tie.v): the hook implementations of
    nextline/plugin/plugins/registrars/*.py are REGENERATED on every check as statement ASTs
    (Gen/RegistrarsFuns.v, translate/registrars_funs.py); [Tie.run_class] interprets one of them on
    the encoded state of its registrar, [Tie.call_hook] runs all implementations of a hook in
    pluggy's call order computed from Gen/HookOrder.v, [Tie.run_event] goes through the regenerated
    dispatch table of OnEvent.  Each theorem: for ALL model states and ALL events the interpreted
    source yields exactly (the encoding of) the state and the publication list of the model. *)
From NL Require Import Registrars.Syntax Gen.RegistrarsFuns Gen.HookOrder Registrars.Tie Registrars.NoRaise.
Local Open Scope string_scope.

(** one obligation per registrar: every hook it implements against the model's function *)
Theorem C11_tie_TraceNumbersRegistrar :
  (forall rn l, run_class rn "TraceNumbersRegistrar" "on_initialize_run" [] (load_tn l) = Some (load_tn [], [])) /\
  (forall rn l r t pl, tied load_tn rn "TraceNumbersRegistrar" "on_start_trace" [("event", enc_event (StartTrace r t pl))] l (tn_start l t)) /\
  (forall rn l r t, tied load_tn rn "TraceNumbersRegistrar" "on_end_trace" [("event", enc_event (EndTrace r t))] l (tn_end l t)) /\
  (forall rn l a, tied load_tn rn "TraceNumbersRegistrar" "on_end_run" a l (tn_end_run l)).
Proof. exact (conj tie_tn_init (conj tie_tn_start (conj tie_tn_end tie_tn_end_run))). Qed.

Theorem C11_tie_TraceInfoRegistrar :
  (forall rn m, run_class rn "TraceInfoRegistrar" "on_initialize_run" [] (load_ti m) = Some (load_ti [], [])) /\
  (forall rn m r t pl, tied load_ti rn "TraceInfoRegistrar" "on_start_trace" [("event", enc_event (StartTrace r t pl))] m (ti_start rn m t pl)) /\
  (forall rn m r t, tied load_ti rn "TraceInfoRegistrar" "on_end_trace" [("event", enc_event (EndTrace r t))] m (ti_end m t)) /\
  (forall rn m a, tied load_ti rn "TraceInfoRegistrar" "on_end_run" a m (ti_end_run m)).
Proof. exact (conj tie_ti_init (conj tie_ti_start (conj tie_ti_end tie_ti_end_run))). Qed.

Theorem C11_tie_PromptInfoRegistrar :
  (forall rn s, run_class rn "PromptInfoRegistrar" "on_initialize_run" [] (load_pi s) = Some (load_pi pi_empty, [])) /\
  (forall rn s r t pl, tied load_pi rn "PromptInfoRegistrar" "on_start_trace" [("event", enc_event (StartTrace r t pl))] s (pi_start_trace rn s t)) /\
  (forall rn s r t, tied load_pi rn "PromptInfoRegistrar" "on_end_trace" [("event", enc_event (EndTrace r t))] s (pi_end_trace s t)) /\
  (forall rn s r t c fid info, tied load_pi rn "PromptInfoRegistrar" "on_start_trace_call" [("event", enc_event (StartTraceCall r t c fid info))] s (pi_start_call s t fid info)) /\
  (forall rn s r t c, tied load_pi rn "PromptInfoRegistrar" "on_end_trace_call" [("event", enc_event (EndTraceCall r t c))] s (pi_end_call rn s t)) /\
  (forall rn s r t c p txt, tied load_pi rn "PromptInfoRegistrar" "on_start_prompt" [("event", enc_event (StartPrompt r t c p txt))] s (pi_start_prompt rn s t p txt)) /\
  (forall rn s r t c p cmd, tied load_pi rn "PromptInfoRegistrar" "on_end_prompt" [("event", enc_event (EndPrompt r t c p cmd))] s (pi_end_prompt s t p cmd)) /\
  (forall rn s a, tied load_pi rn "PromptInfoRegistrar" "on_end_run" a s (pi_end_run s)).
Proof.
  exact (conj tie_pi_init (conj tie_pi_start_trace (conj tie_pi_end_trace (conj tie_pi_start_call
        (conj tie_pi_end_call (conj tie_pi_start_prompt (conj tie_pi_end_prompt tie_pi_end_run))))))).
Qed.

Theorem C11_tie_PromptNoticeRegistrar :
  (forall rn m, run_class rn "PromptNoticeRegistrar" "on_initialize_run" [] (load_pn m) = Some (load_pn [], [])) /\
  (forall rn m r t c fid info, tied load_pn rn "PromptNoticeRegistrar" "on_start_trace_call" [("event", enc_event (StartTraceCall r t c fid info))] m (pn_start_call m t fid info)) /\
  (forall rn m r t c, tied load_pn rn "PromptNoticeRegistrar" "on_end_trace_call" [("event", enc_event (EndTraceCall r t c))] m (pn_end_call m t)) /\
  (forall rn m r t c p txt, tied load_pn rn "PromptNoticeRegistrar" "on_start_prompt" [("event", enc_event (StartPrompt r t c p txt))] m (pn_start_prompt rn m t p txt)) /\
  (forall rn m a, tied load_pn rn "PromptNoticeRegistrar" "on_end_run" a m (pn_end_run m)).
Proof. exact (conj tie_pn_init (conj tie_pn_start_call (conj tie_pn_end_call (conj tie_pn_start_prompt tie_pn_end_run)))). Qed.

Theorem C11_tie_RunInfoRegistrar :
  (forall rn s, run_class rn "RunInfoRegistrar" "on_initialize_run" [] (load_ri rn s) =
                Some (load_ri rn (fst (ri_init rn)), map enc_pub (snd (ri_init rn)))) /\
  (forall rn s, tied (load_ri rn) rn "RunInfoRegistrar" "on_start_run" (run_event_arg "OnStartRun") s (ri_start_run rn s)) /\
  (forall rn s, tied (load_ri rn) rn "RunInfoRegistrar" "on_end_run" (run_event_arg "OnEndRun") s (ri_end_run rn s)).
Proof. exact (conj tie_ri_init (conj tie_ri_start_run tie_ri_end_run)). Qed.

Theorem C11_tie_StdoutRegistrar : forall rn r t txt,
  run_class rn "StdoutRegistrar" "on_write_stdout" [("event", enc_event (WriteStdout r t txt))] [] =
  Some ([], map enc_pub (so_write rn t txt)).
Proof. exact tie_so_write. Qed.

(** the registrars whose topics are outside the model (run_no, state_name, statement,
    script_file_name): exactly one publication of the given value per call, no state *)
Theorem C11_tie_other_registrars :
  (forall rn, run_class rn "RunNoRegistrar" "on_initialize_run" [] [] = Some ([], [GPub (VStr "run_no") (VInt rn)])) /\
  (forall rn v, run_class rn "StateNameRegistrar" "on_change_state" [("state_name", v)] [] = Some ([], [GPub (VStr "state_name") v])) /\
  (forall rn v w, run_class rn "ScriptRegistrar" "on_change_script" [("script", v); ("filename", w)] [] =
                  Some ([], [GPub (VStr "statement") v; GPub (VStr "script_file_name") w])).
Proof. exact (conj tie_run_no (conj tie_state_name tie_script)). Qed.

(** composed as a run calls them: the regenerated dispatch of OnEvent, then every implementation
    of the hook in pluggy's call order (from Gen/HookOrder.v), equals the model's [on_event] *)
Theorem C11_tie_on_event : forall rn s e,
  run_event rn (loadR rn s) e = Some (loadR rn (fst (on_event rn s e)), map enc_pub (snd (on_event rn s e))).
Proof. exact tie_on_event. Qed.

Theorem C11_tie_on_initialize_run : forall rn s,
  call_hook rn "on_initialize_run" [] (loadR rn s) =
  Some (loadR rn (fst (on_initialize_run rn s)),
        GPub (VStr "run_no") (VInt rn) :: map enc_pub (snd (on_initialize_run rn s))).
Proof. exact tie_on_initialize_run. Qed.

Theorem C11_tie_on_start_run : forall rn s,
  call_hook rn "on_start_run" (run_event_arg "OnStartRun") (loadR rn s) =
  Some (loadR rn (fst (on_start_run rn s)), map enc_pub (snd (on_start_run rn s))).
Proof. exact tie_on_start_run. Qed.

Theorem C11_tie_on_end_run : forall rn s,
  call_hook rn "on_end_run" (run_event_arg "OnEndRun") (loadR rn s) =
  Some (loadR rn (fst (on_end_run rn s)), map enc_pub (snd (on_end_run rn s))).
Proof. exact tie_on_end_run. Qed.

(** a whole run (any stream, cut anywhere), interpreted from the registrars as constructed: the
    publications are 'run_no' followed by the encoding of the model's [pubs_run] ... *)
Theorem C11_tie_whole_run : forall rn es,
  run_whole rn es =
  Some (loadR rn (fst (on_end_run rn (state_events rn es))),
        GPub (VStr "run_no") (VInt rn) :: map enc_pub (pubs_run rn es)).
Proof. exact tie_whole_run. Qed.

(** ... so what the interpreted source sends on each topic is the encoding of the model's
    [on_topic k (pubs_run rn es)], the sequence every theorem above speaks about *)
Theorem C11_tie_whole_run_topics : forall rn es,
  exists G ps, run_whole rn es = Some (G, ps) /\
    forall k, g_on_topic k ps = map (option_map enc_value) (on_topic k (pubs_run rn es)).
Proof. exact tie_whole_run_topics. Qed.

(** PINS (reflexivity between regenerated tables and terms written here, no simulation): the encoded
    state has exactly the classes and tracked attributes the translator found; the dispatch table is
    the one Registrars/Order.v ties to the model *)
Theorem C11_tie_state_shape : forall rn s,
  map (fun cs => (fst cs, map (fun ak => (fst ak, kind_of (snd ak))) (snd cs))) (loadR rn s) =
  map (fun g => (g_name g, g_attrs g)) Gen.RegistrarsFuns.registrars.
Proof. exact loadR_shape. Qed.

Theorem C11_tie_dispatch : Gen.RegistrarsFuns.funs_dispatch = Gen.HookOrder.on_event_dispatch.
Proof. exact dispatch_same. Qed.

(** non-vacuity of the tie: the killed run of C11_example_nonvacuous, interpreted *)
Example C11_tie_example :
  option_map (fun Gp => g_on_topic TTraceInfo (snd Gp)) (run_whole 1 ex_killed) =
  Some (map (option_map enc_value) (on_topic TTraceInfo (pubs_run 1 ex_killed))) /\
  option_map (fun Gp => List.length (snd Gp)) (run_whole 1 ex_killed) = Some 32%nat.
Proof. vm_compute. split; reflexivity. Qed.

(** Exceptions.  In the code a raising hook implementation kills the relay: later events are not
    dispatched and on_end_run is not awaited.  [pubs_run] (and [run_whole]) go on after a [Raise];
    the next theorems say that this never matters for the streams the theorems quantify over, and
    give the driver that stops as the code does. *)

(** no hook implementation of a registrar raises on a well-formed stream cut anywhere (on_end_run
    included): the KeyErrors of on_start_prompt / on_end_prompt and the asserts of RunInfoRegistrar
    are unreachable under the grammar of C09 *)
Theorem C11_no_raise : forall r es, wf_prefix r es = true -> raised (pubs_run r es) = false.
Proof. exact no_raise. Qed.

(** the relay as the code runs it ([run_events_stop]: stop dispatching at the first event in which
    an implementation raised) on the regenerated bodies = the model's [on_event] iterated with the
    same stop rule, for ALL states and ALL streams (well formed or not) *)
Theorem C11_tie_relay_stops_at_raise : forall rn es s,
  run_events_stop rn (loadR rn s) es =
  Some (loadR rn (fst (fst (feed_stop rn s es))), map enc_pub (snd (fst (feed_stop rn s es))), snd (feed_stop rn s es)).
Proof. exact tie_feed_stop. Qed.

(** the whole run with that rule (no on_end_run after an exception): on a stream accepted by
    wf_prefix it is never cut short and sends exactly 'run_no' followed by the model's [pubs_run] *)
Theorem C11_tie_whole_run_stop : forall rn es, wf_prefix rn es = true ->
  run_whole_stop rn es =
  Some (loadR rn (fst (on_end_run rn (state_events rn es))),
        GPub (VStr "run_no") (VInt rn) :: map enc_pub (pubs_run rn es), false).
Proof. exact tie_whole_run_stop. Qed.

(** outside the grammar the run IS cut short (OnStartPrompt with no trace call open: KeyError,
    relay dead, prompt_notice never ended) *)
Example C11_tie_run_stops_at_raise :
  option_map (fun x => (snd x, g_on_topic TPromptNotice (snd (fst x))))
    (run_whole_stop 1 [StartTrace 1 1 10; StartPrompt 1 1 1 1 3; EndTrace 1 1]) = Some (true, []).
Proof. exact run_stops_at_raise. Qed.

(** PIN of everything the translator does not translate (asserts on the context / on time stamps,
    ASSUMED to hold; statements and values that only feed untracked dataclass fields): its text, as
    regenerated, is the text the tie was written for.  No semantics is given to these positions. *)
Theorem C11_tie_untranslated_pinned :
  map fst Gen.RegistrarsFuns.untranslated =
  ["StdoutRegistrar.on_write_stdout"; "PromptNoticeRegistrar.on_start_prompt"; "PromptInfoRegistrar.on_start_trace";
   "PromptInfoRegistrar.on_end_trace_call"; "PromptInfoRegistrar.on_start_prompt"; "PromptInfoRegistrar.on_end_prompt";
   "TraceInfoRegistrar.on_end_run"; "TraceInfoRegistrar.on_start_trace"; "TraceInfoRegistrar.on_end_trace";
   "RunInfoRegistrar.on_initialize_run"; "RunInfoRegistrar.on_start_run"; "RunInfoRegistrar.on_end_run";
   "RunNoRegistrar.on_initialize_run"] /\
  flat_map snd Gen.RegistrarsFuns.untranslated =
  ["assert context.run_arg"; "StdoutInfo: written_at=event.written_at";
   "assert context.run_arg"; "PromptNotice: started_at=event.started_at";
   "assert context.run_arg"; "assert context.run_arg";
   "assert context.run_arg"; "PromptInfo: started_at=event.started_at";
   "replace: ended_at=event.ended_at";
   "replace: ended_at=datetime.datetime.utcnow()";
   "assert context.run_arg"; "TraceInfo: started_at=event.started_at";
   "replace: ended_at=event.ended_at";
   "assert context.run_arg";
   "if isinstance(context.run_arg.statement, str): script = context.run_arg.statement else: script = None";
   "RunInfo: script=script";
   "assert event.started_at.tzinfo is timezone.utc"; "started_at = event.started_at.replace(tzinfo=None)";
   "replace: started_at=started_at";
   "assert event.ended_at.tzinfo is timezone.utc"; "ended_at = event.ended_at.replace(tzinfo=None)";
   "replace: ended_at=ended_at"; "replace: exception=event.raised"; "replace: result=event.returned";
   "assert context.run_arg"].
Proof. rewrite untranslated_pinned. split; reflexivity. Qed.

Print Assumptions C11_active_set.
Print Assumptions C11_trace_info_once.
Print Assumptions C11_notice_bijection.
Print Assumptions C11_prompt_open_close.
Print Assumptions C11_closed_out_active_set.
Print Assumptions C11_closed_out_prompt_topics.
Print Assumptions C11_closed_out_subscribers_terminate.
Print Assumptions C11_tie_TraceNumbersRegistrar.
Print Assumptions C11_tie_TraceInfoRegistrar.
Print Assumptions C11_tie_PromptInfoRegistrar.
Print Assumptions C11_tie_PromptNoticeRegistrar.
Print Assumptions C11_tie_RunInfoRegistrar.
Print Assumptions C11_tie_StdoutRegistrar.
Print Assumptions C11_tie_other_registrars.
Print Assumptions C11_tie_on_event.
Print Assumptions C11_tie_on_initialize_run.
Print Assumptions C11_tie_on_start_run.
Print Assumptions C11_tie_on_end_run.
Print Assumptions C11_tie_whole_run.
Print Assumptions C11_tie_whole_run_topics.
Print Assumptions C11_tie_state_shape.
Print Assumptions C11_tie_dispatch.
Print Assumptions C11_no_raise.
Print Assumptions C11_tie_relay_stops_at_raise.
Print Assumptions C11_tie_whole_run_stop.
Print Assumptions C11_tie_untranslated_pinned.
