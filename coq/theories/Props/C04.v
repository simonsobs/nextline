(** C04 -- tracing is transparent: the script computes what it would untraced.   PARTIAL.

    C04 is decided MAINLY BY THE DIFFERENTIAL RUNS of harness/props/c04.py: generated programs (and the
    compile-flag / exec-environment sensitive family) executed by the real nextline.spawned.main and,
    in the same interpreter, directly; standard output (whole and per thread/task), return value,
    exception type/message and traceback frames are compared.  None of that is a theorem: "a trace
    function only observes" is a CPython guarantee, not a consequence of anything proved here.

    The small part that IS a theorem:
      - what the three traceback-cleaning functions (GENERATED transcription Gen/TbFuns.v) do to the raw
        tracebacks of the first three of the four shapes Tb/Model.v assumes to occur (runner frame + user traceback;
        runner + pluggy + compose frames for a compile-time SyntaxError; runner + user stack +
        WithContext... for a Ctrl-C during a line/return/exception trace call), over the seven frame
        classes of Gen/TbFuns.v.  C04_traceback_user_only's first clause, clean Ordinary (Runner :: u) = u, is
        [reflexivity]: _remove_frame drops the head and nothing else applies.  Which raw shapes occur is
        an assumption, validated by the cases.v comparison with fmt_exc on every run;
      - C04_interrupt_at_call: the shape of a Ctrl-C during a CALL trace call (global_.py, pluggy and local_.py frames
        between the user's frames and WithContext) is cleaned to the user prefix as well;
      - C04_prompts_prefix_monotone: the debugger model is a transducer over a stream fixed in advance.
        This is prefix-monotonicity of a fold for ONE policy -- true of any transducer.  It does NOT
        prove that the script's behaviour is independent of the commands; it only makes the modelling
        assumption of Bdb/Model.v visible: the event stream is an INPUT of the run, never a function of
        the commands. *)
From NL Require Import Tb.Model Tb.Proofs.
From NL Require Bdb.Model Bdb.Causal.
Open Scope list_scope.

(** the cleaned traceback is the user's traceback: an exception escaping the script loses exactly the
    runner's frame; a SyntaxError raised by compile() in compose.py has no traceback; a KeyboardInterrupt
    raised inside a trace call keeps the program's stack and nothing of WithContext or the plugins *)
Theorem C04_traceback_user_only :
  (forall u, clean Ordinary (raw_ordinary u) = u) /\
  (forall plug comp, clean SyntaxErr (raw_syntax plug comp) = []) /\
  (forall f u inner, forallb user_frame (f :: u) = true -> clean KbdInterrupt (raw_kbd (f :: u) inner) = f :: u).
Proof. exact (conj (fun u => eq_refl) (conj clean_syntax_compiled_here clean_kbd_user_cut)). Qed.

(** an exception raised at run time from the user's code, whatever its class (a SyntaxError / IndentationError / TabError
    raised by exec, eval, compile, ast.parse, import or `raise` included; a KeyboardInterrupt raised by the program too):
    the cleaned traceback is exactly the user's frames *)
Theorem C04_runtime_exception_any_class : forall k u,
  forallb user_frame u = true -> clean k (raw_ordinary u) = u.
Proof. exact clean_runtime_any_class. Qed.

Theorem C04_no_nextline_frames :
  (forall u, forallb user_frame u = true -> existsb nextline_frame (clean Ordinary (raw_ordinary u)) = false) /\
  (forall f u inner, forallb user_frame (f :: u) = true ->
     existsb nextline_frame (clean KbdInterrupt (raw_kbd (f :: u) inner)) = false).
Proof. exact (conj no_nextline_ordinary no_nextline_kbd). Qed.

(** Ctrl-C while the prompt of a CALL event is open: a call event reaches
    WithContext through the global trace function (global_.py -> pluggy -> local_.py); the cleaner cuts at the first
    frame of global_.py or of WithContext's module, so the frames in between go too: the user prefix remains *)
Theorem C04_interrupt_at_call : forall f u mid inner,
  forallb user_frame (f :: u) = true ->
  clean KbdInterrupt (raw_kbd_call (f :: u) mid inner) = f :: u /\
  existsb nextline_frame (clean KbdInterrupt (raw_kbd_call (f :: u) mid inner)) = false.
Proof. exact (fun f u mid inner H => conj (clean_kbd_call_cut f u mid inner H) (no_nextline_kbd_call f u mid inner H)). Qed.

(** prefix-monotonicity (one policy): what was prompted for [evs] is unchanged when the stream goes on *)
Theorem C04_prompts_prefix_monotone : forall c pol evs later,
  exists rest_p rest_c,
    Bdb.Model.prompts c pol (evs ++ later) = Bdb.Model.prompts c pol evs ++ rest_p /\
    Bdb.Model.trace_calls c pol (evs ++ later) = Bdb.Model.trace_calls c pol evs ++ rest_c.
Proof. exact Bdb.Causal.commands_do_not_feed_back. Qed.

Example C04_example_nonvacuous :
  clean Ordinary (raw_ordinary [User; Lib; User]) = [User; Lib; User] /\
  clean SyntaxErr (raw_syntax [Plugin; Plugin] [Compose]) = [] /\
  clean KbdInterrupt (raw_kbd [User; User] [Plugin; Plugin; Lib]) = [User; User] /\
  clean KbdInterrupt (raw_kbd_call [User; User] [Plugin; Plugin; Plugin] [Plugin; Lib]) = [User; User] /\
  clean SyntaxErr (raw_ordinary [User; User]) = [User; User].
Proof. vm_compute. repeat split; reflexivity. Qed.

Print Assumptions C04_traceback_user_only.
Print Assumptions C04_no_nextline_frames.
Print Assumptions C04_runtime_exception_any_class.
Print Assumptions C04_prompts_prefix_monotone.
Print Assumptions C04_interrupt_at_call.
