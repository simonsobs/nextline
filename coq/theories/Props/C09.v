(** C09 -- the subprocess emits a well-formed, properly nested event stream.
    Property theorems only; each is closed by [exact] of a result of Events/GrammarProofs.v,
    Events/Completion.v ([C09_prefix_complete]), Events/EmitterProofs.v or, for the [C09_tie_*] theorems,
    Events/Tie.v ([C09_tie_simulation] is the second half of [Tie.sim]); the examples are evaluations,
    [C09_tie_example_nonvacuous] by way of [Tie.tie_example] and [C09_example_emitter_nonvacuous].

    Grammar (declarative): Events/Grammar.v [WF]; recogniser (executable): [wf], [wf_prefix].
    Emitter model: Events/Emitter.v. *)
From NL Require Import Events.Grammar Events.GrammarProofs Events.Completion Events.Emitter Events.EmitterProofs.
Open Scope Z_scope.

(** the executable recogniser decides exactly the grammar *)
Theorem C09_recogniser_correct : forall r es, wf r es = true <-> WF r es.
Proof. exact recogniser_correct. Qed.

(** every prefix of a well-formed stream (a kill truncates anywhere) is accepted by the
    prefix recogniser *)
Theorem C09_prefix_closed : forall r es, WF r es -> forall n, wf_prefix r (firstn n es) = true.
Proof. exact prefix_closed. Qed.

(** the prefix recogniser accepts every stream that can be completed to a well-formed one *)
Theorem C09_prefix_sound : forall r es, WFP r es -> wf_prefix r es = true.
Proof. exact prefix_sound. Qed.

(** ... and only those: every stream accepted by the prefix recogniser can be completed to a
    well-formed stream (close the open prompt, command loop, trace call and trace of every live
    trace in stack order; a command loop that has not asked yet gets one prompt with a fresh
    number) *)
Theorem C09_prefix_complete : forall r es, wf_prefix r es = true -> exists rest, WF r (es ++ rest).
Proof. exact prefix_complete. Qed.

(** the per-trace automaton accepts exactly the per-trace language *)
Theorem C09_trace_language : forall r t l, prun r t PNone l = Some PDone <-> Trace r t l.
Proof. exact prun_Trace. Qed.

(** the emitter: for EVERY list of structured actor programs and EVERY schedule (interleaving
    of the actors' steps: taking a number from a shared counter, putting an event), if every
    actor has finished the stream put on the queue is well formed ... *)
Theorem C09_emitter_wf : forall r ps sched, finished r ps sched = true -> WF r (emitted r ps sched).
Proof. exact emitter_wf. Qed.

(** ... and at any earlier moment (a kill) it is accepted by the prefix recogniser *)
Theorem C09_emitter_prefix : forall r ps sched, wf_prefix r (emitted r ps sched) = true.
Proof. exact emitter_prefix. Qed.

(** non-vacuity: two interleaved traces, a command loop with two prompts, stdout, numbers
    handed out across traces; a truncation of it; and three corrupted variants *)
Definition ex_stream : list event :=
  [StartTrace 1 1 10; StartTraceCall 1 1 1 5 7; EndTraceCall 1 1 1;
   StartTrace 1 2 11; StartTraceCall 1 2 2 6 8; StartCmdloop 1 2 2;
   StartTraceCall 1 1 3 5 7; StartCmdloop 1 1 3; StartPrompt 1 1 3 1 0;
   StartPrompt 1 2 2 2 0; WriteStdout 1 2 4; EndPrompt 1 2 2 2 9; StartPrompt 1 2 2 3 0;
   EndPrompt 1 1 3 1 9; EndCmdloop 1 1 3; EndTraceCall 1 1 3; WriteStdout 1 1 4;
   EndPrompt 1 2 2 3 9; EndCmdloop 1 2 2; EndTraceCall 1 2 2; EndTrace 1 2; EndTrace 1 1].

Example C09_example_nonvacuous :
  WF 1 ex_stream /\
  wf_prefix 1 (firstn 9 ex_stream) = true /\ wf 1 (firstn 9 ex_stream) = false /\
  (* nested command loop *)
  wf_prefix 1 [StartTrace 1 1 0; StartTraceCall 1 1 1 0 0; StartCmdloop 1 1 1; StartCmdloop 1 1 1] = false /\
  (* command loop without a prompt *)
  wf_prefix 1 [StartTrace 1 1 0; StartTraceCall 1 1 1 0 0; StartCmdloop 1 1 1; EndCmdloop 1 1 1] = false /\
  (* a trace-call number handed out twice *)
  wf_prefix 1 [StartTrace 1 1 0; StartTraceCall 1 1 1 0 0; EndTraceCall 1 1 1; StartTrace 1 2 0; StartTraceCall 1 2 1 0 0] = false /\
  (* stdout after the end of its trace *)
  wf_prefix 1 [StartTrace 1 1 0; EndTrace 1 1; WriteStdout 1 1 0] = false /\
  (* the completion of the truncated stream: trace 1 at an open prompt, trace 2 in a command
     loop that has not asked yet (gets the fresh prompt number 3) *)
  completion 1 (firstn 9 ex_stream) =
    [EndPrompt 1 1 3 1 0; EndCmdloop 1 1 3; EndTraceCall 1 1 3; EndTrace 1 1;
     StartPrompt 1 2 2 3 0; EndPrompt 1 2 2 3 0; EndCmdloop 1 2 2; EndTraceCall 1 2 2; EndTrace 1 2] /\
  wf 1 (firstn 9 ex_stream ++ completion 1 (firstn 9 ex_stream)) = true.
Proof.
  split; [apply recogniser_correct; vm_compute; reflexivity|].
  vm_compute. repeat split; reflexivity.
Qed.

(** non-vacuity of the emitter theorem: two actors, the second actor's trace start put before the first's, every actor finishes *)
Definition ex_progs : list prog :=
  [mkProg 10 [ICall 5 7 None; IOut 4; ICall 5 7 (Some ((0, 9), [(0, 8)]))];
   mkProg 11 [ICall 6 8 (Some ((0, 9), []))]].
Definition ex_sched : list nat :=
  [0; 1; 1; 0; 0; 1; 0; 1; 0; 0; 1; 1; 0; 1; 0; 0; 1; 1; 0; 0; 0; 0; 1; 0; 0; 0; 0; 1; 0; 1; 0; 1; 0]%nat.

Example C09_example_emitter_nonvacuous :
  finished 1 ex_progs ex_sched = true /\
  emitted 1 ex_progs ex_sched =
  [StartTrace 1 2 11; StartTrace 1 1 10; StartTraceCall 1 1 1 5 7; StartTraceCall 1 2 2 6 8;
   EndTraceCall 1 1 1; WriteStdout 1 1 4; StartCmdloop 1 2 2; StartPrompt 1 2 2 1 0;
   StartTraceCall 1 1 3 5 7; StartCmdloop 1 1 3; EndPrompt 1 2 2 1 9; EndCmdloop 1 2 2;
   StartPrompt 1 1 3 2 0; EndPrompt 1 1 3 2 9; EndTraceCall 1 2 2; StartPrompt 1 1 3 3 0;
   EndPrompt 1 1 3 3 8; EndCmdloop 1 1 3; EndTraceCall 1 1 3; EndTrace 1 2; EndTrace 1 1].
Proof. vm_compute. split; reflexivity. Qed.

(** TIE to the code of /repo.  Gen/EmitterSkel.v is regenerated from the source at every check
    (translate/emitter_skeleton.py: the statement trees of Repeater, Factory._context,
    TraceCallHandler, TaskAndThreadKeeper, TaskOrThreadToTraceMapper, CmdloopHook, PromptFunc,
    CustomizedPdb.cmdloop, the counters of count.py, the registration order); Events/Interp.v
    interprets the trees under the structured actor programs and schedules of Events/Emitter.v;
    Events/Tie.v proves the simulation.  The theorems below are about the REGENERATED code. *)
From Coq Require Import String.
From NL Require Import Events.Syntax Gen.EmitterSkel Events.Interp Events.Tie.

(** for ALL programs and ALL schedules the regenerated code puts exactly the model's stream on the queue *)
Theorem C09_tie_same_stream : forall r ps sched, iemitted r ps sched = emitted r ps sched.
Proof. exact tie_same_stream. Qed.

(** ... in lock step: related states after every schedule (counters, every actor at the computed
    state of its program point, the dicts / sets holding under each task / trace number what that
    program point says, nothing under trace numbers not yet handed out).
    The states [K_*] of [Rsys] are `Eval vm_compute` of the interpreter itself on the regenerated
    trees -- this half is self-referential and says nothing by itself; the content is the stream equality
    above (model's stream = interpreter's stream), for which [Rsys] is the induction invariant. *)
Theorem C09_tie_simulation : forall r ps sched,
  Rsys r (fst (irun r (iinit ps) sched)) (fst (run r (init_sys ps) sched)).
Proof. exact (fun r ps sched => proj2 (sim r ps sched)). Qed.

(** hence, stated on the regenerated code: at any moment (a kill) the stream is accepted by the prefix recogniser *)
Theorem C09_tie_prefix : forall r ps sched, wf_prefix r (iemitted r ps sched) = true.
Proof. exact tie_prefix. Qed.

(** ... the code has finished exactly when the model has ... *)
Theorem C09_tie_finished : forall r ps sched, ifinished r ps sched = finished r ps sched.
Proof. exact tie_finished. Qed.

(** ... and then the stream is well formed *)
Theorem C09_tie_wf : forall r ps sched, ifinished r ps sched = true -> WF r (iemitted r ps sched).
Proof. exact tie_wf. Qed.

(** EXCEPTIONS.  The interpreter behind the simulation raises nothing but an explicit `raise` and a failing
    `assert`; there `try: a finally: b` is a-then-b.  What is proved about exceptions is the following, for each
    generator-based hook ON ITS OWN ([gexec]: an exception is THROWN INTO the generator at its first yield, i.e.
    the body of the `with` raised; hook answers after the yield are arbitrary):
    every start event's end is put in a `finally`, with the numbers read at ENTRY -- whether the body of the
    `with` returns or raises ([thrown]), the generator puts exactly start then end, with the same run / trace /
    trace-call / prompt numbers.  Dedenting the put out of the `finally` (or removing the try) changes the
    generated term (STry) and breaks these theorems.
    NOT covered by any theorem: an exception raised by a statement of the hook itself (queue put, KeyError on
    `del`), by the entry of a context manager stacked later, by `hook.hook.prompt`; KeyboardInterrupt going
    through `catch()` in _context and being re-raised after the `with`; how apluggy's stack_gen_ctxs unwinds
    (trusted: inner to outer, as its doctest says); cancellation does not exist in the child (threads, sync code). *)
Theorem C09_tie_end_in_finally_trace_call : forall thrown sent hk r tci,
  map nums (gen_run thrown sent hk r f_Repeater_on_trace_call [tci]) =
  [("OnStartTraceCall"%string, [VNum r; hk false "current_trace_no"%string; field tci "trace_call_no"; VBad]);
   ("OnEndTraceCall"%string, [VNum r; hk false "current_trace_no"%string; field tci "trace_call_no"; VBad])].
Proof. exact tie_end_in_finally_trace_call. Qed.

Theorem C09_tie_end_in_finally_cmdloop : forall thrown sent hk r,
  map nums (gen_run thrown sent hk r f_Repeater_on_cmdloop []) =
  [("OnStartCmdloop"%string, [VNum r; hk false "current_trace_no"%string; hk false "current_trace_call_no"%string; VBad]);
   ("OnEndCmdloop"%string, [VNum r; hk false "current_trace_no"%string; hk false "current_trace_call_no"%string; VBad])].
Proof. exact tie_end_in_finally_cmdloop. Qed.

Theorem C09_tie_end_in_finally_prompt : forall thrown sent hk r pn txt,
  map nums (gen_run thrown sent hk r f_Repeater_on_prompt [pn; txt]) =
  [("OnStartPrompt"%string, [VNum r; hk false "current_trace_no"%string; field (hk false "current_trace_call_info"%string) "trace_call_no"; pn]);
   ("OnEndPrompt"%string, [VNum r; hk false "current_trace_no"%string; field (hk false "current_trace_call_info"%string) "trace_call_no"; pn])].
Proof. exact tie_end_in_finally_prompt. Qed.

(** TraceCallHandler.on_trace_call (thrown or not): no event; every dict / set it writes under the trace number
    read at entry ends with a removal under that same key; as many entries removed as recorded *)
Theorem C09_tie_handler_removes_in_finally : forall thrown sent hk r tci,
  let g := gen_res thrown sent hk r f_TraceCallHandler_on_trace_call [tci] in
  let names := dedup (map (fun e => fst (fst e)) (gr_sets g)) in
  gr_puts g = [] /\ names <> [] /\
  forallb (fun m => match last_write (gr_sets g) m with
                    | Some (_, None) => true
                    | _ => false end) names = true /\
  map (fun e => snd (fst e)) (gr_sets g) = map (fun _ => hk false "current_trace_no"%string) (gr_sets g) /\
  List.length (filter (fun e => match snd e with Some _ => true | None => false end) (gr_sets g)) =
  List.length (filter (fun e => match snd e with Some _ => false | None => true end) (gr_sets g)).
Proof. exact tie_handler_removes_in_finally. Qed.

(** Reflexivity on facts the translator computes (where each counter object is created, its first value);
    the same facts drive [visible] in the interpreter, so moving a counter also breaks the simulation.
    Trace numbers, trace-call numbers and prompt numbers each come from ONE counter object created once
    per run (shared by all traces), starting at 1, stepping by 1; nothing else in nextline/spawned puts on the
    outgoing queue *)
Theorem C09_tie_counters_per_run :
  counter_decl CTrace = (PerRun, 1) /\ counter_decl CCall = (PerRun, 1) /\ counter_decl CPrompt = (PerRun, 1) /\
  counter_step = 1 /\ other_queue_out_putters = 0%nat.
Proof. exact tie_counters_per_run. Qed.

(** the current trace call is kept PER TRACE: in every reachable state, whatever the other threads / tasks
    are doing, the first-result hooks answer thread / task i with its own trace number, whether IT is on a
    trace call, and its own trace-call number *)
Theorem C09_tie_current_call_per_trace : forall r ps sched i a,
  nth_error (s_actors (fst (run r (init_sys ps) sched))) i = Some a -> started a ->
  let sh := is_sh (fst (irun r (iinit ps) sched)) in
  eval EFUEL (ctx_of r i sh) [] (EHook "current_trace_no") = VNum (a_t a) /\
  eval EFUEL (ctx_of r i sh) [] (EHook "is_on_trace_call") = VBool (in_call a) /\
  eval EFUEL (ctx_of r i sh) [] (EHook "current_trace_call_no") = (if in_call a then VNum (a_c a) else VNone).
Proof. exact tie_current_call_per_trace. Qed.

(** the guard of the command-loop hook: Pdb's command loop entered by a thread / task that is between trace
    calls (whatever the OTHER threads / tasks are on) runs through CustomizedPdb.cmdloop() without a visible
    action and without reading a command, and leaves the dicts / sets as they were *)
Theorem C09_tie_stray_cmdloop_refused : forall r ps sched i a k qs,
  nth_error (s_actors (fst (run r (init_sys ps) sched))) i = Some a -> a_pc a = AIdle k ->
  let sh := is_sh (fst (irun r (iinit ps) sched)) in
  exists sh' lg, settle SFUEL key_eqb true r i sh (stray_cmdloop qs k) [] = (K_idle k, sh', true, lg) /\
                 view (sh_st sh') (KTask i) = view (sh_st sh) (KTask i) /\
                 view (sh_st sh') (KNum (a_t a)) = view (sh_st sh) (KNum (a_t a)).
Proof. exact tie_stray_cmdloop_refused. Qed.

(** non-vacuity: the interpreter of the regenerated code runs the example above to the end *)
Example C09_tie_example_nonvacuous :
  ifinished 1 ex_progs ex_sched = true /\ iemitted 1 ex_progs ex_sched = emitted 1 ex_progs ex_sched /\
  List.length (iemitted 1 ex_progs ex_sched) = 21%nat.
Proof.
  destruct tie_example as [Hf He], C09_example_emitter_nonvacuous as [_ Hm].
  unfold ex_progs, ex_sched in *. rewrite He, Hm. split; [exact Hf | split; reflexivity].
Qed.

Print Assumptions C09_recogniser_correct.
Print Assumptions C09_emitter_wf.
Print Assumptions C09_emitter_prefix.
Print Assumptions C09_prefix_closed.
Print Assumptions C09_prefix_sound.
Print Assumptions C09_prefix_complete.
Print Assumptions C09_trace_language.
Print Assumptions C09_tie_same_stream.
Print Assumptions C09_tie_simulation.
Print Assumptions C09_tie_prefix.
Print Assumptions C09_tie_finished.
Print Assumptions C09_tie_wf.
Print Assumptions C09_tie_end_in_finally_trace_call.
Print Assumptions C09_tie_end_in_finally_cmdloop.
Print Assumptions C09_tie_end_in_finally_prompt.
Print Assumptions C09_tie_handler_removes_in_finally.
Print Assumptions C09_tie_counters_per_run.
Print Assumptions C09_tie_current_call_per_trace.
Print Assumptions C09_tie_stray_cmdloop_refused.
