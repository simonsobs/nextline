(** C12 -- plugins see each run's hooks in protocol order with a valid context.
    Property theorems only; the lemmas come from Life/Protocol.v (about the lifecycle model
    Life/Model.v), Life/Registry.v, Relay/Proofs.v, Life/FailStartProofs.v and Life/MachineTie.v.

    [proto] (Life/Protocol.v) is the run-protocol automaton over the hook
    records of the history, a function of the history alone:
      PN --init_run n--> PI n --start_run n--> PS n --end_run n (state running)-->
      PE n --finished (state finished, run_arg None)--> PF --init_run n'--> PI n' ...
      (PI n --init_run n'--> PI n' is a reset without a run); anything else -> PBad.
    All statements quantify over EVERY label sequence [ls] = every history of
    calls and every schedule of the tasks, the run task and the child's exit.
    The registration part of C12 (plugins (un)registered between hook calls)
    is not about the lifecycle model: it is stated on the registry model
    Life/Registry.v (a hook call is an atomic snapshot of the registry).
    A run that FAILS TO START (an exception anywhere in the run session) is not a
    label of the lifecycle model: that part of C12's quantifier is stated on the
    skeleton model Life/FailStart.v, regenerated from the source, further down
    in this file. *)
From NL Require Import Life.Model Life.LockInv Life.FsmInv Life.Hist Life.Protocol Life.Registry.
From NL Require Relay.Model Relay.Proofs.
From NL Require Life.FailStart Life.FailStartProofs.
Open Scope Z_scope.

(** per run: initialise-run, start-run, end-run while the state is still
    'running', finished once the state is 'finished'; each once, in that
    order; never start/end/finished for a run that was not initialised/started
    (holds for every prefix too: [proto_prefix], PBad is absorbing) *)
Theorem C12_order : forall stmt start th md ls,
  let s := run_labels (init_state stmt start th md) ls in
  proto (hooks_of (history s)) <> PBad.
Proof. exact all_order. Qed.

(** the run's arguments are in the context from initialise-run through
    end-run and withdrawn at finished *)
Theorem C12_run_arg_window : forall stmt start th md ls,
  let s := run_labels (init_state stmt start th md) ls in
  Forall (fun h => match h_hook h with
                   | HInitRun | HStartRun | HEndRun => h_runno h <> None
                   | HFinished => h_runno h = None
                   | _ => True
                   end) (hooks_of (history s)).
Proof. exact all_window. Qed.

(** the exact correspondence between the protocol state and the state of the
    object; in particular once the run task is gone every started run has been
    closed out *)
Theorem C12_complete : forall stmt start th md ls,
  let s := run_labels (init_state stmt start th md) ls in
  let p := proto (hooks_of (history s)) in
  hook_corr p (st_fsm s) (runt s) (run_arg s) /\
  (runt s = None -> p = PN \/ (exists n, p = PI n) \/ p = PF) /\
  (forall n, p = PS n -> runt s = Some RT_G_start \/ runt s = Some RT_WaitChild) /\
  (forall n, p = PE n -> runt s = Some RT_G_end) /\
  (p = PF -> runt s = Some RT_G_fin \/ runt s = Some RT_G_cs \/
             (runt s = None /\ (st_fsm s = Finished \/ st_fsm s = Closed))) /\
  (p = PN -> runt s = None /\ (st_fsm s = Created \/ st_fsm s = Closed)) /\
  (forall n, p = PI n -> runt s = Some RT_New \/ runt s = Some RT_Created \/
                         (runt s = None /\ (st_fsm s = Initialized \/ st_fsm s = Closed))).
Proof. exact all_hook_exact. Qed.

(** a refused request (MachineError) adds nothing to the hook log *)
Theorem C12_not_for_refused : forall stmt start th md ls l t c,
  let s := run_labels (init_state stmt start th md) ls in
  In (EvRet t c RMachineError) (appended s (step s l)) ->
  forall h, ~ In (EvHook h) (appended s (step s l)).
Proof. intros stmt start th md ls l t c s. apply not_for_refused. Qed.

(** a full history: start; run (returns); reset; run_and_continue (raises);
    close.  [proto] reaches PF twice, never PBad; in the middle of the first
    run a second run request and a reset are refused and append only the call
    and its MachineError. *)
Example C12_example_nonvacuous :
  ex_proto_states =
    [PN; PN; PI 1; PI 1; PI 1; PI 1; PI 1; PS 1; PS 1; PS 1; PS 1; PS 1; PE 1; PF; PF; PF; PF;
     PI 2; PI 2; PI 2; PI 2; PI 2; PS 2; PS 2; PS 2; PS 2; PS 2; PE 2; PF; PF; PF; PF; PF; PF]
  /\ st_fsm (run_labels ex_init ex_labels) = Closed
  /\ runt ex_mid = Some RT_WaitChild
  /\ appended ex_mid (step ex_mid (Call 9%nat CRun)) = [EvCall 9%nat CRun; EvRet 9%nat CRun RMachineError]
  /\ appended ex_mid (step ex_mid (Call 9%nat (CReset ex_no_opts)))
     = [EvCall 9%nat (CReset ex_no_opts); EvRet 9%nat (CReset ex_no_opts) RMachineError].
Proof. vm_compute. repeat split; reflexivity. Qed.

(** the automaton does reject: start-run without initialise-run, end-run twice,
    finished while the state is still 'running', end-run for another run number *)
Example C12_example_automaton_rejects :
  let h k f n := mkHook k f n None None in
  proto [h HStartRun Running (Some 1)] = PBad
  /\ proto [h HInitRun Initialized (Some 1); h HStartRun Running (Some 1); h HEndRun Running (Some 1);
            h HEndRun Running (Some 1)] = PBad
  /\ proto [h HInitRun Initialized (Some 1); h HStartRun Running (Some 1); h HEndRun Running (Some 1);
            h HFinished Running None] = PBad
  /\ proto [h HInitRun Initialized (Some 1); h HStartRun Running (Some 1); h HEndRun Running (Some 2)] = PBad
  /\ proto [h HInitRun Initialized (Some 1); h HStartRun Running (Some 1); h HInitRun Initialized (Some 2)] = PBad
  /\ proto [h HInitRun Initialized (Some 1); h HStartRun Running (Some 1); h HEndRun Running (Some 1);
            h HFinished Finished None] = PF.
Proof. vm_compute. repeat split; reflexivity. Qed.

(** registration: a plugin receives exactly the hook calls made while it is registered,
    i.e. those for which its last (un)registration so far was a registration: it starts /
    stops receiving hooks from the next hook call on; each call reaches it once *)
Theorem C12_registration : forall p ops s, NoDup s ->
  received p (rrun s ops) = expected p (mem p s) ops /\
  mem p (rstate s ops) = last_says p (mem p s) ops /\
  NoDup (rstate s ops).
Proof.
  intros p ops s H. split; [exact (received_expected p ops s H)|].
  split; [exact (registered_is_last_says p ops s) | exact (registry_nodup ops s H)].
Qed.

Example C12_registration_example :
  let ops := [Hook 1; Reg 5; Hook 2; Reg 6; Hook 3; Unreg 5; Hook 4; Unreg 5; Reg 5; Hook 9] in
  received 5%nat (rrun [] ops) = [2; 3; 9]%nat /\ received 6%nat (rrun [] ops) = [3; 4; 9]%nat
  /\ rrun [] ops = [Delivered []; Done; Delivered [(5, 2)%nat]; Done; Delivered [(6, 3)%nat; (5, 3)%nat]; Done;
                    Delivered [(6, 4)%nat]; Refused; Done; Delivered [(5, 9)%nat; (6, 9)%nat]].
Proof. vm_compute. repeat split; reflexivity. Qed.

(** "... then the run's in-process events, then end-run": the relay of the child's events is
    not part of the lifecycle model; it is the subject of the relay model Relay/Model.v (C10), whose
    plugin log has the start-run call, every delivery (call and completion of the event hooks) and the
    end-run call.  Restated here so that every clause of C12 has its theorem in this file: for every
    event script of the child, every interleaving of the child, the queue, the monitor and slow hooks,
    and an early timeout of the final drain, every delivery lies after the start-run call and before the
    end-run call; calls and completions alternate (one event at a time); once end-run has been called the
    log never changes.  (Assumption `boot = true`, as in C10: the child emits nothing before start-run.) *)
Theorem C12_events_between_start_and_end : forall script ls,
  NL.Relay.Model.bracketed (NL.Relay.Model.log (NL.Relay.Model.run true script ls)) = true /\
  NL.Relay.Model.alternating None (NL.Relay.Model.log (NL.Relay.Model.run true script ls)) = true /\
  (forall l, NL.Relay.Model.main (NL.Relay.Model.run true script ls) = NL.Relay.Model.PEndRun ->
     NL.Relay.Model.log (NL.Relay.Model.run true script (ls ++ [l])) = NL.Relay.Model.log (NL.Relay.Model.run true script ls)).
Proof.
  intros script ls. split; [exact (NL.Relay.Proofs.bracketed_always script ls)|].
  split; [exact (NL.Relay.Proofs.hooks_never_overlap true script ls)|].
  intros l H. exact (NL.Relay.Proofs.nothing_after_end true script ls l H).
Qed.

(** "every way the run ends, including a FAILURE TO START":
    Life/FailStart.v interprets the control-flow skeletons of Callback._run/_finish,
    RunSession.run and relay_events, REGENERATED from /repo at every check
    (Gen/CallbackSkeleton.v).  Every await of the run session (entry/exit of a user plugin's
    `run` context, spawn, on_start_run, the process wait, drain, sentinel, the monitor,
    on_end_run, the finish trigger with its on_finished hooks) returns or raises as the oracle
    [o] says ([true] = raises, in execution order); the statements hold for EVERY oracle:
    whichever awaits raise, none, or several (in finally blocks). *)

(** run_arg is set to None before the transition to `finished`, which happens exactly once;
    the event wait()/close() wait for is set after it even when it raises; the run() call
    is always unblocked *)
Theorem C12_run_arg_withdrawn_before_finished : forall o,
  FailStart.run_arg_withdrawn_before_finished (FailStart.trace o) = true.
Proof. exact FailStartProofs.run_arg_withdrawn. Qed.

(** nothing after the transition to `finished` except setting that event: no hook of the run *)
Theorem C12_no_hook_after_finished : forall o,
  FailStart.nothing_after_finished (FailStart.trace o) = true.
Proof. exact FailStartProofs.no_hook_after_finished. Qed.

(** what the code guarantees about on_start_run / on_end_run under failures: on_end_run is
    called iff EVERY earlier await of the session returned (user context entered, process
    spawned, on_start_run, the process wait, drain, sentinel, monitor); on_start_run is called
    iff the user context was entered and the process spawned; each at most once, in this order *)
Theorem C12_end_run_iff_start_run_completed : forall o,
  FailStart.end_run_iff (FailStart.trace o) = true.
Proof. exact FailStartProofs.end_run_iff_all_returned. Qed.

(** a spawned process is awaited provided on_start_run returned ... *)
Theorem C12_process_awaited_partial : forall o,
  FailStart.process_awaited_if_started (FailStart.trace o) = true.
Proof. exact FailStartProofs.process_awaited_partial. Qed.

(** ... and NOT otherwise: when on_start_run raises (third await) the process has been spawned
    and is never awaited (the child is left alive at `finished`; DESIGN 6.1: an observation
    about faulty plugins).  Added hypothesis of the partial statement: on_start_run returned *)
Theorem C12_process_awaited_refuted :
  exists o, FailStart.returned CallbackSkeleton.Spawn (FailStart.trace o) = true /\
            FailStart.called CallbackSkeleton.AwaitProcess (FailStart.trace o) = false /\
            FailStart.run_arg_withdrawn_before_finished (FailStart.trace o) = true.
Proof. exact FailStartProofs.process_awaited_refuted. Qed.

(** the monitor task, once created, is always driven towards its end; it is awaited iff the
    drain and the sentinel put returned *)
Theorem C12_monitor_closed : forall o, FailStart.monitor_closed (FailStart.trace o) = true.
Proof. exact FailStartProofs.monitor_always_closed. Qed.

(** four oracles: no failure; the user plugin's run context raises on entry (before any
    spawn); the process wait raises; the finish trigger (an on_finished hook) raises.
    observation = (hooks seen: 1 on_start_run, 2 on_end_run, 3 on_finished; run_arg None at
    on_finished; run() unblocked; finished-event set) *)
Example C12_failstart_example :
  FailStart.observe [] = ([1; 2; 3], true, true, true)%nat /\
  FailStart.observe [true] = ([3], true, true, true)%nat /\
  FailStart.observe [false; false; false; true] = ([1; 3], true, true, true)%nat /\
  FailStart.observe [false; false; false; false; false; false; false; false; false; true] = ([1; 2; 3], true, true, true)%nat /\
  FailStart.raises [] = false /\ FailStart.raises [true] = true /\
  FailStart.raises [false; false; false; false; false; false; false; false; false; true] = true /\
  length (FailStart.outcomes FailStart.program) = 70%nat.
Proof. vm_compute. repeat split. Qed.

Print Assumptions C12_order.
Print Assumptions C12_run_arg_window.
Print Assumptions C12_complete.
Print Assumptions C12_not_for_refused.
Print Assumptions C12_example_nonvacuous.
Print Assumptions C12_example_automaton_rejects.
Print Assumptions C12_registration.
Print Assumptions C12_registration_example.
Print Assumptions C12_events_between_start_and_end.
Print Assumptions C12_run_arg_withdrawn_before_finished.
Print Assumptions C12_no_hook_after_finished.
Print Assumptions C12_end_run_iff_start_run_completed.
Print Assumptions C12_process_awaited_partial.
Print Assumptions C12_process_awaited_refuted.
Print Assumptions C12_monitor_closed.
Print Assumptions C12_failstart_example.

(** tie of the hook order per transition: Gen/MachineWiring.v (translate/machine_wiring.py),
    Life/MachineTie.v.  [api_hook_order]: the hooks one trigger calls, oldest first, each with the lifecycle
    state it sees, obtained by running the program DERIVED FROM THE REGENERATED CODE (CONFIG rows, StateMachine
    method set and bodies, Callback bodies; order of the transitions library trusted) on the model state;
    the theorems tie_* of Life/MachineTie.v (Props/C01.v, C03.v) show the model's segments are that program. *)
From NL Require Gen.FsmConfig Life.MachineSyntax Gen.MachineWiring Life.MachineTie.

Theorem C12_tie_machine_hook_order_initialize : forall s t c,
  MachineTie.api_hook_order t c FsmConfig.TInitialize s =
  match st_fsm s with
  | Created => Some [(HStart, Created); (HChangeScript, Created); (HInitRun, Initialized); (HChangeState, Initialized)]
  | _ => None
  end.
Proof. exact MachineTie.hook_order_initialize. Qed.

Theorem C12_tie_machine_hook_order_run : forall s t c,
  MachineTie.api_hook_order t c FsmConfig.TRun s =
  match st_fsm s with Initialized => Some [(HChangeState, Running)] | _ => None end.
Proof. exact MachineTie.hook_order_run. Qed.

Theorem C12_tie_machine_hook_order_reset : forall s t o,
  MachineTie.api_hook_order t (CReset o) FsmConfig.TReset s =
  match st_fsm s with
  | Initialized | Finished =>
    Some ((HReset, st_fsm s) :: (match o_stmt o with Some _ => [(HChangeScript, st_fsm s)] | None => [] end)
          ++ [(HInitRun, Initialized); (HChangeState, Initialized)])
  | _ => None
  end.
Proof. exact MachineTie.hook_order_reset. Qed.

Theorem C12_tie_machine_hook_order_close : forall s t,
  MachineTie.api_hook_order t CClose FsmConfig.TClose s =
  match st_fsm s with
  | Created => Some [(HStart, Created); (HChangeScript, Created); (HClose, Closed); (HChangeState, Closed)]
  | Closed => Some []
  | _ => Some [(HClose, Closed); (HChangeState, Closed)]
  end.
Proof. exact MachineTie.hook_order_close. Qed.

(** the run task, stated for no Continue plugin registered (the hypothesis is not needed: see
    [C12_tie_machine_hook_order_finish_all] below): on_finished sees `finished`, then on_change_state; a refused
    `finish` calls nothing *)
Theorem C12_tie_machine_hook_order_finish : forall s, cont_plugins s = [] ->
  match MachineTie.run_tail (st_fsm s) with Some k => Some (MachineTie.hook_order k s) | None => None end =
  match st_fsm s with
  | Running => Some [(HFinished, Finished); (HChangeState, Finished)]
  | _ => Some []
  end.
Proof. exact MachineTie.hook_order_finish. Qed.

(** the expansion of every accepted trigger down to hooks / waits / assignments, in order *)
From Coq Require Import String.
Local Open Scope string_scope.
Theorem C12_tie_machine_expansion :
  MachineTie.expand Created FsmConfig.TInitialize = Some [MachineTie.UHook "start" MachineTie.kwc; MachineTie.USetState Initialized; MachineTie.UCompose; MachineTie.UHook "on_initialize_run" MachineTie.kwc;
                                      MachineTie.UHook "on_change_state" [("context", MachineTie.VContext); ("state_name", MachineTie.VState)]] /\
  MachineTie.expand Initialized FsmConfig.TRun = Some [MachineTie.USetState Running; MachineTie.UNewRunFinished; MachineTie.UNewStarted; MachineTie.UCreateRunTask; MachineTie.UWaitStarted;
                                  MachineTie.UHook "on_change_state" [("context", MachineTie.VContext); ("state_name", MachineTie.VState)]] /\
  MachineTie.expand Running FsmConfig.TFinish = Some [MachineTie.USetState Finished; MachineTie.UHook "on_finished" MachineTie.kwc;
                                 MachineTie.UHook "on_change_state" [("context", MachineTie.VContext); ("state_name", MachineTie.VState)]] /\
  MachineTie.expand Finished FsmConfig.TReset = Some [MachineTie.UHook "reset" [("context", MachineTie.VContext); ("reset_options", MachineTie.VTrigKwarg "reset_options")];
                                 MachineTie.UAwaitRunTask; MachineTie.USetState Initialized; MachineTie.UCompose; MachineTie.UHook "on_initialize_run" MachineTie.kwc;
                                 MachineTie.UHook "on_change_state" [("context", MachineTie.VContext); ("state_name", MachineTie.VState)]] /\
  MachineTie.expand Initialized FsmConfig.TReset = Some [MachineTie.UHook "reset" [("context", MachineTie.VContext); ("reset_options", MachineTie.VTrigKwarg "reset_options")];
                                 MachineTie.USetState Initialized; MachineTie.UCompose; MachineTie.UHook "on_initialize_run" MachineTie.kwc;
                                 MachineTie.UHook "on_change_state" [("context", MachineTie.VContext); ("state_name", MachineTie.VState)]] /\
  MachineTie.expand Running FsmConfig.TClose = Some [MachineTie.UWaitRunFinished; MachineTie.USetState Closed; MachineTie.UHook "close" MachineTie.kwc;
                                MachineTie.UHook "on_change_state" [("context", MachineTie.VContext); ("state_name", MachineTie.VState)]] /\
  MachineTie.expand Finished FsmConfig.TClose = Some [MachineTie.UAwaitRunTask; MachineTie.USetState Closed; MachineTie.UHook "close" MachineTie.kwc;
                                 MachineTie.UHook "on_change_state" [("context", MachineTie.VContext); ("state_name", MachineTie.VState)]] /\
  MachineTie.expand Initialized FsmConfig.TClose = Some [MachineTie.USetState Closed; MachineTie.UHook "close" MachineTie.kwc;
                                 MachineTie.UHook "on_change_state" [("context", MachineTie.VContext); ("state_name", MachineTie.VState)]] /\
  MachineTie.expand Closed FsmConfig.TClose = Some [].
Proof. exact MachineTie.expand_table. Qed.

(** no construct of the regenerated code is left uninterpreted *)
Theorem C12_tie_machine_expand_total : forall src tr, MachineTie.script src tr <> None -> MachineTie.expand src tr <> None.
Proof. exact MachineTie.expand_total. Qed.

Print Assumptions C12_tie_machine_hook_order_initialize.
Print Assumptions C12_tie_machine_hook_order_run.
Print Assumptions C12_tie_machine_hook_order_reset.
Print Assumptions C12_tie_machine_hook_order_close.
Print Assumptions C12_tie_machine_hook_order_finish.
Print Assumptions C12_tie_machine_expansion.
Print Assumptions C12_tie_machine_expand_total.

(** the same with any number of Continue plugins registered (their built-in on_finished, [cont_finished], runs
    inside the on_finished gate, publishes only: no hook, no state change) *)
Theorem C12_tie_machine_hook_order_finish_all : forall s,
  match MachineTie.run_tail (st_fsm s) with Some k => Some (MachineTie.hook_order k s) | None => None end =
  match st_fsm s with
  | Running => Some [(HFinished, Finished); (HChangeState, Finished)]
  | _ => Some []
  end.
Proof. exact MachineTie.hook_order_finish_all. Qed.
Print Assumptions C12_tie_machine_hook_order_finish_all.
