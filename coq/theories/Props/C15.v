(** C15 -- at most one script execution is in flight per Nextline object.
    Model: Life/Model.v (every label sequence = every history and schedule of
    API calls from any number of tasks, gate releases, run-task steps and
    child exits).  Proofs: Life/LockInv.v, Life/FsmInv.v, Life/Single.v; the statements on histories
    ([C15_second_run_refused_on_history] to [C15_accepted_run_implies_idle]) from Life/Refusal.v with the
    invariants of Life/Close.v; the C15_tie_* ones from Life/ImpTie.v, Life/MachineTie.v, Life/MachineImpTie.v. *)
From NL Require Import Life.Close Life.Protocol Life.Refusal.
From NL Require Import Life.Model Life.LockInv Life.FsmInv Life.Hist Life.Single.

(** never two child processes alive; a live child only while the state is 'running' *)
Theorem C15_single_child : forall stmt start th md ls,
  let s := run_labels (init_state stmt start th md) ls in
  (alive s <= 1)%nat /\ (alive s = 1%nat -> st_fsm s = Running).
Proof. exact single_child. Qed.

(** once 'finished' is reported (state attribute, hook or publication) the child has exited *)
Theorem C15_finished_implies_exited : forall stmt start th md ls,
  let s := run_labels (init_state stmt start th md) ls in
  st_fsm s = Finished -> alive s = 0%nat /\ pending_exit s = None.
Proof. exact finished_implies_exited. Qed.

(** a run request that gets the lock in any state but 'initialized' (a run starting, running,
    finished, ...) is refused: it is exactly [refuse], which changes nothing but the call log *)
Theorem C15_second_run_refused : forall s t c part2,
  runlike c = true -> st_fsm s <> Initialized -> enter s t c part2 = refuse s t c.
Proof. exact second_run_refused. Qed.

(** a reset cannot take effect while a run is in progress (or before start / after close) *)
Theorem C15_no_reset_during_run : forall s t o,
  st_fsm s <> Initialized -> st_fsm s <> Finished -> enter s t (CReset o) false = refuse s t (CReset o).
Proof. exact no_reset_during_run. Qed.

Theorem C15_refused_changes_nothing : forall s t c,
  st_fsm (refuse s t c) = st_fsm s /\ runt (refuse s t c) = runt s /\ run_finished (refuse s t c) = run_finished s
  /\ run_arg (refuse s t c) = run_arg s /\ alive (refuse s t c) = alive s /\ pending_exit (refuse s t c) = pending_exit s
  /\ c_stmt (refuse s t c) = c_stmt s /\ c_next (refuse s t c) = c_next s
  /\ c_threads (refuse s t c) = c_threads s /\ c_modules (refuse s t c) = c_modules s
  /\ (exists r, hd_error (trace (refuse s t c)) = Some (EvRet t c r) /\ r <> ROk)
  /\ hooks_of (trace (refuse s t c)) = hooks_of (trace s).
Proof. exact refuse_effect. Qed.

(** while a run task exists the state is 'running' or 'finished', so (by [C15_second_run_refused], [C15_no_reset_during_run])
    no run request can create a second one and no reset can re-initialise under it *)
Theorem C15_run_task_states : forall stmt start th md ls,
  let s := run_labels (init_state stmt start th md) ls in
  runt s <> None -> st_fsm s = Running \/ st_fsm s = Finished.
Proof. exact run_task_states. Qed.

(** in every reachable state in which a run task exists (a run starting, running or
    finishing), a run request that reaches its turn -- at its own step after queueing for the
    lock, or inside its [Call] when the lock is free -- returns MachineError
    (and by C01_refused_on_history changes nothing) *)
Theorem C15_second_run_refused_on_history : forall stmt start th md ls t c,
  let s := run_labels (init_state stmt start th md) ls in
  runt s <> None -> runlike c = true ->
  (find_task (tasks s) t = Some (c, Granted1) ->
   In (EvRet t c RMachineError) (appended s (step s (Step t)))) /\
  (find_task (tasks s) t = None -> holder s = None -> lockq s = [] ->
   (is_cont c = true -> cont_closed s = false) ->
   In (EvRet t c RMachineError) (appended s (step s (Call t c)))).
Proof.
  intros stmt start th md ls t c s Hr Hc. destruct (Close.all_inv stmt start th md ls) as (HL & HF & _).
  split; intros; [apply Refusal.second_run_refused | apply second_run_refused_call]; auto.
Qed.

(** a reset that reaches its turn while the state is 'running' returns MachineError *)
Theorem C15_reset_refused_while_running : forall stmt start th md ls t o,
  let s := run_labels (init_state stmt start th md) ls in
  st_fsm s = Running -> find_task (tasks s) t = Some (CReset o, Granted1) ->
  In (EvRet t (CReset o) RMachineError) (appended s (step s (Step t))).
Proof.
  intros stmt start th md ls t o s. apply reset_refused_while_running. apply (Close.all_inv stmt start th md ls).
Qed.

(** "every reset while a run task exists is refused" is FALSE of the model (and of the code):
    while the run task is finishing (state already 'finished', on_finished / state notification
    still to be delivered) a reset is accepted ... *)
Theorem C15_reset_refused_during_run_refuted :
  let s := run_labels (init_state 7 1 false false) finishing_labels in
  let c := CReset (mkOpts None None None None) in
  runt s = Some RT_G_fin /\ st_fsm s = Finished /\
  find_task (tasks (step s (Call 2%nat c))) 2%nat = Some (c, Z_G1b) /\
  appended s (step s (Call 2%nat c)) = [EvCall 2%nat c; EvHook (mkHook HReset Finished None None None)].
Proof. exact Refusal.reset_while_finishing_witness. Qed.

(** ... but (the strongest true statement) it then WAITS for the run task: as long as the run
    task exists its step re-initialises nothing (state, run arguments, run number, hook log
    and publications unchanged) and it stays at the wait *)
Theorem C15_reset_during_run_partial : forall stmt start th md ls t c p,
  let s := run_labels (init_state stmt start th md) ls in
  runt s <> None -> find_task (tasks s) t = Some (c, p) -> p = Z_G1b \/ p = Z_WaitRunTask ->
  let s' := step s (Step t) in
  st_fsm s' = st_fsm s /\ run_arg s' = run_arg s /\ c_next s' = c_next s /\ runt s' = runt s /\
  hooks_of (history s') = hooks_of (history s) /\ pubs_of (history s') = pubs_of (history s) /\
  find_task (tasks s') t = Some (c, Z_WaitRunTask).
Proof.
  intros stmt start th md ls t c p s Hr Ef Hp s'. destruct (Close.all_inv stmt start th md ls) as (_ & HF & _).
  unfold s'. destruct (reset_waits s t c p HF Hr Ef Hp) as [(-> & ->) | ->]; repeat split; auto. apply find_put_eq.
Qed.

(** a run request that returns ROk was accepted at an earlier moment of the same history
    (a prefix ls1 and the request's own label l1) at which the object was idle: state
    'initialized', no run task, no child alive, no pending exit *)
Theorem C15_accepted_run_implies_idle : forall stmt start th md ls l t c,
  let init := init_state stmt start th md in
  let s := run_labels init ls in
  runlike c = true -> In (EvRet t c ROk) (appended s (step s l)) ->
  exists ls1 l1 ls2, ls = ls1 ++ l1 :: ls2 /\
    let s1 := run_labels init ls1 in
    st_fsm s1 = Initialized /\ runt s1 = None /\ alive s1 = 0%nat /\ pending_exit s1 = None /\
    (l1 = Step t \/ l1 = Call t c) /\ runlike c = true /\
    st_fsm (step s1 l1) = Running /\ find_task (tasks (step s1 l1)) t = Some (c, R_WaitStarted).
Proof. exact Refusal.accepted_run_implies_idle. Qed.

(** a run_and_continue that queued behind run() gets its turn while the child runs: refused;
    the run() itself returns ROk (hypothesis of C15_accepted_run_implies_idle) *)
Example C15_example_history_nonvacuous :
  let s := refusal_state in
  runt s = Some RT_WaitChild /\ find_task (tasks s) 2%nat = Some (CRunCont, Granted1)
  /\ appended s (step s (Step 2%nat)) = [EvPub (PCont false); EvRet 2%nat CRunCont RMachineError]
  /\ (let s9 := run_labels (init_state 7 1 false false) (firstn 10 refusal_labels) in
      appended s9 (step s9 (Step 1%nat)) = [EvRet 1%nat CRun ROk]).
Proof. vm_compute. repeat split; reflexivity. Qed.

Example C15_example_nonvacuous :
  let s := run_labels (init_state 1 1 false false)
             [Call 1 CStart; Step 1; Step 1; Step 1; Call 1 CRun; StepRun; StepRun; Call 2 CRun;
              Call 3 (CReset (mkOpts (Some 2%Z) None None None)); StepRun; Step 1; Step 1; Step 2; Step 3] in
  alive s = 1%nat /\ st_fsm s = Running /\ runt s = Some RT_WaitChild
  /\ hd_error (trace s) = Some (EvRet 3 (CReset (mkOpts (Some 2%Z) None None None)) RMachineError).
Proof. vm_compute. repeat split; reflexivity. Qed.

Print Assumptions C15_single_child.
Print Assumptions C15_finished_implies_exited.
Print Assumptions C15_second_run_refused.
Print Assumptions C15_no_reset_during_run.
Print Assumptions C15_refused_changes_nothing.
Print Assumptions C15_run_task_states.
Print Assumptions C15_second_run_refused_on_history.
Print Assumptions C15_reset_refused_while_running.
Print Assumptions C15_reset_refused_during_run_refuted.
Print Assumptions C15_reset_during_run_partial.
Print Assumptions C15_accepted_run_implies_idle.
Print Assumptions C15_example_history_nonvacuous.

(** tie of the serialisation assumed by the model to nextline/imp.py + nextline/main.py.
    Gen/ImpSkeleton.v is REGENERATED from the source by translate/imp_skeleton.py at every check;
    Life/ImpTie.v interprets it ([exec]: an oracle decides at every await whether it raises and
    the value of every untracked condition).  All statements are for every oracle. *)
From Coq Require Import String.
From NL Require Import Life.ImpSyntax Gen.ImpSkeleton Life.ImpTie.

(** every machine trigger ISSUED BY a method of Imp or of Nextline (run, reset, aopen, aclose;
    run_session / run_continue_and_wait included) happens while the ONE lock is held; the run task's
    own `finish` trigger (fsm/callback.py) is outside the lock by design and not covered here *)
Theorem C15_tie_lock_discipline : forall ob m, In m (names ob) -> forall st cl o,
  let x := exec ob m st cl o in
  res_of x <> RBad /\ lock_ok false (trace_of x) = true /\ lk_held (cfg_of x) = false.
Proof. exact lock_discipline. Qed.

(** the API calls that ask for the lock in the code are exactly those for which [do_call] goes
    through [acquire] (queues when the lock is busy), for every value of the two flags *)
Theorem C15_tie_lock_set : forall c m st cl, In m (nl_methods_of c) ->
  code_acquires st cl m = model_acquires st cl c /\ code_may_acquire st cl m = model_acquires st cl c.
Proof. exact lock_set_agrees. Qed.

(** each API call fires the trigger whose transition the model puts it in *)
Theorem C15_tie_call_trigger : forall c m, In m (nl_methods_of c) ->
  code_first_trigger true false m = model_first_trigger st_initialized c /\
  (c = CStart \/ c = CClose -> code_first_trigger false false m = model_first_trigger st_created c).
Proof. exact call_trigger_agrees. Qed.

(** no method of Nextline touches the machine / lock / broker close itself; in Imp they occur
    only inside `async with self._lock`; one lock; the flags start False *)
Theorem C15_tie_only_through_imp :
  forallb (fun x => no_direct (snd x)) nextline_methods = true /\
  forallb flag_sets_ok nextline_methods = true /\
  forallb (fun x => locked_text false (snd x)) imp_methods = true /\
  imp_locks = ["_lock"%string] /\
  (forall a b c d, nextline_init_flags =
     [(FStarted, nl_started (init_state a b c d)); (FClosed, nl_closed (init_state a b c d))]).
Proof. exact nextline_reaches_machine_only_through_imp. Qed.

(** the remaining methods of Nextline are no lifecycle requests in any execution *)
Theorem C15_tie_other_methods_inert : forall m, In m (names ONextline) -> mem m api_names = false ->
  forall st cl o, forallb inert_ev (trace_of (exec ONextline m st cl o)) = true.
Proof. exact other_methods_inert. Qed.

(** per-call refinement against Model.do_call / do_step (Life/ImpTie.v): on seven
    representative states, every execution (every oracle) of start / run / run_session / reset /
    close has the model's observations, or leaves them at a decision the model takes the other way,
    or at an environment failure; never anything else; the model's behaviour is one of them *)
Theorem C15_tie_call_refinement : forall s c m, In s ref_states -> In c ref_calls -> In m (nl_methods_of c) ->
  (forall o, let x := exec ONextline m (nl_started s) (nl_closed s) o in
     verdict_of s c x <> VMismatch /\ (verdict_of s c x = VEqual -> end_agrees s c x = true)) /\
  (exists o, verdict_of s c (exec ONextline m (nl_started s) (nl_closed s) o) = VEqual).
Proof. exact call_refinement. Qed.

Theorem C15_tie_ref_states_are :
  map st_fsm ref_states = [Created; Initialized; Running; Finished; Finished; Initialized; Closed] /\
  map runt ref_states = [None; None; Some RT_WaitChild; Some RT_G_fin; None; None; None] /\
  forallb (fun s => match holder s, find_task (tasks s) 5 with None, None => true | _, _ => false end) ref_states = true.
Proof. exact ref_states_are. Qed.

(** the `finally` of run_session is reached from every await of its body *)
Theorem C15_tie_run_session_finally_reached : forall m, In m session_names -> forall st cl o,
  wait_after_yield false (trace_of (exec ONextline m st cl o)) = true.
Proof. exact run_session_finally_reached. Qed.

Print Assumptions C15_tie_lock_discipline.
Print Assumptions C15_tie_lock_set.
Print Assumptions C15_tie_call_trigger.
Print Assumptions C15_tie_only_through_imp.
Print Assumptions C15_tie_other_methods_inert.
Print Assumptions C15_tie_call_refinement.
Print Assumptions C15_tie_ref_states_are.
Print Assumptions C15_tie_run_session_finally_reached.

(** tie of the refusals to the regenerated wiring: Gen/MachineWiring.v (translate/machine_wiring.py),
    Gen/FsmConfig.v, Life/MachineTie.v.  [script src tr = None] = the transitions library raises MachineError. *)
From NL Require Gen.FsmConfig Life.MachineSyntax Gen.MachineWiring Life.MachineTie.

(** run is refused unless the state is `initialized` -- of the code (no row / MachineError) and of the model *)
Theorem C15_tie_machine_run_refused_unless_initialized : forall s t c,
  (st_fsm s <> Initialized -> MachineTie.script (st_fsm s) FsmConfig.TRun = None /\ enter_run s t c = refuse s t c) /\
  (st_fsm s = Initialized -> MachineTie.script (st_fsm s) FsmConfig.TRun <> None /\ st_fsm (enter_run s t c) = Running).
Proof. exact MachineTie.run_refused_unless_initialized. Qed.

Theorem C15_tie_machine_reset_refused_while_running : forall s t o, st_fsm s = Running ->
  MachineTie.script (st_fsm s) FsmConfig.TReset = None /\ enter_reset s t o = refuse s t (CReset o).
Proof. exact MachineTie.reset_refused_while_running. Qed.

(** the accepted run: state := running, Callback.start_run (new events, the run task), started.wait(), on_change_state *)
Theorem C15_tie_machine_enter_run : forall s t c, enter_run s t c = MachineTie.api_trigger t c FsmConfig.TRun s.
Proof. exact MachineTie.tie_enter_run. Qed.

(** invalid triggers raise (are not ignored), nothing is queued *)
Theorem C15_tie_machine_flags : FsmConfig.ignore_invalid_triggers = false /\ FsmConfig.queued = false /\ MachineTie.model_is_self = true /\
  MachineTie.wired_after_state_change = ["after_state_change"%string] /\ MachineTie.callback_backref = true.
Proof. exact MachineTie.config_flags. Qed.

Print Assumptions C15_tie_machine_run_refused_unless_initialized.
Print Assumptions C15_tie_machine_reset_refused_while_running.
Print Assumptions C15_tie_machine_enter_run.
Print Assumptions C15_tie_machine_flags.

(** Imp.run from the two regenerated sources together (Life/MachineImpTie.v): lock held; the trigger `run`
    (refused -> MachineError out of the `async with`, lock released); release; then run_session / run_continue_and_wait
    go on to wait for the run, the others return *)
From NL Require Life.MachineImpTie.
Theorem C15_tie_machine_imp_run : forall s t c, enter_run s t c = MachineImpTie.imp_run "run"%string t c s.
Proof. exact MachineImpTie.imp_run_run. Qed.
Theorem C15_tie_machine_imp_run_epilogue : forall s t c,
  MachineTie.epilogue t c FsmConfig.TRun s = MachineImpTie.derived_epilogue "run"%string t c s.
Proof. exact MachineImpTie.imp_epilogue_run. Qed.
Print Assumptions C15_tie_machine_imp_run.
Print Assumptions C15_tie_machine_imp_run_epilogue.
