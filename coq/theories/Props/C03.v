(** C03 -- close() always completes and leaves everything shut down.
    Proofs in Life/Close.v; for the C03_tie_* theorems in Life/ImpTie.v, Life/MachineTie.v and
    Life/MachineImpTie.v; the witnesses are evaluations.

    Model: Life/Model.v (the lifecycle LTS of the code after the `fix:` commits).
    All statements are for EVERY label sequence [ls] from EVERY initial
    configuration: every history of API calls from any number of tasks, every
    interleaving of their suspended transitions, of the run task and of the child's
    exit.  [appended s (step s l)] = the events the step [l] adds to the trace. *)
From NL Require Import Life.Model Life.LockInv Life.FsmInv Life.Hist Life.Close.
Open Scope Z_scope.

(** whenever a close() returns: without error; if it is the close that did the work
    (issued with `_closed` false: it returns from the close hook gate or from the
    internal transition of `closed`), the state is `closed`, no child is alive or
    un-awaited, the run task is gone, the `continuous` item and the broker have been
    closed (PEndAll, PEndCont published: every subscription handed out earlier has
    been ended, C08); if it was issued with `_closed` already true it changed
    nothing but the call log *)
Theorem C03_returns_closed : forall stmt start th md ls l t r,
  let s := run_labels (init_state stmt start th md) ls in
  In (EvRet t CClose r) (appended s (step s l)) ->
  r = ROk /\
  ((closed_down (step s l) /\
    ((l = Call t CClose /\ nl_closed s = false /\ find_task (tasks s) t = None) \/
     (l = Step t /\ exists p, find_task (tasks s) t = Some (CClose, p)))) \/
   (l = Call t CClose /\ nl_closed s = true /\ find_task (tasks s) t = None /\
    step s l = set_trace s (EvRet t CClose ROk :: EvCall t CClose :: trace s))).
Proof. exact close_returns_reachable. Qed.

(** in particular none of the error returns of the model is reachable for a close:
    `_run_finished` always exists when close meets `running`, and the start part of a
    close is never refused *)
Theorem C03_never_raises : forall stmt start th md ls l t r,
  let s := run_labels (init_state stmt start th md) ls in
  In (EvRet t CClose r) (appended s (step s l)) ->
  r <> RAttributeError /\ r <> RMachineError /\ r <> RRuntimeError /\ r <> RAssertionError.
Proof. exact close_never_raises. Qed.

(** `closed` is absorbing for every label, and every later close() (from a task that
    is not inside a call) returns at once: no hook, no publication, no state change *)
Theorem C03_idempotent : forall stmt start th md ls,
  let s := run_labels (init_state stmt start th md) ls in
  st_fsm s = Closed ->
  (forall ls', st_fsm (run_labels s ls') = Closed) /\
  (forall ls' t, let s' := run_labels s ls' in
     find_task (tasks s') t = None ->
     step s' (Call t CClose) = set_trace s' (EvRet t CClose ROk :: EvCall t CClose :: trace s')).
Proof. exact close_idempotent. Qed.

(** no child process and no run task in `closed`, now and for ever after *)
Theorem C03_no_child_after_close : forall stmt start th md ls,
  let s := run_labels (init_state stmt start th md) ls in
  st_fsm s = Closed ->
  alive s = 0%nat /\ runt s = None /\ pending_exit s = None /\
  forall ls', alive (run_labels s ls') = 0%nat /\ runt (run_labels s ls') = None.
Proof. exact no_child_after_close. Qed.

(** the broker is closed ONCE MORE, atomically with the return of the close that does
    the work (`Imp.aclose`: pubsub.close() first, then possibly a wait for the run,
    then the `close` trigger, then pubsub.close() again, still under the lock).  The
    step that returns appends, newest first,
      EvRet t CClose ROk :: EvPub PEndCont :: [EvPub (PCont false)]? ++ EvPub PEndAll :: older
    so no broker publication (PState, PRunInfo, PRunNo, PStatement) comes after that
    PEndAll: only the `continuous` item, which is not a broker topic, is touched *)
Theorem C03_return_closes_broker_again : forall stmt start th md ls l t r,
  let s := run_labels (init_state stmt start th md) ls in
  In (EvRet t CClose r) (appended s (step s l)) ->
  nl_closed s = false \/ l = Step t ->
  exists coff mid, (coff = [] \/ coff = [EvPub (PCont false)]) /\
    trace (step s l) =
    EvRet t CClose ROk :: EvPub PEndCont :: coff ++ EvPub PEndAll :: mid ++ trace s.
Proof. exact close_return_shape. Qed.

(** every subscription handed out earlier has been ended.  A subscription is modelled
    as a point of the history: the trace prefix [pre] at which it was handed out --
    ANY point up to the state the returning step starts from, in particular one that
    lies after the first pubsub.close() of a close in progress (a `defaultdict` topic
    re-created while close() waits for the run).  After that point and before the
    return there is a PEndAll; the broker theorem C08_broker_close_ends_everything
    says that a close-out ends every subscriber of every topic existing then *)
Theorem C03_subscriptions_ended : forall stmt start th md ls l t r,
  let s := run_labels (init_state stmt start th md) ls in
  In (EvRet t CClose r) (appended s (step s l)) ->
  nl_closed s = false \/ l = Step t ->
  forall older pre, trace s = older ++ pre ->
  exists post, trace (step s l) = EvRet t CClose ROk :: post ++ pre /\ In (EvPub PEndAll) post.
Proof. exact subscriptions_ended. Qed.

(** every label that is not a new API call and that changes the state decreases a
    natural-number measure: no infinite internal activity, the FIFO hand-over of the
    lock and the re-queueing of close() after its start part included *)
Theorem C03_measure : forall stmt start th md ls l,
  let s := run_labels (init_state stmt start th md) ls in
  internal l = true -> step s l <> s -> (mu (step s l) < mu s)%nat.
Proof. exact measure_decreases. Qed.

(** no deadlock: whenever a task is queued for the lifecycle lock or inside start/close
    (a pc a close() can be at), some task step or the run task can move -- unless
    everything waits for the child process alone, which is characterised exactly:
    the run task waits for the child, one child is alive and has not exited, the lock
    holder is a close() waiting for the run, every other call waits for the lock or
    for the run; then the child's exit is enabled and unblocks the run task *)
Theorem C03_no_deadlock : forall stmt start th md ls,
  let s := run_labels (init_state stmt start th md) ls in
  (exists t c p, find_task (tasks s) t = Some (c, p) /\ compat CClose p = true) ->
  (exists t', (mu (step s (Step t')) < mu s)%nat) \/
  (mu (step s StepRun) < mu s)%nat \/
  (waits_only_child s /\
   forall o, (mu (step s (ChildExit o)) < mu s)%nat /\ run_blocked (step s (ChildExit o)) = false).
Proof. exact no_deadlock. Qed.

(** close() completes: from every reachable state with a close in flight (at any of
    its suspension points, issued by any task, whatever the other tasks are doing)
    there is a finite continuation made only of task steps, run-task steps and the
    exit of the child -- no new API call -- after which that close has returned ROk
    and everything is shut down *)
Theorem C03_close_completes : forall stmt start th md ls t p,
  let s := run_labels (init_state stmt start th md) ls in
  find_task (tasks s) t = Some (CClose, p) ->
  exists ls', Forall (fun x => internal x = true) ls' /\
    let s' := run_labels s ls' in
    hd_error (trace s') = Some (EvRet t CClose ROk) /\ closed_down s' /\
    exists new, trace s' = new ++ trace s /\ In (EvRet t CClose ROk) new.
Proof. exact close_completes. Qed.

(** the recorded finding "close() with an unanswered prompt never returns": a
    reachable state with a close in flight in which no task step and no step of the
    run task changes anything -- only the exit of the child does, and then the same
    close completes *)
Theorem C03_needs_child_exit_witness :
  find_task (tasks stuck_state) 1%nat = Some (CClose, C_WaitRunFinished) /\
  st_fsm stuck_state = Running /\ runt stuck_state = Some RT_WaitChild /\
  alive stuck_state = 1%nat /\ pending_exit stuck_state = None /\
  (forall t, step stuck_state (Step t) = stuck_state) /\
  step stuck_state StepRun = stuck_state /\
  (forall o, step stuck_state (ChildExit o) <> stuck_state) /\
  (let s' := run_labels stuck_state [ChildExit OReturn; StepRun; StepRun; StepRun; StepRun;
                                    Step 1; Step 1; Step 1]%nat in
   st_fsm s' = Closed /\ tasks s' = [] /\ alive s' = 0%nat /\
   hd_error (trace s') = Some (EvRet 1%nat CClose ROk)).
Proof. exact stuck_witness. Qed.

(** observation (mirrors `if self._closed: return` in Nextline.close): a SECOND close()
    issued while the first one is still waiting for the run returns at once, without
    error, while the state is still `running` -- "when close() returns the state is
    closed" is a statement about the close that does the work (C03_returns_closed,
    first disjunct); the later ones only promise "does nothing" *)
Theorem C03_second_close_returns_early_witness :
  let s := run_labels stuck_state [Call 2%nat CClose] in
  nl_closed stuck_state = true /\ st_fsm s = Running /\ alive s = 1%nat /\
  hd_error (trace s) = Some (EvRet 2%nat CClose ROk).
Proof. vm_compute. repeat split; reflexivity. Qed.

(** non-vacuity: start, run, close() from another task while running, the child
    exits, the run completes, the close completes; then a second close *)
Definition ex_before_return : list label :=
  stuck_labels ++ [ChildExit OReturn; StepRun; StepRun; StepRun; StepRun; Step 1; Step 1]%nat.

Example C03_example_nonvacuous :
  let s := run_labels (init_state 0 1 false false) ex_before_return in
  let s1 := step s (Step 1%nat) in
  let s2 := step s1 (Call 2%nat CClose) in
  find_task (tasks s) 1%nat = Some (CClose, C_G4) /\
  appended s s1 = [EvPub PEndAll; EvPub PEndCont; EvRet 1%nat CClose ROk] /\
  (* the broker was closed twice: when close() took the lock, and with its return *)
  filter (fun e => match e with EvPub PEndAll => true | _ => false end) (trace s1) =
    [EvPub PEndAll; EvPub PEndAll] /\
  filter (fun e => match e with EvPub PEndAll => true | _ => false end) (trace s) = [EvPub PEndAll] /\
  In (EvRet 1%nat CClose ROk) (appended s s1) /\
  closed_down s1 /\
  states_of (pubs_of (history s1)) = [Initialized; Running; Finished; Closed] /\
  nl_closed s1 = true /\
  appended s1 s2 = [EvCall 2%nat CClose; EvRet 2%nat CClose ROk] /\
  st_fsm s2 = Closed /\ tasks s2 = [] /\ alive s2 = 0%nat.
Proof.
  vm_compute. repeat split; try reflexivity; repeat (first [left; reflexivity | right]).
Qed.

(** the measure along that history is strictly decreasing on the internal labels *)
Example C03_example_measure :
  map (fun n => mu (run_labels (init_state 0 1 false false) (firstn n ex_before_return)))
      [11; 12; 13; 14; 15; 16; 17; 18]%nat = [40; 39; 37; 36; 35; 33; 31; 30]%nat.
Proof. vm_compute. reflexivity. Qed.

Print Assumptions C03_returns_closed.
Print Assumptions C03_never_raises.
Print Assumptions C03_return_closes_broker_again.
Print Assumptions C03_subscriptions_ended.
Print Assumptions C03_idempotent.
Print Assumptions C03_no_child_after_close.
Print Assumptions C03_measure.
Print Assumptions C03_no_deadlock.
Print Assumptions C03_close_completes.
Print Assumptions C03_needs_child_exit_witness.

(** Tie of the close path of the model to nextline/imp.py + nextline/main.py.
    Gen/ImpSkeleton.v is REGENERATED from the source by translate/imp_skeleton.py at every check;
    Life/ImpTie.v interprets it ([exec]: an oracle decides at every await whether it raises and
    the value of every untracked condition).  All statements are for every oracle. *)
From Coq Require Import String.
From NL Require Import Life.ImpSyntax Gen.ImpSkeleton Life.ImpTie.

(** every trigger issued by a method of Imp / Nextline (the run task's own `finish` is outside the
    lock by design, fsm/callback.py) and every pubsub.close() under the lock; the lock never
    requested while held, user code never run under it, no wait_for timeout armed under it, and free
    again when the call ends -- whatever raised (the release itself is the meaning of `async with`) *)
Theorem C03_tie_lock_released_on_every_path : forall ob m, In m (names ob) -> forall st cl o,
  let x := exec ob m st cl o in
  res_of x <> RBad /\ lock_ok false (trace_of x) = true /\ lk_held (cfg_of x) = false.
Proof. exact lock_discipline. Qed.

(** the actions of Nextline.close() / Imp.aclose() in the code are, in this order, those of the
    model's close paths (pubsub.close; the wait iff 'running'; the trigger; pubsub.close again;
    Continuous.close), the model holding the lock at every gate of the path *)
Theorem C03_tie_close_order :
  happy ONextline "close"%string true false false = [model_acts 2 s_started close_ls_idle] /\
  happy ONextline "close"%string true false true = [model_acts 2 s_running close_ls_running] /\
  happy ONextline "close"%string false false false = [model_acts 2 st_created close_ls_fresh] /\
  happy ONextline "close"%string true true false = [model_acts 2 s_closed [Model.Call 3 CClose]] /\
  map (fun a => a ++ [AContClose]) (happy OImp "aclose"%string true false false) = [model_acts 2 s_started close_ls_idle] /\
  map (fun a => a ++ [AContClose]) (happy OImp "aclose"%string true false true) = [model_acts 2 s_running close_ls_running] /\
  model_holds 2 s_started close_ls_idle = true /\ returned_ok 2 (run_labels s_started close_ls_idle) = true /\
  model_holds 2 s_running close_ls_running = true /\ returned_ok 2 (run_labels s_running close_ls_running) = true /\
  model_holds 2 st_created close_ls_fresh = true /\ returned_ok 2 (run_labels st_created close_ls_fresh) = true /\
  st_fsm s_running = Running /\ st_fsm s_started = Initialized /\
  model_acts 2 s_running close_ls_running = [APubSubClose; AWaitRun; ATrigClose; APubSubClose; AContClose] /\
  model_acts 2 st_created close_ls_fresh = [AContStart; ATrigOpen; APubSubClose; ATrigClose; APubSubClose; AContClose].
Proof. exact close_order_agrees. Qed.

(** every execution of close() (also those in which something raises) is such a path cut at the
    failing await; Continuous.start()/close() run outside the lock *)
Theorem C03_tie_close_cut_path : forall m, In m close_names -> forall st cl o,
  close_shape st cl (exec ONextline m st cl o) = true.
Proof. exact close_every_execution_is_a_cut_path. Qed.

(** the wait for the run is under the lock in close(), outside it in run_session() *)
Theorem C03_tie_wait_lock_status :
  (forall m, In m close_names -> forall st cl o, waits_held true false (trace_of (exec ONextline m st cl o)) = true) /\
  (forall st cl o, waits_held true false (trace_of (exec OImp "aclose"%string st cl o)) = true) /\
  (forall m, In m session_names -> forall st cl o, waits_held false false (trace_of (exec ONextline m st cl o)) = true) /\
  locked_pc C_WaitRunFinished = true /\ locked_pc P_WaitRunFinished = false.
Proof. exact wait_for_run_lock_status. Qed.

(** a close() issued when `_closed` is True -- i.e. after a close() that COMPLETED, see
    C03_tie_cut_close_can_be_repeated -- returns at the guard *)
Theorem C03_tie_second_close_does_nothing : forall st o,
  exec ONextline "close"%string st true o =
    (RNorm, mkCfg st true false, [EEnter ONextline "close"%string; EGuard (GFlag FClosed) true]).
Proof. exact second_close_does_nothing. Qed.

(** close() on a never-started object starts it first (fix 3e5a1b5) *)
Theorem C03_tie_close_starts_first : forall m, In m close_names -> forall o,
  let x := exec ONextline m false false o in
  opened_first false (trace_of x) = true /\ f_started (cfg_of x) = true /\
  (is_norm (res_of x) = true -> f_closed (cfg_of x) = true).
Proof. exact close_starts_first. Qed.

(** a close() that was cut at ANY await (refused trigger, raising hook, cancellation, the timeout of
    __aexit__) raises and leaves `_closed` False, so that the next close() does the work again; a
    close() in which nothing raised returns with `_closed` True; the lock is free (fix 9ec32d9) *)
Theorem C03_tie_cut_close_can_be_repeated : forall m, In m close_names -> forall st o,
  let x := exec ONextline m st false o in
  (existsb raised (trace_of x) = true -> res_of x = RExc /\ f_closed (cfg_of x) = false) /\
  (existsb raised (trace_of x) = false -> is_norm (res_of x) = true /\ f_closed (cfg_of x) = true) /\
  lk_held (cfg_of x) = false.
Proof. exact cut_close_can_be_repeated. Qed.

(** the only `asyncio.wait_for` is the one of __aexit__ around the whole of close(), outside the lock *)
Theorem C03_tie_timeout_only_around_close_in_aexit :
  (forall m, In m (names ONextline) -> forall st cl o, waitfor_ok m (exec ONextline m st cl o) = true) /\
  (forall m, In m (names OImp) -> forall st cl o, existsb is_waitfor (trace_of (exec OImp m st cl o)) = false) /\
  assoc "__aexit__"%string nextline_methods = Some (WaitFor (ImpSyntax.Call ONextline "close"%string)).
Proof. exact timeout_only_around_close_in_aexit. Qed.

(** the timeout of __aexit__ fires while close() waits for the run: TimeoutError propagates (intended
    API; for C03 the recorded finding "the run does not end"), lock released, `close` never
    triggered, `_closed` False again, and a later close() takes the model's close path *)
Theorem C03_tie_aexit_timeout_while_waiting_for_the_run :
  let x := exec ONextline "__aexit__"%string true false [false; false; true; true] in
  res_of x = RExc /\ f_closed (cfg_of x) = false /\ lk_held (cfg_of x) = false /\
  trace_of x = [EEnter ONextline "__aexit__"%string; EWaitFor; EEnter ONextline "close"%string; EGuard (GFlag FClosed) false;
                ESet FClosed true; EEnter ONextline "start"%string; EGuard (GFlag FStarted) true;
                EEnter OImp "aclose"%string; EAcq true; EPubClose true; EGuard (GStateIs "running"%string) true;
                EWaitRun false; ERel; ESet FClosed false] /\
  happy ONextline "close"%string true (f_closed (cfg_of x)) true = [model_acts 2 s_running close_ls_running].
Proof. exact aexit_timeout_while_waiting_for_the_run. Qed.

(** per-call refinement against Model.do_call / do_step (Life/ImpTie.v), every oracle *)
Theorem C03_tie_call_refinement : forall s c m, In s ref_states -> In c ref_calls -> In m (nl_methods_of c) ->
  (forall o, let x := exec ONextline m (nl_started s) (nl_closed s) o in
     verdict_of s c x <> VMismatch /\ (verdict_of s c x = VEqual -> end_agrees s c x = true)) /\
  (exists o, verdict_of s c (exec ONextline m (nl_started s) (nl_closed s) o) = VEqual).
Proof. exact call_refinement. Qed.

Print Assumptions C03_tie_lock_released_on_every_path.
Print Assumptions C03_tie_close_order.
Print Assumptions C03_tie_close_cut_path.
Print Assumptions C03_tie_wait_lock_status.
Print Assumptions C03_tie_second_close_does_nothing.
Print Assumptions C03_tie_close_starts_first.
Print Assumptions C03_tie_cut_close_can_be_repeated.
Print Assumptions C03_tie_timeout_only_around_close_in_aexit.
Print Assumptions C03_tie_aexit_timeout_while_waiting_for_the_run.
Print Assumptions C03_tie_call_refinement.

(** Tie of the callback wiring of the close paths: Gen/MachineWiring.v (translate/machine_wiring.py),
    Life/MachineTie.v.  The `close` trigger of the model = the program derived from the regenerated CONFIG,
    StateMachine and Callback, for ALL model states. *)
From NL Require Gen.FsmConfig Life.MachineSyntax Gen.MachineWiring Life.MachineTie.

(** every source state but Created; from Running the model fires the trigger only once `_run_finished` is set
    (Imp.aclose has waited, [C03_tie_machine_close_while_running]), so the wait of on_close_while_running passes at once;
    in Closed: the internal transition -- no callback, no state change, after_state_change returns early *)
Theorem C03_tie_machine_close_trigger : forall s t, st_fsm s <> Created ->
  (st_fsm s = Running -> run_finished s = Some true) ->
  close_trigger s t = MachineTie.api_trigger t CClose FsmConfig.TClose s.
Proof. exact MachineTie.tie_close_trigger. Qed.

(** from Created (unreachable: Imp.aclose runs after aopen) the model has no suspension at the `start` hook *)
Theorem C03_tie_machine_close_trigger_created : forall s t, st_fsm s = Created ->
  exists k, MachineTie.api_prog t CClose FsmConfig.TClose Created = Some k /\
            close_trigger s t = MachineTie.api_embed t CClose FsmConfig.TClose (MachineTie.run (MachineTie.ungate S_G1 k) s).
Proof. exact MachineTie.tie_close_trigger_created. Qed.

(** close while running: Imp.aclose awaits the regenerated Callback.wait_for_run_finish BEFORE the trigger:
    AttributeError if no run was ever started, at once if set, otherwise parked at C_WaitRunFinished until set *)
Theorem C03_tie_machine_close_while_running : forall s t,
  exists a r, MachineTie.wait_for_run_finish_prims = Some [MachineTie.PWait a r C_WaitRunFinished] /\
  (find_task (tasks s) t = Some (CClose, C_WaitRunFinished) ->
     do_step s t = if r s then close_trigger s t else s) /\
  (st_fsm s = Running ->
     enter_close s t = let s1 := publish s PEndAll in
                       match a s1 with
                       | MachineTie.WPass => close_trigger s1 t
                       | MachineTie.WPark => set_pc s1 t CClose C_WaitRunFinished
                       | MachineTie.WRaise x => MachineTie.raise_out s1 t CClose x
                       end).
Proof. exact MachineTie.tie_close_wait_run_finished. Qed.

(** close from Finished: on_exit_finished awaits the run task AFTER the before-callbacks and BEFORE the state change *)
Theorem C03_tie_machine_close_wait_run_task : forall s t, find_task (tasks s) t = Some (CClose, C_WaitRunTask) ->
  do_step s t = MachineTie.api_resume t CClose FsmConfig.TClose C_WaitRunTask
                  (MachineTie.api_cont t CClose FsmConfig.TClose Finished C_WaitRunTask) s.
Proof. exact MachineTie.tie_step_close_wait_task. Qed.

(** after the close hook: on_change_state (state already Closed), then the rest of Imp.aclose *)
Theorem C03_tie_machine_close_after : forall s t p src, find_task (tasks s) t = Some (CClose, p) ->
  src <> Closed -> In p [C_G3; C_G4] ->
  do_step s t = MachineTie.api_resume t CClose FsmConfig.TClose p (MachineTie.api_cont t CClose FsmConfig.TClose src p) s.
Proof. exact MachineTie.tie_step_close_after. Qed.

(** what a plugin sees of one close(): Closed -> nothing at all *)
Theorem C03_tie_machine_close_hook_order : forall s t,
  MachineTie.api_hook_order t CClose FsmConfig.TClose s =
  match st_fsm s with
  | Created => Some [(HStart, Created); (HChangeScript, Created); (HClose, Closed); (HChangeState, Closed)]
  | Closed => Some []
  | _ => Some [(HClose, Closed); (HChangeState, Closed)]
  end.
Proof. exact MachineTie.hook_order_close. Qed.

Print Assumptions C03_tie_machine_close_trigger.
Print Assumptions C03_tie_machine_close_trigger_created.
Print Assumptions C03_tie_machine_close_while_running.
Print Assumptions C03_tie_machine_close_wait_run_task.
Print Assumptions C03_tie_machine_close_after.
Print Assumptions C03_tie_machine_close_hook_order.

(** The whole close path from the two regenerated sources together (Life/MachineImpTie.v) *)
From NL Require Life.MachineImpTie.

(** from the moment Imp.aclose holds the lock: pubsub.close(); the wait for the run iff the state is `running`
    (AttributeError if no run was ever started); the trigger `close` (script of Gen/FsmConfig.v + Gen/MachineWiring.v);
    pubsub.close() again; release of the lock; Continuous.close() (tail of the regenerated Nextline.close) -- all states
    but Created (unreachable: Nextline.close starts first) *)
Theorem C03_tie_machine_imp_close : forall s t, st_fsm s <> Created ->
  enter_close s t = MachineImpTie.imp_run "aclose"%string t CClose s.
Proof. exact MachineImpTie.imp_run_aclose. Qed.

Theorem C03_tie_machine_imp_close_prologue : forall s t,
  enter_close s t =
  match MachineImpTie.orun t CClose (MachineImpTie.imp_pre "aclose"%string) s with
  | (s1, MachineImpTie.ODone) => close_trigger s1 t
  | (s1, MachineImpTie.OPark p _ _) => set_pc s1 t CClose p
  | (s1, MachineImpTie.ORaise x) => MachineTie.raise_out s1 t CClose x
  | (s1, MachineImpTie.OStuck) => s1
  end.
Proof. exact MachineImpTie.imp_close_prologue. Qed.

(** the epilogue of close that Life/MachineTie.v takes from the model is: second pubsub.close(), release, Continuous.close(), return *)
Theorem C03_tie_machine_imp_close_epilogue : forall s t c,
  MachineTie.epilogue t c FsmConfig.TClose s = MachineImpTie.derived_epilogue "aclose"%string t c s.
Proof. exact MachineImpTie.imp_epilogue_aclose. Qed.

Print Assumptions C03_tie_machine_imp_close.
Print Assumptions C03_tie_machine_imp_close_prologue.
Print Assumptions C03_tie_machine_imp_close_epilogue.
