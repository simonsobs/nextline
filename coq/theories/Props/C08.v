(** C08 -- pub/sub delivers every item to every subscriber once, in order,
    and ends cleanly.  Property theorems only; each is closed by [exact] of a
    lemma proved in PubSub/{Refine,Delivery,Main,Broker}.v or, for the C08_tie_* ones, PubSub/{Tie,TieBroker}.v.

    Model: PubSub/Model.v (queues, indices, cache, sentinels of PubSubItem).
    Spec:  PubSub/Spec.v ([expected] is a function of the history alone).
    All statements quantify over EVERY operation sequence [ops] (every
    interleaving of publishers, subscribers joining/leaving, clear/close). *)
From NL Require Import PubSub.Model PubSub.Spec PubSub.Refine PubSub.Delivery PubSub.Main PubSub.Broker.
Open Scope Z_scope.

(** the implementation model and the 40-line specification produce the same
    outputs, operation by operation *)
Theorem C08_refines_spec : forall cache ops, outs cache ops = aouts cache ops.
Proof. exact refinement. Qed.

(** no loss, no duplication, no reordering; replay as requested *)
Theorem C08_exact_delivery : forall cache ops s,
  let h := history cache ops in
  left_sub h s = false ->
  got h s ++ owed_of (run cache ops) s = expected cache h s.
Proof. exact model_exact_delivery. Qed.

(** a subscriber whose iteration terminated has received everything *)
Theorem C08_complete_when_finished : forall cache ops s sb,
  let h := history cache ops in
  left_sub h s = false ->
  nth_error (i_subs (run cache ops)) s = Some sb -> s_phase sb = Finished ->
  got h s = expected cache h s.
Proof. exact model_complete_when_finished. Qed.

(** after the end of the topic every subscriber's iteration terminates and
    never blocks *)
Theorem C08_termination : forall cache ops s,
  i_closed (run cache ops) = true -> (s < length (i_subs (run cache ops)))%nat ->
  exists n,
    let tail := skipn (length ops) (outs cache (ops ++ repeat (Next s) (S n))) in
    last tail OBlocked = OStop /\ ~ In OBlocked tail.
Proof. exact model_termination. Qed.

(** 'latest' is the most recent item of the current lifetime *)
Theorem C08_latest : forall cache ops,
  snd (step (run cache ops) Latest) =
  match rev (since_clear (history cache ops)) with v :: _ => OLatest (Some v) | [] => OErr end.
Proof. exact model_latest. Qed.

(** all subscribers agree on one order: each one's new items are a suffix of
    the single publication log of the lifetime *)
Theorem C08_one_order : forall cache ops s b af,
  let h := history cache ops in
  split_start h s = Some (b, af) -> has_close b = false ->
  expected cache h s =
    (match sub_opts h s with Some (l, c) => replay cache (since_clear b) l c | None => [] end)
    ++ match sub_opts h s with Some _ => pubs (until_close af) | None => [] end
  /\ exists pre, pubs (until_close h) = pre ++ pubs (until_close af).
Proof. exact model_one_order. Qed.

(** the broker (PubSub): for EVERY sequence of broker operations, every topic lifetime
    (instance) that is no longer bound to a key has been ended, and keys are bound at most once *)
Theorem C08_broker_unbound_is_ended : forall ops,
  NoDup (map fst (b_map (bfinal ops))) /\
  forall i it, nth_error (b_items (bfinal ops)) i = Some it ->
    (exists k, In (k, i) (b_map (bfinal ops))) \/ i_closed it = true.
Proof. exact BInv_reachable. Qed.

(** PubSub.close() ends every lifetime that exists: with C08_termination, every iterator
    handed out before close() terminates *)
Theorem C08_broker_close_ends_everything : forall ops i it,
  nth_error (b_items (bfinal (ops ++ [BClose]))) i = Some it -> i_closed it = true.
Proof. exact close_ends_everything. Qed.

(** non-vacuity: a run with two subscribers (one leaving early), a clear, a
    cache replay and a close, on which the hypotheses hold and the sequences
    are non-trivial *)
Definition ex_ops : list op :=
  [Publish 1; Publish 2; Sub true true; Sub true false; Next 0%nat; Publish 3; Next 1%nat;
   Next 0%nat; Next 0%nat; Leave 1%nat; Publish 4; Close; Next 0%nat; Next 0%nat; Publish 5; Next 0%nat].

Example C08_example_nonvacuous :
  left_sub (history true ex_ops) 0 = false /\
  expected true (history true ex_ops) 0 = [1; 2; 3; 4] /\
  got (history true ex_ops) 0 = [1; 2; 3; 4] /\
  expected true (history true ex_ops) 1 = [3; 4] /\
  got (history true ex_ops) 1 = [3] /\
  i_closed (run true ex_ops) = true.
Proof. vm_compute. repeat split; reflexivity. Qed.

(** Tie to the source (translate/pubsub_funs.py -> Gen/PubSubFuns.v).
    The method bodies of PubSubItem / PubSub are REGENERATED from /repo on every run as terms of
    PubSub/Syntax.v; PubSub/Interp.v, PubSub/TieBroker.v interpret them ([istep], [ibstep]);
    [abs]/[babs] map the interpreter's state (attributes + one frame per generator: rest of the
    body, locals, queue) onto the model's state; [wf]/[bwf] hold of every reachable state. *)
From NL Require Import PubSub.Syntax Gen.PubSubFuns PubSub.Interp PubSub.Tie PubSub.TieBroker.

(** every operation of a PubSubItem: the regenerated code makes the step of the model *)
Theorem C08_tie_item_ops : forall ps o, wf ps ->
  exists ps', istep ps o = Some (ps', snd (step (abs ps) o)) /\
              abs ps' = fst (step (abs ps) o) /\ wf ps'.
Proof. exact tie_step. Qed.

(** `await self._enumerate(e)`: stamps, caches and distributes to every registered queue *)
Theorem C08_tie_enumerate : forall ps e, wf ps ->
  exists ps', enum_sem ps (VEnt (Some e)) = Some ps' /\ abs ps' = enumerate (abs ps) e /\ wf ps'
              /\ p_closed ps' = p_closed ps /\ p_last_item ps' = p_last_item ps.
Proof. exact enum_spec. Qed.

Theorem C08_tie_publish : forall ps v, wf ps -> tied ps (Publish v).
Proof. exact tie_publish. Qed.

Theorem C08_tie_clear : forall ps, wf ps -> tied ps Clear.
Proof. exact tie_clear. Qed.

Theorem C08_tie_aclose : forall ps, wf ps -> tied ps Close.
Proof. exact tie_close. Qed.

Theorem C08_tie_latest : forall ps, wf ps -> tied ps Latest.
Proof. exact tie_latest. Qed.

(** the call `subscribe(last=l, cache=c)` runs nothing of the body (async generator) *)
Theorem C08_tie_subscribe_call : forall ps l c, wf ps -> tied ps (Sub l c).
Proof. exact tie_sub. Qed.

(** the DEFAULTS of the regenerated signature are load-bearing: `subscribe()` with arguments omitted
    (any subset, keyword or positional) is the model's [Sub] with `last=True`, `cache=True` *)
Theorem C08_tie_subscribe_defaults : forall ps,
  isub_call ps [] [] = isub ps true true /\
  (forall l, isub_call ps [] [("last"%string, VBool l)] = isub ps l true) /\
  (forall c, isub_call ps [] [("cache"%string, VBool c)] = isub ps true c) /\
  (forall l, isub_call ps [VBool l] [] = isub ps l true) /\
  (forall l c, isub_call ps [VBool l; VBool c] [] = isub ps l c).
Proof. exact isub_defaults. Qed.

Theorem C08_tie_subscribe_no_arguments : forall ps, wf ps ->
  exists ps', isub_call ps [] [] = Some (ps', snd (step (abs ps) (Sub true true))) /\
              abs ps' = fst (step (abs ps) (Sub true true)) /\ wf ps'.
Proof. exact tie_sub_defaults. Qed.

(** the first `__anext__`: snapshot, `_END` check, queue registration, then replay / last / queue *)
Theorem C08_tie_first_next : forall ps s g,
  wf ps -> nth_error (p_gens ps) s = Some g -> g_status g = GFresh -> tied ps (Next s).
Proof. exact tie_next_fresh. Qed.

(** a later `__anext__`, from each of the four places the body can be suspended at *)
Theorem C08_tie_later_next : forall ps s g k,
  wf ps -> nth_error (p_gens ps) s = Some g -> g_status g = GSusp k -> tied ps (Next s).
Proof. exact tie_next_susp. Qed.

(** the queue loop of the regenerated body is [read_queue] of the model *)
Theorem C08_tie_queue_loop : forall s F li qu n ps en g,
  nth_error (p_gens ps) s = Some g -> g_queue g = qu ->
  en "q"%string = VQueue s -> en "last_idx"%string = VInt li -> (length qu < n)%nat ->
  exists en', agree en en' /\
    while_loop (exec enum_sem s F sub_wbody) sub_wbody n ps en =
    match read_queue li qu with
    | (q', OItem v, _) => RYield (VEnt (Some (It v))) (SWhileRun SSkip sub_wbody) (put_gen ps s (gen_set_queue g q')) en'
    | (q', OStop, _) => RRet VNone (put_gen ps s (gen_set_queue g q')) en'
    | (q', _, _) => RBlock (SWhileRun sub_wbody sub_wbody) (put_gen ps s (gen_set_queue g q')) en'
    end.
Proof. exact while_spec. Qed.

(** leaving early: `aclose()` of the generator, or cancellation of a pending `__anext__` (GeneratorExit /
    CancelledError raised AT the suspension point): the `finally` clause runs from EACH of the four places the
    protected body can be suspended at (the three `yield`s and `await q.get()`) and removes the queue.
    NOT modelled (excluded, see TRUSTED_BASE in harness/props/c08.py): `athrow()` of another exception into the generator, a second
    `__anext__` while one is running, finalisation by the garbage collector; the user item's own
    `__bool__`/`__eq__` never matters (only `is` and integer comparisons occur). *)
Theorem C08_tie_leave : forall ps s, wf ps -> tied ps (Leave s).
Proof. exact tie_leave. Qed.

(** `PubSubItem(cache=c)` *)
Theorem C08_tie_init : forall cache,
  exists ps, iinit [("cache"%string, VBool cache)] = Some ps /\ abs ps = new_item cache /\ wf ps.
Proof. exact tie_init. Qed.

(** for EVERY history the regenerated code of PubSubItem produces the outputs of the model ... *)
Theorem C08_tie_item_histories : forall cache ops, iouts cache ops = Some (outs cache ops).
Proof. exact tie_outs. Qed.

(** ... hence (C08_refines_spec) the outputs of the specification: every theorem above about
    [outs] is a theorem about the regenerated code *)
Theorem C08_tie_item_refines_spec : forall cache ops, iouts cache ops = Some (aouts cache ops).
Proof. exact tie_refines_spec. Qed.

(** every operation of the broker PubSub (publish / end / close / latest / subscribe, and
    next / leave on the generators it handed out) *)
Theorem C08_tie_broker_ops : forall ib o, bwf ib ->
  exists ib', ibstep ib o = Some (ib', snd (bstep (babs ib) o)) /\
              babs ib' = fst (bstep (babs ib) o) /\ bwf ib'.
Proof. exact btie_step. Qed.

Theorem C08_tie_broker_publish : forall ib k v, bwf ib -> btied ib (BPublish k v).
Proof. exact btie_publish. Qed.

(** `subscribe(key)` looks the item up AT THE CALL *)
Theorem C08_tie_broker_subscribe : forall ib k l, bwf ib -> btied ib (BSub k l).
Proof. exact btie_sub. Qed.

(** `subscribe(key)` with `last` omitted = the model's `BSub key true` (default of `last` in the broker's
    signature, default of `cache` in the item's) *)
Theorem C08_tie_broker_subscribe_default : forall ib k, bwf ib ->
  exists ib', ibsub ib k [] = Some (ib', snd (bstep (babs ib) (BSub k true))) /\
              babs ib' = fst (bstep (babs ib) (BSub k true)) /\ bwf ib'.
Proof. exact btie_sub_default. Qed.

(** `end(key)`: pop, then aclose of the popped item *)
Theorem C08_tie_broker_end : forall ib k, bwf ib -> btied ib (BEnd k).
Proof. exact btie_end. Qed.

(** `close()`: popitem + aclose until the dict is empty *)
Theorem C08_tie_broker_close : forall ib, bwf ib -> btied ib BClose.
Proof. exact btie_close. Qed.

Theorem C08_tie_broker_histories : forall ops, ibouts ops = Some (bouts ops).
Proof. exact btie_outs. Qed.

(** non-vacuity of the tie: the interpreter really runs the regenerated bodies (it is not stuck)
    on the example history, through replay, last item, queue loop, early leave and end *)
Example C08_example_tie_nonvacuous :
  iouts true ex_ops =
  Some [OUnit; OUnit; OSid 0; OSid 1; OItem 1; OUnit; OItem 3; OItem 2; OItem 3; OUnit; OUnit; OUnit;
        OItem 4; OStop; OErr; OStop].
Proof. vm_compute. reflexivity. Qed.

Print Assumptions C08_refines_spec.
Print Assumptions C08_exact_delivery.
Print Assumptions C08_complete_when_finished.
Print Assumptions C08_termination.
Print Assumptions C08_latest.
Print Assumptions C08_one_order.
Print Assumptions C08_broker_unbound_is_ended.
Print Assumptions C08_broker_close_ends_everything.
Print Assumptions C08_tie_item_ops.
Print Assumptions C08_tie_enumerate.
Print Assumptions C08_tie_publish.
Print Assumptions C08_tie_clear.
Print Assumptions C08_tie_aclose.
Print Assumptions C08_tie_latest.
Print Assumptions C08_tie_subscribe_call.
Print Assumptions C08_tie_subscribe_defaults.
Print Assumptions C08_tie_subscribe_no_arguments.
Print Assumptions C08_tie_broker_subscribe_default.
Print Assumptions C08_tie_first_next.
Print Assumptions C08_tie_later_next.
Print Assumptions C08_tie_queue_loop.
Print Assumptions C08_tie_leave.
Print Assumptions C08_tie_init.
Print Assumptions C08_tie_item_histories.
Print Assumptions C08_tie_item_refines_spec.
Print Assumptions C08_tie_broker_ops.
Print Assumptions C08_tie_broker_publish.
Print Assumptions C08_tie_broker_subscribe.
Print Assumptions C08_tie_broker_end.
Print Assumptions C08_tie_broker_close.
Print Assumptions C08_tie_broker_histories.
