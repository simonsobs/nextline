(** C02 -- every started run finishes and is reported exactly once (the
    bookkeeping part, on the lifecycle model Life/Model.v; proofs in Life/Protocol.v and
    Life/RunLive.v), then the tie to the regenerated code (proofs in Life/RecordTie.v).

    [rinfo] (Life/Protocol.v) is the run-record automaton over the
    publications of the history, a function of the history alone:
      QN --initialized n st--> QI n st --running n st--> QR n st
         --finished n st (Some o)--> QF n st o --initialized n' st'--> QI n' st' ...
      (QI --initialized--> QI is a reset without a run); anything else -> QBad.
    All statements quantify over EVERY label sequence [ls] = every history of
    calls, every schedule, every outcome and moment of the child's exit. *)
From NL Require Import Life.Close Life.RunLive.
From NL Require Import Life.Model Life.LockInv Life.FsmInv Life.Hist Life.Protocol.
Open Scope Z_scope.

(** the record of a run goes initialized, running, finished, each once, in
    that order, under one run number and script; the exact correspondence with
    the state; once the run task has ended no record is left at `running` *)
Theorem C02_run_info_once : forall stmt start th md ls,
  let s := run_labels (init_state stmt start th md) ls in
  let q := rinfo (pubs_of (history s)) in
  q <> QBad /\
  rec_corr q (st_fsm s) (runt s) (run_arg s) (exited_proc s) /\
  (runt s = None -> q = QN \/ (exists n st, q = QI n st) \/ (exists n st o, q = QF n st o)) /\
  (forall n st, q = QR n st -> runt s = Some RT_G_start \/ runt s = Some RT_WaitChild).
Proof. exact all_run_info_once. Qed.

(** the same, spelled out per publication: a `running` (`finished`) record
    carries the run number and script of the `initialized` (`running`) record
    that is the last record before it; `initialized` follows nothing, an
    `initialized` (reset without a run) or a `finished` record *)
Theorem C02_run_info_numbering : forall stmt start th md ls l1 l2 n ph st r,
  let s := run_labels (init_state stmt start th md) ls in
  pubs_of (history s) = l1 ++ PRunInfo n ph st r :: l2 ->
  match ph with
  | RInitialized => r = None /\ (last_rec l1 = None \/ (exists m st', last_rec l1 = Some (m, RInitialized, st'))
                                \/ exists m st', last_rec l1 = Some (m, RFinished, st'))
  | RRunning => r = None /\ last_rec l1 = Some (n, RInitialized, st)
  | RFinished => r <> None /\ last_rec l1 = Some (n, RRunning, st)
  end.
Proof.
  intros stmt start th md ls l1 l2 n ph st r s E. apply (rinfo_numbering l1 l2). rewrite <- E.
  apply (all_run_info_once stmt start th md ls).
Qed.

(** from end-run until the next run starts, Context.exited_process (what
    result()/format_exception() read) is the result of the last `finished`
    record *)
Theorem C02_result_matches : forall stmt start th md ls,
  let s := run_labels (init_state stmt start th md) ls in
  (runt s = Some RT_G_end \/ runt s = Some RT_G_fin \/ runt s = Some RT_G_cs \/
   (runt s = None /\ proto (hooks_of (history s)) = PF)) ->
  exists o, exited_proc s = Some o /\ last_result (pubs_of (history s)) = Some o.
Proof. intros stmt start th md ls s. apply PInv_result, PInv_reachable. Qed.

(** a `finished` record is published only by the run task when it observes the
    child's exit, with the pending outcome, which becomes exited_process *)
Theorem C02_result_from_child : forall stmt start th md ls l n st r,
  let s := run_labels (init_state stmt start th md) ls in
  In (EvPub (PRunInfo n RFinished st r)) (appended s (step s l)) ->
  l = StepRun /\ runt s = Some RT_WaitChild /\ runt (step s l) = Some RT_G_end /\
  exists o a, r = Some o /\ pending_exit s = Some o /\ exited_proc (step s l) = Some o /\
              run_arg s = Some a /\ n = ra_no a /\ st = ra_stmt a.
Proof. intros stmt start th md ls l n st r s. apply result_from_child; apply reach_all. Qed.

(** the pending outcome is the one delivered by the environment *)
Theorem C02_pending_exit_source : forall stmt start th md ls l o,
  let s := run_labels (init_state stmt start th md) ls in
  pending_exit (step s l) = Some o -> pending_exit s = Some o \/ l = ChildExit o.
Proof. intros stmt start th md ls l o s. apply pe_source; apply reach_all. Qed.

(** exited_process changes only when a run starts its process or observes its exit *)
Theorem C02_exited_proc_kept : forall stmt start th md ls l,
  let s := run_labels (init_state stmt start th md) ls in
  exited_proc (step s l) = exited_proc s \/
  (l = StepRun /\ (runt s = Some RT_New \/ runt s = Some RT_WaitChild)).
Proof. exact all_exited_proc_kept. Qed.

(** anything waiting for the run is released exactly when the run task has ended *)
Theorem C02_finished_set_in_finally : forall stmt start th md ls,
  let s := run_labels (init_state stmt start th md) ls in
  (runt s = None -> run_finished s <> Some false) /\ (runt s <> None -> run_finished s = Some false).
Proof. exact all_finished_set. Qed.

(** measure: an effective step of the run task decreases [rank (runt s)] by one *)
Theorem C02_measure : forall stmt start th md ls,
  let s := run_labels (init_state stmt start th md) ls in
  step s StepRun <> s -> S (rank (runt (step s StepRun))) = rank (runt s).
Proof. intros stmt start th md ls s. apply Protocol.measure_decreases, reach_all. Qed.

(** nobody else moves the run task backwards while it exists *)
Theorem C02_measure_nonincreasing : forall stmt start th md ls l,
  let s := run_labels (init_state stmt start th md) ls in
  runt s <> None -> (rank (runt (step s l)) <= rank (runt s))%nat.
Proof. intros stmt start th md ls l s. apply measure_nonincreasing; apply reach_all. Qed.

(** progress: with a run task, either its step is effective, or it waits for
    the child (environment), or for the state notification of the run() call
    that holds the lock (assumption F), whose step is then effective and
    discharges the guard *)
Theorem C02_progress : forall stmt start th md ls r,
  let s := run_labels (init_state stmt start th md) ls in
  runt s = Some r ->
  step s StepRun <> s
  \/ (r = RT_WaitChild /\ run_call_pending s = false /\ pending_exit s = None)
  \/ (r = RT_WaitChild /\ run_call_pending s = true /\
      exists t, holder s = Some t /\ step s (Step t) <> s /\ run_call_pending (step s (Step t)) = false).
Proof. exact all_progress. Qed.

(** under any schedule, while the run task exists: (effective steps of the run
    task) + (remaining rank) <= (rank at the beginning); so the run task takes at
    most 7 effective steps and [C02_progress] says when a step is effective *)
Theorem C02_bounded_steps : forall stmt start th md ls ls',
  let s := run_labels (init_state stmt start th md) ls in
  run_exists s ls' -> (eff s ls' + rank (runt (run_labels s ls')) <= rank (runt s))%nat.
Proof. intros stmt start th md ls ls' s. apply eff_bound; apply reach_all. Qed.

(** once the child has exited and the gates are released the run task ends:
    state 'finished', everything waiting for the run released *)
Theorem C02_run_to_end : forall stmt start th md ls n,
  let s := run_labels (init_state stmt start th md) ls in
  rank (runt s) = S n -> (S n <= 4)%nat ->
  (runt s = Some RT_WaitChild -> run_call_pending s = false /\ pending_exit s <> None) ->
  let s' := run_labels s (repeat StepRun (S n)) in
  runt s' = None /\ st_fsm s' = Finished /\ run_finished s' = Some true.
Proof. intros stmt start th md ls n s. apply run_to_end; apply reach_all. Qed.

(** LIVENESS, as one theorem (the mirror of C03_close_completes): from EVERY reachable state
    in which a run task exists (an accepted run: starting, running or finishing) there is a
    continuation consisting only of internal labels -- steps of API tasks at their gates,
    steps of the run task, and the exit of the child (that the child exits, with whatever
    outcome and whenever, is the environment's part; DESIGN 4.2) -- after which the run task
    has ended, everything waiting for the run is released (run_finished set, no task left
    at the wait for the run or at started.wait()), no child is left, the state is 'finished',
    the hook protocol is complete (PF) and the run_info record of THAT run (its number and
    script) is closed with `finished` carrying the result that result() reports.
    With C02_measure / C02_bounded_steps (no schedule can postpone this for ever by internal
    steps of the run task) this is the progress half of the property. *)
Theorem C02_accepted_run_finishes : forall stmt start th md ls,
  let s := run_labels (init_state stmt start th md) ls in
  runt s <> None ->
  exists ls', Forall (fun l => Close.internal l = true) ls' /\
    let s' := run_labels s ls' in
    runt s' = None /\ run_finished s' = Some true /\ alive s' = 0%nat /\ pending_exit s' = None /\
    st_fsm s' = Finished /\
    (forall t c p, find_task (tasks s') t = Some (c, p) -> p <> P_WaitRunFinished /\ p <> R_WaitStarted) /\
    proto (hooks_of (history s')) = PF /\
    exists n st o,
      rinfo (pubs_of (history s')) = QF n st o /\ exited_proc s' = Some o /\
      last_result (pubs_of (history s')) = Some o /\
      (forall a, run_arg s = Some a -> n = ra_no a /\ st = ra_stmt a).
Proof. exact accepted_run_finishes. Qed.

(** in the middle of a run_session request (the run task has published `running`, the call
    still has its state notification to do, the child is alive, the caller will wait for the
    run): the hypothesis holds and a concrete continuation ends as the theorem says *)
Example C02_example_liveness_nonvacuous :
  let s := run_labels ex_init [Call 0%nat CStart; Step 0%nat; Step 0%nat; Step 0%nat;
                               Call 1%nat CRunSession; StepRun; StepRun] in
  let s' := run_labels s [StepRun; Step 1%nat; Step 1%nat; ChildExit OInterrupt; StepRun; StepRun; StepRun; StepRun;
                          Step 1%nat] in
  runt s = Some RT_G_start /\ alive s = 1%nat /\ find_task (tasks s) 1%nat = Some (CRunSession, R_WaitStarted)
  /\ find_task (tasks (run_labels s [StepRun; Step 1%nat; Step 1%nat])) 1%nat = Some (CRunSession, P_WaitRunFinished)
  /\ runt s' = None /\ run_finished s' = Some true /\ alive s' = 0%nat /\ st_fsm s' = Finished /\ tasks s' = []
  /\ proto (hooks_of (history s')) = PF /\ rinfo (pubs_of (history s')) = QF 1 7 OInterrupt
  /\ exited_proc s' = Some OInterrupt
  /\ hd_error (trace s') = Some (EvRet 1%nat CRunSession ROk).
Proof. vm_compute. repeat split; reflexivity. Qed.

(** the history of C12's example: two runs (return, raise) with a reset in
    between, then close: the run_info sequence is init 1, running 1,
    finished 1 (return), init 2, running 2, finished 2 (raise); the hypotheses
    of C02_run_to_end hold right after the first child's exit *)
Example C02_example_nonvacuous :
  filter is_run_info (pubs_of (history (run_labels ex_init ex_labels)))
  = [PRunInfo 1 RInitialized 7 None; PRunInfo 1 RRunning 7 None; PRunInfo 1 RFinished 7 (Some OReturn);
     PRunInfo 2 RInitialized 7 None; PRunInfo 2 RRunning 7 None; PRunInfo 2 RFinished 7 (Some ORaise)]
  /\ rinfo (pubs_of (history (run_labels ex_init ex_labels))) = QF 2 7 ORaise
  /\ exited_proc (run_labels ex_init ex_labels) = Some ORaise
  /\ (let s := run_labels ex_init (firstn 11 ex_labels) in
      (runt s, run_call_pending s, pending_exit s, rank (runt s))
      = (Some RT_WaitChild, false, Some OReturn, 4%nat)).
Proof. vm_compute. repeat split; reflexivity. Qed.

(** the automaton does reject: running without initialized, finished twice,
    another run number, a new initialized while a record is at running *)
Example C02_example_automaton_rejects :
  rinfo [PRunInfo 1 RRunning 7 None] = QBad
  /\ rinfo [PRunInfo 1 RInitialized 7 None; PRunInfo 1 RRunning 7 None; PRunInfo 1 RFinished 7 (Some OReturn);
            PRunInfo 1 RFinished 7 (Some OReturn)] = QBad
  /\ rinfo [PRunInfo 1 RInitialized 7 None; PRunInfo 2 RRunning 7 None] = QBad
  /\ rinfo [PRunInfo 1 RInitialized 7 None; PRunInfo 1 RRunning 7 None; PRunInfo 2 RInitialized 7 None] = QBad
  /\ rinfo [PRunInfo 1 RInitialized 7 None; PRunInfo 1 RRunning 7 None; PRunInfo 1 RFinished 7 None] = QBad
  /\ rinfo [PRunInfo 1 RInitialized 7 None; PRunInfo 1 RRunning 7 None; PRunInfo 1 RFinished 7 (Some ODied)]
     = QF 1 7 ODied.
Proof. vm_compute. repeat split; reflexivity. Qed.

(** Tie to the REGENERATED code (translate/run_record.py -> Gen/RunRecord.v,
    translate/callback_skeleton.py -> Gen/CallbackSkeleton.v; Life/RecordSyntax.v, RecordInterp.v,
    RecordRun.v, RecordTie.v).  The record-keeping code of /repo is translated statement by
    statement at every check; the theorems below are about THOSE definitions:
    control = the skeleton of Callback._run/_finish and RunSession.run under any raising await
    (oracle [o], Life/FailStart.v), data = the statements of RunInfoRegistrar, RunSession.run,
    _on_start_run/_on_end_run, RunningProcess.__await__/_log_exited, RunResult, Result, Imp and
    Nextline interpreted along the trace of control points, for every world [w] = (outcome of the
    child, exit code, whether the exit code is a key of _exitcode_to_name, run number, script,
    and whether the implementations of a hook whose await raised had run -- cancellation in the
    hook window -- or not).  "An await raises" includes a CancelledError delivered there. *)
From Coq Require Import String List.
From NL Require Import Life.RecordSyntax Life.RecordInterp Gen.RunRecord Life.RecordTie.
Import ListNotations.
Open Scope string_scope.

(** `_run_finished.set()` is executed on every path out of `_finish`, whether the `finish`
    trigger raises or not ... *)
Theorem C02_tie_finish_sets_event : forall o,
  FS.acts (snd (fst (FS.exec CS.finish_skeleton o))) = [CS.SetRunArgNone; CS.Finish; CS.SetRunFinished].
Proof. exact finish_skeleton_sets. Qed.

(** ... in the whole of Callback._run, whichever awaits raise: exactly once, after the single
    `finish` trigger, with nothing after it *)
Theorem C02_tie_run_finished_set_once_last : forall o,
  FS.run_arg_withdrawn_before_finished (FS.trace o) = true /\ FS.nothing_after_finished (FS.trace o) = true.
Proof. exact run_finished_set_once_last. Qed.

(** ... and it is THE event wait_for_run_finish (Imp.wait, close) waits for: created by start_run
    first, set on every path out of `_finish` and of `_run`, by no other method of Callback;
    on_exit_finished swallows whatever the run task raised *)
Theorem C02_tie_run_finished_event :
  exists t, cb_method "wait_for_run_finish" = [CbWaitEvent t] /\
    (exists rest, cb_method "start_run" = CbNewEvent t :: rest) /\
    (forall o set, is_set t (cexec 20%nat (cb_method "_finish") set o) = true) /\
    (forall o set, is_set t (cexec 20%nat (cb_method "_run") set o) = true) /\
    forallb (fun m => String.eqb (fst m) "_finish" || negb (sets 20%nat t (snd m))) callback = true /\
    (forall o set, fst (fst (cexec 20%nat (cb_method "on_exit_finished") set o)) = false).
Proof. exact run_finished_event. Qed.

(** the two translations of Callback agree; the data statements of RunSession.run are keyed by
    the control points of the skeleton, in its order, continuations on awaits.
    (Agreements between two REGENERATED artefacts -- both sides change with the
    source -- through hand-written dictionaries; what they protect is that the data statements are
    attached to the right control points of the skeleton the exception analysis runs on.) *)
Theorem C02_tie_callback_translations_agree :
  erase 20%nat (cb_method "start_run") = Some CS.start_run_skeleton /\
  erase 20%nat (cb_method "_run") = Some CS.run_skeleton /\
  erase 20%nat (cb_method "_finish") = Some CS.finish_skeleton.
Proof. exact callback_translations_agree. Qed.

Theorem C02_tie_session_positions_agree :
  map (fun x => fst (fst x)) session = map fst skeleton_positions /\
  forallb (fun x => match x with
                    | (p, Returned, _) => existsb (fun y => pos_eqb p (fst y) && snd y) skeleton_positions
                    | _ => true
                    end) session = true.
Proof. exact session_positions_agree. Qed.

(** THE statement about the data, for every world and every oracle: no data statement raises by
    itself (in particular not the await of the process handle), the run_info publications are
    exactly [expected_pubs] (a function of the world and the history), and result() /
    format_exception() afterwards are exactly [expected_api] *)
Theorem C02_tie_every_run_good : forall w o, good_run w (FS.trace o).
Proof. exact every_run_good. Qed.

(** the run_info publications of one run: exactly [expected_pubs] ... *)
Theorem C02_tie_run_info_exact : forall w o,
  exists d, data_run w (FS.trace o) = Ok d /\ d_raised d = None /\ d_eff d = expected_pubs w (FS.trace o).
Proof. exact run_info_exact. Qed.

(** ... i.e. a prefix of initialized, running, finished under one run number and script:
    `running` iff the implementations of on_start_run ran, `finished` iff those of on_end_run ran
    ([hook_ran]: the await returned, or raised after they had run), nothing twice ... *)
Theorem C02_tie_run_info_prefix : forall w o,
  exists d, data_run w (FS.trace o) = Ok d /\
    d_eff d = firstn (1 + (if hook_ran (rw_ran w) CS.StartRunHook (FS.trace o) then 1 else 0)
                        + (if hook_ran (rw_ran w) CS.EndRunHook (FS.trace o) then 1 else 0))%nat (full_record w).
Proof. exact run_info_prefix. Qed.

(** ... and when no await raises: exactly the three, each once, for EVERY outcome of the child
    and EVERY exit code (zero, negative = signal, positive = os._exit(n); in the dict or not) *)
Theorem C02_tie_run_info_once : forall w,
  exists d, data_run w (FS.trace []) = Ok d /\ d_raised d = None /\ d_eff d = full_record w.
Proof. exact run_info_once. Qed.

(** whenever the `finished` record is published it carries the result / exception of THIS
    run's child, result() and format_exception() afterwards report the same, and the record's
    result is the JSON of what result() returns *)
Theorem C02_tie_result_matches : forall w o,
  hook_ran (rw_ran w) CS.EndRunHook (FS.trace o) = true ->
  exists d, data_run w (FS.trace o) = Ok d /\
    In (rec_finished w (spec_result (rw_child w)) (spec_exception (rw_child w))) (d_eff d) /\
    api d "result" = Ok (spec_value (rw_child w)) /\
    api d "format_exception" = Ok (spec_exception (rw_child w)) /\
    spec_result (rw_child w) = VJson (spec_value (rw_child w)).
Proof. exact result_matches. Qed.

(** empty (JSON null, '', None) when the process died, whatever the exit code, or when spawned.main itself raised *)
Theorem C02_tie_result_empty_when_died : forall w o,
  rw_child w = ChDied \/ (exists e, rw_child w = ChRaised e) ->
  hook_ran (rw_ran w) CS.EndRunHook (FS.trace o) = true ->
  exists d, data_run w (FS.trace o) = Ok d /\
    In (rec_finished w (VJson VNone) (VStr "")) (d_eff d) /\
    api d "result" = Ok VNone /\ api d "format_exception" = Ok (VStr "").
Proof. exact result_empty_when_died. Qed.

(** a session whose process was never awaited to the end reports nothing (not the previous run's) *)
Theorem C02_tie_result_none_when_not_awaited : forall w o,
  FS.called CS.InitSession (FS.trace o) = true -> FS.returned CS.AwaitProcess (FS.trace o) = false ->
  exists d, data_run w (FS.trace o) = Ok d /\ api d "result" = Ok VNone /\ api d "format_exception" = Ok VNone.
Proof. exact result_none_when_not_awaited. Qed.

(** CANCELLATION (or an exception) at the two awaits that end a run.  `_finish` still runs
    ([C02_tie_run_finished_set_once_last]): state `finished`, waiters released -- but the record of
    the run is never closed.  (i) at `await context.running_process`: the record stops at
    `running`, on_end_run is never called, result()/format_exception() report None *)
Theorem C02_tie_cancelled_at_process_wait : forall w o,
  FS.called CS.AwaitProcess (FS.trace o) = true -> FS.returned CS.AwaitProcess (FS.trace o) = false ->
  exists d, data_run w (FS.trace o) = Ok d /\ d_eff d = [rec_initialized w; rec_running w] /\
    api d "result" = Ok VNone /\ api d "format_exception" = Ok VNone /\
    FS.called CS.EndRunHook (FS.trace o) = false.
Proof. exact cancelled_at_process_wait. Qed.

(** (ii) inside `_on_end_run`, at the await of the on_end_run hook, before its implementations
    had a step (apluggy gathers them as tasks): the record stops at `running` although
    result()/format_exception() already report the outcome *)
Theorem C02_tie_cancelled_in_on_end_run : forall w o,
  FS.called CS.EndRunHook (FS.trace o) = true -> FS.returned CS.EndRunHook (FS.trace o) = false -> rw_ran w = false ->
  exists d, data_run w (FS.trace o) = Ok d /\ d_eff d = [rec_initialized w; rec_running w] /\
    api d "result" = Ok (spec_value (rw_child w)) /\ api d "format_exception" = Ok (spec_exception (rw_child w)).
Proof. exact cancelled_in_on_end_run. Qed.

(** awaiting the process handle (RunningProcess.__await__, _log_exited, _format_time) raises
    for NO task result, NO exit code, whether or not the code is a key of _exitcode_to_name, and
    yields ExitedProcess(returned, raised) = the task's pair (cf. Proc/Model.v [Yields (mkExited ..)]; [await_handle] is the one of
    Life/RecordTie.v) *)
Theorem C02_tie_await_never_raises : forall a b code look,
  await_handle a b code look =
  Ok (VObj "ExitedProcess" [("returned", a); ("raised", b); ("process", process_of code);
                            ("process_created_at", VTime true); ("process_exited_at", VTime true)]).
Proof. exact await_never_raises. Qed.

Theorem C02_tie_await_in_run_never_raises : forall w o,
  exists d, data_run w (FS.trace o) = Ok d /\ d_raised d = None.
Proof. exact await_in_run_never_raises. Qed.

(** what the abstraction of the child rests on (Proc/Model.v = C17's model of run_in_process, tied
    to Gen/RunSkeleton.v): the task awaited by __await__ never raises, always returns, and its
    pair has one of the three shapes of [child]; (None, None) when the process died *)
Theorem C02_tie_task_of_run_in_process : forall w,
  PM.run_prog = RS.run_skeleton /\ PM.call_prog = RS.call_skeleton /\ PM.await_prog = RS.await_skeleton /\
  (forall e, PM.run_task w <> PM.TRaised e) /\ PM.run_task w <> PM.TNoReturn /\
  (forall r e, PM.run_task w = PM.TDone r e ->
     exists ch, (is_some r, is_some e) = task_shape ch /\ (PM.process_died w = true -> ch = ChDied)).
Proof. exact task_of_run_in_process. Qed.

(** simulation with Life/Model.v (of ONE quiet run, the three publishing steps; not an induction
    over label lists: the model has no raising / cancelled await -- see [C02_tie_cancelled_at_process_wait]): the publications of
    the regenerated code are, through
    [abs_pub], the run_info publications of the model's initialize_run / RT_Created step /
    RT_WaitChild step; where the model stores the outcome token in exited_proc, the code's
    result()/format_exception() report what its finished record shows *)
Theorem C02_tie_model_simulation : forall w sid o (s1 s2 s3 : M.state) ra,
  rw_no w = M.ra_no ra -> sid (script_val w) = M.ra_stmt ra ->
  M.c_next s1 = M.ra_no ra -> M.c_stmt s1 = M.ra_stmt ra ->
  M.runt s2 = Some M.RT_Created -> M.run_arg s2 = Some ra ->
  M.runt s3 = Some M.RT_WaitChild -> M.run_call_pending s3 = false -> M.pending_exit s3 = Some o -> M.run_arg s3 = Some ra ->
  exists d, data_run w (FS.trace []) = Ok d /\
    map (abs_pub sid o) (d_eff d) =
      [hd_error (ri_of (M.trace (M.initialize_run s1)));
       hd_error (ri_of (M.trace (M.do_step_run s2)));
       hd_error (ri_of (M.trace (M.do_step_run s3)))] /\
    M.exited_proc (M.do_step_run s3) = Some o /\
    exists res exc, nth_error (d_eff d) 2%nat = Some (rec_finished w res exc) /\
      api d "format_exception" = Ok exc /\ (r <- api d "result" ;; Ok (VJson r)) = Ok res.
Proof. exact model_simulation. Qed.

(** non-vacuity: os._exit(3) -- initialized, running, finished ('null', ''), result() None,
    format_exception() '' ... *)
Example C02_tie_example_died_exit_3 :
  let w := mkRun ChDied 3 false 1 (Some "import os; os._exit(3)") VNone true in
  (d <- data_run w (FS.trace []) ;; r <- api d "result" ;; f <- api d "format_exception" ;; Ok (d_eff d, r, f))
  = Ok ([rec_initialized w; rec_running w; rec_finished w (VJson VNone) (VStr "")], VNone, VStr "").
Proof. exact example_died_exit_3. Qed.

(** ... the await of the process itself raising (oracle): the record stops at `running` ... *)
Example C02_tie_example_wait_cancelled :
  let w := mkRun ChDied (-2) true 1 None VNone false in
  let t := FS.trace [false; false; false; true] in
  FS.called CS.AwaitProcess t = true /\ FS.returned CS.AwaitProcess t = false /\
  (d <- data_run w t ;; f <- api d "format_exception" ;; Ok (d_eff d, f))
  = Ok ([rec_initialized w; rec_running w], VNone).
Proof. exact example_wait_cancelled. Qed.

(** ... a cancellation inside `_on_end_run` before the hook implementations had a step: the
    outcome is reported, the record stays at `running`, `_run_finished` is set all the same ... *)
Example C02_tie_example_cancelled_in_on_end_run :
  let w := mkRun (ChReturned (VOpaque 5) None) 0 false 1 None VNone false in
  let t := FS.trace [false; false; false; false; false; false; false; true] in
  FS.called CS.EndRunHook t = true /\ FS.returned CS.EndRunHook t = false /\
  FS.count CS.SetRunFinished (FS.acts t) = 1%nat /\
  (d <- data_run w t ;; r <- api d "result" ;; Ok (d_eff d, r))
  = Ok ([rec_initialized w; rec_running w], VOpaque 5).
Proof. exact example_cancelled_in_on_end_run. Qed.

(** ... and the interpreter does tell `d[k]` from `d.get(k)`: with the former in _log_exited the
    await raises KeyError for exit code 3 (seed C02-4) *)
Example C02_tie_example_indexing_would_raise :
  (h <- handle_of (VTuple [VNone; VNone]) 3 ;;
   eval prog_indexing (mkWorld h false true) FUEL (mkCfg [("h", h)] [] []) (EAwaitHandle (EName "h"))) = Exn XKey
  /\ await_handle VNone VNone 3 false <> Exn XKey.
Proof. exact indexing_would_raise. Qed.

Print Assumptions C02_run_info_once.
Print Assumptions C02_run_info_numbering.
Print Assumptions C02_result_matches.
Print Assumptions C02_result_from_child.
Print Assumptions C02_pending_exit_source.
Print Assumptions C02_exited_proc_kept.
Print Assumptions C02_finished_set_in_finally.
Print Assumptions C02_measure.
Print Assumptions C02_measure_nonincreasing.
Print Assumptions C02_progress.
Print Assumptions C02_bounded_steps.
Print Assumptions C02_run_to_end.
Print Assumptions C02_accepted_run_finishes.
Print Assumptions C02_example_liveness_nonvacuous.
Print Assumptions C02_example_nonvacuous.
Print Assumptions C02_example_automaton_rejects.
Print Assumptions C02_tie_finish_sets_event.
Print Assumptions C02_tie_run_finished_set_once_last.
Print Assumptions C02_tie_run_finished_event.
Print Assumptions C02_tie_callback_translations_agree.
Print Assumptions C02_tie_session_positions_agree.
Print Assumptions C02_tie_every_run_good.
Print Assumptions C02_tie_run_info_exact.
Print Assumptions C02_tie_run_info_prefix.
Print Assumptions C02_tie_run_info_once.
Print Assumptions C02_tie_result_matches.
Print Assumptions C02_tie_result_empty_when_died.
Print Assumptions C02_tie_result_none_when_not_awaited.
Print Assumptions C02_tie_cancelled_at_process_wait.
Print Assumptions C02_tie_cancelled_in_on_end_run.
Print Assumptions C02_tie_await_never_raises.
Print Assumptions C02_tie_await_in_run_never_raises.
Print Assumptions C02_tie_task_of_run_in_process.
Print Assumptions C02_tie_model_simulation.
Print Assumptions C02_tie_example_died_exit_3.
Print Assumptions C02_tie_example_wait_cancelled.
Print Assumptions C02_tie_example_cancelled_in_on_end_run.
Print Assumptions C02_tie_example_indexing_would_raise.
