(** C07 -- a command reaches exactly the prompt it addresses, exactly once.
    Property theorems only; most are closed by [exact] of a lemma proved in
    Prompt/{Inv,Once,Erase,Deliver,SysProofs,Tie,TieSys,TieFactory}.v; C07_decoys_discarded_refuted,
    C07_no_disturbance_refuted and C07_no_future_queued_is_needed are proved here on a concrete run.

    Model: Prompt/Model.v (queue_in, relay thread with try_again_on_error,
    per-trace queues, the Prompt.prompt loop, the run-unique prompt counter).
    History functions: Prompt/Hist.v, Prompt/Spec.v.
    All statements quantify over EVERY label sequence [ls] (every interleaving
    of sender, relay thread, trace start/end and the traces' prompt loops).

    TWO LEVELS.
    * CHILD level (Prompt/Model.v: queue_in, relay thread, per-trace queues,
      the Prompt.prompt loop): theorems about EVERY sequence of child labels,
      whoever puts commands into queue_in.  At this level a command addressed
      to a prompt number that has not been issued yet IS executed when that
      prompt opens (C07_decoys_discarded_refuted, C07_no_disturbance_refuted:
      child level only); the _partial forms and the delivery theorems say what
      holds.
    * SYSTEM level (Prompt/System.v: the child composed with the main process'
      filter -- context.open_prompts maintained from the relayed OnStartPrompt /
      OnEndPrompt events, CommandSender.send_command forwards a command only
      for a prompt in that set; added in /repo by 5be87b5): the C07_system_*
      theorems, about EVERY sequence of system labels.  The only sender is the
      API, every forwarded command is addressed to an issued prompt
      (C07_system_no_future_queued), so the child-level refutation cannot
      occur and the property holds at full strength
      (C07_system_decoys_discarded).  The five code facts the filter model
      rests on are pinned by translate/prompt_filter.py (Gen/PromptFilter.v). *)
From NL Require Import Prompt.Model Prompt.Hist Prompt.Spec Prompt.Inv Prompt.Once Prompt.Erase Prompt.Deliver.
From NL Require Import Prompt.System Prompt.SysProofs.
From NL Require Prompt.FilterTie.       (* tie obligation: the code facts of the filter (translate/prompt_filter.py) *)
Open Scope Z_scope.

(** the command that closes prompt (t, p) is a sent command carrying exactly
    (t, p), sent and queued before, and (t, p) is t's open prompt at that moment *)
Theorem C07_exactly_once_addressed : forall ls pre t p i c post,
  trace ls = pre ++ (Take t, OExec p i c) :: post ->
  nth_error (sends (trace ls)) i = Some c /\ nth_error (sends pre) i = Some c /\
  c_trace c = t /\ c_prompt c = p /\ open_in pre t = Some p /\ In i (relayed pre).
Proof. exact exec_is_addressed. Qed.

(** no sent command instance is executed twice, no prompt is closed twice *)
Theorem C07_exactly_once : forall ls,
  NoDup (exec_ids (trace ls)) /\ NoDup (exec_prompts (trace ls)).
Proof. exact exec_once. Qed.

(** CHILD LEVEL ONLY (excluded at system level by C07_system_no_future_queued):
    full strength (classification when sent) is refuted for an arbitrary sender *)
Definition refuting_run : list label :=
  [StartTrace 1; OpenPrompt 1; Send (mkCmd 1 1 1); Relay; Take 1;
   Send (mkCmd 1 2 999); Relay; OpenPrompt 1; Take 1;
   Send (mkCmd 1 2 1); Relay; OpenPrompt 1; Take 1].

Theorem C07_decoys_discarded_refuted :
  exists ls i, decoy_at_send (trace ls) i /\ In i (exec_ids (trace ls)).
Proof.
  exists refuting_run, 1%nat. split.
  - exists (trace (firstn 5 refuting_run)), (mkCmd 1 2 999). split.
    + eexists. vm_compute. reflexivity.
    + vm_compute. discriminate.
  - vm_compute. auto.
Qed.

(** PARTIAL: hypothesis added = the addressed prompt is not the open one at any
    moment from the instance's arrival in its trace's queue on *)
Theorem C07_decoys_discarded_partial : forall ls i c,
  nth_error (sends (trace ls)) i = Some c ->
  decoy_after_arrival (trace ls) i c ->
  ~ In i (exec_ids (trace ls)).
Proof. exact discarded_if_never_open_after_arrival. Qed.

(** the other three classes of the property text hold as stated *)
Theorem C07_already_answered_discarded : forall ls pre c i post,
  trace ls = pre ++ (Send c, OSent i) :: post ->
  In (c_prompt c) (exec_prompts pre) ->
  ~ In i (exec_ids (trace ls)).
Proof. exact stale_discarded. Qed.

Theorem C07_other_trace_discarded : forall ls i c t',
  nth_error (sends (trace ls)) i = Some c ->
  In (t', c_prompt c) (opens (trace ls)) -> t' <> c_trace c ->
  ~ In i (exec_ids (trace ls)).
Proof. exact other_trace_discarded. Qed.

Theorem C07_nonexistent_discarded : forall ls i c,
  nth_error (sends (trace ls)) i = Some c ->
  ~ In (c_trace c, c_prompt c) (opens (trace ls)) ->
  ~ In i (exec_ids (trace ls)).
Proof. exact nonexistent_discarded. Qed.

(** CHILD LEVEL ONLY: deleting the send-time decoys changes what is executed *)
Theorem C07_no_disturbance_refuted :
  exists ls D, (forall i, D i = true -> decoy_at_send (trace ls) i) /\
               vexecs (trace (erase D (trace ls))) <> vexecs (trace ls).
Proof.
  exists refuting_run, (Nat.eqb 1). split.
  - intros i H. apply Nat.eqb_eq in H. subst i.
    exists (trace (firstn 5 refuting_run)), (mkCmd 1 2 999). split.
    + eexists. vm_compute. reflexivity.
    + vm_compute. discriminate.
  - vm_compute. discriminate.
Qed.

(** PARTIAL: deleting any set of never-executed commands (each with the relay
    step that moved it and the loop iteration that discarded it) leaves every
    remaining label doing exactly what it did -- no discarded command disturbs
    the delivery of the others *)
Theorem C07_no_disturbance_partial : forall ls D,
  (forall i, D i = true -> ~ In i (exec_ids (trace ls))) ->
  map strip_ev (trace (erase D (trace ls))) = map strip_ev (kept D (trace ls)) /\
  vexecs (trace (erase D (trace ls))) = vexecs (trace ls).
Proof. intros ls D H. split; [exact (erase_never_executed ls D H)|exact (erase_same_execs ls D H)]. Qed.

(** DELIVERY.  In any reachable state: prompt (t, n) is open and t's queue is
    front ++ (i, c) :: back where c carries number n and no command of [front]
    does (stale, duplicate of an older prompt, wrong or FUTURE numbers: the
    model -- like the code -- discards a command for a future prompt number that
    sits in front, it is not kept for later).  Then exactly [length front + 1]
    iterations of t's prompt loop discard exactly the commands of [front], in
    order, execute (i, c), and the prompt closes; [back] stays queued;
    [frame]: queue_in, counter and every other trace's queue and prompt are
    unchanged. *)
Theorem C07_genuine_answer_executed : forall ls t n front i c back,
  s_open (final ls) t = Some n ->
  s_map (final ls) t = Some (front ++ (i, c) :: back) ->
  c_prompt c = n ->
  (forall j d, In (j, d) front -> c_prompt d <> n) ->
  let k := S (length front) in
  let ls' := ls ++ repeat (Take t) k in
  exists tail,
    trace ls' = trace ls ++ tail /\
    map fst tail = repeat (Take t) k /\
    map snd tail = map (discard_out n) front ++ [OExec n i c] /\
    s_open (final ls') t = None /\ s_map (final ls') t = Some back /\
    frame t (final ls) (final ls').
Proof. exact genuine_answer_executed. Qed.

(** Whole runs.  Hypothesis [no_future_queued]: no command for a not-yet-issued
    prompt number ever reaches a queue (this excludes exactly the known
    finding).  Then a prompt that is open and whose answer has been relayed
    closes after at most (length of its queue) further iterations of its loop,
    by a command carrying exactly its numbers, the iterations before it only
    discarding other numbers, no other trace touched ... *)
Theorem C07_answered_prompt_closes : forall ls t n i c,
  no_future_queued (trace ls) ->
  s_open (final ls) t = Some n ->
  In i (relayed (trace ls)) -> nth_error (sends (trace ls)) i = Some c ->
  c_trace c = t -> c_prompt c = n ->
  exists q front j cj back tail,
    s_map (final ls) t = Some q /\ q = front ++ (j, cj) :: back /\
    c_trace cj = t /\ c_prompt cj = n /\ (forall j' d, In (j', d) front -> c_prompt d <> n) /\
    let ls' := ls ++ repeat (Take t) (S (length front)) in
    trace ls' = trace ls ++ tail /\
    map snd tail = map (discard_out n) front ++ [OExec n j cj] /\
    s_open (final ls') t = None /\ In n (exec_prompts (trace ls')) /\
    frame t (final ls) (final ls').
Proof. exact answered_prompt_closes. Qed.

(** ... and every command that closes a prompt is a GENUINE answer: it reached
    the queue while that very prompt was already open *)
Theorem C07_executed_arrived_while_open : forall ls pre1 i mid t n c post,
  no_future_queued (trace ls) ->
  trace ls = pre1 ++ (Relay, ORelayed i) :: mid ++ (Take t, OExec n i c) :: post ->
  open_in pre1 t = Some n.
Proof. exact executed_arrived_while_open. Qed.

(** the hypothesis is needed: in the refuting run the command that closes
    prompt 2 was queued when no prompt of trace 1 was open *)
Theorem C07_no_future_queued_is_needed :
  exists ls pre1 i mid t n c post,
    trace ls = pre1 ++ (Relay, ORelayed i) :: mid ++ (Take t, OExec n i c) :: post /\
    open_in pre1 t <> Some n /\ ~ no_future_queued (trace ls).
Proof.
  exists refuting_run, (trace (firstn 6 refuting_run)), 1%nat,
         [(OpenPrompt 1, OOpened 2)], 1, 2, (mkCmd 1 2 999).
  eexists. split; [vm_compute; reflexivity|]. split; [vm_compute; discriminate|].
  intros NF.
  assert (H : c_prompt (mkCmd 1 2 999) < 1 + Z.of_nat (length (opens (trace (firstn 6 refuting_run))))).
  { eapply (NF (trace (firstn 6 refuting_run)) 1%nat); vm_compute; reflexivity. }
  vm_compute in H. discriminate.
Qed.

(** non-vacuity of delivery: the genuine answer to prompt 1 sits behind a
    command for a future number, a stale-looking number and a command with a
    non-existent number; trace 2 has a prompt open and a queued command *)
Definition ex_deliver : list label :=
  [StartTrace 1; StartTrace 2; OpenPrompt 1; OpenPrompt 2;
   Send (mkCmd 1 7 901); Send (mkCmd 1 0 902); Send (mkCmd 1 (-3) 903); Send (mkCmd 1 1 5); Send (mkCmd 1 1 904);
   Send (mkCmd 2 9 905); Relay; Relay; Relay; Relay; Relay; Relay].

Example C07_example_delivery :
  no_future_queued (trace [StartTrace 1; OpenPrompt 1; Send (mkCmd 1 1 5); Relay]) /\
  s_open (final ex_deliver) 1 = Some 1 /\
  s_map (final ex_deliver) 1 =
    Some ([(0%nat, mkCmd 1 7 901); (1%nat, mkCmd 1 0 902); (2%nat, mkCmd 1 (-3) 903)] ++ (3%nat, mkCmd 1 1 5) :: [(4%nat, mkCmd 1 1 904)]) /\
  outs (ex_deliver ++ repeat (Take 1) 4) = outs ex_deliver ++
    [ODiscard 1 0 (mkCmd 1 7 901); ODiscard 1 1 (mkCmd 1 0 902); ODiscard 1 2 (mkCmd 1 (-3) 903); OExec 1 3 (mkCmd 1 1 5)] /\
  s_map (final (ex_deliver ++ repeat (Take 1) 4)) 2 = Some [(5%nat, mkCmd 2 9 905)] /\
  s_open (final (ex_deliver ++ repeat (Take 1) 4)) 2 = Some 2.
Proof.
  split.
  - intros pre i post c E Hn.
    assert (Hl : (length pre <= 3)%nat).
    { assert (Hlen : length (trace [StartTrace 1; OpenPrompt 1; Send (mkCmd 1 1 5); Relay]) = 4%nat) by reflexivity.
      rewrite E, app_length in Hlen. simpl in Hlen. lia. }
    destruct pre as [|e0 [|e1 [|e2 [|e3 pre]]]]; try (vm_compute in E; discriminate); [|simpl in Hl; lia].
    vm_compute in E. inversion E; subst. vm_compute in Hn. inversion Hn; subst. vm_compute. reflexivity.
  - vm_compute. repeat split; reflexivity.
Qed.

(** every command the main process forwards carries a prompt number the
    child has already issued *)
Theorem C07_system_no_future_queued : forall sls, no_future_queued (ctrace sls).
Proof. exact system_no_future_queued. Qed.

(** hence, with NO hypothesis: an open prompt whose answer has been relayed closes ... *)
Theorem C07_system_answered_prompt_closes : forall sls t n i c,
  s_open (final (sproj sls)) t = Some n ->
  In i (relayed (ctrace sls)) -> nth_error (sends (ctrace sls)) i = Some c ->
  c_trace c = t -> c_prompt c = n ->
  exists q front j cj back tail,
    s_map (final (sproj sls)) t = Some q /\ q = front ++ (j, cj) :: back /\
    c_trace cj = t /\ c_prompt cj = n /\ (forall j' d, In (j', d) front -> c_prompt d <> n) /\
    let ls' := sproj sls ++ repeat (Take t) (S (length front)) in
    trace ls' = ctrace sls ++ tail /\
    map snd tail = map (discard_out n) front ++ [OExec n j cj] /\
    s_open (final ls') t = None /\ In n (exec_prompts (trace ls')) /\
    frame t (final (sproj sls)) (final ls').
Proof. intros sls t n i c. exact (answered_prompt_closes (sproj sls) t n i c (system_no_future_queued sls)). Qed.

(** ... and every command that closes a prompt reached the queue while that prompt was open *)
Theorem C07_system_executed_arrived_while_open : forall sls pre1 i mid t n c post,
  ctrace sls = pre1 ++ (Relay, ORelayed i) :: mid ++ (Take t, OExec n i c) :: post ->
  open_in pre1 t = Some n.
Proof. intros sls pre1 i mid t n c post. exact (executed_arrived_while_open (sproj sls) pre1 i mid t n c post (system_no_future_queued sls)). Qed.

(** full strength: an API call made while the addressed prompt is not open
    in the child (already answered, not yet issued, another trace's, unknown
    trace; [l1] = the system labels performed before the call) is dropped by the
    main process or, if forwarded, never executed *)
Theorem C07_system_decoys_discarded : forall sls pre c o post,
  strace sls = pre ++ (SApi c, o) :: post ->
  forall l1, pre = strace l1 ->
  open_in (ctrace l1) (c_trace c) <> Some (c_prompt c) ->
  o = SDropped \/ exists i, o = SForwarded i /\ ~ In i (exec_ids (ctrace sls)).
Proof. exact system_decoys_discarded. Qed.

(** each prompt is closed by exactly one command, addressed to it
    (C07_exactly_once_addressed, C07_exactly_once on [ctrace sls]), and that
    command was sent while the main process saw the prompt open *)
Theorem C07_system_forwarded_seen_open : forall sls pre c i post,
  strace sls = pre ++ (SApi c, SForwarded i) :: post ->
  In (c_trace c, c_prompt c) (seen_open pre).
Proof. exact forwarded_seen_open. Qed.

(** the history of the old finding replayed in the composed system:
    ('next', prompt 1), ('step', prompt 2), then a command for prompt 3 while
    prompt 2 is open -- the third is dropped by the main process; prompt 3 is
    closed by its own answer *)
Definition ex_system : list slabel :=
  [SChild (StartTrace 1); SChild (OpenPrompt 1); SMain; SApi (mkCmd 1 1 1); SChild Relay; SChild (Take 1); SMain;
   SChild (OpenPrompt 1); SMain; SApi (mkCmd 1 2 2); SApi (mkCmd 1 3 999);
   SChild Relay; SChild (Take 1); SChild Relay; SMain; SChild (OpenPrompt 1); SChild (Take 1); SMain;
   SApi (mkCmd 1 3 1); SChild Relay; SChild (Take 1)].

Example C07_example_system :
  map snd (strace ex_system) =
  [SOut OStarted; SOut (OOpened 1); SSaw (MStart 1 1); SForwarded 0; SOut (ORelayed 0); SOut (OExec 1 0 (mkCmd 1 1 1)); SSaw (MEnd 1 1);
   SOut (OOpened 2); SSaw (MStart 1 2); SForwarded 1; SDropped;
   SOut (ORelayed 1); SOut (OExec 2 1 (mkCmd 1 2 2)); SOut OIdle; SSaw (MEnd 1 2); SOut (OOpened 3); SOut OBlocked; SSaw (MStart 1 3);
   SForwarded 2; SOut (ORelayed 2); SOut (OExec 3 2 (mkCmd 1 3 1))] /\
  vexecs (ctrace ex_system) = [(1, 1, mkCmd 1 1 1); (1, 2, mkCmd 1 2 2); (1, 3, mkCmd 1 3 1)].
Proof. vm_compute. split; reflexivity. Qed.

(** the assertion `pdb_command.trace_no == trace_no` in Prompt.prompt never fails *)
Theorem C07_no_assertion_failure : forall ls l i, ~ In (l, OAssert i) (trace ls).
Proof. exact no_assertion_failure. Qed.

(** non-vacuity: two traces with prompts open at the same time, decoys of every
    kind; both genuine answers are executed, every decoy is discarded or dropped *)
Definition ex_run : list label :=
  [StartTrace 1; StartTrace 2; OpenPrompt 1; OpenPrompt 2;
   Send (mkCmd 1 2 901); Send (mkCmd 7 1 902); Send (mkCmd 2 9 903); Send (mkCmd 2 2 5);
   Send (mkCmd 2 2 904); Send (mkCmd 1 1 6); Send (mkCmd 1 1 905);
   Relay; Relay; Relay; Relay; Relay; Relay; Relay;
   Take 1; Take 2; Take 2; Take 1; OpenPrompt 2; Take 2; Take 2; EndTrace 1].

Example C07_example_nonvacuous :
  vexecs (trace ex_run) = [(2, 2, mkCmd 2 2 5); (1, 1, mkCmd 1 1 6)] /\
  exec_ids (trace ex_run) = [3; 5]%nat /\
  decoy_after_arrival (trace ex_run) 0 (mkCmd 1 2 901) /\
  vexecs (trace (erase (fun i => negb (Nat.eqb i 3 || Nat.eqb i 5)) (trace ex_run))) = vexecs (trace ex_run).
Proof.
  split; [vm_compute; reflexivity|]. split; [vm_compute; reflexivity|]. split; [|vm_compute; reflexivity].
  apply arrival_check_sound. vm_compute. reflexivity.
Qed.

Print Assumptions C07_exactly_once_addressed.
Print Assumptions C07_exactly_once.
Print Assumptions C07_decoys_discarded_refuted.
Print Assumptions C07_decoys_discarded_partial.
Print Assumptions C07_already_answered_discarded.
Print Assumptions C07_other_trace_discarded.
Print Assumptions C07_nonexistent_discarded.
Print Assumptions C07_no_disturbance_refuted.
Print Assumptions C07_no_disturbance_partial.
Print Assumptions C07_no_assertion_failure.
Print Assumptions C07_genuine_answer_executed.
Print Assumptions C07_answered_prompt_closes.
Print Assumptions C07_executed_arrived_while_open.
Print Assumptions C07_no_future_queued_is_needed.
Print Assumptions C07_system_no_future_queued.
Print Assumptions C07_system_answered_prompt_closes.
Print Assumptions C07_system_executed_arrived_while_open.
Print Assumptions C07_system_decoys_discarded.
Print Assumptions C07_system_forwarded_seen_open.

(** The tie of the two models to the REGENERATED code.
    Gen/PromptFuns.v (translate/prompt_funs.py, fail closed) holds the statement trees of the
    functions of /repo the command path consists of, regenerated at every check; Prompt/Interp.v
    is their small-step semantics; Prompt/Tie.v (child) and Prompt/TieSys.v (system, main
    process) drive it by the labels of Prompt/Model.v / System.v.  Everything below is about
    [itrace] / [ihist] / [ifinal] (child) and [istrace] / [ishist] / [isfinal] (system): what
    the interpreter of the regenerated code does. *)
From NL Require Import Prompt.Interp Prompt.Tie Prompt.TieSys Prompt.TieFactory.

(** THE TIE, child level: for EVERY label sequence the regenerated code and Prompt/Model.v
    produce the same output at every label and end in related states (simulation, by induction
    over the label list) *)
Theorem C07_tie_simulation : forall ls, itrace ls = map some_out (trace ls) /\ R (ifinal ls) (final ls).
Proof. exact sim. Qed.

Theorem C07_tie_same_history : forall ls,
  ihist ls = trace ls /\ map fst (itrace ls) = ls /\ forall e, In e (itrace ls) -> snd e <> None.
Proof. exact tie_same_history. Qed.

(** same executed-command log, same queues (queue_in and every trace's), same counter and open prompts *)
Theorem C07_tie_same_executed : forall ls, execs (ihist ls) = execs (trace ls).
Proof. exact tie_same_executed. Qed.

Theorem C07_tie_same_queues : forall ls,
  h_in (i_sh (ifinal ls)) = s_in (final ls) /\ forall t, iqueue (ifinal ls) t = s_map (final ls) t.
Proof. exact tie_same_queues. Qed.

Theorem C07_tie_same_prompts : forall ls t,
  h_ctr (i_sh (ifinal ls)) = s_ctr (final ls) /\
  match i_threads (ifinal ls) t with Some (_, p) => s_open (final ls) t = Some p | None => s_open (final ls) t = None end.
Proof. exact tie_same_prompts. Qed.

(** hence the child-level theorems above hold of the regenerated code *)
Theorem C07_tie_exactly_once : forall ls, NoDup (exec_ids (ihist ls)) /\ NoDup (exec_prompts (ihist ls)).
Proof. exact tie_exactly_once. Qed.

Theorem C07_tie_exactly_once_addressed : forall ls pre t p i c post,
  ihist ls = pre ++ (Take t, OExec p i c) :: post ->
  nth_error (sends (ihist ls)) i = Some c /\ nth_error (sends pre) i = Some c /\
  c_trace c = t /\ c_prompt c = p /\ open_in pre t = Some p /\ In i (relayed pre).
Proof. exact tie_exactly_once_addressed. Qed.

Theorem C07_tie_no_assertion_failure : forall ls l i, ~ In (l, OAssert i) (ihist ls).
Proof. exact tie_no_assertion_failure. Qed.

Theorem C07_tie_decoys_discarded_partial : forall ls i c,
  nth_error (sends (ihist ls)) i = Some c -> decoy_after_arrival (ihist ls) i c -> ~ In i (exec_ids (ihist ls)).
Proof. exact tie_decoys_discarded_partial. Qed.

Theorem C07_tie_already_answered_discarded : forall ls pre c i post,
  ihist ls = pre ++ (Send c, OSent i) :: post -> In (c_prompt c) (exec_prompts pre) -> ~ In i (exec_ids (ihist ls)).
Proof. exact tie_already_answered_discarded. Qed.

Theorem C07_tie_other_trace_discarded : forall ls i c t',
  nth_error (sends (ihist ls)) i = Some c -> In (t', c_prompt c) (opens (ihist ls)) -> t' <> c_trace c ->
  ~ In i (exec_ids (ihist ls)).
Proof. exact tie_other_trace_discarded. Qed.

Theorem C07_tie_nonexistent_discarded : forall ls i c,
  nth_error (sends (ihist ls)) i = Some c -> ~ In (c_trace c, c_prompt c) (opens (ihist ls)) -> ~ In i (exec_ids (ihist ls)).
Proof. exact tie_nonexistent_discarded. Qed.

(** direct corollaries on the regenerated code.
    relay_commands.fn puts a command only on the queue object the map holds under the
    command's OWN trace number (and under no other); for a number the map does not hold nothing
    is put (KeyError; try_again_on_error calls fn again: the thread is back at its get, the map
    is still a plain dict) *)
Theorem C07_tie_put_on_own_queue : forall ls,
  let s := ifinal ls in
  match resume FUEL (i_sh s) (i_relay s) with
  | RBlocked => h_in (i_sh s) = []
  | RAtGet sh' th' evs =>
      t_k th' = K_relay /\ h_kind sh' = DPlain /\
      exists i c r, h_in (i_sh s) = (i, c) :: r /\
        match h_dict (i_sh s) (c_trace c) with
        | Some id => evs = [IGot i c; IPut id i c] /\ (forall t, h_dict (i_sh s) t = Some id -> t = c_trace c)
        | None => evs = [IGot i c]
        end
  | _ => False
  end.
Proof. exact tie_put_on_own_queue. Qed.

(** the map holds a queue exactly for the live trace numbers (created by on_start_trace, deleted by
    on_end_trace; nothing else creates one), distinct objects for distinct numbers *)
Theorem C07_tie_queue_iff_live : forall ls t,
  (i_live (ifinal ls) t = true <-> iqueue (ifinal ls) t <> None) /\
  forall t' id, h_dict (i_sh (ifinal ls)) t = Some id -> h_dict (i_sh (ifinal ls)) t' = Some id -> t = t'.
Proof. exact tie_queue_iff_live. Qed.

(** a command taken while prompt p is open is executed iff its prompt number EQUALS p
    (by value), else discarded with the prompt still open *)
Theorem C07_tie_executed_iff_equal : forall ls t th p i c r,
  i_threads (ifinal ls) t = Some (th, p) -> iqueue (ifinal ls) t = Some ((i, c) :: r) ->
  snd (istep (ifinal ls) (Take t)) = Some (if Z.eqb (c_prompt c) p then OExec p i c else ODiscard p i c) /\
  (snd (istep (ifinal ls) (Take t)) = Some (OExec p i c) <-> c_prompt c = p).
Proof. exact tie_executed_iff_equal. Qed.

Theorem C07_tie_prompt_numbers_unique : forall ls, NoDup (map snd (opens (ihist ls))).
Proof. exact tie_prompt_numbers_unique. Qed.

(** THE TIE, system level: send_pdb_command -> Imp.send_command -> CommandSender.send_command
    [-> SendCommand._send_command], the cases of on_event_in_process, and the child, against
    Prompt/System.v, for EVERY sequence of system labels *)
Theorem C07_tie_system_simulation : forall sls, istrace sls = map ssome (strace sls) /\ RS (isfinal sls) (sfinal sls).
Proof. exact ssim. Qed.

Theorem C07_tie_system_same_history : forall sls, ishist sls = strace sls /\ forall e, In e (istrace sls) -> snd e <> None.
Proof. exact tie_system_same_history. Qed.

Theorem C07_tie_system_same_state : forall sls,
  si_evq (isfinal sls) = evq (sfinal sls) /\ h_open (i_sh (si_ch (isfinal sls))) = mopen (sfinal sls) /\
  h_in (i_sh (si_ch (isfinal sls))) = s_in (ch (sfinal sls)) /\
  forall t, iqueue (si_ch (isfinal sls)) t = s_map (ch (sfinal sls)) t.
Proof. exact tie_system_same_state. Qed.

Theorem C07_tie_system_decoys_discarded : forall sls pre c o post,
  ishist sls = pre ++ (SApi c, o) :: post ->
  forall l1, pre = ishist l1 ->
  open_in (ctrace l1) (c_trace c) <> Some (c_prompt c) ->
  o = SDropped \/ exists i, o = SForwarded i /\ ~ In i (exec_ids (ctrace sls)).
Proof. exact tie_system_decoys_discarded. Qed.

Theorem C07_tie_system_forwarded_seen_open : forall sls pre c i post,
  ishist sls = pre ++ (SApi c, SForwarded i) :: post -> In (c_trace c, c_prompt c) (seen_open pre).
Proof. exact tie_system_forwarded_seen_open. Qed.

(** the main process over SEVERAL runs of one Nextline object (labels: an event is handled,
    RunSession.run is entered, an API call): context.open_prompts is, after every history, the set
    computed from the history by "emptied at a run start, +pair at OnStartPrompt, -pair at
    OnEndPrompt"; send_pdb_command forwards iff the pair is a member; and membership means:
    started and not ended IN THE CURRENT RUN *)
Theorem C07_tie_main_open_prompts : forall mls,
  h_open (mmfinal mls) = spec_open mls /\ MInv (mmfinal mls) (existsb is_run_start mls).
Proof. exact main_open_prompts. Qed.

(** needs a started run: before it `assert context.send_command` raises (next theorem) *)
Theorem C07_tie_main_forwards_iff_member : forall mls c, existsb is_run_start mls = true ->
  let sh := mmfinal mls in
  if mem (c_trace c, c_prompt c) (spec_open mls)
  then snd (mmstep sh (MApi c)) = Some (MForwarded (h_nsent sh)) /\ h_in (fst (mmstep sh (MApi c))) = h_in sh ++ [(h_nsent sh, c)]
  else snd (mmstep sh (MApi c)) = Some MDropped /\ fst (mmstep sh (MApi c)) = sh.
Proof. exact main_forwards_iff_member. Qed.

Theorem C07_tie_main_before_first_run_raises : forall mls c, existsb is_run_start mls = false ->
  snd (mmstep (mmfinal mls) (MApi c)) = Some MRaised /\ fst (mmstep (mmfinal mls) (MApi c)) = mmfinal mls.
Proof. exact main_before_first_run_raises. Qed.

(** MODEL-DEFINITIONAL (about [spec_open], the history function of Prompt/TieSys.v; no generated
    term occurs in it): what membership in the set means *)
Theorem C07_tie_main_set_exact : forall mls t p, In (t, p) (spec_open mls) <-> started_not_ended mls t p.
Proof. exact spec_open_exact. Qed.

Theorem C07_tie_main_forwards_iff_open_in_current_run : forall mls c, existsb is_run_start mls = true ->
  (snd (mmstep (mmfinal mls) (MApi c)) = Some (MForwarded (h_nsent (mmfinal mls))) <-> started_not_ended mls (c_trace c) (c_prompt c)).
Proof. exact main_forwards_iff_open_in_current_run. Qed.

Theorem C07_tie_main_stale_pair_dropped : forall ls1 ls2 c,
  ~ In (MEv (MStart (c_trace c) (c_prompt c))) ls2 ->
  snd (mmstep (mmfinal (ls1 ++ MRunStart :: ls2)) (MApi c)) = Some MDropped.
Proof. exact main_stale_pair_dropped. Qed.

(** PINS (computed booleans / numerals of the generated file, by reflexivity): RunSession.run empties
    the set before it spawns the child; the queue the main process puts commands on is the one handed
    to the child as its queue_in.  The EFFECT of the run-start statements is interpreted, not pinned:
    [run_start_exec] inside C07_tie_main_open_prompts. *)
Theorem C07_tie_cleared_before_spawn :
  existsb (fun s => match s with SSetClear (EAttr AOpenPrompts) => true | _ => false end) (before_spawn run_tracked) = true /\
  existsb (fun s => match s with SSpawn => true | _ => false end) run_tracked = true.
Proof. exact cleared_before_spawn. Qed.

Theorem C07_tie_queue_in_wiring : session_in_pos = set_queues_in_pos.
Proof. exact queue_in_wiring. Qed.

(** START-UP AND SHUT-DOWN of the relay thread, on the regenerated relay_commands (a generator
    context manager, interpreted with a real try/finally and the None sentinel -- not flattened).
    Entering Prompt.context() submits exactly try_again_on_error(fn) and stops at the yield; the
    relay thread of the simulation IS that call. *)
Theorem C07_tie_boot_submits :
  exists sh cx, resume FUEL init_shared ctx0 = RAtGet sh cx [ISubmit FnTryAgain [VFun FnFn]] /\ t_k cx = K_ctx /\
                sh = init_shared /\ at_get (t_k cx) = true.
Proof. exact boot_submits. Qed.

(** the finally body of relay_commands (queue_in.put(None); future.result()) is reached from the only
    suspension point of its protected body (the yield): when the context is left normally ... *)
Theorem C07_tie_ctx_exit_normal : forall sh tno en th,
  h_sentinel sh = false -> after_yield (mkT tno en K_ctx) None = Some th ->
  resume FUEL sh th = RAtGet (hset_sentinel sh true) (mkT tno en K_ctx_wait) [ISentinel].
Proof. exact ctx_exit_normal. Qed.

(** ... and when the body raised x (thrown into the generator at its yield): same finally, x goes on behind it *)
Theorem C07_tie_ctx_exit_raising : forall sh tno en th x,
  h_sentinel sh = false -> after_yield (mkT tno en K_ctx) (Some x) = Some th ->
  resume FUEL sh th = RAtGet (hset_sentinel sh true) (mkT tno en (K_ctx_wait_raising x)) [ISentinel].
Proof. exact ctx_exit_raising. Qed.

Theorem C07_tie_ctx_ends : forall sh tno en, h_relay_done sh = true ->
  (exists th' v, resume FUEL sh (mkT tno en K_ctx_wait) = RAtGet sh th' [] /\ resume FUEL sh th' = RDone sh v []) /\
  forall x, exists th', resume FUEL sh (mkT tno en (K_ctx_wait_raising x)) = RAtGet sh th' [] /\ resume FUEL sh th' = RDied sh x [].
Proof. exact ctx_ends. Qed.

(** from ANY reachable state, with the sentinel behind the commands of queue_in, the relay thread
    relays those commands exactly as the model's Relay does, then takes the sentinel and ends *)
Theorem C07_tie_relay_drains_and_ends : forall n s m, R s m -> n = List.length (s_in m) ->
  let s' := relay_n n (with_sentinel s true) in
  R (with_sentinel s' false) (exec_from m (repeat Relay n)) /\
  h_in (i_sh s') = [] /\ h_sentinel (i_sh s') = true /\
  resume FUEL (i_sh s') (i_relay s') = RDone (hset_sentinel (i_sh s') false) VNone [].
Proof. exact relay_drains_and_ends. Qed.

(** ONE prompt counter per run: PdbInstanceFactory.init creates one PromptFunc; every
    create_local_trace_func() afterwards hands out a trace function whose stdin leads to it *)
Theorem C07_tie_one_prompt_func_per_run : forall hook st0,
  exists pf self st1,
    wrun WFUEL pif_init_body [("hook"%string, hook)] [] st0 = Some (None, self, st1) /\
    (forall st, exists v st', wrun WFUEL pif_create_body [] self st = Some (Some v, self, st') /\ prompt_func_of v = Some pf) /\
    is_prompt_func pf = true.
Proof. exact one_prompt_func_per_run. Qed.

Theorem C07_tie_factory_closure : assigned_after_def false factory_body = false.
Proof. exact factory_closure_reads_earlier_locals. Qed.

(** non-vacuity: the interpreter runs the regenerated code through the examples above *)
Example C07_tie_example_nonvacuous :
  execs (ihist tie_ex_run) = [(2, 2, 3%nat, mkCmd 2 2 5); (1, 1, 5%nat, mkCmd 1 1 6)] /\
  map snd (itrace [StartTrace 1; OpenPrompt 1; Send (mkCmd 2 1 7); Send (mkCmd 1 1 8); Relay; Relay; Take 1]) =
    [Some OStarted; Some (OOpened 1); Some (OSent 0); Some (OSent 1); Some (ODropped 0); Some (ORelayed 1);
     Some (OExec 1 1 (mkCmd 1 1 8))].
Proof. exact tie_example. Qed.

Example C07_tie_example_system : map snd (istrace ex_system) = map Some (map snd (strace ex_system)).
Proof. etransitivity; [exact tie_system_example | reflexivity]. Qed.

Example C07_tie_example_main :
  map (fun ls => snd (mmstep (mmfinal ls) (MApi (mkCmd 1 4 7))))
    [[MRunStart; MEv (MStart 1 4)];
     [MRunStart; MEv (MStart 1 4); MRunStart];
     [MRunStart; MEv (MStart 1 4); MRunStart; MEv (MStart 1 3)];
     [MRunStart; MEv (MStart 1 4); MRunStart; MEv (MStart 1 3); MEv (MEnd 1 3); MEv (MStart 1 4)];
     [MRunStart; MEv (MStart 1 4); MEv (MEnd 1 4)]]
  = [Some (MForwarded 0); Some MDropped; Some MDropped; Some (MForwarded 0); Some MDropped].
Proof. exact main_example. Qed.

Print Assumptions C07_tie_simulation.
Print Assumptions C07_tie_same_history.
Print Assumptions C07_tie_same_executed.
Print Assumptions C07_tie_same_queues.
Print Assumptions C07_tie_same_prompts.
Print Assumptions C07_tie_exactly_once.
Print Assumptions C07_tie_exactly_once_addressed.
Print Assumptions C07_tie_no_assertion_failure.
Print Assumptions C07_tie_decoys_discarded_partial.
Print Assumptions C07_tie_already_answered_discarded.
Print Assumptions C07_tie_other_trace_discarded.
Print Assumptions C07_tie_nonexistent_discarded.
Print Assumptions C07_tie_put_on_own_queue.
Print Assumptions C07_tie_queue_iff_live.
Print Assumptions C07_tie_executed_iff_equal.
Print Assumptions C07_tie_prompt_numbers_unique.
Print Assumptions C07_tie_system_simulation.
Print Assumptions C07_tie_system_same_history.
Print Assumptions C07_tie_system_same_state.
Print Assumptions C07_tie_system_decoys_discarded.
Print Assumptions C07_tie_system_forwarded_seen_open.
Print Assumptions C07_tie_main_open_prompts.
Print Assumptions C07_tie_main_forwards_iff_member.
Print Assumptions C07_tie_main_set_exact.
Print Assumptions C07_tie_main_forwards_iff_open_in_current_run.
Print Assumptions C07_tie_main_stale_pair_dropped.
Print Assumptions C07_tie_cleared_before_spawn.
Print Assumptions C07_tie_queue_in_wiring.
Print Assumptions C07_tie_main_before_first_run_raises.
Print Assumptions C07_tie_boot_submits.
Print Assumptions C07_tie_ctx_exit_normal.
Print Assumptions C07_tie_ctx_exit_raising.
Print Assumptions C07_tie_ctx_ends.
Print Assumptions C07_tie_relay_drains_and_ends.
Print Assumptions C07_tie_one_prompt_func_per_run.
Print Assumptions C07_tie_factory_closure.
