(** C09 -- the prefix recogniser is complete: every stream it accepts can be completed to a
    well-formed stream, by closing what is open (prompt, command loop, trace call, trace) in
    stack order, trace by trace.  A command loop that has not yet asked a prompt gets one
    prompt with a fresh number. *)
From NL Require Import Events.Grammar Events.GrammarProofs.
Open Scope Z_scope.

Definition close_trace (r t : Z) (s : tstate) (pf : Z) : list event :=
  match t_ph s with
  | PNone | PDone => []
  | PIdle => [EndTrace r t]
  | PCall c => [EndTraceCall r t c; EndTrace r t]
  | PLoop c true => [EndCmdloop r t c; EndTraceCall r t c; EndTrace r t]
  | PLoop c false =>
      [StartPrompt r t c pf 0; EndPrompt r t c pf 0; EndCmdloop r t c; EndTraceCall r t c; EndTrace r t]
  | PPrompt c p => [EndPrompt r t c p 0; EndCmdloop r t c; EndTraceCall r t c; EndTrace r t]
  | PAfter c => [EndTraceCall r t c; EndTrace r t]
  end.

Fixpoint close_all (r : Z) (g : gstate) (pf : Z) : list event :=
  match g with
  | [] => []
  | (t, s) :: g' => close_trace r t s pf ++ close_all r g' (pf + 1)
  end.

Definition fresh (l : list Z) : Z := 1 + fold_right Z.max 0 l.

Definition completion (r : Z) (es : list event) : list event :=
  close_all r (gstate_of r es) (fresh (prompt_starts es)).

Lemma fresh_gt l : forall x, In x l -> x < fresh l.
Proof.
  unfold fresh. intros x H.
  assert (Hle : x <= fold_right Z.max 0 l).
  { induction l as [|y l IH]; [destruct H|]. cbn [fold_right]. destruct H as [-> | H].
    - apply Z.le_max_l.
    - etransitivity; [apply IH; assumption | apply Z.le_max_r]. }
  lia.
Qed.

Lemma close_trace_run r t s pf : lt_opt (t_lp s) pf = true ->
  exists s', trun r t s (close_trace r t s pf) = Some s' /\ final_ph (t_ph s') = true.
Proof.
  destruct s as [ph lc lp]. unfold close_trace. simpl. intros Hlt.
  destruct ph as [| |c|c []|c p|c|]; simpl;
    repeat (progress (step_ok; rewrite ?Hlt));
    eexists; split; reflexivity.
Qed.

Lemma close_trace_traces r t s pf : Forall (fun e => ev_trace e = t) (close_trace r t s pf).
Proof.
  unfold close_trace. destruct (t_ph s) as [| |c|c []|c p|c|]; repeat constructor.
Qed.

Lemma close_trace_prompts r t s pf :
  prompt_starts (close_trace r t s pf) = [] \/ prompt_starts (close_trace r t s pf) = [pf].
Proof. unfold close_trace. destruct (t_ph s) as [| |c|c []|c p|c|]; simpl; auto. Qed.

Lemma close_trace_calls r t s pf : call_starts (close_trace r t s pf) = [].
Proof. unfold close_trace. destruct (t_ph s) as [| |c|c []|c p|c|]; reflexivity. Qed.

Lemma proj_same t t' : forall l, Forall (fun e => ev_trace e = t') l -> proj t l = if t' =? t then l else [].
Proof.
  induction l as [|e l IH]; intros H; [destruct (t' =? t); reflexivity|].
  inv H. rewrite proj_cons, IH by assumption. destruct (ev_trace e =? t); reflexivity.
Qed.

Lemma proj_app' t a b : proj t (a ++ b) = proj t a ++ proj t b.
Proof. unfold proj. apply filter_app. Qed.

Lemma proj_close_all r : forall g pf t, NoDup (map fst g) ->
  (~ In t (map fst g) -> proj t (close_all r g pf) = []) /\
  (In t (map fst g) -> exists k, 0 <= k /\ proj t (close_all r g pf) = close_trace r t (lookup g t) (pf + k)).
Proof.
  induction g as [|[t' s] g IH]; intros pf t Hnd; simpl.
  - split; [reflexivity | intros []].
  - inv Hnd. rewrite proj_app', (proj_same t t' _ (close_trace_traces r t' s pf)).
    destruct (IH (pf + 1) t H2) as [IHn IHi]. split.
    + intros Hn. destruct (t' =? t) eqn:E; [apply Z.eqb_eq in E; subst; tauto|].
      apply IHn. tauto.
    + intros [-> | Hin].
      * rewrite !Z.eqb_refl. rewrite (proj1 (IH (pf + 1) t H2)) by assumption.
        exists 0. rewrite app_nil_r, Z.add_0_r. split; [lia | reflexivity].
      * assert (Hne : t' <> t) by (intros ->; contradiction).
        apply Z.eqb_neq in Hne. rewrite Hne. rewrite Z.eqb_sym, Hne.
        destruct (IHi Hin) as (k & Hk & ->). exists (1 + k). split; [lia|]. rewrite app_nil_l. f_equal. lia.
Qed.

Lemma update_nodup g t s : NoDup (map fst g) -> NoDup (map fst (update g t s)).
Proof.
  intros H. rewrite update_keys_eq. destruct (existsb (Z.eqb t) (map fst g)) eqn:E; auto.
  clear s. induction H; simpl in *.
  - constructor; [intros [] | constructor].
  - apply orb_false_iff in E. destruct E as [E1 E2]. constructor; auto.
    intros Hin. apply in_app_or in Hin. destruct Hin as [Hin | [<- | []]]; [contradiction|].
    rewrite Z.eqb_refl in E1. discriminate.
Qed.

Lemma grun_nodup r : forall es g g', grun r g es = Some g' -> NoDup (map fst g) -> NoDup (map fst g').
Proof.
  induction es as [|e es IH]; intros g g' H Hnd; simpl in H.
  - inv H. assumption.
  - destruct (gstep r g e) as [g1|] eqn:E; [|discriminate].
    destruct (gstep_inv _ _ _ _ E) as (s1 & _ & ->). eapply IH; eauto. apply update_nodup. assumption.
Qed.

Lemma trun_lp r t : forall l s s', trun r t s l = Some s' ->
  forall x, t_lp s' = Some x -> t_lp s = Some x \/ In x (prompt_starts l).
Proof.
  induction l as [|e l IH]; intros s s' H x Hx; simpl in H.
  - inv H. auto.
  - destruct (tstep r t s e) as [s1|] eqn:E; [|discriminate].
    destruct (IH _ _ H _ Hx) as [H1 | H1].
    + unfold tstep in E. destruct (pstep r t (t_ph s) e) as [ph1|]; [|discriminate].
      rewrite prompt_starts_cons.
      destruct e; try (inv E; simpl in H1; auto; fail).
      * destruct (lt_opt (t_lc s) c); inv E. simpl in H1. auto.
      * destruct (lt_opt (t_lp s) p); inv E. simpl in H1. inv H1. right. left. reflexivity.
    + right. rewrite prompt_starts_cons. destruct e; auto. right. assumption.
Qed.

Lemma prompt_starts_proj t : forall es x, In x (prompt_starts (proj t es)) -> In x (prompt_starts es).
Proof.
  induction es as [|e es IH]; intros x H; [exact H|].
  rewrite proj_cons in H. rewrite prompt_starts_cons.
  destruct (ev_trace e =? t).
  - rewrite prompt_starts_cons in H. destruct e; auto. destruct H as [<- | H]; [left; reflexivity | right; auto].
  - destruct e; auto. right. auto.
Qed.

Lemma close_all_numbers r : forall g pf,
  call_starts (close_all r g pf) = [] /\
  NoDup (prompt_starts (close_all r g pf)) /\
  forall x, In x (prompt_starts (close_all r g pf)) -> pf <= x.
Proof.
  induction g as [|[t s] g IH]; intros pf; simpl.
  - repeat split; [constructor | intros x []].
  - destruct (IH (pf + 1)) as (Hc & Hnd & Hge).
    rewrite call_starts_app, prompt_starts_app, close_trace_calls, Hc.
    split; [reflexivity|].
    destruct (close_trace_prompts r t s pf) as [-> | ->]; simpl.
    + split; auto. intros x Hx. specialize (Hge _ Hx). lia.
    + split.
      * constructor; auto. intros Hin. specialize (Hge _ Hin). lia.
      * intros x [<- | Hx]; [lia | specialize (Hge _ Hx); lia].
Qed.

Lemma NoDup_app_disjoint {A} (a b : list A) :
  NoDup a -> NoDup b -> (forall x, In x a -> ~ In x b) -> NoDup (a ++ b).
Proof.
  induction 1; simpl; intros Hb Hd; auto.
  constructor.
  - intros Hin. apply in_app_or in Hin. destruct Hin as [Hin | Hin]; [contradiction|].
    apply (Hd x); auto.
  - apply IHNoDup; auto.
Qed.

Theorem completion_wf r es : wf_prefix r es = true -> WF r (es ++ completion r es).
Proof.
  intros Hwf. apply recogniser_correct. apply wf_unfold.
  apply wf_prefix_unfold in Hwf. destruct Hwf as [(g & Hg) [Hc Hp]].
  apply nodupb_spec in Hc. apply nodupb_spec in Hp.
  unfold completion, gstate_of. rewrite Hg.
  set (pf := fresh (prompt_starts es)). set (rest := close_all r g pf).
  assert (Hnd : NoDup (map fst g)) by (eapply grun_nodup; eauto; constructor).
  assert (Htr : forall t, exists s', trun r t (lookup g t) (proj t rest) = Some s' /\ final_ph (t_ph s') = true).
  { intros t. destruct (proj_close_all r g pf t Hnd) as [Hn Hi].
    destruct (in_dec Z.eq_dec t (map fst g)) as [Hin | Hnin].
    - destruct (Hi Hin) as (k & Hk & Hpr). unfold rest. rewrite Hpr. apply close_trace_run.
      destruct (t_lp (lookup g t)) as [x|] eqn:El; simpl; auto. apply Z.ltb_lt.
      pose proof (grun_proj _ _ _ _ Hg t) as Hproj. simpl in Hproj.
      destruct (trun_lp _ _ _ _ _ Hproj _ El) as [H0 | Hx]; [discriminate|].
      apply prompt_starts_proj in Hx. pose proof (fresh_gt _ _ Hx). unfold pf. lia.
    - unfold rest. rewrite (Hn Hnin). simpl. rewrite lookup_notin by assumption. eexists. split; reflexivity. }
  destruct (close_all_numbers r g pf) as (Hcs & Hpn & Hpg).
  split; [|split].
  - rewrite grun_app, Hg.
    destruct (grun_complete r rest g) as (g' & Hg'); [intros t; destruct (Htr t) as (s' & Hs & _); eauto|].
    exists g'. split; auto. apply all_done_spec. intros t.
    destruct (Htr t) as (s' & Hs & Hf). pose proof (grun_proj _ _ _ _ Hg' t) as Hproj.
    rewrite Hs in Hproj. inv Hproj. assumption.
  - apply nodupb_spec. rewrite call_starts_app. fold rest in Hcs. rewrite Hcs, app_nil_r. assumption.
  - apply nodupb_spec. rewrite prompt_starts_app. apply NoDup_app_disjoint; auto.
    intros x Hx Hx'. apply Hpg in Hx'. pose proof (fresh_gt _ _ Hx). unfold pf in *. lia.
Qed.

Theorem prefix_complete r es : wf_prefix r es = true -> WFP r es.
Proof. intros H. exists (completion r es). apply completion_wf. assumption. Qed.
