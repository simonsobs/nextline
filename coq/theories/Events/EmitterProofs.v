(** [linv] relates one actor to the state of its trace in the recogniser (the open brackets match the
    program point, the last numbers seen are below the counters); [rel] is [linv] for every started
    actor, distinct trace numbers, nothing known of the numbers not yet taken.
    Section Numbers shows for one kind of number that each is taken once and put once; it is used for
    trace-call and for prompt numbers.  [keys_ok] (every trace the recogniser knows has its actor)
    is what turns "every actor has finished" into "every trace is closed". *)
From NL Require Import Events.Grammar Events.GrammarProofs Events.Emitter.
From Coq Require Import Permutation.
Open Scope Z_scope.

Definition started (a : actor) : Prop := match a_pc a with AInit _ _ => False | _ => True end.

Definition lt_all (o : option Z) (x : Z) : Prop := match o with Some y => y < x | None => True end.

Definition pc_phase (a : actor) (ph : phase) : Prop :=
  match a_pc a with
  | AInit _ _ | AGotTrace _ _ => ph = PNone
  | AIdle _ | AGotCall _ _ _ _ => ph = PIdle
  | AInCall _ _ => ph = PCall (a_c a)
  | ALoop ps had _ => ph = PLoop (a_c a) had /\ (ps = [] -> had = true)
  | AGotPrompt _ _ _ _ => exists had, ph = PLoop (a_c a) had
  | AInPrompt _ _ _ => ph = PPrompt (a_c a) (a_p a)
  | AAfterLoop _ => ph = PAfter (a_c a)
  | ADone => ph = PDone
  end.

Definition linv (a : actor) (ts : tstate) (cc cp : Z) : Prop :=
  pc_phase a (t_ph ts) /\ lt_all (t_lc ts) cc /\ lt_all (t_lp ts) cp /\
  match a_pc a with
  | AGotCall _ _ _ _ => lt_opt (t_lc ts) (a_c a) = true /\ a_c a < cc
  | AGotPrompt _ _ _ _ => lt_opt (t_lp ts) (a_p a) = true /\ a_p a < cp
  | _ => True
  end.

Lemma lt_all_mono o x y : lt_all o x -> x <= y -> lt_all o y.
Proof. destruct o; simpl; intros; auto; lia. Qed.

Lemma lt_all_opt o x : lt_all o x -> lt_opt o x = true.
Proof. destruct o; simpl; auto. intros. apply Z.ltb_lt. assumption. Qed.

Lemma linv_mono a ts cc cp cc' cp' : linv a ts cc cp -> cc <= cc' -> cp <= cp' -> linv a ts cc' cp'.
Proof.
  intros (H1 & H2 & H3 & H4) Hc Hp. repeat split; eauto using lt_all_mono.
  destruct (a_pc a); auto; destruct H4; split; auto; lia.
Qed.

Lemma astep_spec r ct cc cp a a' eff : astep r ct cc cp a = (a', eff) ->
  started a' /\
  match eff with
  | ENone => a' = a
  | ETakeT => ~ started a /\ a_t a' = ct /\
      forall ts, t_ph ts = PNone -> lt_all (t_lc ts) cc -> lt_all (t_lp ts) cp -> linv a' ts cc cp
  | ETakeC => started a /\ a_t a' = a_t a /\ forall ts, linv a ts cc cp -> linv a' ts (cc + 1) cp
  | ETakeP => started a /\ a_t a' = a_t a /\ forall ts, linv a ts cc cp -> linv a' ts cc (cp + 1)
  | EPut e => started a /\ a_t a' = a_t a /\ ev_trace e = a_t a /\
      forall ts, linv a ts cc cp -> exists ts', tstep r (a_t a) ts e = Some ts' /\ linv a' ts' cc cp
  end.
Proof.
  unfold astep, linv, pc_phase, started. destruct a as [pc0 t c p]. simpl.
  destruct pc0 as [pl k|pl k|[|[fid info loop|txt] k]|fid info loop k|[[q qs]|] k|[|[txt cmd] ps] had k|txt cmd ps k|cmd ps k|k|];
    intros [= <- <-]; simpl; repeat apply conj; auto; intros [ph lc lp]; simpl.
  - intros (-> & Hc & Hq & _). eexists. split; [step_ok; reflexivity|]. simpl. auto.
  - intros (-> & Hc & Hq & _). eexists. split; [step_ok; reflexivity|]. simpl. auto.
  - intros (-> & Hc & Hq & _). repeat split; eauto using lt_all_mono, lt_all_opt with zarith.
  - intros (-> & Hc & Hq & _). eexists. split; [step_ok; reflexivity|]. simpl. auto.
  - intros (-> & Hc & Hq & Hl & Hlt). eexists. split; [step_ok; rewrite Hl; reflexivity|]. simpl. auto.
  - intros (-> & Hc & Hq & _). eexists. split; [step_ok; reflexivity|]. simpl. repeat split; auto. discriminate.
  - intros (-> & Hc & Hq & _). eexists. split; [step_ok; reflexivity|]. simpl. auto.
  - intros ([-> Hh] & Hc & Hq & _). rewrite Hh by reflexivity. eexists. split; [step_ok; reflexivity|]. simpl. auto.
  - intros ([-> Hh] & Hc & Hq & _). repeat split; eauto using lt_all_mono, lt_all_opt with zarith.
  - intros ([had ->] & Hc & Hq & Hl & Hlt). eexists. split; [destruct had; step_ok; rewrite Hl; reflexivity|]. simpl. auto.
  - intros (-> & Hc & Hq & _). eexists. split; [step_ok; reflexivity|]. simpl. repeat split; auto.
  - intros (-> & Hc & Hq & _). eexists. split; [step_ok; reflexivity|]. simpl. auto.
Qed.

Lemma nth_set_nth_same {A} : forall (l : list A) i x a, nth_error l i = Some a -> nth_error (set_nth l i x) i = Some x.
Proof. induction l as [|y l IH]; intros [|i] x a H; simpl in *; try discriminate; eauto. Qed.

Lemma nth_set_nth_other {A} : forall (l : list A) i j x, i <> j -> nth_error (set_nth l i x) j = nth_error l j.
Proof.
  induction l as [|y l IH]; intros [|i] [|j] x H; simpl; auto; try congruence.
Qed.

Definition rel (g : gstate) (s : sys) : Prop :=
  (forall i a, nth_error (s_actors s) i = Some a -> started a ->
     linv a (lookup g (a_t a)) (s_cc s) (s_cp s) /\ a_t a < s_ct s) /\
  (forall i j a b, i <> j -> nth_error (s_actors s) i = Some a -> nth_error (s_actors s) j = Some b ->
     started a -> started b -> a_t a <> a_t b) /\
  (forall t, s_ct s <= t -> lookup g t = t0).

Lemma rel_step g g' s i a a' ct' cc' cp' :
  rel g s -> nth_error (s_actors s) i = Some a ->
  s_ct s <= ct' -> s_cc s <= cc' -> s_cp s <= cp' ->
  linv a' (lookup g' (a_t a')) cc' cp' -> a_t a' < ct' ->
  (started a /\ a_t a' = a_t a \/ a_t a' = s_ct s) ->
  (forall t, t <> a_t a' -> lookup g' t = lookup g t) ->
  rel g' (mkS (set_nth (s_actors s) i a') ct' cc' cp').
Proof.
  intros (R1 & R2 & R3) En Hct Hcc Hcp Hl' Hlt Hkeep Hg.
  pose proof (nth_set_nth_same _ _ a' _ En) as Hsame.
  assert (Hne : forall j b, i <> j -> nth_error (s_actors s) j = Some b -> started b -> a_t b <> a_t a').
  { intros j b Hij Hj Hb. destruct Hkeep as [[Hsa ->] | ->].
    - exact (R2 j i b a (not_eq_sym Hij) Hj En Hb Hsa).
    - destruct (R1 _ _ Hj Hb). lia. }
  split; [|split]; simpl.
  - intros j b Hj Hb. destruct (Nat.eq_dec i j) as [<- | Hij].
    + rewrite Hsame in Hj. inv Hj. auto.
    + rewrite nth_set_nth_other in Hj by assumption. destruct (R1 _ _ Hj Hb) as [H1 H2]. split; [|lia].
      rewrite Hg by eauto. eapply linv_mono; eauto.
  - intros j k b c Hjk Hj Hk Hb Hc.
    destruct (Nat.eq_dec i j) as [<- | Hij]; destruct (Nat.eq_dec i k) as [<- | Hik]; try congruence.
    + rewrite Hsame in Hj. inv Hj. rewrite nth_set_nth_other in Hk by assumption. apply not_eq_sym. eauto.
    + rewrite Hsame in Hk. inv Hk. rewrite nth_set_nth_other in Hj by assumption. eauto.
    + rewrite nth_set_nth_other in Hj, Hk by assumption. exact (R2 j k b c Hjk Hj Hk Hb Hc).
  - intros t Ht. rewrite Hg by lia. apply R3. lia.
Qed.

Lemma step_rel r g s i s' oe : rel g s -> step r s i = (s', oe) ->
  match oe with
  | Some e => exists g', gstep r g e = Some g' /\ rel g' s'
  | None => rel g s'
  end.
Proof.
  intros Hr Hst. unfold step in Hst. pose proof Hr as (R1 & _ & R3).
  destruct (nth_error (s_actors s) i) as [a|] eqn:En; [|inv Hst; exact Hr].
  destruct (astep r (s_ct s) (s_cc s) (s_cp s) a) as [a' eff] eqn:Ea.
  destruct (astep_spec _ _ _ _ _ _ _ Ea) as [Hs' H].
  destruct eff; inv Hst.
  - exact Hr.
  - destruct H as (_ & Ht' & Hl).
    apply (rel_step g g s i a a'); auto; try lia. rewrite Ht', R3 by lia. apply Hl; simpl; auto.
  - destruct H as (Hsa & Ht' & Hl). destruct (R1 _ _ En Hsa).
    apply (rel_step g g s i a a'); auto; try lia. rewrite Ht'. auto.
  - destruct H as (Hsa & Ht' & Hl). destruct (R1 _ _ En Hsa).
    apply (rel_step g g s i a a'); auto; try lia. rewrite Ht'. auto.
  - destruct H as (Hsa & Ht' & Hev & Hl). destruct (R1 _ _ En Hsa) as [Hla Hlt].
    destruct (Hl _ Hla) as (ts' & Hts & Hl').
    exists (update g (a_t a) ts'). split; [unfold gstep; rewrite Hev, Hts; reflexivity|].
    apply (rel_step g _ s i a a'); auto; try lia.
    + rewrite Ht', lookup_update_same. exact Hl'.
    + intros t Ht. apply lookup_update_other. congruence.
Qed.

Lemma rel_init ps : rel [] (init_sys ps).
Proof.
  split; [|split]; simpl.
  - intros i a Hn Hs. exfalso. apply nth_error_In in Hn. apply in_map_iff in Hn. destruct Hn as (p & <- & _). exact Hs.
  - intros i j a b _ Hn _ Hs. exfalso. apply nth_error_In in Hn. apply in_map_iff in Hn. destruct Hn as (p & <- & _). exact Hs.
  - reflexivity.
Qed.

Definition pendC (a : actor) : list Z := match a_pc a with AGotCall _ _ _ _ => [a_c a] | _ => [] end.
Definition pendP (a : actor) : list Z := match a_pc a with AGotPrompt _ _ _ _ => [a_p a] | _ => [] end.

Lemma astep_pend r ct cc cp a a' eff : astep r ct cc cp a = (a', eff) ->
  match eff with
  | ETakeC => pendC a = [] /\ pendC a' = [cc] /\ pendP a' = pendP a
  | ETakeP => pendP a = [] /\ pendP a' = [cp] /\ pendC a' = pendC a
  | EPut e =>
      ((exists x, call_starts [e] = [x] /\ pendC a = [x] /\ pendC a' = []) \/ (call_starts [e] = [] /\ pendC a' = pendC a)) /\
      ((exists x, prompt_starts [e] = [x] /\ pendP a = [x] /\ pendP a' = []) \/ (prompt_starts [e] = [] /\ pendP a' = pendP a))
  | _ => pendC a' = pendC a /\ pendP a' = pendP a
  end.
Proof.
  unfold astep, pendC, pendP. destruct a as [pc0 t c p]. simpl.
  destruct pc0 as [pl k|pl k|[|[fid info loop|txt] k]|fid info loop k|[[q qs]|] k|[|[txt cmd] ps] had k|txt cmd ps k|cmd ps k|k|];
    intros [= <- <-]; simpl; eauto 10.
Qed.

Lemma set_nth_split {A} : forall (l : list A) i a x, nth_error l i = Some a ->
  exists l1 l2, l = l1 ++ a :: l2 /\ set_nth l i x = l1 ++ x :: l2.
Proof.
  induction l as [|y l IH]; intros [|i] a x H; simpl in *; try discriminate.
  - inv H. exists [], l. auto.
  - destruct (IH _ _ x H) as (l1 & l2 & -> & ->). exists (y :: l1), l2. auto.
Qed.

(** actor [a] has moved to [a'], seen from one kind of number (its counter [cnt], who holds a
    taken-but-not-yet-put number, where it shows in the stream): it takes the next number, or puts
    the start event carrying the number it holds, or neither *)
Definition moved (cnt : sys -> Z) (pend : actor -> list Z) (starts : list event -> list Z)
    (s s' : sys) (a a' : actor) (oe : option event) : Prop :=
  let out := match oe with Some e => starts [e] | None => [] end in
  (pend a = [] /\ pend a' = [cnt s] /\ cnt s' = cnt s + 1 /\ out = []) \/
  (exists x, pend a = [x] /\ pend a' = [] /\ cnt s' = cnt s /\ out = [x]) \/
  (pend a' = pend a /\ cnt s' = cnt s /\ out = []).

Definition step_kind (r : Z) (cnt : sys -> Z) (pend : actor -> list Z) (starts : list event -> list Z) : Prop :=
  forall s i s' oe, step r s i = (s', oe) ->
    (s' = s /\ oe = None) \/
    exists l1 a a' l2, s_actors s = l1 ++ a :: l2 /\ s_actors s' = l1 ++ a' :: l2 /\ moved cnt pend starts s s' a a' oe.

Section Numbers.
  Variable r : Z.
  Variable cnt : sys -> Z.
  Variable pend : actor -> list Z.
  Variable starts : list event -> list Z.
  Hypothesis starts_cons : forall e es, starts (e :: es) = starts [e] ++ starts es.
  Hypothesis starts_nil : starts [] = [].
  Hypothesis Hkind : step_kind r cnt pend starts.

  Definition pending (s : sys) : list Z := flat_map pend (s_actors s).

  Lemma numbers_fresh : forall sched s,
    NoDup (pending s) -> (forall x, In x (pending s) -> x < cnt s) ->
    NoDup (starts (snd (run r s sched))) /\
    forall x, In x (starts (snd (run r s sched))) -> In x (pending s) \/ cnt s <= x.
  Proof.
    induction sched as [|i sched IH]; intros s Hnd Hlt; simpl.
    - rewrite starts_nil. split; [constructor | intros x []].
    - destruct (step r s i) as [s1 oe] eqn:Es. destruct (run r s1 sched) as [s2 es] eqn:Er. simpl.
      specialize (IH s1). rewrite Er in IH. simpl in IH.
      destruct (Hkind _ _ _ _ Es) as [[-> ->] | (l1 & a & a' & l2 & Hl & Hl' & Hk)]; [auto|].
      unfold pending in *. rewrite Hl in Hnd, Hlt |- *. rewrite Hl' in IH.
      rewrite !flat_map_app in *. simpl in *.
      destruct Hk as [(Ha & Ha' & Hc & Ho) | [(x & Ha & Ha' & Hc & Ho) | (Ha' & Hc & Ho)]].
      + rewrite Ha in *. rewrite Ha', Hc in IH. simpl in *.
        assert (Hout : starts (match oe with Some e => e :: es | None => es end) = starts es).
        { destruct oe; auto. rewrite starts_cons, Ho. reflexivity. }
        rewrite Hout. destruct IH as [IH1 IH2].
        * apply (Permutation_NoDup (Permutation_middle _ _ _)). constructor; auto.
          intros Hin. apply Hlt in Hin. lia.
        * intros y Hy. apply in_app_or in Hy. destruct Hy as [Hy | [<- | Hy]]; [| lia |].
          -- assert (y < cnt s) by (apply Hlt, in_or_app; auto). lia.
          -- assert (y < cnt s) by (apply Hlt, in_or_app; auto). lia.
        * split; auto. intros y Hy. destruct (IH2 y Hy) as [Hin | Hge]; [|right; lia].
          apply in_app_or in Hin. destruct Hin as [Hin | [<- | Hin]]; [left; apply in_or_app; auto | right; lia | left; apply in_or_app; auto].
      + rewrite Ha in *. rewrite Ha', Hc in IH. simpl in *.
        assert (Hout : starts (match oe with Some e => e :: es | None => es end) = x :: starts es).
        { destruct oe; [rewrite starts_cons, Ho; reflexivity | discriminate]. }
        rewrite Hout. pose proof (NoDup_remove _ _ _ Hnd) as [Hnd' Hnx].
        destruct IH as [IH1 IH2]; auto.
        * intros y Hy. apply Hlt. apply in_app_or in Hy. apply in_or_app. simpl. tauto.
        * split.
          -- constructor; auto. intros Hin. destruct (IH2 _ Hin) as [H | H]; [contradiction|].
             assert (x < cnt s) by (apply Hlt, in_or_app; simpl; auto). lia.
          -- intros y [<- | Hy]; [left; apply in_or_app; simpl; auto|].
             destruct (IH2 _ Hy) as [H | H]; [left | right; auto].
             apply in_app_or in H. apply in_or_app. simpl. tauto.
      + rewrite Ha', Hc in IH.
        assert (Hout : starts (match oe with Some e => e :: es | None => es end) = starts es).
        { destruct oe; auto. rewrite starts_cons, Ho. reflexivity. }
        rewrite Hout. apply IH; auto.
  Qed.
End Numbers.

Lemma step_moves r s i s' oe : step r s i = (s', oe) ->
  (s' = s /\ oe = None) \/
  exists l1 a a' l2, s_actors s = l1 ++ a :: l2 /\ s_actors s' = l1 ++ a' :: l2 /\
    moved s_cc pendC call_starts s s' a a' oe /\ moved s_cp pendP prompt_starts s s' a a' oe.
Proof.
  unfold step. destruct (nth_error (s_actors s) i) as [a|] eqn:En; [|intros [= <- <-]; auto].
  destruct (astep r (s_ct s) (s_cc s) (s_cp s) a) as [a' eff] eqn:Ea.
  pose proof (astep_pend _ _ _ _ _ _ _ Ea) as Hp.
  destruct (set_nth_split _ _ _ a' En) as (l1 & l2 & Hl & Hl').
  destruct eff; intros [= <- <-]; auto; right; exists l1, a, a', l2; unfold moved; cbn [s_actors s_cc s_cp];
    (split; [assumption|]); (split; [assumption|]); try tauto.
  destruct Hp as [[(x & -> & ? & ?) | [-> ?]] [(y & -> & ? & ?) | [-> ?]]]; split; eauto 7.
Qed.

Lemma step_kind_C r : step_kind r s_cc pendC call_starts.
Proof. intros s i s' oe H. destruct (step_moves _ _ _ _ _ H) as [ | (l1 & a & a' & l2 & ? & ? & ? & _)]; eauto 9. Qed.

Lemma step_kind_P r : step_kind r s_cp pendP prompt_starts.
Proof. intros s i s' oe H. destruct (step_moves _ _ _ _ _ H) as [ | (l1 & a & a' & l2 & ? & ? & _ & ?)]; eauto 9. Qed.

Lemma pending_init f ps : (forall p, f (init_actor p) = []) -> pending f (init_sys ps) = [].
Proof.
  intros H. unfold pending, init_sys. simpl. induction ps as [|p ps IH]; simpl; auto. rewrite H, IH. reflexivity.
Qed.

Definition keys_ok (g : gstate) (s : sys) : Prop :=
  forall t, In t (map fst g) -> exists a, In a (s_actors s) /\ started a /\ a_t a = t.

Lemma rel_all_done g s : rel g s -> all_finished s = true -> keys_ok g s -> all_done g = true.
Proof.
  intros (R1 & _ & _) Hf Hk. apply all_done_spec. intros t.
  destruct (in_dec Z.eq_dec t (map fst g)) as [Hin | Hn].
  - destruct (Hk _ Hin) as (a & Ha & Hs & <-). apply In_nth_error in Ha. destruct Ha as [i Hi].
    destruct (R1 _ _ Hi Hs) as [(Hp & _) _].
    unfold all_finished in Hf. rewrite forallb_forall in Hf. specialize (Hf a (nth_error_In _ _ Hi)).
    unfold pc_phase in Hp. destruct (a_pc a); try discriminate. rewrite Hp. reflexivity.
  - rewrite lookup_notin by assumption. reflexivity.
Qed.

Lemma update_keys g k v t : In t (map fst (update g k v)) -> t = k \/ In t (map fst g).
Proof.
  rewrite update_keys_eq. destruct (existsb (Z.eqb k) (map fst g)); [auto | ].
  intros H. apply in_app_or in H. destruct H as [H | [<- | []]]; auto.
Qed.

Lemma step_keys r g s i s' oe g' : keys_ok g s -> step r s i = (s', oe) ->
  match oe with Some e => gstep r g e = Some g' | None => g' = g end -> keys_ok g' s'.
Proof.
  intros HK Hst Hg. unfold step in Hst.
  destruct (nth_error (s_actors s) i) as [a|] eqn:En.
  2:{ inv Hst. simpl in Hg. subst g'. exact HK. }
  destruct (astep r (s_ct s) (s_cc s) (s_cp s) a) as [a' eff] eqn:Ea.
  destruct (astep_spec _ _ _ _ _ _ _ Ea) as [Hs' H].
  assert (Hs : started a -> a_t a' = a_t a) by (destruct eff; [subst a' | | | |]; tauto).
  destruct (set_nth_split _ _ _ a' En) as (l1 & l2 & Hl & Hl').
  assert (Hmove : forall t, (exists b, In b (s_actors s) /\ started b /\ a_t b = t) ->
                            exists b, In b (l1 ++ a' :: l2) /\ started b /\ a_t b = t).
  { intros t (b & Hb & Hsb & Htb). rewrite Hl in Hb. apply in_app_or in Hb. destruct Hb as [Hb | [<- | Hb]].
    - exists b. split; [apply in_or_app; auto | auto].
    - exists a'. split; [apply in_or_app; simpl; auto | split; auto; rewrite Hs; auto].
    - exists b. split; [apply in_or_app; simpl; auto | auto]. }
  destruct eff; inv Hst; simpl in Hg; try subst g'; try exact HK; unfold keys_ok; simpl; try rewrite Hl'; try (intros t Ht; apply Hmove, HK, Ht).
  destruct H as (Hsa & Ht' & Hev & _).
  destruct (gstep_inv _ _ _ _ Hg) as (s1 & _ & ->).
  intros t Ht. apply update_keys in Ht. destruct Ht as [-> | Ht]; [|apply Hmove, HK, Ht].
  exists a'. split; [apply in_or_app; simpl; auto | split; auto; congruence].
Qed.

Lemma run_rel r : forall sched g s, rel g s -> keys_ok g s ->
  exists g', grun r g (snd (run r s sched)) = Some g' /\ rel g' (fst (run r s sched)) /\ keys_ok g' (fst (run r s sched)).
Proof.
  induction sched as [|i sched IH]; intros g s H HK; simpl.
  - eauto.
  - destruct (step r s i) as [s1 oe] eqn:Es. pose proof (step_rel _ _ _ _ _ _ H Es) as Hs.
    destruct (run r s1 sched) as [s2 es] eqn:Er.
    destruct oe as [e|]; simpl.
    + destruct Hs as (g1 & Hg1 & Hr1). rewrite Hg1.
      assert (HK1 : keys_ok g1 s1) by (eapply step_keys; eauto).
      specialize (IH _ _ Hr1 HK1). rewrite Er in IH. exact IH.
    + assert (HK1 : keys_ok g s1) by (eapply (step_keys r g s i s1 None g); eauto).
      specialize (IH _ _ Hs HK1). rewrite Er in IH. exact IH.
Qed.

Theorem emitter_prefix r ps sched : wf_prefix r (emitted r ps sched) = true.
Proof.
  apply wf_prefix_unfold. rewrite !nodupb_spec. unfold emitted. split; [|split].
  - destruct (run_rel r sched [] _ (rel_init ps)) as (g' & Hg & _); [intros t [] | eauto].
  - apply (numbers_fresh r s_cc pendC call_starts).
    + intros e es. unfold call_starts. simpl. rewrite app_nil_r. reflexivity.
    + reflexivity.
    + apply step_kind_C.
    + rewrite pending_init by reflexivity. constructor.
    + rewrite pending_init by reflexivity. intros x [].
  - apply (numbers_fresh r s_cp pendP prompt_starts).
    + intros e es. unfold prompt_starts. simpl. rewrite app_nil_r. reflexivity.
    + reflexivity.
    + apply step_kind_P.
    + rewrite pending_init by reflexivity. constructor.
    + rewrite pending_init by reflexivity. intros x [].
Qed.

(** C09, emitter: every interleaving of structured actor programs that lets every actor finish
    yields a well-formed stream *)
Theorem emitter_wf r ps sched : finished r ps sched = true -> WF r (emitted r ps sched).
Proof.
  intros Hf. apply recogniser_correct. apply wf_unfold.
  pose proof (emitter_prefix r ps sched) as Hp. apply wf_prefix_unfold in Hp. destruct Hp as [_ Hn].
  split; [|exact Hn].
  destruct (run_rel r sched [] (init_sys ps) (rel_init ps)) as (g' & Hg & Hr & HK).
  { intros t []. }
  exists g'. split; [exact Hg|]. eapply rel_all_done; eauto.
Qed.
