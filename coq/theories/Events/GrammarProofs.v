(** The recogniser [wf] decides the grammar [WF]; prefix closure. *)
From NL Require Import Events.Grammar.
Open Scope Z_scope.

Ltac inv H := inversion H; subst; clear H.

Ltac crush_eqs :=
  repeat match goal with
  | H : (if ?b then _ else _) = Some _ |- _ => let E := fresh "E" in destruct b eqn:E; [|discriminate H]
  | H : Some _ = Some _ |- _ => inv H
  | H : (_ && _) = true |- _ => apply andb_true_iff in H; destruct H
  | H : (_ =? _) = true |- _ => apply Z.eqb_eq in H; subst
  end.

Definition of_trace (r t : Z) (e : event) : Prop := ev_run e = r /\ ev_trace e = t.

Lemma pstep_nums r t ph e ph' : pstep r t ph e = Some ph' -> of_trace r t e.
Proof.
  unfold pstep, of_trace. destruct (ev_run e =? r) eqn:E1, (ev_trace e =? t) eqn:E2; simpl; try discriminate.
  intros _. split; apply Z.eqb_eq; assumption.
Qed.

Lemma pstep_core r t ph e : of_trace r t e -> pstep r t ph e = pcore ph e.
Proof. intros [H1 H2]. unfold pstep. rewrite H1, H2, !Z.eqb_refl. reflexivity. Qed.

Lemma pcore_not_none ph e ph' : pcore ph e = Some ph' -> ph' <> PNone.
Proof.
  destruct ph, e; simpl; intros H; try discriminate; crush_eqs; try discriminate.
  all: destruct had; try discriminate; crush_eqs; discriminate.
Qed.

Lemma pstep_not_none r t ph e ph' : pstep r t ph e = Some ph' -> ph' <> PNone.
Proof.
  intros H. pose proof (pstep_nums _ _ _ _ _ H) as Hn. rewrite pstep_core in H by assumption.
  eapply pcore_not_none; eauto.
Qed.

Lemma prun_app r t : forall a ph b,
  prun r t ph (a ++ b) = match prun r t ph a with Some ph' => prun r t ph' b | None => None end.
Proof.
  induction a as [|e a IH]; intros ph b; simpl; auto.
  destruct (pstep r t ph e); auto.
Qed.

Lemma prun_nums r t : forall l ph ph', prun r t ph l = Some ph' -> Forall (of_trace r t) l.
Proof.
  induction l as [|e l IH]; intros ph ph' H; simpl in H; constructor.
  - destruct (pstep r t ph e) eqn:E; [|discriminate]. eapply pstep_nums; eauto.
  - destruct (pstep r t ph e) eqn:E; [|discriminate]. eapply IH; eauto.
Qed.

Lemma prun_done r t : forall l ph', prun r t PDone l = Some ph' -> l = [] /\ ph' = PDone.
Proof.
  destruct l as [|e l]; simpl; intros ph' H.
  - inv H. auto.
  - unfold pstep in H. destruct ((ev_run e =? r) && (ev_trace e =? t)); [|discriminate].
    destruct e; simpl in H; discriminate.
Qed.

Lemma prun_to_none r t : forall l ph, prun r t ph l = Some PNone -> ph = PNone /\ l = [].
Proof.
  induction l as [|e l IH]; intros ph H; simpl in H.
  - inv H. auto.
  - destruct (pstep r t ph e) eqn:E; [|discriminate].
    apply IH in H. destruct H as [-> _]. exfalso. eapply pstep_not_none; eauto.
Qed.

(** run the automata on events written out, whose numbers match *)
Ltac step_ok :=
  repeat (progress (simpl; unfold tstep, pstep; simpl; rewrite ?Z.eqb_refl; simpl)).

Lemma Prompts_run r t c l : Prompts r t c l ->
  forall b k, prun r t (PLoop c b) (l ++ k) = prun r t (PLoop c true) k.
Proof.
  induction 1; intros b k; destruct b; step_ok; auto.
Qed.

Lemma Call_run r t l : Call r t l -> forall k, prun r t PIdle (l ++ k) = prun r t PIdle k.
Proof.
  destruct 1; intros k.
  - step_ok. reflexivity.
  - step_ok. rewrite <- app_assoc. rewrite (Prompts_run _ _ _ _ H). step_ok. reflexivity.
Qed.

Lemma Calls_run r t l : Calls r t l -> forall k, prun r t PIdle (l ++ k) = prun r t PIdle k.
Proof.
  induction 1; intros k; simpl; auto.
  rewrite <- app_assoc, (Call_run _ _ _ H). apply IHCalls.
Qed.

Definition inside (ph : phase) : Prop :=
  match ph with PNone | PDone => False | _ => True end.

Lemma strip_cons e l : strip (e :: l) = if is_stdout e then strip l else e :: strip l.
Proof. unfold strip. simpl. destruct (is_stdout e); reflexivity. Qed.

Lemma pcore_stdout ph e : is_stdout e = true -> inside ph -> pcore ph e = Some ph.
Proof. destruct e; simpl; try discriminate. intros _. destruct ph as [| |?|? []|? ?|?|]; simpl; intros H; try contradiction; reflexivity. Qed.

Lemma strip_run r t : forall body ph,
  inside ph -> Forall (of_trace r t) body ->
  prun r t ph (strip body) = Some PIdle -> prun r t ph body = Some PIdle.
Proof.
  induction body as [|e body IH]; intros ph Hin Hn H; simpl; auto.
  inv Hn. rewrite strip_cons in H. rewrite pstep_core by assumption.
  destruct (is_stdout e) eqn:Es.
  - rewrite pcore_stdout by assumption. auto.
  - simpl in H. rewrite pstep_core in H by assumption.
    destruct (pcore ph e) as [ph1|] eqn:E; [|discriminate].
    apply IH; auto.
    destruct ph1; simpl; auto.
    + eapply pcore_not_none; eauto.
    + apply prun_done in H. destruct H; discriminate.
Qed.

(** what the grammar still allows from phase [ph] on (stdout put aside): the rest of the open trace
    call, then calls.  In [PCall] the start event is already consumed, so its payload is not known:
    any will do. *)
Definition Shape (r t : Z) (ph : phase) (s : list event) : Prop :=
  match ph with
  | PIdle => Calls r t s
  | PCall c => forall fid info, exists a b,
      s = a ++ b /\ Call r t (StartTraceCall r t c fid info :: a) /\ Calls r t b
  | PLoop c had => exists a b,
      s = a ++ EndCmdloop r t c :: EndTraceCall r t c :: b /\
      (Prompts r t c a \/ (had = true /\ a = [])) /\ Calls r t b
  | PPrompt c p => exists cmd a b,
      s = EndPrompt r t c p cmd :: a ++ EndCmdloop r t c :: EndTraceCall r t c :: b /\
      (Prompts r t c a \/ a = []) /\ Calls r t b
  | PAfter c => exists b, s = EndTraceCall r t c :: b /\ Calls r t b
  | PNone => True
  | PDone => False
  end.

Lemma run_shape r t : forall k ph, prun r t ph k = Some PIdle -> Shape r t ph (strip k).
Proof.
  induction k as [|e k IH]; intros ph H; simpl in H.
  - inv H. simpl. constructor.
  - destruct (pstep r t ph e) as [ph1|] eqn:E; [|discriminate].
    specialize (IH _ H). pose proof (pstep_nums _ _ _ _ _ E) as [Hr Ht].
    rewrite pstep_core in E by (split; assumption).
    rewrite strip_cons.
    destruct ph, e; simpl in E, Hr, Ht; try discriminate; subst; simpl is_stdout; cbv iota.
    all: try (destruct had; try discriminate).
    all: crush_eqs; simpl in IH |- *; auto.
    all: try (* PLoop _, StartPrompt: the two goals that have [txt] *)
      (destruct IH as (cmd & a & b & -> & Hp & Hb);
       exists (StartPrompt r t c0 p txt :: EndPrompt r t c0 p cmd :: a), b;
       repeat split; auto; left; destruct Hp as [Hp | ->]; constructor; assumption).
    + (* PIdle, EndTrace *) contradiction.
    + (* PIdle, StartTraceCall *)
      destruct (IH fid info) as (a & b & -> & Hc & Hb).
      change (StartTraceCall r t c fid info :: a ++ b) with ((StartTraceCall r t c fid info :: a) ++ b).
      constructor; assumption.
    + (* PCall, EndTraceCall *)
      intros fid info. exists [EndTraceCall r t c0], (strip k). repeat split; auto. constructor.
    + (* PCall, StartCmdloop *)
      intros fid info. destruct IH as (a & b & Hs & [Hp | [Hf _]] & Hb); [|discriminate].
      exists (StartCmdloop r t c0 :: a ++ [EndCmdloop r t c0; EndTraceCall r t c0]), b.
      split; [|split; auto].
      * rewrite Hs. simpl. rewrite <- app_assoc. reflexivity.
      * constructor. assumption.
    + (* PLoop true, EndCmdloop *)
      destruct IH as (b & Hs & Hb). exists [], b. rewrite Hs. repeat split; auto.
    + (* PPrompt, EndPrompt *)
      destruct IH as (a & b & Hs & Hp & Hb). exists cmd, a, b. rewrite Hs. split; auto. split; auto.
      destruct Hp as [Hp | [_ ->]]; auto.
    + (* PAfter, EndTraceCall *)
      exists (strip k). auto.
Qed.

Lemma run_done_split r t : forall l ph,
  prun r t ph l = Some PDone -> ph <> PDone ->
  exists body, l = body ++ [EndTrace r t] /\ prun r t ph body = Some PIdle.
Proof.
  induction l as [|e l IH]; intros ph H Hne; simpl in H.
  - inv H. contradiction.
  - destruct (pstep r t ph e) as [ph1|] eqn:E; [|discriminate].
    assert (Hd : ph1 = PDone \/ ph1 <> PDone) by (destruct ph1; auto; right; discriminate).
    destruct Hd as [-> | Hd].
    + apply prun_done in H. destruct H as [-> _].
      pose proof (pstep_nums _ _ _ _ _ E) as [Hr Ht].
      rewrite pstep_core in E by (split; assumption).
      exists []. destruct ph as [| |?|? []|? ?|?|], e; simpl in E, Hr, Ht; try discriminate; subst; crush_eqs; try discriminate.
      split; reflexivity.
    + destruct (IH _ H Hd) as (body & -> & Hb). exists (e :: body). split; auto.
      simpl. rewrite E. assumption.
Qed.

Theorem prun_Trace r t l : prun r t PNone l = Some PDone <-> Trace r t l.
Proof.
  split.
  - intros H. destruct l as [|e l]; simpl in H; [discriminate|].
    destruct (pstep r t PNone e) as [ph1|] eqn:E; [|discriminate].
    pose proof (pstep_nums _ _ _ _ _ E) as [Hr Ht].
    rewrite pstep_core in E by (split; assumption).
    destruct e; simpl in E, Hr, Ht; try discriminate. inv E.
    destruct (run_done_split _ _ _ _ H) as (body & -> & Hb); [discriminate|].
    exists pl, body. split; auto. split.
    + eapply prun_nums; eauto.
    + apply (run_shape _ _ _ _ Hb).
  - intros (pl & body & -> & Hn & Hc).
    step_ok. rewrite prun_app.
    rewrite (strip_run r t body PIdle); simpl; auto.
    + step_ok. reflexivity.
    + pose proof (Calls_run _ _ _ Hc []) as H. rewrite app_nil_r in H. exact H.
Qed.

Lemma prun_none_nil r t l : prun r t PNone l = Some PNone <-> l = [].
Proof.
  split.
  - intros H. apply prun_to_none in H. tauto.
  - intros ->. reflexivity.
Qed.

(** [l] increases and starts above the last number seen [o]: what [tstep] checks with [lt_opt], one
    number at a time *)
Fixpoint sorted_from (o : option Z) (l : list Z) : Prop :=
  match l with
  | [] => True
  | x :: r => lt_opt o x = true /\ sorted_from (Some x) r
  end.

Lemma sorted_from_spec : forall l o,
  sorted_from o l <->
  (match o with Some x => Forall (Z.lt x) l | None => True end) /\ StronglySorted Z.lt l.
Proof.
  induction l as [|y l IH]; intros o; simpl.
  - split; [intros _; split; [destruct o; constructor | constructor] | auto].
  - rewrite IH. split.
    + intros (Hlt & Hf & Hs). split.
      * destruct o as [x|]; auto. simpl in Hlt. apply Z.ltb_lt in Hlt. constructor; auto.
        eapply Forall_impl; [|exact Hf]. simpl. intros; lia.
      * constructor; auto.
    + intros (Ho & Hs). inv Hs. split; [|split; auto].
      destruct o as [x|]; simpl; auto. inv Ho. apply Z.ltb_lt. assumption.
Qed.

Lemma sorted_from_none l : sorted_from None l <-> increasing l.
Proof. rewrite sorted_from_spec. unfold increasing. tauto. Qed.

Lemma call_starts_cons e l : call_starts (e :: l) =
  match e with StartTraceCall _ _ c _ _ => c :: call_starts l | _ => call_starts l end.
Proof. unfold call_starts. simpl. destruct e; reflexivity. Qed.

Lemma prompt_starts_cons e l : prompt_starts (e :: l) =
  match e with StartPrompt _ _ _ p _ => p :: prompt_starts l | _ => prompt_starts l end.
Proof. unfold prompt_starts. simpl. destruct e; reflexivity. Qed.

Lemma trace_starts_cons e l : trace_starts (e :: l) =
  match e with StartTrace _ t _ => t :: trace_starts l | _ => trace_starts l end.
Proof. unfold trace_starts. simpl. destruct e; reflexivity. Qed.

Lemma tstep_ph r t s e s1 : tstep r t s e = Some s1 -> pstep r t (t_ph s) e = Some (t_ph s1).
Proof.
  unfold tstep. destruct (pstep r t (t_ph s) e) as [ph1|]; [|discriminate].
  destruct e; intros H; try (inv H; reflexivity).
  - destruct (lt_opt (t_lc s) c); inv H. reflexivity.
  - destruct (lt_opt (t_lp s) p); inv H. reflexivity.
Qed.

Lemma trun_ph r t : forall l s s', trun r t s l = Some s' -> prun r t (t_ph s) l = Some (t_ph s').
Proof.
  induction l as [|e l IH]; intros s s' H; simpl in H |- *.
  - inv H. reflexivity.
  - destruct (tstep r t s e) as [s1|] eqn:E; [|discriminate]. rewrite (tstep_ph _ _ _ _ _ E). auto.
Qed.

Lemma trun_spec r t : forall l s,
  (exists s', trun r t s l = Some s') <->
  ((exists ph', prun r t (t_ph s) l = Some ph') /\
   sorted_from (t_lc s) (call_starts l) /\ sorted_from (t_lp s) (prompt_starts l)).
Proof.
  induction l as [|e l IH]; intros s.
  - simpl. split; [intros _; repeat split; eauto | eauto].
  - rewrite call_starts_cons, prompt_starts_cons. cbn [trun prun]. unfold tstep.
    destruct (pstep r t (t_ph s) e) as [ph1|].
    2:{ split; [intros [? H]; discriminate | intros [[? H] _]; discriminate]. }
    destruct e; try (rewrite IH; simpl; tauto).
    + destruct (lt_opt (t_lc s) c) eqn:El.
      * rewrite IH. simpl. tauto.
      * split; [intros [? H]; discriminate | intros (_ & [H _] & _); simpl in H; congruence].
    + destruct (lt_opt (t_lp s) p) eqn:El.
      * rewrite IH. simpl. tauto.
      * split; [intros [? H]; discriminate | intros (_ & _ & [H _]); simpl in H; congruence].
Qed.

Lemma nodupb_spec l : nodupb l = true <-> NoDup l.
Proof.
  induction l as [|x l IH]; simpl.
  - split; [constructor | auto].
  - rewrite andb_true_iff, negb_true_iff, IH. split.
    + intros [Hx Hl]. constructor; auto. intros Hin.
      assert (existsb (Z.eqb x) l = true) by (apply existsb_exists; exists x; split; auto; apply Z.eqb_refl).
      congruence.
    + intros H. inv H. split; auto.
      destruct (existsb (Z.eqb x) l) eqn:E; auto.
      apply existsb_exists in E. destruct E as (y & Hy & Hxy). apply Z.eqb_eq in Hxy. subst. contradiction.
Qed.

Lemma lookup_update_same : forall g t s, lookup (update g t s) t = s.
Proof.
  induction g as [|[t' s'] g IH]; intros t s; simpl.
  - rewrite Z.eqb_refl. reflexivity.
  - destruct (t =? t') eqn:E; simpl; rewrite ?Z.eqb_refl, ?E; auto.
Qed.

Lemma lookup_update_other : forall g t t' s, t' <> t -> lookup (update g t s) t' = lookup g t'.
Proof.
  induction g as [|[t1 s1] g IH]; intros t t' s Hne; simpl.
  - apply Z.eqb_neq in Hne. rewrite Hne. reflexivity.
  - destruct (t =? t1) eqn:E; simpl.
    + apply Z.eqb_eq in E. subst. apply Z.eqb_neq in Hne. rewrite Hne. reflexivity.
    + destruct (t' =? t1); auto.
Qed.

Lemma update_keys_eq : forall g t s,
  map fst (update g t s) = if existsb (Z.eqb t) (map fst g) then map fst g else map fst g ++ [t].
Proof.
  induction g as [|[t' s'] g IH]; intros t s; simpl; auto.
  destruct (t =? t') eqn:E; simpl.
  - apply Z.eqb_eq in E. subst. reflexivity.
  - rewrite IH. destruct (existsb (Z.eqb t) (map fst g)); reflexivity.
Qed.

Lemma proj_cons t e es : proj t (e :: es) = if ev_trace e =? t then e :: proj t es else proj t es.
Proof. reflexivity. Qed.

Lemma gstep_inv r g e g1 : gstep r g e = Some g1 ->
  exists s1, tstep r (ev_trace e) (lookup g (ev_trace e)) e = Some s1 /\ g1 = update g (ev_trace e) s1.
Proof.
  unfold gstep. destruct (tstep r (ev_trace e) (lookup g (ev_trace e)) e) as [s1|]; [|discriminate].
  intros H. inv H. eauto.
Qed.

Lemma grun_proj r : forall es g g', grun r g es = Some g' ->
  forall t, trun r t (lookup g t) (proj t es) = Some (lookup g' t).
Proof.
  induction es as [|e es IH]; intros g g' H t; simpl in H.
  - inv H. reflexivity.
  - destruct (gstep r g e) as [g1|] eqn:E; [|discriminate].
    destruct (gstep_inv _ _ _ _ E) as (s1 & Hs & ->).
    rewrite proj_cons. destruct (ev_trace e =? t) eqn:Et.
    + apply Z.eqb_eq in Et. subst t. simpl. rewrite Hs.
      rewrite <- (lookup_update_same g (ev_trace e) s1) at 1. apply IH. assumption.
    + apply Z.eqb_neq in Et. rewrite <- (lookup_update_other g (ev_trace e) t s1) by auto.
      apply IH. assumption.
Qed.

Lemma grun_complete r : forall es g,
  (forall t, exists s', trun r t (lookup g t) (proj t es) = Some s') ->
  exists g', grun r g es = Some g'.
Proof.
  induction es as [|e es IH]; intros g H; simpl.
  - eauto.
  - destruct (H (ev_trace e)) as (s' & Hs). rewrite proj_cons, Z.eqb_refl in Hs. simpl in Hs.
    destruct (tstep r (ev_trace e) (lookup g (ev_trace e)) e) as [s1|] eqn:E; [|discriminate].
    unfold gstep. rewrite E. apply IH. intros t.
    destruct (Z.eq_dec t (ev_trace e)) as [-> | Hne].
    + rewrite lookup_update_same. eauto.
    + rewrite lookup_update_other by auto. specialize (H t). rewrite proj_cons in H.
      destruct (ev_trace e =? t) eqn:Et; [apply Z.eqb_eq in Et; congruence | exact H].
Qed.

Lemma lookup_notin : forall g t, ~ In t (map fst g) -> lookup g t = t0.
Proof.
  induction g as [|[t' s] g IH]; intros t H; simpl in *; auto.
  destruct (t =? t') eqn:E; [apply Z.eqb_eq in E; subst; tauto | apply IH; tauto].
Qed.

Lemma all_done_spec g : all_done g = true <-> forall t, final_ph (t_ph (lookup g t)) = true.
Proof.
  unfold all_done. rewrite forallb_forall. split.
  - intros H t. destruct (in_dec Z.eq_dec t (map fst g)) as [Hin | Hn].
    + apply H. assumption.
    + rewrite lookup_notin by assumption. reflexivity.
  - intros H t _. apply H.
Qed.

Lemma grun_runs r : forall es g g', grun r g es = Some g' -> Forall (fun e => ev_run e = r) es.
Proof.
  induction es as [|e es IH]; intros g g' H; simpl in H; constructor.
  - destruct (gstep r g e) as [g1|] eqn:E; [|discriminate].
    destruct (gstep_inv _ _ _ _ E) as (s1 & Hs & _). apply tstep_ph in Hs. apply pstep_nums in Hs. apply Hs.
  - destruct (gstep r g e) as [g1|] eqn:E; [|discriminate]. eapply IH; eauto.
Qed.

Lemma grun_trace_starts r : forall es g g', grun r g es = Some g' ->
  NoDup (trace_starts es) /\ forall t, In t (trace_starts es) -> t_ph (lookup g t) = PNone.
Proof.
  induction es as [|e es IH]; intros g g' H; simpl in H.
  - split; [constructor | intros t []].
  - destruct (gstep r g e) as [g1|] eqn:E; [|discriminate].
    destruct (gstep_inv _ _ _ _ E) as (s1 & Hs & ->).
    destruct (IH _ _ H) as [Hnd Hin]. pose proof (tstep_ph _ _ _ _ _ Hs) as Hp.
    pose proof (pstep_not_none _ _ _ _ _ Hp) as Hnn.
    assert (Hother : forall t, In t (trace_starts es) -> t <> ev_trace e).
    { intros t Ht ->. apply Hin in Ht. rewrite lookup_update_same in Ht. contradiction. }
    rewrite trace_starts_cons.
    assert (Hrest : forall t, In t (trace_starts es) -> t_ph (lookup g t) = PNone).
    { intros t Ht. rewrite <- (lookup_update_other g (ev_trace e) t s1); auto. }
    destruct e; try (split; assumption).
    simpl in *. split.
    + constructor; auto. intros Ht. apply (Hother _ Ht). reflexivity.
    + intros t' [<- | Ht']; auto.
      pose proof (pstep_nums _ _ _ _ _ Hp) as Hn. rewrite pstep_core in Hp by assumption.
      destruct (t_ph (lookup g t)) as [| |?|? []|? ?|?|]; simpl in Hp; try discriminate. reflexivity.
Qed.

Lemma wf_unfold r es :
  wf r es = true <->
  (exists g, grun r [] es = Some g /\ all_done g = true) /\
  nodupb (call_starts es) = true /\ nodupb (prompt_starts es) = true.
Proof.
  unfold wf. rewrite !andb_true_iff. destruct (grun r [] es) as [g|].
  - split; [intros [[H1 H2] H3]; eauto 6 | intros [(g' & Hg & Hd) [H2 H3]]; inv Hg; auto].
  - split; [intros [[H _] _]; discriminate | intros [(g' & Hg & _) _]; discriminate].
Qed.

Lemma wf_prefix_unfold r es :
  wf_prefix r es = true <->
  (exists g, grun r [] es = Some g) /\
  nodupb (call_starts es) = true /\ nodupb (prompt_starts es) = true.
Proof.
  unfold wf_prefix. rewrite !andb_true_iff. destruct (grun r [] es) as [g|].
  - split; [intros [[_ H2] H3]; eauto | intros [_ [H2 H3]]; auto].
  - split; [intros [[H _] _]; discriminate | intros [(g' & Hg) _]; discriminate].
Qed.

Theorem recogniser_correct r es : wf r es = true <-> WF r es.
Proof.
  rewrite wf_unfold, !nodupb_spec. split.
  - intros [(g & Hg & Hd) [Hc Hp]].
    rewrite all_done_spec in Hd.
    pose proof (grun_proj _ _ _ _ Hg) as Hproj. simpl in Hproj.
    split; [eapply grun_runs; eauto|].
    split; [|split; [apply (grun_trace_starts _ _ _ _ Hg)|split; [assumption|split; [assumption|]]]].
    + intros t. specialize (Hproj t). specialize (Hd t). apply trun_ph in Hproj. simpl in Hproj.
      destruct (t_ph (lookup g t)); try discriminate.
      * left. apply prun_none_nil in Hproj. assumption.
      * right. apply prun_Trace. assumption.
    + intros t. specialize (Hproj t).
      assert (He : exists s', trun r t t0 (proj t es) = Some s') by eauto.
      apply trun_spec in He. simpl in He. rewrite !sorted_from_none in He. tauto.
  - intros (Hr & Htr & _ & Hc & Hp & Hinc).
    assert (Hall : forall t, exists s', trun r t (lookup [] t) (proj t es) = Some s').
    { intros t. apply trun_spec. simpl. rewrite !sorted_from_none. split; [|apply Hinc].
      destruct (Htr t) as [-> | Ht]; [eexists; reflexivity|].
      apply prun_Trace in Ht. eauto. }
    destruct (grun_complete _ _ _ Hall) as (g & Hg).
    split; [|auto]. exists g. split; auto. apply all_done_spec. intros t.
    pose proof (grun_proj _ _ _ _ Hg t) as Hproj. simpl in Hproj. apply trun_ph in Hproj. simpl in Hproj.
    destruct (Htr t) as [E | Ht].
    + rewrite E in Hproj. simpl in Hproj. injection Hproj as <-. reflexivity.
    + apply prun_Trace in Ht. rewrite Ht in Hproj. injection Hproj as <-. reflexivity.
Qed.

Lemma grun_app r : forall a g b,
  grun r g (a ++ b) = match grun r g a with Some g' => grun r g' b | None => None end.
Proof.
  induction a as [|e a IH]; intros g b; simpl; auto.
  destruct (gstep r g e); auto.
Qed.

Lemma NoDup_app_l {A} (a b : list A) : NoDup (a ++ b) -> NoDup a.
Proof.
  induction a as [|x a IH]; simpl; intros H; [constructor|].
  inv H. constructor; auto. intros Hin. apply H2. apply in_or_app. auto.
Qed.

Lemma call_starts_app a b : call_starts (a ++ b) = call_starts a ++ call_starts b.
Proof. unfold call_starts. apply flat_map_app. Qed.
Lemma prompt_starts_app a b : prompt_starts (a ++ b) = prompt_starts a ++ prompt_starts b.
Proof. unfold prompt_starts. apply flat_map_app. Qed.
Lemma trace_starts_app a b : trace_starts (a ++ b) = trace_starts a ++ trace_starts b.
Proof. unfold trace_starts. apply flat_map_app. Qed.

Lemma wf_prefix_app r a b : wf_prefix r (a ++ b) = true -> wf_prefix r a = true.
Proof.
  rewrite !wf_prefix_unfold, !nodupb_spec, call_starts_app, prompt_starts_app, grun_app.
  intros [(g & Hg) [Hc Hp]]. split; [|split; eapply NoDup_app_l; eauto].
  destruct (grun r [] a) as [g'|]; [eauto | discriminate].
Qed.

Lemma wf_wf_prefix r es : wf r es = true -> wf_prefix r es = true.
Proof.
  rewrite wf_unfold, wf_prefix_unfold. intros [(g & Hg & _) H]. eauto.
Qed.

Theorem prefix_sound r es : WFP r es -> wf_prefix r es = true.
Proof.
  intros [rest H]. apply recogniser_correct, wf_wf_prefix in H. eapply wf_prefix_app; eauto.
Qed.

Theorem prefix_closed r es : WF r es -> forall n, wf_prefix r (firstn n es) = true.
Proof. intros H n. apply prefix_sound. exists (skipn n es). rewrite firstn_skipn. exact H. Qed.
