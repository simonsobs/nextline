(** TIE of the hand-written emitter model (Events/Emitter.v) to the code of /repo.

    Gen/EmitterSkel.v holds the statement trees of Repeater (repeat.py), Factory._context and
    TraceCallHandler (local_.py), TaskAndThreadKeeper / TaskOrThreadToTraceMapper (concurrency.py),
    CmdloopHook / PromptFunc (pdb_/factory.py), CustomizedPdb.cmdloop (pdb_/custom.py), the counters
    of count.py and the registration order, REGENERATED from the source at every check
    (translate/emitter_skeleton.py, fail closed).  Events/Interp.v gives them a semantics driven by
    the same structured actor programs and schedules as the model.  This file proves, for EVERY list
    of programs and EVERY schedule, that the interpreter of the regenerated code and the model are
    in lock step and emit the same stream ([sim], [tie_same_stream]); hence the theorems of
    Events/EmitterProofs.v hold of the regenerated code ([tie_prefix], [tie_wf]).

    LABELS.  [sim] / [tie_same_stream] is a genuine simulation over the regenerated trees; the states
    [K_*] used by its invariant are `Eval vm_compute` of the interpreter itself (self-referential: the
    content is the equality of the two streams, not the control points).  [tie_counters_per_run] is
    reflexivity on facts computed by the translator, which also drive the interpreter.  The translator
    additionally checks source shapes that no theorem speaks about (listed in harness/props/c09.py).
    EXCEPTIONS.  The interpreter behind [sim] raises nothing but an explicit `raise` (caught by the
    `try/except` of that name) and a failing `assert`; `try: a finally: b` is a-then-b there.
    [tie_end_in_finally_*] and [tie_handler_removes_in_finally] run each generator-based hook on its own
    with an exception THROWN INTO it at its first yield ([gexec]); removing or dedenting any of the four
    try/finally blocks, or the try/except of CustomizedPdb.cmdloop, changes the generated term and breaks
    one of these theorems (resp. [tie_stray_cmdloop_refused]).  Not covered: exceptions raised by a hook's
    own statements, by the entry of a later-stacked context manager, by hook.prompt; KeyboardInterrupt
    through catch() in _context; the unwinding order of apluggy's stack (trusted).

    Method.  The dicts and sets of the plugins are keyed by the trace number or by the task.
    Locality ([run1_agree]) shows once and for all, for the interpreter, that a step of actor i which only
    looks at / writes entries under its own keys (the interpreter logs them) runs exactly as it
    does in a store where all keys of a kind are identified -- and there the step can be computed
    symbolically by [vm_compute] from the regenerated trees.  The state of an actor at each program
    point of the model is computed from the regenerated trees ([K_*]); [sim_from] is the simulation. *)
From NL Require Import Events.Grammar Events.GrammarProofs Events.Emitter Events.EmitterProofs Events.Syntax Gen.EmitterSkel Events.Interp.
From Coq Require Import String Lia.
Open Scope string_scope.
Open Scope list_scope.
Open Scope Z_scope.

Fixpoint expr_maps (e : expr) : list string :=
  match e with
  | EField a _ | ENot a | EIsNone a => expr_maps a
  | EMk _ fs => flat_map (fun p => match p with (_, a) => expr_maps a end) fs
  | ETuple es => flat_map expr_maps es
  | EMapGet m k | EMapIdx m k | EIn k m => m :: expr_maps k
  | ELet _ a b | EIfNone _ a b => expr_maps a ++ expr_maps b
  | _ => []
  end.

Fixpoint stmt_maps (s : stmt) : list string :=
  match s with
  | SSeq a b | STry a b => stmt_maps a ++ stmt_maps b
  | STryExcept a _ | SWithFun _ a | SWithOpaque a => stmt_maps a
  | SLet _ e | SPut e | SSend _ e | SSetAttr _ e => expr_maps e
  | SWithHook _ args _ b => flat_map (fun p => expr_maps (snd p)) args ++ stmt_maps b
  | SCallHook _ args => flat_map (fun p => expr_maps (snd p)) args
  | SCall _ args => flat_map expr_maps args
  | SIf c a b => expr_maps c ++ stmt_maps a ++ stmt_maps b
  | SMapSet m k v => m :: expr_maps k ++ expr_maps v
  | SMapDel m k | SSetAdd m k | SSetRemove m k => m :: expr_maps k
  | SAssertEq a b => expr_maps a ++ expr_maps b
  | SAssertTrue e => expr_maps e
  | _ => []
  end.

Fixpoint dedup (l : list string) : list string :=
  match l with [] => [] | x :: r => if existsb (String.eqb x) r then dedup r else x :: dedup r end.

Definition NAMES : list string :=
  Eval vm_compute in dedup (flat_map (fun p => stmt_maps (f_body (snd p))) funs ++ flat_map (fun p => expr_maps (snd p)) hook_exprs).

Definition view (st : store) (k : key) : list (option value) := map (fun m => st m k) NAMES.

(** all keys of a kind identified *)
Definition keqk (a b : key) : bool :=
  match a, b with KNum _, KNum _ => true | KTask _, KTask _ => true | _, _ => false end.

Section Locality.
Variables (i : nat) (t : Z).

Definition own (k : key) : Prop := k = KTask i \/ k = KNum t.
Definition ownk (p : string * key) : Prop := In (fst p) NAMES /\ own (snd p).
Definition ownp (e : lentry) : Prop :=
  match e with
  | LK m k => In m NAMES /\ own k
  | LEq a b => veqb a b = true
  | LTrue v => truthy v = Some true
  end.

Lemma ownp_lks l : Forall ownp (lks l) -> Forall ownk l.
Proof. unfold lks. induction l as [ | [m k] l IH]; simpl; intros H; constructor; inversion H; subst; auto. Qed.
Definition uniform (L : store) : Prop := forall m k k', keqk k k' = true -> L m k = L m k'.
Definition agree (st L : store) : Prop := forall m k, In m NAMES -> own k -> st m k = L m k.
Definition frame (st st' : store) : Prop := forall m k, ~ (In m NAMES /\ own k) -> st' m k = st m k.

Lemma key_eqb_eq a b : key_eqb a b = true <-> a = b.
Proof.
  destruct a, b; simpl; split; intros H; try discriminate; try congruence.
  - apply Z.eqb_eq in H. congruence.
  - inversion H. apply Z.eqb_refl.
  - apply Nat.eqb_eq in H. congruence.
  - inversion H. apply Nat.eqb_refl.
Qed.

Lemma own_keq k k' : own k -> own k' -> key_eqb k' k = keqk k' k.
Proof.
  intros [-> | ->] [-> | ->]; simpl; auto using Nat.eqb_refl, Z.eqb_refl.
Qed.

Lemma agree_upd st L m k v : In m NAMES -> own k -> agree st L -> agree (upd key_eqb st m k v) (upd keqk L m k v).
Proof.
  intros Hm Hk Ha m' k' Hm' Hk'. unfold upd. rewrite (own_keq _ _ Hk Hk').
  destruct (String.eqb m' m && keqk k' k); auto.
Qed.

Lemma keqk_trans a b c : keqk a b = true -> keqk a c = keqk b c.
Proof. destruct a, b, c; simpl; congruence. Qed.

Lemma uniform_upd L m k v : uniform L -> uniform (upd keqk L m k v).
Proof.
  intros Hu m' k1 k2 H. unfold upd. rewrite (keqk_trans _ _ k H). rewrite (Hu m' k1 k2 H). reflexivity.
Qed.

Lemma frame_upd st m k v : In m NAMES -> own k -> frame st (upd key_eqb st m k v).
Proof.
  intros Hm Hk m' k' Hn. unfold upd.
  destruct (String.eqb m' m) eqn:Em; simpl; auto.
  apply String.eqb_eq in Em. subst m'.
  destruct (key_eqb k' k) eqn:Ek; auto.
  apply key_eqb_eq in Ek. subst k'. exfalso. apply Hn. split; assumption.
Qed.

Lemma frame_refl st : frame st st.
Proof. intros m k _. reflexivity. Qed.

Lemma frame_trans a b c : frame a b -> frame b c -> frame a c.
Proof. intros H1 H2 m k Hn. rewrite (H2 m k Hn). apply H1. assumption. Qed.

Lemma Forall_flat_map_in {A B} (P : B -> Prop) (f : A -> list B) l x :
  Forall P (flat_map f l) -> In x l -> Forall P (f x).
Proof.
  induction l as [ | y l IH]; simpl; intros H Hin; [contradiction | ].
  apply Forall_app in H. destruct H as [H1 H2]. destruct Hin as [-> | Hin]; auto.
Qed.

(* opaque here and below: [simpl] is to unfold one level of [eval] / [silent] / [run1] and stop there *)
Local Opaque hook_exprs.
Lemma eval_agree r st L at_ : agree st L -> forall n e x,
  Forall ownk (ekeys n (mkC r i L at_) e x) ->
  eval n (mkC r i st at_) e x = eval n (mkC r i L at_) e x /\
  ekeys n (mkC r i st at_) e x = ekeys n (mkC r i L at_) e x.
Proof.
  intros Ha. induction n as [ | n IH]; intros e x Hf; [split; reflexivity | ].
  destruct x; simpl in *; try (split; reflexivity).
  2, 8, 9: (* EField, ENot, EIsNone: one subexpression *)
    destruct (IH _ _ Hf) as [-> ->]; split; reflexivity.
  2, 3: (* EMk, ETuple: each of the subexpressions *)
    split; [f_equal | rewrite !flat_map_concat_map; f_equal]; apply map_ext_in; intros p Hp;
    destruct (IH _ _ (Forall_flat_map_in _ _ _ _ Hf Hp)) as [E1 E2]; rewrite ?E1, ?E2; reflexivity.
  2-4: (* EMapGet, EMapIdx, EIn: the entry looked at is an own entry *)
    apply Forall_app in Hf; destruct Hf as [H1 H2]; destruct (IH _ _ H1) as [-> ->];
    (destruct (to_key _) as [kk | ]; [ | split; reflexivity]);
    inversion H2 as [ | ? ? [Hm Hk] _]; subst; simpl in Hm, Hk; rewrite (Ha _ _ Hm Hk); split; reflexivity.
  - (* EHook *) destruct (alookup hook_exprs h); [apply IH; assumption | split; reflexivity].
  - (* ELet *)
    apply Forall_app in Hf. destruct Hf as [H1 H2]. destruct (IH _ _ H1) as [-> ->].
    destruct (IH _ _ H2) as [-> ->]. split; reflexivity.
  - (* EIfNone *)
    apply Forall_app in Hf. destruct Hf as [H1 H2]. destruct (IH _ _ H1) as [-> ->].
    destruct (eval n _ e x2); try (split; reflexivity); destruct (IH _ _ H2) as [-> ->]; split; reflexivity.
Qed.

Local Transparent hook_exprs.

Lemma Forall_app_l {A} (P : A -> Prop) l1 l2 : Forall P (l1 ++ l2) -> Forall P l1.
Proof. intros H. apply Forall_app in H. tauto. Qed.
Lemma Forall_app_r {A} (P : A -> Prop) l1 l2 : Forall P (l1 ++ l2) -> Forall P l2.
Proof. intros H. apply Forall_app in H. tauto. Qed.

(** [st] is the store with all its keys, [sh_st shL] the one where the keys of a kind are one *)
Definition loc (st : store) (shL : shared) : Prop := agree st (sh_st shL) /\ uniform (sh_st shL).

Local Opaque eval ekeys EFUEL.
Lemma silent_agree r st shL a o rest a' shL' l :
  loc st shL -> silent keqk false r i shL a o rest = Some (a', shL', l) -> Forall ownp l ->
  exists st', silent key_eqb true r i (set_st shL st) a o rest = Some (a', set_st shL' st', l) /\
              loc st' shL' /\ frame st st'.
Proof.
  intros [Ha Hu] Hs Hl. destruct shL as [ct cc cp L at_].
  unfold loc, silent, ctx_of, set_st in *. cbn [sh_st sh_attrs sh_ct sh_cc sh_cp] in *.
  assert (EA : forall x, Forall ownp (lks (ekeys EFUEL (mkC r i L at_) (ia_env a) x)) ->
               eval EFUEL (mkC r i st at_) (ia_env a) x = eval EFUEL (mkC r i L at_) (ia_env a) x /\
               ekeys EFUEL (mkC r i st at_) (ia_env a) x = ekeys EFUEL (mkC r i L at_) (ia_env a) x).
  { intros x Hx. apply (eval_agree r st L at_ Ha EFUEL (ia_env a)). apply ownp_lks. exact Hx. }
  destruct o; try discriminate Hs.
  2, 9, 11, 12: (* OConst, OJmp, OEndTry, OClear: the stores are not looked at *)
    inversion Hs; subst; exists st; repeat split; auto using frame_refl.
  1, 4: (* OLet, OSetAttr: one expression is evaluated *)
    inversion Hs; subst; destruct (EA _ Hl) as [-> ->]; exists st; repeat split; auto using frame_refl.
  - (* OMapSet *)
    destruct (to_key (eval EFUEL (mkC r i L at_) (ia_env a) k)) as [kk | ] eqn:Ek; [ | discriminate Hs].
    inversion Hs; subst. clear Hs.
    pose proof (Forall_app_r _ _ _ Hl) as H23.
    destruct (EA _ (Forall_app_l _ _ _ Hl)) as [-> ->]. destruct (EA _ (Forall_app_l _ _ _ H23)) as [-> ->]. rewrite Ek.
    pose proof (Forall_app_r _ _ _ H23) as H3. inversion H3 as [ | ? ? Hmk _]; subst. destruct Hmk as [Hm Hk].
    eexists. split; [reflexivity | ]. cbn [sh_st].
    repeat split; auto using agree_upd, uniform_upd, frame_upd.
  - (* OMapDel *)
    destruct (to_key (eval EFUEL (mkC r i L at_) (ia_env a) k)) as [kk | ] eqn:Ek; [ | discriminate Hs].
    destruct (L m kk) eqn:El; [ | discriminate Hs].
    inversion Hs; subst. clear Hs.
    destruct (EA _ (Forall_app_l _ _ _ Hl)) as [-> ->]. rewrite Ek.
    pose proof (Forall_app_r _ _ _ Hl) as H3. inversion H3 as [ | ? ? Hmk _]; subst. destruct Hmk as [Hm Hk].
    rewrite (Ha _ _ Hm Hk), El.
    eexists. split; [reflexivity | ]. cbn [sh_st].
    repeat split; auto using agree_upd, uniform_upd, frame_upd.
  - (* OAssertEq: logged only on the left; evaluated on the right, and the log says it holds *)
    cbn [andb] in Hs. inversion Hs; subst. clear Hs.
    pose proof (Forall_app_r _ _ _ Hl) as H23.
    destruct (EA _ (Forall_app_l _ _ _ Hl)) as [-> ->]. destruct (EA _ (Forall_app_l _ _ _ H23)) as [-> ->].
    pose proof (Forall_app_r _ _ _ H23) as H3. inversion H3 as [ | ? ? Hv _]; subst. cbn [ownp] in Hv. rewrite Hv. cbn [andb negb].
    exists st. repeat split; auto using frame_refl.
  - (* OAssertTrue *)
    cbn [andb] in Hs. inversion Hs; subst. clear Hs.
    destruct (EA _ (Forall_app_l _ _ _ Hl)) as [-> ->].
    pose proof (Forall_app_r _ _ _ Hl) as H3. inversion H3 as [ | ? ? Hv _]; subst. cbn [ownp] in Hv. rewrite Hv. cbn [andb negb].
    exists st. repeat split; auto using frame_refl.
  - (* OJmpUnless *)
    destruct (truthy (eval EFUEL (mkC r i L at_) (ia_env a) c)) as [[ | ] | ] eqn:Et; try discriminate Hs;
      inversion Hs; subst; destruct (EA _ Hl) as [-> ->]; rewrite Et;
      exists st; repeat split; auto using frame_refl.
  - (* ORaise *) destruct (drop_to_endtry exc rest); [ | discriminate Hs]. inversion Hs; subst.
    exists st. repeat split; auto using frame_refl.
Qed.

Lemma settle_log : forall fuel keq sb r sh a lg a' sh' ok lg',
  settle fuel keq sb r i sh a lg = (a', sh', ok, lg') -> exists more, lg' = lg ++ more.
Proof.
  induction fuel as [ | fuel IH]; intros keq sb r sh a lg a' sh' ok lg' H; simpl in H.
  2: destruct (ia_ops a) as [ | o rest]; [ | destruct (is_visible o || is_driver o);
       [ | destruct (silent keq sb r i sh a o rest) as [[[a1 sh1] l] | ]]].
  4: { (* a silent op: its entries are appended *)
       apply IH in H. destruct H as [more ->]. exists (l ++ more). symmetry. apply app_assoc. }
  all: injection H as _ _ _ <-; exists []; symmetry; apply app_nil_r.
Qed.

Lemma settle_agree : forall fuel r a lg st shL a' shL' lg',
  loc st shL -> settle fuel keqk false r i shL a lg = (a', shL', true, lg') -> Forall ownp lg' ->
  exists st', settle fuel key_eqb true r i (set_st shL st) a lg = (a', set_st shL' st', true, lg') /\
              loc st' shL' /\ frame st st'.
Proof.
  induction fuel as [ | fuel IH]; intros r a lg st shL a' shL' lg' Hloc H Hl; simpl in H |- *; [discriminate H | ].
  destruct (ia_ops a) as [ | o rest]; [ | destruct (is_visible o || is_driver o)].
  1, 2: injection H as <- <- <-; exists st; auto using frame_refl.
  destruct (silent keqk false r i shL a o rest) as [[[a1 shL1] l] | ] eqn:Es; [ | discriminate H].
  destruct (settle_log _ _ _ _ _ _ _ _ _ _ _ H) as [more ->].
  destruct (silent_agree _ _ _ _ _ _ _ _ _ Hloc Es (Forall_app_r _ _ _ (Forall_app_l _ _ _ Hl))) as (st1 & -> & Hloc1 & Hf1).
  destruct (IH _ _ _ _ _ _ _ _ Hloc1 H Hl) as (st2 & E2 & Hloc2 & Hf2).
  exists st2. eauto using frame_trans.
Qed.

Local Opaque SFUEL.
Lemma run1_log : forall fuel keq sb r sh a lg a' sh' eff lg',
  run1 fuel keq sb r i sh a lg = (a', sh', eff, lg') -> exists more, lg' = lg ++ more.
Proof.
  induction fuel as [ | fuel IH]; intros keq sb r sh a lg a' sh' eff lg' H; simpl in H.
  2: destruct (ia_ops a) as [ | o rest]; [ | destruct (is_visible o); [ | destruct (expand o);
       [eapply IH; eauto | destruct (silent keq sb r i sh a o rest) as [[[a1 sh1] l] | ]]]].
  3: { (* the visible action, then [settle] *)
       destruct (visible r i sh a o rest) as [[[a1 sh1] e1] l1].
       destruct (settle SFUEL keq sb r i sh1 a1 (lg ++ l1)) as [[[a2 sh2] ok] l2] eqn:Es.
       apply settle_log in Es. destruct Es as [more ->]. injection H as _ _ _ <-.
       exists (l1 ++ more). symmetry. apply app_assoc. }
  3: { apply IH in H. destruct H as [more ->]. exists (l ++ more). symmetry. apply app_assoc. }
  all: injection H as _ _ _ <-; exists []; symmetry; apply app_nil_r.
Qed.

Lemma visible_agree r st shL a o rest a' shL' eff l :
  loc st shL -> visible r i shL a o rest = (a', shL', eff, l) -> Forall ownp l ->
  visible r i (set_st shL st) a o rest = (a', set_st shL' st, eff, l) /\ sh_st shL' = sh_st shL.
Proof.
  intros [Ha _] Hv Hl. destruct shL as [ct cc cp L at_]. unfold visible, ctx_of, set_st in *.
  cbn [sh_ct sh_cc sh_cp sh_st sh_attrs] in *. destruct o.
  4: { (* OPut *) injection Hv as <- <- <- <-.
       destruct (eval_agree r st L at_ Ha EFUEL (ia_env a) e (ownp_lks _ Hl)) as [-> ->]. split; reflexivity. }
  3: destruct (fst (counter_decl c)), c.
  all: injection Hv as <- <- <- <-; split; reflexivity.
Qed.

Theorem run1_agree : forall fuel r a lg st shL a' shL' eff lg',
  loc st shL -> run1 fuel keqk false r i shL a lg = (a', shL', eff, lg') ->
  eff <> ICrash -> Forall ownp lg' ->
  exists st', run1 fuel key_eqb true r i (set_st shL st) a lg = (a', set_st shL' st', eff, lg') /\
              loc st' shL' /\ frame st st'.
Proof.
  induction fuel as [ | fuel IH]; intros r a lg st shL a' shL' eff lg' Hloc H Hne Hl; simpl in H |- *.
  { injection H as _ _ <- _. congruence. }
  destruct (ia_ops a) as [ | o rest].
  { injection H as <- <- <- <-. exists st. auto using frame_refl. }
  destruct (is_visible o).
  - (* the visible action, then on to the next one *)
    destruct (visible r i shL a o rest) as [[[a1 shL1] e1] l1] eqn:Evis.
    destruct (settle SFUEL keqk false r i shL1 a1 (lg ++ l1)) as [[[a2 sh2] ok] l2] eqn:Es.
    destruct ok; [ | injection H as _ _ <- _; congruence].
    injection H as -> -> -> ->.
    destruct (settle_log _ _ _ _ _ _ _ _ _ _ _ Es) as [more ->].
    destruct (visible_agree _ _ _ _ _ _ _ _ _ _ Hloc Evis (Forall_app_r _ _ _ (Forall_app_l _ _ _ Hl))) as [-> Est].
    assert (Hloc1 : loc st shL1) by (unfold loc; rewrite Est; exact Hloc).
    destruct (settle_agree _ _ _ _ _ _ _ _ _ Hloc1 Es Hl) as (st2 & -> & Hloc2 & Hf2). eauto.
  - destruct (expand o) as [l | ]; [eapply IH; eauto | ].
    destruct (silent keqk false r i shL a o rest) as [[[a1 shL1] l] | ] eqn:Es; [ | injection H as _ _ <- _; congruence].
    destruct (run1_log _ _ _ _ _ _ _ _ _ _ _ H) as [more ->].
    destruct (silent_agree _ _ _ _ _ _ _ _ _ Hloc Es (Forall_app_r _ _ _ (Forall_app_l _ _ _ Hl))) as (st1 & -> & Hloc1 & Hf1).
    destruct (IH _ _ _ _ _ _ _ _ _ Hloc1 H Hne Hl) as (st2 & E2 & Hloc2 & Hf2).
    exists st2. eauto using frame_trans.
Qed.

Local Transparent eval ekeys EFUEL SFUEL.
End Locality.

Definition lk (l : list (option value)) (m : string) : option value :=
  match alookup (combine NAMES l) m with Some ov => ov | None => None end.
Definition Lof (vt vn : list (option value)) : store :=
  fun m k => match k with KTask _ => lk vt m | KNum _ => lk vn m end.

Lemma uniform_Lof vt vn : uniform (Lof vt vn).
Proof. intros m k k' H. destruct k, k'; simpl in H; try discriminate; reflexivity. Qed.

Lemma alookup_combine_map {A} (f : string -> A) : forall l m, In m l -> alookup (combine l (map f l)) m = Some (f m).
Proof.
  induction l as [ | x l IH]; simpl; intros m H; [contradiction | ].
  destruct (String.eqb m x) eqn:E; [apply String.eqb_eq in E; subst; reflexivity | ].
  destruct H as [-> | H]; [rewrite String.eqb_refl in E; discriminate | auto].
Qed.

Lemma agree_Lof i t st : agree i t st (Lof (view st (KTask i)) (view st (KNum t))).
Proof.
  intros m k Hm [-> | ->]; unfold Lof, lk, view; rewrite alookup_combine_map by assumption; reflexivity.
Qed.

Lemma loc_Lof i t st ct cc cp at_ : loc i t st (mkSh ct cc cp (Lof (view st (KTask i)) (view st (KNum t))) at_).
Proof. split; [apply agree_Lof | apply uniform_Lof]. Qed.

Lemma view_agree i t st L : agree i t st L -> uniform L ->
  view st (KTask i) = view L (KTask 0) /\ view st (KNum t) = view L (KNum 0).
Proof.
  intros Ha Hu. unfold view. split; apply map_ext_in; intros m Hm.
  - rewrite (Ha m (KTask i) Hm (or_introl eq_refl)). apply Hu. reflexivity.
  - rewrite (Ha m (KNum t) Hm (or_intror eq_refl)). apply Hu. reflexivity.
Qed.

(** the device: the step computed in the store where all keys of a kind are one.  It serves the
    computed definitions below; lemmas spell the [run1] out, because the kernel, asked to compare
    [dev ..] with [run1 RFUEL ..], unfolds [run1] first and does not come back. *)
Definition dev (r : Z) (i : nat) (ct cc cp : Z) (vt vn : list (option value)) (a : iactor) : iactor * shared * ieff * klog :=
  run1 RFUEL keqk false r i (mkSh ct cc cp (Lof vt vn) []) a [].

Definition dsum {E} (x : iactor * shared * E * klog) :=
  let '(a, sh, e, lg) := x in
  (a, sh_ct sh, sh_cc sh, sh_cp sh, sh_attrs sh, view (sh_st sh) (KTask 0), view (sh_st sh) (KNum 0), e, lg).

Lemma dsum_inv {E} x a ct cc cp at_ vt vn (e : E) lg :
  dsum x = (a, ct, cc, cp, at_, vt, vn, e, lg) ->
  exists L, x = (a, mkSh ct cc cp L at_, e, lg) /\ view L (KTask 0) = vt /\ view L (KNum 0) = vn.
Proof. destruct x as [[[a1 [ct1 cc1 cp1 L1 at1]] e1] l1]. intros [= -> -> -> -> -> <- <- -> ->]. eauto. Qed.

Lemma step_via_device r i t ct cc cp st vt vn a a' ct' cc' cp' at' vt' vn' eff lg :
  view st (KTask i) = vt -> view st (KNum t) = vn ->
  dsum (run1 RFUEL keqk false r i (mkSh ct cc cp (Lof vt vn) []) a []) = (a', ct', cc', cp', at', vt', vn', eff, lg) ->
  eff <> ICrash -> Forall (ownp i t) lg ->
  exists st', run1 RFUEL key_eqb true r i (mkSh ct cc cp st []) a [] = (a', mkSh ct' cc' cp' st' at', eff, lg) /\
     view st' (KTask i) = vt' /\ view st' (KNum t) = vn' /\ frame i t st st'.
Proof.
  intros <- <- Hd Hne Hl. apply dsum_inv in Hd as (L' & Hd & <- & <-).
  destruct (run1_agree i t _ _ _ _ _ _ _ _ _ _ (loc_Lof i t st ct cc cp []) Hd Hne Hl) as (st' & E' & [Ha Hu] & Hf).
  exists st'. destruct (view_agree _ _ _ _ Ha Hu) as [V1 V2]. auto.
Qed.

Lemma settle_via_device r i t ct cc cp st vt vn a a' ct' cc' cp' at' vt' vn' lg :
  view st (KTask i) = vt -> view st (KNum t) = vn ->
  dsum (settle SFUEL keqk false r i (mkSh ct cc cp (Lof vt vn) []) a []) = (a', ct', cc', cp', at', vt', vn', true, lg) ->
  Forall (ownp i t) lg ->
  exists st', settle SFUEL key_eqb true r i (mkSh ct cc cp st []) a [] = (a', mkSh ct' cc' cp' st' at', true, lg) /\
     view st' (KTask i) = vt' /\ view st' (KNum t) = vn' /\ frame i t st st'.
Proof.
  intros <- <- Hd Hl. apply dsum_inv in Hd as (L' & Hd & <- & <-).
  destruct (settle_agree i t _ _ _ _ _ _ _ _ _ (loc_Lof i t st ct cc cp []) Hd Hl) as (st' & E & [Ha Hu] & Hf).
  exists st'. destruct (view_agree _ _ _ _ Ha Hu) as [V1 V2]. auto.
Qed.

Definition dK (x : iactor * shared * ieff * klog) : iactor := fst (fst (fst x)).
Definition dSh (x : iactor * shared * ieff * klog) : shared := snd (fst (fst x)).
Definition dEff (x : iactor * shared * ieff * klog) : ieff := snd (fst x).
Definition dLog (x : iactor * shared * ieff * klog) : klog := snd x.
Definition dVT x := view (sh_st (dSh x)) (KTask 0).
Definition dVN x := view (sh_st (dSh x)) (KNum 0).

Definition ia0 (ops : list op) : iactor := mkIA ops [] (start_of CTrace) (start_of CCall) (start_of CPrompt).
Definition NONE : list (option value) := Eval vm_compute in map (fun _ => None) NAMES.

Definition K_init (pl : Z) (k : list item) : iactor := ia0 [ODrvStart pl; ODrvItems k].
Definition K_idle (k : list item) : iactor := ia0 [ODrvItems k].
Definition K_done : iactor := ia0 [].

(** [X_<pt>]: the device run that ends at program point <pt> of the model, started in the state of the
    point before it; [K_<pt>] its actor, [VT_] / [VN_] what it leaves under the task / trace-number key.
    A step that takes a number reads one counter: that one is set to the number the model's actor will
    hold ([t], [c], [p]); the other counters are 0, no step reads them.  [VT_] / [VN_] are computed at
    dummy [r i pl k]: that they do not depend on them is part of what the [dstep_*] lemmas check. *)
Definition X_gt r i pl k t := dev r i t 0 0 NONE NONE (K_init pl k).
Definition K_gottrace := Eval vm_compute in fun r i pl k t => dK (X_gt r i pl k t).
Definition VT_gottrace := Eval vm_compute in fun t => dVT (X_gt 0 0%nat 0 [] t).
Definition X_st r i pl k t := dev r i 0 0 0 (VT_gottrace t) NONE (K_gottrace r i pl k t).
Definition VT_run := Eval vm_compute in fun t => dVT (X_st 0 0%nat 0 [] t).

Definition X_gc r i t fid info loop k c := dev r i 0 c 0 (VT_run t) NONE (K_idle (ICall fid info loop :: k)).
Definition K_gotcall := Eval vm_compute in fun r i t fid info loop k c => dK (X_gc r i t fid info loop k c).
Definition VN_call := Eval vm_compute in fun fid info c => dVN (X_gc 0 0%nat 0 fid info None [] c).
Definition X_ic r i t fid info loop k c := dev r i 0 0 0 (VT_run t) (VN_call fid info c) (K_gotcall r i t fid info loop k c).
Definition K_incall := Eval vm_compute in fun r i t fid info loop k c => dK (X_ic r i t fid info loop k c).
Definition X_lp r i t fid info q qs k c := dev r i 0 0 0 (VT_run t) (VN_call fid info c) (K_incall r i t fid info (Some (q, qs)) k c).
Definition K_loop' := Eval vm_compute in fun r i t fid info q qs k c => dK (X_lp r i t fid info q qs k c).
(** the state after OnStartCmdloop depends on the prompts only through its first op: computed once for a
    dummy list and patched, which also gives the state for [ps = []] (the model's [ALoop [] ..], reached
    after the last prompt), where no step of the device from [AInCall] ends *)
Definition K_loop r i t fid info (ps : list prompt) k c : iactor :=
  let a := K_loop' r i t fid info (0, 0) [] k c in
  mkIA (ODrvPrompts ps :: tl (ia_ops a)) (ia_env a) (ia_t0 a) (ia_c0 a) (ia_p0 a).
Definition X_gp r i t fid info txt cmd ps k c p :=
  dev r i 0 0 p (VT_run t) (VN_call fid info c) (K_loop r i t fid info ((txt, cmd) :: ps) k c).
Definition K_gotprompt := Eval vm_compute in fun r i t fid info txt cmd ps k c p => dK (X_gp r i t fid info txt cmd ps k c p).
Definition X_ip r i t fid info txt cmd ps k c p :=
  dev r i 0 0 0 (VT_run t) (VN_call fid info c) (K_gotprompt r i t fid info txt cmd ps k c p).
Definition K_inprompt := Eval vm_compute in fun r i t fid info txt cmd ps k c p => dK (X_ip r i t fid info txt cmd ps k c p).
Definition X_ep r i t fid info txt cmd ps k c p :=
  dev r i 0 0 0 (VT_run t) (VN_call fid info c) (K_inprompt r i t fid info txt cmd ps k c p).
Definition X_al r i t fid info k c := dev r i 0 0 0 (VT_run t) (VN_call fid info c) (K_loop r i t fid info [] k c).
Definition K_afterloop := Eval vm_compute in fun r i t fid info k c => dK (X_al r i t fid info k c).
Definition X_e2 r i t fid info k c := dev r i 0 0 0 (VT_run t) (VN_call fid info c) (K_afterloop r i t fid info k c).
Definition X_e1 r i t fid info k c := dev r i 0 0 0 (VT_run t) (VN_call fid info c) (K_incall r i t fid info None k c).
Definition X_out r i t txt k := dev r i 0 0 0 (VT_run t) NONE (K_idle (IOut txt :: k)).
Definition X_end r i t := dev r i 0 0 0 (VT_run t) NONE (K_idle []).
(** the runs [X_ep], [X_e2], [X_e1], [X_out], [X_end] end at points whose state is defined above
    ([K_loop], [K_idle], [K_done]): nothing below refers to them, nor to [dEff], [dLog] *)


(** what the model's program points have forgotten but the code still holds in its locals *)
Record hid := mkH { h_fid : Z; h_info : Z; h_txt : Z }.

(** the state of the code at a program point of the model: the actor (continuation + locals), what
    the dicts / sets hold under its task, and under its trace number *)
Definition KS (r : Z) (i : nat) (a : actor) (h : hid) : iactor * list (option value) * list (option value) :=
  let t := a_t a in let c := a_c a in let p := a_p a in
  let fid := h_fid h in let info := h_info h in
  match a_pc a with
  | AInit pl k => (K_init pl k, NONE, NONE)
  | AGotTrace pl k => (K_gottrace r i pl k t, VT_gottrace t, NONE)
  | AIdle k => (K_idle k, VT_run t, NONE)
  | AGotCall fid info loop k => (K_gotcall r i t fid info loop k c, VT_run t, VN_call fid info c)
  | AInCall loop k => (K_incall r i t fid info loop k c, VT_run t, VN_call fid info c)
  | ALoop ps _ k => (K_loop r i t fid info ps k c, VT_run t, VN_call fid info c)
  | AGotPrompt txt cmd ps k => (K_gotprompt r i t fid info txt cmd ps k c p, VT_run t, VN_call fid info c)
  | AInPrompt cmd ps k => (K_inprompt r i t fid info (h_txt h) cmd ps k c p, VT_run t, VN_call fid info c)
  | AAfterLoop k => (K_afterloop r i t fid info k c, VT_run t, VN_call fid info c)
  | ADone => (K_done, VT_run t, NONE)
  end.

Definition Ract (r : Z) (i : nat) (a : actor) (ia : iactor) (st : store) : Prop :=
  exists h, ia = fst (fst (KS r i a h)) /\ view st (KTask i) = snd (fst (KS r i a h)) /\
            (started a -> view st (KNum (a_t a)) = snd (KS r i a h)).

(** [L] evaluates to what stands right of it (whose unknown parts are filled in) *)
Ltac vm_lhs :=
  lazymatch goal with
  | |- ?L = _ => let v := eval vm_compute in L in exact (@eq_refl _ v <: L = v)
  end.

Lemma existsb_In (l : list string) m : existsb (String.eqb m) l = true -> In m l.
Proof. intros H. apply existsb_exists in H as (x & Hx & E). apply String.eqb_eq in E. subst. exact Hx. Qed.

(** every entry of the log is a known dict / set under the task or the trace-number key, or an
    assert whose two sides are the same term *)
Ltac own_log :=
  repeat (apply Forall_cons || apply Forall_nil);
  cbn [ownp];
  first [ split; [apply existsb_In; reflexivity | (left; reflexivity) || (right; reflexivity)]
        | cbn [veqb truthy]; rewrite ?Z.eqb_refl, ?Nat.eqb_refl, ?String.eqb_refl; reflexivity ].

Definition eff_ok (eff : effect) (ieff : ieff) (ct cc cp ct' cc' cp' : Z) : Prop :=
  match eff with
  | Emitter.ENone => ieff = INone /\ ct' = ct /\ cc' = cc /\ cp' = cp
  | ETakeT => ieff = ITake CTrace /\ ct' = ct + 1 /\ cc' = cc /\ cp' = cp
  | ETakeC => ieff = ITake CCall /\ ct' = ct /\ cc' = cc + 1 /\ cp' = cp
  | ETakeP => ieff = ITake CPrompt /\ ct' = ct /\ cc' = cc /\ cp' = cp + 1
  | EPut e => (exists v, ieff = IPut v /\ to_event v = Some e) /\ ct' = ct /\ cc' = cc /\ cp' = cp
  end.

Lemma eff_ok_no_crash eff ieff ct cc cp ct' cc' cp' : eff_ok eff ieff ct cc cp ct' cc' cp' -> ieff <> ICrash.
Proof. destruct eff; intros [H _]; try destruct H as (v & H & _); subst ieff; discriminate. Qed.

(** the device, started in the computed state of [a] (locals as in [h]), takes the step of the model:
    it ends in the computed state of the next program point (locals [h']) with the model's effect,
    and has looked at / written own entries only *)
Definition dstep r i ct cc cp (a : actor) (h h' : hid) : Prop :=
  let a' := fst (astep r ct cc cp a) in
  exists ct' cc' cp' ieff lg,
    dsum (run1 RFUEL keqk false r i (mkSh ct cc cp (Lof (snd (fst (KS r i a h))) (snd (KS r i a h))) []) (fst (fst (KS r i a h))) [])
      = (fst (fst (KS r i a' h')), ct', cc', cp', [], snd (fst (KS r i a' h')), snd (KS r i a' h'), ieff, lg) /\
    eff_ok (snd (astep r ct cc cp a)) ieff ct cc cp ct' cc' cp' /\ Forall (ownp i (a_t a')) lg.

(** by one evaluation of the regenerated code; then the effect and the log are inspected *)
Ltac dev_run :=
  eexists _, _, _, _, _; split; [vm_lhs | split; [ | own_log]];
  repeat split; try reflexivity;
  (eexists; split; [reflexivity | cbn; rewrite ?Z.eqb_refl; reflexivity]).

Section Labels.
Variables (r : Z) (i : nat) (ct cc cp t c p : Z) (k : list item) (h : hid).

(** TaskOrThreadToTraceMapper / Repeater.on_start_trace, on_end_trace *)
Lemma dstep_take_trace pl : dstep r i ct cc cp (mkA (AInit pl k) t c p) h h.
Proof. dev_run. Qed.
Lemma dstep_start_trace pl : dstep r i ct cc cp (mkA (AGotTrace pl k) t c p) h h.
Proof. dev_run. Qed.
Lemma dstep_end_trace : dstep r i ct cc cp (mkA (AIdle []) t c p) h h.
Proof. dev_run. Qed.
(** on_write_stdout *)
Lemma dstep_stdout txt : dstep r i ct cc cp (mkA (AIdle (IOut txt :: k)) t c p) h h.
Proof. dev_run. Qed.
(** Factory._context / TraceCallHandler / Repeater.on_trace_call *)
Lemma dstep_take_call fid info loop : dstep r i ct cc cp (mkA (AIdle (ICall fid info loop :: k)) t c p) h h.
Proof. dev_run. Qed.
Lemma dstep_start_call fid info loop : dstep r i ct cc cp (mkA (AGotCall fid info loop k) t c p) h (mkH fid info 0).
Proof. dev_run. Qed.
Lemma dstep_end_call : dstep r i ct cc cp (mkA (AInCall None k) t c p) h h.
Proof. dev_run. Qed.
Lemma dstep_end_call_after_loop : dstep r i ct cc cp (mkA (AAfterLoop k) t c p) h h.
Proof. dev_run. Qed.
(** CustomizedPdb.cmdloop / CmdloopHook / Repeater.on_cmdloop *)
Lemma dstep_start_cmdloop q qs : dstep r i ct cc cp (mkA (AInCall (Some (q, qs)) k) t c p) h h.
Proof. dev_run. Qed.
Lemma dstep_end_cmdloop had : dstep r i ct cc cp (mkA (ALoop [] had k) t c p) h h.
Proof. dev_run. Qed.
(** PromptFunc / Repeater.on_prompt *)
Lemma dstep_take_prompt txt cmd ps had : dstep r i ct cc cp (mkA (ALoop ((txt, cmd) :: ps) had k) t c p) h h.
Proof. dev_run. Qed.
Lemma dstep_start_prompt txt cmd ps : dstep r i ct cc cp (mkA (AGotPrompt txt cmd ps k) t c p) h (mkH (h_fid h) (h_info h) txt).
Proof. dev_run. Qed.
Lemma dstep_end_prompt cmd ps : dstep r i ct cc cp (mkA (AInPrompt cmd ps k) t c p) h h.
Proof. dev_run. Qed.
End Labels.

Lemma dstep_local r i ct cc cp a h h' st :
  dstep r i ct cc cp a h h' ->
  view st (KTask i) = snd (fst (KS r i a h)) ->
  view st (KNum (a_t (fst (astep r ct cc cp a)))) = snd (KS r i a h) ->
  exists ia' st' ct' cc' cp' ieff lg,
    run1 RFUEL key_eqb true r i (mkSh ct cc cp st []) (fst (fst (KS r i a h))) [] = (ia', mkSh ct' cc' cp' st' [], ieff, lg) /\
    Ract r i (fst (astep r ct cc cp a)) ia' st' /\ frame i (a_t (fst (astep r ct cc cp a))) st st' /\
    eff_ok (snd (astep r ct cc cp a)) ieff ct cc cp ct' cc' cp'.
Proof.
  intros (ct' & cc' & cp' & ieff & lg & Hd & He & Hl) HT HN.
  destruct (step_via_device _ _ _ _ _ _ _ _ _ _ _ _ _ _ _ _ _ _ _ HT HN Hd (eff_ok_no_crash _ _ _ _ _ _ _ _ He) Hl)
    as (st' & E & V1 & V2 & Hf).
  eexists _, st', ct', cc', cp', ieff, lg. split; [exact E | ]. split; [ | split; assumption].
  exists h'. auto.
Qed.

Lemma local_step r i a ia st ct cc cp a' eff :
  Ract r i a ia st -> view st (KNum ct) = NONE ->
  astep r ct cc cp a = (a', eff) ->
  exists ia' st' ct' cc' cp' ieff lg,
    run1 RFUEL key_eqb true r i (mkSh ct cc cp st []) ia [] = (ia', mkSh ct' cc' cp' st' [], ieff, lg) /\
    Ract r i a' ia' st' /\ frame i (a_t a') st st' /\ eff_ok eff ieff ct cc cp ct' cc' cp'.
Proof.
  intros (h & -> & HT & HN) Hfresh Hst.
  destruct a as [pc t c p], pc as [pl k | pl k | [ | [fid info loop | txt] k] | fid info loop k | [[q qs] | ] k
                                  | [ | [txt cmd] ps] had k | txt cmd ps k | cmd ps k | k | ];
    injection Hst as <- <-.
  14: { (* ADone: nothing left to run *)
    exists K_done, st, ct, cc, cp, INone, []. split; [reflexivity | ].
    split; [exists h; auto | split; [apply frame_refl | repeat split]]. }
  all: eapply dstep_local; [ | exact HT | first [exact Hfresh | exact (HN I)]].
  - apply dstep_take_trace.
  - apply dstep_start_trace.
  - apply dstep_end_trace.
  - apply dstep_take_call.
  - apply dstep_stdout.
  - apply dstep_start_call.
  - apply dstep_start_cmdloop.
  - apply dstep_end_call.
  - apply dstep_end_cmdloop.
  - apply dstep_take_prompt.
  - apply dstep_start_prompt.
  - apply dstep_end_prompt.
  - apply dstep_end_call_after_loop.
Qed.

Lemma view_frame i t st st' k : frame i t st st' -> ~ own i t k -> view st' k = view st k.
Proof. intros Hf Hk. unfold view. apply map_ext. intros m. apply Hf. tauto. Qed.

Lemma nth_set_nth_id {A} : forall (l : list A) i a, nth_error l i = Some a -> set_nth l i a = l.
Proof. induction l as [ | y l IH]; intros [ | i] a H; simpl in *; try discriminate; [inversion H; reflexivity | f_equal; auto]. Qed.

Definition Rsys (r : Z) (si : isys) (s : sys) : Prop :=
  let st := sh_st (is_sh si) in
  sh_ct (is_sh si) = s_ct s /\ sh_cc (is_sh si) = s_cc s /\ sh_cp (is_sh si) = s_cp s /\ sh_attrs (is_sh si) = [] /\
  (forall i, match nth_error (is_actors si) i, nth_error (s_actors s) i with
             | Some ia, Some a => Ract r i a ia st
             | None, None => True
             | _, _ => False
             end) /\
  (forall t, s_ct s <= t -> view st (KNum t) = NONE) /\
  (exists g, rel g s).

Lemma Ract_frame r i t j b ib st st' :
  frame i t st st' -> i <> j -> (started b -> a_t b <> t) -> Ract r j b ib st -> Ract r j b ib st'.
Proof.
  intros Hf Hij Hne (h & HK & HT & HN). exists h. split; [exact HK | ]. split.
  - rewrite <- HT. apply (view_frame i t); [exact Hf | ]. intros [H | H]; [inversion H; congruence | discriminate H].
  - intros Hsb. rewrite <- (HN Hsb). apply (view_frame i t); [exact Hf | ].
    intros [H | H]; [discriminate H | ]. inversion H. apply (Hne Hsb). assumption.
Qed.

Lemma step_sim r si s i : Rsys r si s ->
  snd (istep r si i) = snd (step r s i) /\ Rsys r (fst (istep r si i)) (fst (step r s i)).
Proof.
  intros (Hct & Hcc & Hcp & Hat & Hact & Hfresh & g & Hrel).
  unfold istep, step. pose proof (Hact i) as Hi.
  destruct (nth_error (is_actors si) i) as [ia | ] eqn:Eia; destruct (nth_error (s_actors s) i) as [a | ] eqn:Ea; try contradiction.
  2:{ simpl. split; [reflexivity | ]. repeat split; auto. exists g. assumption. }
  destruct (astep r (s_ct s) (s_cc s) (s_cp s) a) as [a' eff] eqn:Est.
  destruct si as [acts [ct cc cp st at_]]. cbn [is_sh is_actors sh_ct sh_cc sh_cp sh_st sh_attrs] in *. subst ct cc cp at_.
  destruct (local_step r i a ia st _ _ _ a' eff Hi (Hfresh _ (Z.le_refl _)) Est)
    as (ia' & st' & ct' & cc' & cp' & ieff & lg & Erun & HR' & Hf & Heff).
  rewrite Erun.
  pose proof (step_rel r g s i) as Hsr. unfold step in Hsr. rewrite Ea, Est in Hsr.
  destruct (astep_spec _ _ _ _ _ _ _ Est) as [Hs' Hsp].
  pose proof (nth_set_nth_same _ _ a' _ Ea) as Hsame. pose proof (nth_set_nth_same _ _ ia' _ Eia) as Hsamei.
  (* whatever the counters become: [rel] of the model's next state gives the rest *)
  assert (Hgen : forall ct2 cc2 cp2 g2, rel g2 (mkS (set_nth (s_actors s) i a') ct2 cc2 cp2) -> s_ct s <= ct2 ->
            Rsys r (mkIS (set_nth acts i ia') (mkSh ct2 cc2 cp2 st' [])) (mkS (set_nth (s_actors s) i a') ct2 cc2 cp2)).
  { intros ct2 cc2 cp2 g2 Hr2 Hle. pose proof Hr2 as (R1 & R2 & _). cbn [s_actors s_ct] in R1, R2.
    destruct (R1 i a' Hsame Hs') as [_ Hlt].
    repeat split; eauto; cbn [is_sh is_actors sh_st s_actors s_ct].
    - intros j. destruct (Nat.eq_dec i j) as [<- | Hij]; [rewrite Hsame, Hsamei; exact HR' | ].
      rewrite !nth_set_nth_other by assumption. pose proof (Hact j) as Hj.
      destruct (nth_error acts j) as [ib | ]; destruct (nth_error (s_actors s) j) as [b | ] eqn:Eb; auto.
      apply (Ract_frame r i (a_t a') j b ib st st' Hf Hij); [ | exact Hj].
      intros Hsb. apply not_eq_sym. apply (R2 i j a' b Hij Hsame); auto. rewrite nth_set_nth_other by assumption. exact Eb.
    - intros t Ht. rewrite (view_frame i (a_t a') st st' (KNum t) Hf); [apply Hfresh; lia | ].
      intros [H | H]; [discriminate H | ]. inversion H. lia. }
  destruct eff; cbn [eff_ok] in Heff.
  2-4: (* a number is taken *)
    destruct Heff as (-> & -> & -> & ->); specialize (Hsr _ _ Hrel eq_refl);
    (split; [reflexivity | ]); apply (Hgen _ _ _ g Hsr); cbn [s_ct]; lia.
  - (* nothing: the actor has finished *)
    destruct Heff as (-> & -> & -> & ->). subst a'. split; [reflexivity | ].
    specialize (Hgen (s_ct s) (s_cc s) (s_cp s) g). rewrite (nth_set_nth_id _ _ _ Ea) in Hgen.
    destruct s; apply Hgen; [exact Hrel | apply Z.le_refl].
  - destruct Heff as ((v & -> & Hev) & -> & -> & ->). destruct (Hsr _ _ Hrel eq_refl) as (g' & _ & Hr').
    split; [exact Hev | ]. apply (Hgen _ _ _ g' Hr'). apply Z.le_refl.
Qed.

(** THE TIE: for every schedule, from related states, the interpreter of the regenerated code and the
    model emit the same events and stay related *)
Theorem sim_from r : forall sched si s, Rsys r si s ->
  snd (irun r si sched) = snd (run r s sched) /\ Rsys r (fst (irun r si sched)) (fst (run r s sched)).
Proof.
  induction sched as [ | i sched IH]; intros si s H; simpl; [split; [reflexivity | exact H] | ].
  destruct (step_sim r si s i H) as [He Hr].
  destruct (istep r si i) as [si1 oe]. destruct (step r s i) as [s1 oe']. cbn [fst snd] in *. subst oe'.
  destruct (IH _ _ Hr) as [He2 Hr2].
  destruct (irun r si1 sched) as [si2 es]. destruct (run r s1 sched) as [s2 es']. cbn [fst snd] in *. subst es'.
  split; [reflexivity | exact Hr2].
Qed.

Lemma starts_are_model_starts : start_of CTrace = 1 /\ start_of CCall = 1 /\ start_of CPrompt = 1 /\ counter_step = 1.
Proof. repeat split; reflexivity. Qed.

Lemma Rsys_init r ps : Rsys r (iinit ps) (init_sys ps).
Proof.
  unfold Rsys, iinit, init_sys. cbn [is_sh is_actors sh_ct sh_cc sh_cp sh_st sh_attrs s_ct s_cc s_cp s_actors].
  repeat split; try reflexivity.
  - intros i. rewrite !nth_error_map. destruct (nth_error ps i) as [p | ]; simpl; [ | exact I].
    exists (mkH 0 0 0). repeat split.
  - exists []. apply rel_init.
Qed.

Theorem sim r ps sched :
  iemitted r ps sched = emitted r ps sched /\ Rsys r (fst (irun r (iinit ps) sched)) (fst (run r (init_sys ps) sched)).
Proof. apply sim_from. apply Rsys_init. Qed.

Theorem tie_same_stream r ps sched : iemitted r ps sched = emitted r ps sched.
Proof. apply sim. Qed.

(** at any moment (a kill) the stream of the regenerated code is accepted by the prefix recogniser *)
Theorem tie_prefix r ps sched : wf_prefix r (iemitted r ps sched) = true.
Proof. rewrite tie_same_stream. apply emitter_prefix. Qed.

Definition fin_i (ia : iactor) : bool := match ia_ops ia with [] => true | _ => false end.
Definition fin_m (a : actor) : bool := match a_pc a with ADone => true | _ => false end.

Lemma Ract_fin r i a ia st : Ract r i a ia st -> fin_i ia = fin_m a.
Proof.
  intros (h & -> & _). destruct a as [pc t c p]. unfold fin_m, KS. cbn [a_pc a_t a_c a_p].
  destruct pc; reflexivity.
Qed.

Lemma forallb_rel {A B} (P : nat -> B -> A -> Prop) (f : A -> bool) (g : B -> bool) :
  (forall i b a, P i b a -> f a = g b) ->
  forall (l1 : list A) (l2 : list B) n,
    (forall i, match nth_error l1 i, nth_error l2 i with
               | Some a, Some b => P (n + i)%nat b a | None, None => True | _, _ => False end) ->
    forallb f l1 = forallb g l2.
Proof.
  intros Hfg. induction l1 as [ | a l1 IH]; intros [ | b l2] n H; simpl; auto.
  - specialize (H O). simpl in H. contradiction.
  - specialize (H O). simpl in H. contradiction.
  - f_equal.
    + pose proof (H O) as H0. simpl in H0. eapply Hfg; eauto.
    + apply (IH l2 (S n)). intros i. specialize (H (S i)). simpl in H. rewrite <- plus_n_Sm in H. exact H.
Qed.

Theorem tie_finished r ps sched : ifinished r ps sched = finished r ps sched.
Proof.
  unfold ifinished, finished, all_finished.
  destruct (sim r ps sched) as [_ (_ & _ & _ & _ & Hact & _)].
  apply (forallb_rel (fun i a ia => Ract r i a ia (sh_st (is_sh (fst (irun r (iinit ps) sched))))) fin_i fin_m) with (n := O).
  - intros i b a H. eapply Ract_fin; eauto.
  - exact Hact.
Qed.

(** when every thread / task has ended, the stream of the regenerated code is well formed *)
Theorem tie_wf r ps sched : ifinished r ps sched = true -> WF r (iemitted r ps sched).
Proof. rewrite tie_finished, tie_same_stream. apply emitter_wf. Qed.

(** The end event is put in a `finally` and carries the numbers read at entry.
    A generator-based context manager run on its own.  [thrown]: the body of the `with` raises, the
    exception is thrown into the generator at its first yield.  [hk after name]: what the first-result
    hook [name] answers before ([after] = false) / after the first yield -- the two are unrelated. *)
Fixpoint oeval (n : nat) (hk : string -> value) (r : Z) (e : env) (x : expr) : value :=
  match n with
  | O => VBad
  | S n =>
    match x with
    | EVar v => vget e v
    | Syntax.ENone => VNone
    | EStr s => VStr s
    | EBool b => VBool b
    | ERunNo => VNum r
    | EHook h => hk h
    | EField a f => field (oeval n hk r e a) f
    | EMk cls fs => VObj cls (map (fun p => (fst p, oeval n hk r e (snd p))) fs)
    | _ => VBad
    end
  end.

(** [gr_sets]: the entries of dicts / sets written (Some v) or removed (None), latest first *)
Record gres := mkGR { gr_env : env; gr_puts : list value; gr_after : bool; gr_raised : bool;
                      gr_sets : list (string * value * option value) }.

Fixpoint gexec (thrown : bool) (sent : value) (hk : bool -> string -> value) (r : Z) (s : stmt) (g : gres) : gres :=
  if gr_raised g then g else
  let ev := oeval EFUEL (hk (gr_after g)) r (gr_env g) in
  match s with
  | SSkip => g
  | SSeq a b => gexec thrown sent hk r b (gexec thrown sent hk r a g)
  | SLet x e => mkGR (eset (gr_env g) x (ev e)) (gr_puts g) (gr_after g) false (gr_sets g)
  | SPut e => mkGR (gr_env g) (gr_puts g ++ [ev e]) (gr_after g) false (gr_sets g)
  | SYield x =>
      if gr_after g then g                                  (* the second yield: the `with` block is left *)
      else if thrown then mkGR (gr_env g) (gr_puts g) true true (gr_sets g)
      else mkGR (match x with Some v => eset (gr_env g) v sent | None => gr_env g end) (gr_puts g) true false (gr_sets g)
  | STry a b =>
      let g1 := gexec thrown sent hk r a g in
      let g2 := gexec thrown sent hk r b (mkGR (gr_env g1) (gr_puts g1) (gr_after g1) false (gr_sets g1)) in
      mkGR (gr_env g2) (gr_puts g2) (gr_after g2) (gr_raised g1 || gr_raised g2) (gr_sets g2)
  | SSetAdd m k => mkGR (gr_env g) (gr_puts g) (gr_after g) false ((m, ev k, Some (VBool true)) :: gr_sets g)
  | SMapSet m k v => mkGR (gr_env g) (gr_puts g) (gr_after g) false ((m, ev k, Some (ev v)) :: gr_sets g)
  | SSetRemove m k | SMapDel m k => mkGR (gr_env g) (gr_puts g) (gr_after g) false ((m, ev k, None) :: gr_sets g)
  | _ => mkGR (gr_env g) (gr_puts g ++ [VBad]) (gr_after g) true (gr_sets g)
  end.

Definition gen_res (thrown : bool) (sent : value) (hk : bool -> string -> value) (r : Z) (f : func) (args : list value) : gres :=
  gexec thrown sent hk r (f_body f) (mkGR (combine (f_params f) args) [] false false []).

Definition gen_run (thrown : bool) (sent : value) (hk : bool -> string -> value) (r : Z) (f : func) (args : list value) : list value :=
  gr_puts (gen_res thrown sent hk r f args).

Definition nums (v : value) : string * list value :=
  match v with
  | VObj cls fs => (cls, [vget fs "run_no"; vget fs "trace_no"; vget fs "trace_call_no"; vget fs "prompt_no"])
  | _ => ("", [])
  end.

Theorem tie_end_in_finally_trace_call : forall thrown sent hk r tci,
  map nums (gen_run thrown sent hk r f_Repeater_on_trace_call [tci]) =
  [("OnStartTraceCall", [VNum r; hk false "current_trace_no"; field tci "trace_call_no"; VBad]);
   ("OnEndTraceCall", [VNum r; hk false "current_trace_no"; field tci "trace_call_no"; VBad])].
Proof. intros [ | ] sent hk r tci; reflexivity. Qed.

Theorem tie_end_in_finally_cmdloop : forall thrown sent hk r,
  map nums (gen_run thrown sent hk r f_Repeater_on_cmdloop []) =
  [("OnStartCmdloop", [VNum r; hk false "current_trace_no"; hk false "current_trace_call_no"; VBad]);
   ("OnEndCmdloop", [VNum r; hk false "current_trace_no"; hk false "current_trace_call_no"; VBad])].
Proof. intros [ | ] sent hk r; reflexivity. Qed.

Theorem tie_end_in_finally_prompt : forall thrown sent hk r pn txt,
  map nums (gen_run thrown sent hk r f_Repeater_on_prompt [pn; txt]) =
  [("OnStartPrompt", [VNum r; hk false "current_trace_no"; field (hk false "current_trace_call_info") "trace_call_no"; pn]);
   ("OnEndPrompt", [VNum r; hk false "current_trace_no"; field (hk false "current_trace_call_info") "trace_call_no"; pn])].
Proof. intros [ | ] sent hk r pn txt; reflexivity. Qed.

(** the command sent into on_prompt is the one OnEndPrompt carries; '' when the prompt was interrupted *)
Theorem tie_end_prompt_command : forall sent hk r pn txt,
  map (fun v => match v with VObj _ fs => alookup fs "command" | _ => None end) (gen_run false sent hk r f_Repeater_on_prompt [pn; txt])
    = [None; Some sent] /\
  map (fun v => match v with VObj _ fs => alookup fs "command" | _ => None end) (gen_run true sent hk r f_Repeater_on_prompt [pn; txt])
    = [None; Some (VStr "")].
Proof. intros; split; reflexivity. Qed.

(** TraceCallHandler.on_trace_call: what it records on entry (the trace is on a trace call; its
    TraceCallInfo) it removes in `finally` -- whether the trace function returns or raises, and under the
    key read at ENTRY: every dict / set it wrote under that key ends removed, nothing else is touched *)
Definition last_write (sets : list (string * value * option value)) (m : string) : option (value * option value) :=
  match filter (fun e => String.eqb (fst (fst e)) m) sets with
  | (_, k, v) :: _ => Some (k, v)
  | [] => None
  end.

Theorem tie_handler_removes_in_finally : forall thrown sent hk r tci,
  let g := gen_res thrown sent hk r f_TraceCallHandler_on_trace_call [tci] in
  let names := dedup (map (fun e => fst (fst e)) (gr_sets g)) in
  gr_puts g = [] /\ names <> [] /\
  forallb (fun m => match last_write (gr_sets g) m with
                    | Some (_, None) => true
                    | _ => false end) names = true /\
  map (fun e => snd (fst e)) (gr_sets g) = map (fun _ => hk false "current_trace_no") (gr_sets g) /\
  (* on entry both the membership and the info are recorded *)
  List.length (filter (fun e => match snd e with Some _ => true | None => false end) (gr_sets g)) =
  List.length (filter (fun e => match snd e with Some _ => false | None => true end) (gr_sets g)).
Proof. intros [ | ] sent hk r tci; vm_compute; repeat split; try reflexivity; discriminate. Qed.

(** The counters: ONE object per run for each of the three kinds of number, first value 1 *)
Theorem tie_counters_per_run :
  counter_decl CTrace = (PerRun, 1) /\ counter_decl CCall = (PerRun, 1) /\ counter_decl CPrompt = (PerRun, 1) /\
  counter_step = 1 /\ other_queue_out_putters = 0%nat.
Proof. repeat split; reflexivity. Qed.

(** The current trace call is kept PER TRACE: in every reachable state, whatever the other
    threads / tasks are doing, the first-result hooks answer thread / task i with ITS trace number,
    whether IT is on a trace call, and ITS trace-call number *)
Definition in_call (a : actor) : bool :=
  match a_pc a with
  | AGotCall _ _ _ _ | AInCall _ _ | ALoop _ _ _ | AGotPrompt _ _ _ _ | AInPrompt _ _ _ | AAfterLoop _ => true
  | _ => false
  end.

Lemma reach r ps sched i a :
  nth_error (s_actors (fst (run r (init_sys ps) sched))) i = Some a ->
  exists ia, nth_error (is_actors (fst (irun r (iinit ps) sched))) i = Some ia /\
             Ract r i a ia (sh_st (is_sh (fst (irun r (iinit ps) sched)))) /\
             sh_attrs (is_sh (fst (irun r (iinit ps) sched))) = [].
Proof.
  intros Ha. destruct (sim r ps sched) as [_ (_ & _ & _ & Hat & Hact & _)].
  specialize (Hact i). rewrite Ha in Hact.
  destruct (nth_error (is_actors (fst (irun r (iinit ps) sched))) i) as [ia | ]; [ | contradiction].
  exists ia. repeat split; assumption.
Qed.

Lemma hook_eval_local r i t st vt vn e x :
  view st (KTask i) = vt -> view st (KNum t) = vn ->
  Forall (ownk i t) (ekeys EFUEL (mkC r i (Lof vt vn) []) e x) ->
  eval EFUEL (mkC r i st []) e x = eval EFUEL (mkC r i (Lof vt vn) []) e x.
Proof. intros <- <- H. apply (eval_agree i t r st _ [] (agree_Lof i t st) EFUEL e x H). Qed.

Theorem tie_current_call_per_trace r ps sched i a :
  nth_error (s_actors (fst (run r (init_sys ps) sched))) i = Some a -> started a ->
  let sh := is_sh (fst (irun r (iinit ps) sched)) in
  eval EFUEL (ctx_of r i sh) [] (EHook "current_trace_no") = VNum (a_t a) /\
  eval EFUEL (ctx_of r i sh) [] (EHook "is_on_trace_call") = VBool (in_call a) /\
  eval EFUEL (ctx_of r i sh) [] (EHook "current_trace_call_no") = (if in_call a then VNum (a_c a) else VNone).
Proof.
  intros Ha Hs sh. destruct (reach r ps sched i a Ha) as (ia & _ & (h & _ & HT & HN) & Hat).
  unfold ctx_of. fold sh in HT, HN, Hat. rewrite Hat. specialize (HN Hs).
  destruct a as [pc t c p]. unfold in_call, KS in *. cbn [a_pc a_t a_c a_p fst snd] in *.
  destruct pc; try contradiction; cbn [fst snd] in HT, HN;
    repeat split; rewrite (hook_eval_local r i t _ _ _ _ _ HT HN); (reflexivity || own_log).
Qed.

(** The guard of the command-loop hook: Pdb's command loop entered by a thread / task that is
    NOT on a trace call of its own (whatever the others are on) is refused -- the whole of
    CustomizedPdb.cmdloop() runs through without a visible action and without reading a command *)
Definition stray_cmdloop (ps : list prompt) (k : list item) : iactor :=
  ia0 (fst CMDLOOP_OPS ++ ODrvPrompts ps :: snd CMDLOOP_OPS ++ [ODrvItems k]).

Theorem tie_stray_cmdloop_refused r ps sched i a k qs :
  nth_error (s_actors (fst (run r (init_sys ps) sched))) i = Some a -> a_pc a = AIdle k ->
  let sh := is_sh (fst (irun r (iinit ps) sched)) in
  exists sh' lg, settle SFUEL key_eqb true r i sh (stray_cmdloop qs k) [] = (K_idle k, sh', true, lg) /\
                 view (sh_st sh') (KTask i) = view (sh_st sh) (KTask i) /\ view (sh_st sh') (KNum (a_t a)) = view (sh_st sh) (KNum (a_t a)).
Proof.
  intros Ha Hpc sh. destruct (reach r ps sched i a Ha) as (ia & _ & (h & _ & HT & HN) & Hat).
  fold sh in HT, HN, Hat. destruct a as [pc t c p]. cbn [a_pc a_t] in *. subst pc.
  unfold KS in HT, HN. cbn [a_pc a_t a_c a_p fst snd] in HT, HN. specialize (HN I).
  destruct sh as [ct cc cp st at_]. cbn [sh_st sh_attrs] in *. subst at_.
  edestruct (settle_via_device r i t ct cc cp st (VT_run t) NONE (stray_cmdloop qs k)) as (st' & E & V1 & V2 & Hf);
    [exact HT | exact HN | vm_lhs | own_log | ].
  eexists _, _. split; [exact E | ]. cbn [sh_st]. rewrite V1, V2, HT, HN. split; reflexivity.
Qed.

(** non-vacuity: the interpreter of the regenerated code runs the example of Props/C09.v *)
Example tie_example :
  let progs := [mkProg 10 [ICall 5 7 None; IOut 4; ICall 5 7 (Some ((0, 9), [(0, 8)]))];
                mkProg 11 [ICall 6 8 (Some ((0, 9), []))]] in
  let sched := [0; 1; 1; 0; 0; 1; 0; 1; 0; 0; 1; 1; 0; 1; 0; 0; 1; 1; 0; 0; 0; 0; 1; 0; 0; 0; 0; 1; 0; 1; 0; 1; 0]%nat in
  ifinished 1 progs sched = true /\
  iemitted 1 progs sched =
  [StartTrace 1 2 11; StartTrace 1 1 10; StartTraceCall 1 1 1 5 7; StartTraceCall 1 2 2 6 8;
   EndTraceCall 1 1 1; WriteStdout 1 1 4; StartCmdloop 1 2 2; StartPrompt 1 2 2 1 0;
   StartTraceCall 1 1 3 5 7; StartCmdloop 1 1 3; EndPrompt 1 2 2 1 9; EndCmdloop 1 2 2;
   StartPrompt 1 1 3 2 0; EndPrompt 1 1 3 2 9; EndTraceCall 1 2 2; StartPrompt 1 1 3 3 0;
   EndPrompt 1 1 3 3 8; EndCmdloop 1 1 3; EndTraceCall 1 1 3; EndTrace 1 2; EndTrace 1 1].
Proof. vm_compute. split; reflexivity. Qed.
