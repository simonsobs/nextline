(** Tie of the hand-written model of [to_aiter] (Model.v: [tstep]) to the
    regenerated methods of the class (Gen/AioFuns.v: [to_aiter_methods],
    [to_aiter_selector]) under the semantics of Interp.v ([itstep]):
    for EVERY label sequence and both values of `thread`, the interpreter on the
    regenerated methods produces the same outputs, leaves the iterator in the
    same state, executes `next(self._it)` for the same calls with the same
    results, and never gets stuck. *)
From NL Require Import Aio.Model Aio.Syntax Aio.Interp Gen.AioFuns Aio.Runs Aio.Merge Aio.ToAiter.
From Coq Require Import Lia.

(** the handler a result passes on its way out of `__anext__` *)
Definition hs0 : list (exn * cstmt) := [(XCustomStop, CRaise XStopAsyncIteration)].

Definition abs_call (c : icall) : cst :=
  match c with
  | ISubmitted _ _ => CSubmitted
  | IRan (CVal v) _ => CRan (RItem v)
  | IRan (CExn _) _ => CRan RStop
  | IDelivered => CDelivered
  end.

Definition ok_call (c : icall) : Prop :=
  match c with
  | ISubmitted n hs => n = "_next"%string /\ hs = hs0
  | IRan r hs => hs = hs0 /\ ((exists v, r = CVal v) \/ r = CExn XCustomStop)
  | IDelivered => True
  end.

Record TR (st : tstate) (ist : itstate) : Prop := mkTR {
  tr_rest : it_rest ist = t_rest st;
  tr_log : it_log ist = t_log st;
  tr_stuck : it_stuck ist = false;
  tr_calls : map abs_call (it_calls ist) = t_calls st;
  tr_ok : Forall ok_call (it_calls ist)
}.

Lemma Forall_upd {A} (P : A -> Prop) l i x : Forall P l -> P x -> Forall P (upd l i x).
Proof.
  intros H Hx. revert i. induction H; intros [|i]; simpl; auto.
Qed.

Lemma Forall_nth_error {A} (P : A -> Prop) l i x : Forall P l -> nth_error l i = Some x -> P x.
Proof. intros H Hn. rewrite Forall_forall in H. apply H. eapply nth_error_In; eauto. Qed.

Notation MS := to_aiter_methods.
Notation SEL := to_aiter_selector.

Lemma call_thread rest :
  cexec MS SEL true tfuel false (CReturn (CAwaitCall "__anext__"%string)) rest [] = CThread "_next"%string hs0 rest [].
Proof. reflexivity. Qed.
Lemma call_nothread_cons v r :
  cexec MS SEL false tfuel false (CReturn (CAwaitCall "__anext__"%string)) (v :: r) [] = CDone (CVal v) r [RItem v].
Proof. reflexivity. Qed.
Lemma call_nothread_nil :
  cexec MS SEL false tfuel false (CReturn (CAwaitCall "__anext__"%string)) [] [] = CDone (CExn XStopAsyncIteration) [] [RStop].
Proof. reflexivity. Qed.
Lemma worker_cons flag v r :
  cexec MS SEL flag tfuel true (CReturn (CCall "_next"%string)) (v :: r) [] = CDone (CVal v) r [RItem v].
Proof. destruct flag; reflexivity. Qed.
Lemma worker_nil flag :
  cexec MS SEL flag tfuel true (CReturn (CCall "_next"%string)) [] [] = CDone (CExn XCustomStop) [] [RStop].
Proof. destruct flag; reflexivity. Qed.
Lemma deliver_val flag v rest : unwind MS SEL flag tfuel hs0 (CVal v) rest [] = CDone (CVal v) rest [].
Proof. reflexivity. Qed.
Lemma deliver_stop flag rest :
  unwind MS SEL flag tfuel hs0 (CExn XCustomStop) rest [] = CDone (CExn XStopAsyncIteration) rest [].
Proof. reflexivity. Qed.

Local Opaque cexec unwind.

Lemma tie_step thread st ist l :
  TR st ist ->
  snd (itstep MS SEL thread ist l) = snd (tstep thread st l) /\
  TR (fst (tstep thread st l)) (fst (itstep MS SEL thread ist l)).
Proof.
  intros [Hr Hl Hs Hc Hok].
  destruct ist as [irest icalls ilog istuck]. destruct st as [rest calls log]. simpl in *. subst rest calls log istuck.
  destruct l as [|c|c].
  - (* TCall *)
    unfold tstep, itstep. simpl it_rest. simpl it_calls. simpl it_log. simpl it_stuck.
    simpl t_rest. simpl t_calls. simpl t_log. rewrite map_length.
    destruct thread.
    + (* a thread is used: the call is suspended in to_thread(self._next) *)
      rewrite call_thread. simpl. split; [reflexivity|]. constructor; simpl; auto.
      * rewrite app_nil_r. reflexivity.
      * rewrite map_app. reflexivity.
      * apply Forall_app. split; auto. constructor; [|constructor]. split; reflexivity.
    + destruct irest as [|v r]; [rewrite call_nothread_nil | rewrite call_nothread_cons]; simpl;
        (split; [reflexivity|]); constructor; simpl; auto; try (rewrite map_app; reflexivity);
        apply Forall_app; split; auto; constructor; simpl; auto.
  - (* TRun *)
    unfold tstep, itstep. simpl t_calls. simpl it_calls. rewrite nth_error_map.
    destruct (nth_error icalls c) as [ic|] eqn:En; simpl; [|split; [reflexivity | constructor; auto]].
    pose proof (Forall_nth_error _ _ _ _ Hok En) as Hic.
    destruct ic as [n hs|r hs|]; simpl.
    + destruct Hic as [-> ->].
      destruct irest as [|v r]; [rewrite worker_nil | rewrite worker_cons]; simpl;
        (split; [reflexivity|]); constructor; simpl; auto;
        try (rewrite map_upd; reflexivity); apply Forall_upd; auto; simpl; split; auto.
      left; eauto.
    + destruct r; simpl; split; try reflexivity; constructor; auto.
    + split; [reflexivity | constructor; auto].
  - (* TDeliver *)
    unfold tstep, itstep. simpl t_calls. simpl it_calls. rewrite nth_error_map.
    destruct (nth_error icalls c) as [ic|] eqn:En; simpl; [|split; [reflexivity | constructor; auto]].
    pose proof (Forall_nth_error _ _ _ _ Hok En) as Hic.
    destruct ic as [n hs|r hs|]; simpl.
    + split; [reflexivity | constructor; auto].
    + destruct Hic as [-> [[v ->] | ->]]; [rewrite deliver_val | rewrite deliver_stop]; simpl;
        (split; [reflexivity|]); constructor; simpl; auto;
        try (rewrite app_nil_r; reflexivity); try (rewrite map_upd; reflexivity); apply Forall_upd; simpl; auto.
    + split; [reflexivity | constructor; auto].
Qed.

Lemma itrun_from_runs ms sel flag ls : forall st, itrun_from ms sel flag st ls = runs (itstep ms sel flag) st ls.
Proof.
  induction ls as [|l r IH]; simpl; intros st; [reflexivity|].
  destruct (itstep ms sel flag st l). rewrite IH. reflexivity.
Qed.

Definition itouts (thread : bool) (items : list V) (ls : list tlabel) : list tout :=
  snd (itrun_from to_aiter_methods to_aiter_selector thread (itinit items) ls).
Definition itrun (thread : bool) (items : list V) (ls : list tlabel) : itstate :=
  fst (itrun_from to_aiter_methods to_aiter_selector thread (itinit items) ls).

Theorem to_aiter_tie thread items ls :
  itouts thread items ls = touts thread items ls /\
  it_rest (itrun thread items ls) = t_rest (trun thread items ls) /\
  it_log (itrun thread items ls) = t_log (trun thread items ls) /\
  map abs_call (it_calls (itrun thread items ls)) = t_calls (trun thread items ls) /\
  it_stuck (itrun thread items ls) = false.
Proof.
  assert (H0 : TR (tinit items) (itinit items)) by (constructor; simpl; auto).
  unfold itouts, touts, itrun, trun. rewrite itrun_from_runs, trun_from_runs.
  destruct (runs_sim (tstep thread) (itstep MS SEL thread) TR (tie_step thread) ls _ _ H0) as [Ho [Hr Hl Hs Hc _]]. auto.
Qed.

(** `thread=` defaults to True in the regenerated `__init__`: the thread variant *)
Lemma to_aiter_default_thread : to_aiter_flag_default = true.
Proof. reflexivity. Qed.

(** `async for` works on a to_aiter: its only base is AsyncIterator[T] (checked by the translator, which fails
    otherwise) and `__aiter__` is the inherited one *)
Lemma to_aiter_async_iterable : to_aiter_aiter_inherited = true.
Proof. reflexivity. Qed.

Definition flag_of (o : option bool) : bool := match o with Some b => b | None => to_aiter_flag_default end.

(** `aiterable(it)` = `to_aiter(it, thread=False)`: the iterable is passed unchanged (translator), the flag is False *)
Theorem aiterable_tie items ls :
  snd (itrun_from to_aiter_methods to_aiter_selector (flag_of aiterable_thread) (itinit items) ls) = touts false items ls.
Proof. change (flag_of aiterable_thread) with false. apply to_aiter_tie. Qed.

(** `to_aiter(it)` without `thread=`: the default of the regenerated __init__ *)
Theorem to_aiter_default_tie items ls :
  itouts (flag_of None) items ls = touts true items ls.
Proof. change (flag_of None) with true. apply to_aiter_tie. Qed.
