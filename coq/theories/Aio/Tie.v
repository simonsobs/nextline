(** The tie of Aio/Model.v to nextline/utils/aio.py, second kind (TIE_TASK):
    translate/aio_funs.py regenerates Gen/AioFuns.v (the bodies of
    merge_aiters / agen_with_wait / to_aiter as terms of Aio/Syntax.v) from the
    source on every run; Aio/Interp.v interprets those terms under the labels of
    the hand-written model; TieMerge.v / TieAgen.v / TieToAiter.v prove, by a
    simulation relation and induction over the label list, that for ALL label
    sequences the interpreter on the regenerated bodies produces exactly the
    outputs of the model's step functions and stays in a related state (never
    stuck).  Here: the three results side by side, and the property theorems of
    Props/C19.v transferred to the outputs of the regenerated code.

    HONEST LABEL.  merge_aiters and agen_with_wait: "PIN + SIMULATION OF THE PINNED TERM".  TieMerge.v / TieAgen.v
    contain hand-copied program points ([m_body], [g_body] and their sub-terms); [merge_body_shape] /
    [agen_body_shape] pin the regenerated bodies to them by [reflexivity], and the simulation is proved for the
    pinned term.  So ANY change of the AST of these two functions -- also a behaviour-preserving one -- breaks the
    obligation (the check then reports a broken tie, and `no-failing-input-found` if the behaviour is unchanged);
    what the pin buys over a text pin is that the pinned term has a proved meaning.  to_aiter is different: its
    lemmas are symbolic executions of the regenerated [to_aiter_methods] themselves and survive rewrites that
    keep the behaviour under the semantics of Interp.v.
    Scope (not covered by any label of Model.v): sources that raise something else than StopAsyncIteration,
    cancelled awaited tasks, athrow().  Early stop of the consumer (aclose / cancellation) is covered on the
    machine only, by [merge_close_loss] / [agen_close_loss]. *)
From NL Require Export Aio.Model Aio.Syntax Aio.Interp Gen.AioFuns.
From NL Require Export Aio.Merge Aio.Agen Aio.ToAiter.
From NL Require Export Aio.TieMerge Aio.TieAgen Aio.TieToAiter.

Theorem tie_merge_outputs items ls : imouts items ls = mouts items ls.
Proof. apply merge_tie. Qed.

Theorem tie_merge_never_stuck items ls : stuck (imrun items ls) = false.
Proof. eapply MR_not_stuck. apply merge_tie. Qed.

Corollary tie_merge_projection (items : list (list V)) ls i :
  (forall j v, In (j, v) (yields (imouts items ls)) -> j < List.length items) /\
  exists rest, nth i items [] = proj i (yields (imouts items ls)) ++ rest.
Proof. rewrite tie_merge_outputs. apply merge_projection. Qed.

Corollary tie_merge_complete items ls i :
  c_st (imrun items ls) = StFinished -> proj i (yields (imouts items ls)) = nth i items [].
Proof.
  intros Hf. rewrite tie_merge_outputs.
  apply (proj2 (merge_terminates items ls)).
  destruct (MR_state _ _ (proj2 (merge_tie items ls))) as [_ H]. rewrite Hf in H.
  destruct (m_phase (mrun items ls)); auto; contradiction.
Qed.

Theorem tie_agen_outputs items ls : igouts items ls = gouts items ls.
Proof. apply agen_tie. Qed.

Theorem tie_agen_never_stuck items ls : stuck (igrun items ls) = false.
Proof. eapply GR_not_stuck. apply agen_tie. Qed.

Corollary tie_agen_items items ls : exists rest, items = gitems (igouts items ls) ++ rest.
Proof.
  rewrite tie_agen_outputs. destruct (agen_items_full items ls) as [H _].
  eexists. exact H.
Qed.

Corollary tie_agen_raise_identity items ls x e :
  In (x, GVRaise e) (igouts items ls) ->
  exists t ts, In (GTaskEnd t (TExc e)) ls /\ In (GSend (Some ts)) ls /\ In t ts.
Proof. rewrite tie_agen_outputs. apply agen_raise_identity. Qed.

Theorem tie_to_aiter_outputs thread items ls : itouts thread items ls = touts thread items ls.
Proof. apply to_aiter_tie. Qed.

Corollary tie_to_aiter_sequential thread items k :
  delivered (itouts thread items (seq_labels thread k)) = map (res_at items) (seq 0 k).
Proof. rewrite tie_to_aiter_outputs. apply to_aiter_sequential. Qed.

Corollary tie_aiterable_sequential items k :
  delivered (snd (itrun_from to_aiter_methods to_aiter_selector (flag_of aiterable_thread) (itinit items)
                             (seq_labels false k))) = map (res_at items) (seq 0 k).
Proof. rewrite aiterable_tie. apply to_aiter_sequential. Qed.

Corollary tie_to_aiter_default_sequential items k :
  delivered (itouts (flag_of None) items (seq_labels true k)) = map (res_at items) (seq 0 k).
Proof. rewrite to_aiter_default_tie. apply to_aiter_sequential. Qed.
