(** Lemmas shared by TieMerge.v and TieAgen.v: sets as strictly sorted lists, the `for` order,
    the pending `__anext__` of a source in the heap ([complete_src]), and stepping the machine
    ([step], fuel). *)
From NL Require Import Aio.Model Aio.Syntax Aio.Interp Aio.Merge Aio.Agen.
From NL Require Export Aio.Runs.
From Coq Require Import Lia.
Local Notation length := List.length (only parsing).

Fixpoint ssorted (l : list nat) : Prop :=
  match l with [] => True | x :: r => (forall y, In y r -> x < y) /\ ssorted r end.

Lemma ins_sorted x l : ssorted l -> ssorted (ins x l).
Proof.
  induction l as [|y r IH]; simpl; intros H.
  - split; [intros ? []|exact I].
  - destruct H as [Hy Hr].
    destruct (Nat.ltb_spec x y).
    + simpl. split; [|split; auto]. intros z [<-|Hz]; auto. specialize (Hy _ Hz). lia.
    + destruct (Nat.eqb_spec x y).
      * simpl; auto.
      * simpl. split; auto. intros z Hz. apply In_ins in Hz. destruct Hz as [->|Hz]; [lia | auto].
Qed.

Lemma union_sorted b : forall a, ssorted a -> ssorted (union a b).
Proof. unfold union. induction b as [|x r IH]; simpl; intros a H; auto. apply IH. apply ins_sorted; auto. Qed.

Lemma filter_sorted f l : ssorted l -> ssorted (filter f l).
Proof.
  induction l as [|x r IH]; simpl; auto. intros [Hx Hr].
  destruct (f x); simpl; auto. split; auto. intros y Hy. apply filter_In in Hy. apply Hx. tauto.
Qed.

Lemma sorted_ext a : forall b, ssorted a -> ssorted b -> (forall x, In x a <-> In x b) -> a = b.
Proof.
  induction a as [|x r IH]; intros [|y s] Ha Hb He; auto.
  - exfalso. apply (He y). left; auto.
  - exfalso. apply (He x). left; auto.
  - destruct Ha as [Hx Hr], Hb as [Hy Hs].
    assert (x = y).
    { destruct (proj1 (He x) (or_introl eq_refl)) as [->|H1]; auto.
      destruct (proj2 (He y) (or_introl eq_refl)) as [->|H2]; auto.
      specialize (Hx _ H2). specialize (Hy _ H1). lia. }
    subst y. f_equal. apply IH; auto. intros z. split; intros Hz.
    + destruct (proj1 (He z) (or_intror Hz)) as [->|]; auto. specialize (Hx _ Hz). lia.
    + destruct (proj2 (He z) (or_intror Hz)) as [->|]; auto. specialize (Hy _ Hz). lia.
Qed.

(** `x |= set(l)`: building the set first changes nothing *)
Lemma union_set_of a l : ssorted a -> union a (union [] l) = union a l.
Proof.
  intros Ha. apply sorted_ext.
  - apply union_sorted; auto.
  - apply union_sorted; auto.
  - intros x. rewrite !In_union. simpl. tauto.
Qed.

Lemma minus_nil l : minus l [] = l.
Proof. unfold minus. induction l; simpl; auto. simpl in IHl. rewrite IHl. reflexivity. Qed.

Lemma mem_false_nIn x l : mem x l = false <-> ~ In x l.
Proof. rewrite <- mem_In. destruct (mem x l); intuition congruence. Qed.

Lemma mem_filter x f l : mem x (filter f l) = mem x l && f x.
Proof.
  destruct (mem x (filter f l)) eqn:E.
  - apply mem_In in E. apply filter_In in E. destruct E as [E1 E2]. apply mem_In in E1. rewrite E1, E2. reflexivity.
  - destruct (mem x l) eqn:E1; auto. destruct (f x) eqn:E2; auto.
    apply mem_false_nIn in E. exfalso. apply E. apply filter_In. split; auto. apply mem_In; auto.
Qed.

(** `pending &= pending_` where pending_ is the not-done half of pending = dropping the done half *)
Lemma inter_notdone f l : inter l (filter (fun t => negb (f t)) l) = minus l (filter f l).
Proof.
  unfold inter, minus. apply filter_ext_in. intros x Hx. rewrite !mem_filter.
  apply mem_In in Hx. rewrite Hx. reflexivity.
Qed.

Lemma filter_length_le {A} (f : A -> bool) l : length (filter f l) <= length l.
Proof. induction l; simpl; auto. destruct (f a); simpl; lia. Qed.

Lemma fuel_split fuel n : fuel >= n -> exists f, fuel = n + f.
Proof. intros. exists (fuel - n). lia. Qed.

Lemma first_exc_dedup ts l : forall seen,
  (forall x, In x seen -> texc ts x = None) ->
  first_exc ts (dedup seen l) = first_exc ts l.
Proof.
  induction l as [|x r IH]; simpl; intros seen Hs; auto.
  destruct (mem x seen) eqn:E.
  - apply mem_In in E. rewrite (Hs _ E). apply IH; auto.
  - simpl. destruct (texc ts x) eqn:Ex; auto. apply IH. intros y [<-|Hy]; auto.
Qed.

Lemma dedup_In seen l x : In x (dedup seen l) -> In x l.
Proof.
  revert seen. induction l as [|y r IH]; simpl; intros seen H; auto.
  destruct (mem y seen); [right; eauto|]. destruct H as [->|H]; [auto | right; eauto].
Qed.

Lemma dedup_length l : forall seen, length (dedup seen l) <= length l.
Proof.
  induction l as [|y r IH]; simpl; intros seen; auto.
  destruct (mem y seen); simpl; [specialize (IH seen) | specialize (IH (y :: seen))]; lia.
Qed.

Lemma length_seq_combine n : length (combine (seq 0 n) (seq 0 n)) = n.
Proof. rewrite combine_length, seq_length. lia. Qed.

Lemma lookup_enum n : forall b i, i < n -> lookup (combine (seq b n) (seq b n)) (b + i) = Some (b + i).
Proof.
  induction n as [|n IH]; intros b i Hi; [lia|]. simpl.
  destruct i as [|i].
  - rewrite Nat.add_0_r, Nat.eqb_refl. reflexivity.
  - destruct (Nat.eqb_spec (b + S i) b); [lia|].
    replace (b + S i) with (S b + i) by lia. apply IH. lia.
Qed.

Lemma nth_map_fst {A B} (l : list (list A * B)) i a b : nth_error l i = Some (a, b) -> nth i (map fst l) [] = a.
Proof. revert i; induction l; intros [|i]; simpl; intros H; try discriminate; [inversion H; auto | eauto]. Qed.

Lemma find_unique {A} (f : A -> bool) l c :
  In c l -> f c = true -> (forall t, In t l -> f t = true -> t = c) -> find f l = Some c.
Proof.
  induction l as [|x r IH]; simpl; intros Hin Hc Hu; [contradiction|].
  destruct (f x) eqn:E.
  - f_equal. apply Hu; auto.
  - destruct Hin as [->|Hin]; [congruence|]. apply IH; auto.
Qed.

Lemma find_none_all {A} (f : A -> bool) l : (forall t, In t l -> f t = false) -> find f l = None.
Proof. induction l as [|x r IH]; simpl; intros H; auto. rewrite (H x (or_introl eq_refl)). apply IH; auto. Qed.

Lemma minus_single_lt x l : In x l -> length (minus l [x]) < length l.
Proof.
  unfold minus. induction l as [|y r IH]; simpl; [tauto|].
  intros [->|H].
  - rewrite Nat.eqb_refl. simpl. pose proof (filter_length_le (fun x0 => negb ((x0 =? x) || false)) r). lia.
  - specialize (IH H). simpl in IH. destruct (negb ((y =? x) || false)); simpl; lia.
Qed.

Lemma In_minus_single t x l : In t (minus l [x]) <-> In t l /\ t <> x.
Proof. rewrite In_minus. simpl. intuition. Qed.

Lemma find_pending_none_src h i : forall n,
  (forall t, nth_error h t <> Some (i, AnPend)) -> find_pending h i n = None.
Proof.
  induction h as [|[j s] r IH]; simpl; intros n H; auto.
  destruct s; try (apply IH; intros t; apply (H (S t))).
  destruct (Nat.eqb_spec j i) as [->|Hne].
  - exfalso. apply (H 0). reflexivity.
  - apply IH. intros t. apply (H (S t)).
Qed.

Lemma find_pending_src h i : forall a n,
  nth_error h a = Some (i, AnPend) ->
  (forall t, nth_error h t = Some (i, AnPend) -> t = a) ->
  find_pending h i n = Some (n + a).
Proof.
  induction h as [|[j s] r IH]; intros a n Ha Hu; [destruct a; discriminate|].
  destruct a as [|a].
  - simpl in Ha. inversion Ha; subst. simpl. rewrite Nat.eqb_refl. f_equal. lia.
  - simpl in Ha.
    assert (IH' := IH a (S n) Ha (fun t Ht => f_equal pred (Hu (S t) Ht))).
    simpl. destruct s; try (rewrite IH'; f_equal; lia).
    destruct (Nat.eqb_spec j i) as [->|Hne]; [|rewrite IH'; f_equal; lia].
    specialize (Hu 0 eq_refl). discriminate.
Qed.

Lemma complete_src_none w i :
  (forall t, nth_error (w_an w) t <> Some (i, AnPend)) -> complete_src w i = w.
Proof. intros H. unfold complete_src. rewrite find_pending_none_src; auto. Qed.

Lemma complete_src_pend w i a :
  nth_error (w_an w) a = Some (i, AnPend) ->
  (forall t, nth_error (w_an w) t = Some (i, AnPend) -> t = a) ->
  complete_src w i =
  mkW (upd (w_srcs w) i (fst (src_complete (nth i (w_srcs w) []))))
      (upd (w_an w) a (i, AnRes (snd (src_complete (nth i (w_srcs w) []))))) (w_ext w).
Proof.
  intros Ha Hu. unfold complete_src. rewrite (find_pending_src _ _ _ 0 Ha Hu). simpl Nat.add.
  destruct (src_complete (nth i (w_srcs w) [])); reflexivity.
Qed.

Lemma setw_same m : setw m (i_w m) = m.
Proof. destruct m; reflexivity. Qed.

Lemma seq_sorted n : forall b, ssorted (seq b n).
Proof.
  induction n as [|n IH]; simpl; intros b; auto. split; auto.
  intros y Hy. apply in_seq in Hy. lia.
Qed.

Lemma union_nil_sorted l : ssorted l -> union [] l = l.
Proof.
  intros H. apply sorted_ext; auto.
  - apply union_sorted. exact I.
  - intros x. rewrite In_union. simpl. tauto.
Qed.

Lemma map_fst_combine {A} (l : list A) : map fst (combine l l) = l.
Proof. induction l; simpl; auto. rewrite IHl. reflexivity. Qed.

Arguments next k m : simpl nomatch.
Arguments run : simpl never.
Arguments iter_order : simpl never.

Definition runo (fuel : nat) (o : outcome) : outcome :=
  match o with ONext s k m => run fuel s k m | o => o end.

Lemma run_S f s k m : run (S f) s k m = runo f (step1 s k m).
Proof. unfold run; fold run. destruct (step1 s k m); reflexivity. Qed.

Ltac step := simpl runo; rewrite run_S; simpl step1; simpl runo.

Lemma env_size_get e x s : get e x = Some (PySet s) -> env_size e >= ssize s.
Proof.
  unfold env_size. induction e as [|[y v] r IH]; simpl; [discriminate|].
  destruct (String.eqb x y).
  - intros H; inversion H; subst. lia.
  - intros H. specialize (IH H). destruct v; lia.
Qed.

(** [go] can take [n] steps and still has [b] units of fuel left: for a run that ends in a loop, whose
    lemma needs a lower bound on what is left *)
Lemma go_split s k m n b : fuel_of m >= n + b -> exists f, f >= b /\ go s k m = run (n + f) s k m.
Proof.
  intros H. exists (fuel_of m - n). split; [lia|].
  unfold go. replace (n + (fuel_of m - n)) with (fuel_of m) by lia. reflexivity.
Qed.

(** [go] can take [n] steps: for a straight run of at most [n] steps to the next suspension *)
Ltac fuel n :=
  unfold go;
  match goal with
  | |- context [run (fuel_of ?m)] =>
    let H := fresh in
    assert (H : fuel_of m >= n) by (unfold fuel_of; lia);
    destruct (fuel_split _ n H) as [? ->]; clear H; simpl Nat.add
  end.
