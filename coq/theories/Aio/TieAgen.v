(** Tie of the hand-written model of [agen_with_wait] (Model.v: [gstep]) to the
    regenerated body (Gen/AioFuns.v: [agen_with_wait_body]) under the semantics
    of Interp.v ([igstep]): a simulation relation [GR] between model states and
    machine configurations, preserved by every label, with equal outputs. *)
(** KIND OF OBLIGATION: pin + simulation of the pinned term.  The program points below are hand-copied;
    [agen_body_shape] pins the regenerated body to them by [reflexivity]; the simulation is about the pinned term.
    Any change of the AST of `agen_with_wait`, behaviour-preserving or not, breaks the pin. *)
From NL Require Import Aio.Model Aio.Syntax Aio.Interp Gen.AioFuns Aio.Merge Aio.Agen Aio.TieBase.
From Coq Require Import Lia.
Local Notation length := List.length (only parsing).
Local Open Scope string_scope.
Local Open Scope list_scope.
Local Open Scope nat_scope.

Definition g_ifexc : stmt :=
  SIfExc "exc" (EVar "t") (SSeq (SCancel (EVar "anext")) (SRaise (EVar "exc"))).

Definition g_after_yield : stmt :=
  SSeq (SIf (EIsNotNone (EVar "new"))
          (SSeq (SAugOr "pending" (ESetOf (EVar "new")))
          (SSeq (SYield None (EPair (ETupleOf (EVar "done")) (ETupleOf (EVar "pending"))))
                (SClear "done")))
          SSkip)
       (SEnsureAnext "anext" (EVar "agen")).

Definition g_tail : stmt :=
  SSeq (SIf (EIn (EVar "anext") (EVar "done_"))
          (SSeq (SResult "item" (EVar "anext") (Some SBreak))
          (SSeq (SRemove "done_" (EVar "anext"))
                (SAugOr "done" (EVar "done_"))))
          (SSeq (SAugOr "done" (EVar "done_")) SContinue))
  (SSeq (SAugAnd "pending" (EVar "pending_"))
  (SSeq (SYield (Some "new") (EVar "item"))
        g_after_yield)).

Definition g_loop_body : stmt :=
  SSeq (SWait "done_" "pending_" (EUnion (EVar "pending") (ESingle (EVar "anext"))))
  (SSeq (SFor "t" (EDiff (EVar "done_") (ESingle (EVar "anext"))) g_ifexc)
        g_tail).

Definition g_body : stmt :=
  SSeq (SAssign "done" EEmptySet)
  (SSeq (SAssign "pending" EEmptySet)
  (SSeq (SEnsureAnext "anext" (EVar "agen"))
        (SWhile ETrue g_loop_body))).

Lemma agen_body_shape : agen_with_wait_body = g_body.
Proof. reflexivity. Qed.
Lemma agen_vars_shape :
  agen_with_wait_vars = ["agen"; "done"; "pending"; "anext"; "done_"; "pending_"; "t"; "exc"; "item"; "new"].
Proof. reflexivity. Qed.

Definition k_loop : list frame := [FWhile ETrue g_loop_body].
(** suspended in `await asyncio.wait(...)` *)
Definition k_wait : list frame :=
  FSeq (SSeq (SFor "t" (EDiff (EVar "done_") (ESingle (EVar "anext"))) g_ifexc) g_tail) :: k_loop.
(** suspended at `new = yield item` *)
Definition k_item : list frame := FSeq g_after_yield :: k_loop.
(** suspended at `yield tuple(done), tuple(pending)` *)
Definition k_sets : list frame := FSeq (SClear "done") :: FSeq (SEnsureAnext "anext" (EVar "agen")) :: k_loop.

(** the local variables at a suspension point: [a] the current anext task,
    [p], [d] the sets `pending`, `done`; the rest is dead *)
Definition genv (a : nat) (p d : list nat) (v1 v2 v3 v4 v5 v6 : val) : env :=
  [("agen", PySrc 0); ("done", PySet (mkS [] d)); ("pending", PySet (mkS [] p)); ("anext", PyTask (TAn a));
   ("done_", v1); ("pending_", v2); ("t", v3); ("exc", v4); ("item", v5); ("new", v6)].

Record GW (st : gstate) (w : world) (a : nat) : Prop := mkGW {
  gw_srcs : w_srcs w = [g_rest st];
  gw_ext : w_ext w = g_tasks st;
  gw_pend : forall t i, nth_error (w_an w) t = Some (i, AnPend) ->
              t = a /\ g_phase st = GWait /\ g_anext st = APend;
  gw_anext : g_phase st = GWait ->
             match g_anext st with
             | APend => nth_error (w_an w) a = Some (0, AnPend)
             | ADone r => nth_error (w_an w) a = Some (0, AnRes r)
             | _ => False
             end;
  gw_idle : g_phase st <> GWait -> g_anext st <> APend;
  gw_sorted : ssorted (g_pending st)
}.

Definition GR (st : gstate) (c : cfg) : Prop :=
  let m := c_m c in
  match g_phase st with
  | GFresh =>
    c_st c = StFresh g_body /\
    i_env m = set (init_env agen_with_wait_vars) "agen" (PySrc 0) /\
    i_w m = mkW [g_rest st] [] (g_tasks st) /\
    g_pending st = [] /\ g_done st = [] /\ g_anext st = ANone
  | GWait =>
    exists a v1 v2 v3 v4 v5 v6,
      c_st c = StWait "done_" "pending_" (mkS [a] (g_pending st)) k_wait /\
      i_env m = genv a (g_pending st) (g_done st) v1 v2 v3 v4 v5 v6 /\ GW st (i_w m) a
  | GItem =>
    exists a v1 v2 v3 v4 v5 v6,
      c_st c = StYield (Some "new") k_item /\
      i_env m = genv a (g_pending st) (g_done st) v1 v2 v3 v4 v5 v6 /\ GW st (i_w m) a
  | GSets =>
    exists a v1 v2 v3 v4 v5 v6,
      c_st c = StYield None k_sets /\
      i_env m = genv a (g_pending st) (g_done st) v1 v2 v3 v4 v5 v6 /\ GW st (i_w m) a
  | GRaised => c_st c = StRaised /\ exists a, GW st (i_w m) a
  | GFin => c_st c = StFinished /\ exists a, GW st (i_w m) a
  end.

Lemma env_size_genv a p d v1 v2 v3 v4 v5 v6 :
  env_size (genv a p d v1 v2 v3 v4 v5 v6) >= length p.
Proof. apply (env_size_get _ "pending" (mkS [] p)). reflexivity. Qed.

(** `for t in done_ - {anext}: if exc := t.exception(): anext.cancel(); raise exc` *)

Lemma tdone_ended ts t : tdone ts t = true -> exists r, nth_error ts t = Some (TEnded r).
Proof. unfold tdone. destruct (nth_error ts t) as [[|r]|]; try discriminate. eauto. Qed.

Lemma for_loop w a p d v1 v2 v5 v6 ord k l : forall v3 v4 fuel,
  (forall t, In t l -> tdone (w_ext w) t = true) ->
  fuel >= length l + 4 ->
  match first_exc (w_ext w) l with
  | Some e => exists m',
      runo fuel (next (FFor "t" (map TExt l) g_ifexc :: k) (mkMach (genv a p d v1 v2 v3 v4 v5 v6) w ord)) =
      ORaised (PyExc e) m' /\ i_w m' = cancel_world w a
  | None => exists v3' v4',
      runo fuel (next (FFor "t" (map TExt l) g_ifexc :: k) (mkMach (genv a p d v1 v2 v3 v4 v5 v6) w ord)) =
      run (fuel - length l) SSkip k (mkMach (genv a p d v1 v2 v3' v4' v5 v6) w ord)
  end.
Proof.
  induction l as [|t r IH]; intros v3 v4 fuel Hd Hf.
  - simpl. exists v3, v4. rewrite Nat.sub_0_r. reflexivity.
  - destruct (tdone_ended _ _ (Hd t (or_introl eq_refl))) as [res Hres].
    destruct fuel as [|f]; [simpl in Hf; lia|].
    simpl map. simpl next. simpl runo. step. rewrite Hres.
    simpl first_exc. unfold texc at 1. rewrite Hres.
    destruct res as [|e].
    + (* no exception: next element *)
      specialize (IH (PyTask (TExt t)) PyNone f (fun t' Ht' => Hd t' (or_intror Ht')) ltac:(simpl in Hf; lia)).
      exact IH.
    + (* the task failed: anext.cancel(); raise exc *)
      destruct f as [|[|[|f]]]; try (simpl in Hf; lia).
      step. step. step. eexists. split; reflexivity.
Qed.

Definition SIM (st : gstate) (c : cfg) (l : glabel) : Prop :=
  snd (igstep c l) = snd (gstep st l) /\ GR (fst (gstep st l)) (fst (igstep c l)).

Lemma minus_self a : minus [a] [a] = [].
Proof. unfold minus. simpl. rewrite Nat.eqb_refl. reflexivity. Qed.

Lemma mem_self a : mem a [a] = true.
Proof. simpl. rewrite Nat.eqb_refl. reflexivity. Qed.

Lemma iter_order_ext ord (b : bool) a dts :
  iter_order ord (sminus (mkS (if b then [a] else []) dts) (ssingle (TAn a))) =
  map TExt (dedup [] (filter (fun t => mem t dts) ord ++ dts)).
Proof.
  unfold iter_order, sminus, ssingle. cbn [s_an s_ext]. rewrite minus_nil.
  replace (minus (if b then [a] else []) [a]) with (@nil nat) by (destruct b; [rewrite minus_self|]; reflexivity).
  simpl. rewrite app_nil_r. reflexivity.
Qed.

Lemma wake_run rest (heap : list (nat * anst)) tasks a p d v1 v2 v3 v4 v5 v6 (o : list nat) ord (sa : anst) :
  nth_error heap a = Some (0, sa) ->
  let w := mkW [rest] heap tasks in
  let dts := filter (tdone tasks) p in
  let out := go SSkip k_wait (wake "done_" "pending_" (mkS [a] p)
                                (mkMach (genv a p d v1 v2 v3 v4 v5 v6) w o) ord) in
  match first_exc tasks (filter (fun t => mem t dts) ord ++ dts) with
  | Some e => exists m', out = ORaised (PyExc e) m' /\ i_w m' = cancel_world w a
  | None =>
    match sa with
    | AnPend => exists u1 u2 u3 u4 u5 u6,
        out = OWait "done_" "pending_" (mkS [a] p) k_wait (mkMach (genv a p (union d dts) u1 u2 u3 u4 u5 u6) w ord)
    | AnRes RStop => exists m', out = OFinished m' /\ i_w m' = w
    | AnRes (RItem v) => exists u1 u2 u3 u4 u5 u6,
        out = OYield (Some "new") (PyItem v) k_item
                (mkMach (genv a (minus p dts) (union d dts) u1 u2 u3 u4 u5 u6) w ord)
    | AnCancelled => True
    end
  end.
Proof.
  intros Ha w dts out. subst out. unfold go, wake.
  cbn [i_w i_env i_ord setv setord]. unfold done_of, notdone_of. cbn [s_an s_ext w_ext filter].
  assert (Hdone : an_done w a = match sa with AnPend => false | _ => true end).
  { unfold an_done. subst w. simpl. rewrite Ha. destruct sa; reflexivity. }
  rewrite Hdone. change (w_ext w) with tasks. fold dts.
  set (b := match sa with AnPend => false | _ => true end) in *.
  set (dn := mkS (if b then [a] else []) dts).
  set (nd := mkS (if negb b then [a] else []) (filter (fun t => negb (tdone tasks t)) p)).
  set (l := dedup [] (filter (fun t => mem t dts) ord ++ dts)).
  set (m0 := mkMach (genv a p d (PySet dn) (PySet nd) v3 v4 v5 v6) w ord).
  change (setord (setv (setv (mkMach (genv a p d v1 v2 v3 v4 v5 v6) w o) "done_" (PySet dn)) "pending_" (PySet nd)) ord)
    with m0.
  assert (HF : fuel_of m0 >= length l + 24).
  { unfold fuel_of, m0. cbn [i_env i_ord].
    pose proof (env_size_genv a p d (PySet dn) (PySet nd) v3 v4 v5 v6).
    assert (length l <= length ord + length p).
    { unfold l. etransitivity; [apply dedup_length|]. rewrite app_length.
      pose proof (filter_length_le (fun t => mem t dts) ord).
      pose proof (filter_length_le (tdone tasks) p). fold dts in H1. lia. }
    lia. }
  generalize dependent (fuel_of m0). intros F HF.
  destruct (fuel_split F 3 ltac:(lia)) as [f ->]. simpl Nat.add.
  unfold m0, k_wait. step. step. step.
  change (sminus dn {| s_an := [a]; s_ext := [] |}) with (sminus (mkS (if b then [a] else []) dts) (ssingle (TAn a))).
  rewrite iter_order_ext. fold l.
  assert (Hl : forall t, In t l -> tdone (w_ext w) t = true).
  { intros t Ht. apply dedup_In in Ht. exact (proj2 (In_scan _ _ _ _ Ht)). }
  pose proof (for_loop w a p d (PySet dn) (PySet nd) v5 v6 ord (FSeq g_tail :: k_loop) l v3 v4 f Hl ltac:(lia)) as HL.
  unfold l in HL at 1. rewrite first_exc_dedup in HL by (intros ? []). change (w_ext w) with tasks in HL.
  destruct (first_exc tasks (filter (fun t => mem t dts) ord ++ dts)) as [e|].
  - destruct HL as (m' & -> & Hw). eauto.
  - destruct HL as (u3 & u4 & ->).
    destruct (fuel_split (f - length l) 12 ltac:(lia)) as [f2 ->]. simpl Nat.add.
    destruct sa as [|[v|]|]; [| | |exact I].
    + (* the anext is still pending: done |= done_; continue *)
      subst b dn nd. unfold g_tail. step. step. step. step. step. step. step. step. step.
      do 6 eexists. reflexivity.
    + (* an item: the then-branch up to `new = yield item` *)
      subst b dn nd. unfold g_tail. step. step. step. rewrite Nat.eqb_refl. cbn [orb]. simpl runo.
      step. step. rewrite Ha. simpl runo. step. step. rewrite Nat.eqb_refl. cbn [orb]. simpl runo.
      unfold sminus. cbn [s_an s_ext]. rewrite minus_self, minus_nil.
      step. step. step. step. step.
      unfold sinter. cbn [s_an s_ext]. rewrite inter_notdone. fold dts.
      do 6 eexists. reflexivity.
    + (* StopAsyncIteration: break *)
      subst b dn nd. unfold g_tail. step. step. step. rewrite Nat.eqb_refl. cbn [orb]. simpl runo.
      step. step. rewrite Ha. simpl runo. step.
      eexists. split; reflexivity.
Qed.

Lemma GW_idle ph rest an tasks p d heap a :
  ph <> GWait -> an <> APend -> ssorted p -> (forall t i, nth_error heap t <> Some (i, AnPend)) ->
  GW (mkG ph rest an tasks p d) (mkW [rest] heap tasks) a.
Proof.
  intros Hph Han Hs Hn. constructor; simpl; auto.
  - intros t i Ht. exfalso. eapply Hn; eauto.
  - intros; contradiction.
Qed.

Lemma GW_wait rest an tasks p d heap a :
  ssorted p ->
  (forall t i, nth_error heap t = Some (i, AnPend) -> t = a /\ an = APend) ->
  match an with
  | APend => nth_error heap a = Some (0, AnPend)
  | ADone r => nth_error heap a = Some (0, AnRes r)
  | _ => False
  end ->
  GW (mkG GWait rest an tasks p d) (mkW [rest] heap tasks) a.
Proof.
  intros Hs Hp Ha. constructor; simpl; auto.
  intros t i Ht. destruct (Hp _ _ Ht). auto.
Qed.

Lemma GW_inv st w a : GW st w a -> w = mkW [g_rest st] (w_an w) (g_tasks st).
Proof. intros [H1 H2 _ _ _ _]. destruct w; simpl in *. subst. reflexivity. Qed.

Lemma sim_wake st c ord : GR st c -> SIM st c (GWake ord).
Proof.
  intros H. pose proof H as H0. unfold GR in H. unfold SIM.
  destruct st as [ph rest an tasks p d]. destruct c as [cst [e w o]]. simpl in H.
  destruct ph.
  - destruct H as (Hst & He & Hw & Hp & Hd & Ha). simpl in *. subst. split; [reflexivity | unfold GR; simpl; repeat split; auto].
  - destruct H as (a & v1 & v2 & v3 & v4 & v5 & v6 & Hst & He & HW). simpl in Hst, He, HW. subst cst e.
    destruct HW as [Hsrcs Hext Hpend Han Hidle Hsorted]. simpl in *.
    specialize (Han eq_refl).
    destruct w as [wsrcs heap wext]. simpl in *. subst wsrcs wext.
    unfold igstep, gstep. cbn [c_st c_m i_w g_phase g_tasks g_pending g_anext g_rest g_done].
    unfold done_of. cbn [s_an s_ext w_ext filter].
    set (w := mkW [rest] heap tasks). set (dts := filter (tdone tasks) p).
    destruct an as [| |r|]; try contradiction.
    + (* the anext is pending *)
      pose proof (wake_run rest heap tasks a p d v1 v2 v3 v4 v5 v6 o ord AnPend Han) as HR.
      cbv zeta in HR. fold w dts in HR.
      assert (Hd : an_done w a = false) by (unfold an_done, w; simpl; rewrite Han; reflexivity).
      rewrite Hd. unfold sis_empty. cbn [s_an s_ext is_nil andb negb].
      change (match dts with [] => true | _ :: _ => false end) with (is_nil dts).
      destruct (is_nil dts) eqn:En.
      * simpl. split; [reflexivity | exact H0].
      * destruct (first_exc tasks (filter (fun t => mem t dts) ord ++ dts)) as [e|].
        -- destruct HR as (m' & -> & Hw'). simpl. split; [reflexivity|].
           unfold GR; simpl. split; [reflexivity|]. exists a. rewrite Hw'.
           unfold cancel_world, w. simpl. rewrite Han.
           apply GW_idle; auto; try discriminate.
           intros t i Ht. destruct (nth_error_upd_inv _ _ _ _ _ Ht) as [[_ ?]|[Hne Ht']]; [discriminate|].
           destruct (Hpend _ _ Ht'). congruence.
        -- destruct HR as (u1 & u2 & u3 & u4 & u5 & u6 & ->). simpl. split; [reflexivity|].
           unfold GR; simpl. do 7 eexists. split; [reflexivity|]. split; [reflexivity|].
           apply GW_wait; auto. intros t i Ht. destruct (Hpend _ _ Ht) as (? & _ & ?); auto.
    + (* the anext is done *)
      pose proof (wake_run rest heap tasks a p d v1 v2 v3 v4 v5 v6 o ord (AnRes r) Han) as HR.
      cbv zeta in HR. fold w dts in HR.
      assert (Hd : an_done w a = true) by (unfold an_done, w; simpl; rewrite Han; reflexivity).
      rewrite Hd. unfold sis_empty. cbn [s_an s_ext is_nil andb negb].
      assert (Hnp : forall t i, nth_error heap t <> Some (i, AnPend)).
      { intros t i Ht. destruct (Hpend _ _ Ht) as (_ & _ & ?). discriminate. }
      destruct (first_exc tasks (filter (fun t => mem t dts) ord ++ dts)) as [e|].
      * destruct HR as (m' & -> & Hw'). simpl. split; [reflexivity|].
        unfold GR; simpl. split; [reflexivity|]. exists a. rewrite Hw'.
        unfold cancel_world, w. simpl. rewrite Han.
        apply GW_idle; auto; discriminate.
      * destruct r as [v|].
        -- destruct HR as (u1 & u2 & u3 & u4 & u5 & u6 & ->). simpl. split; [reflexivity|].
           unfold GR; simpl. do 7 eexists. split; [reflexivity|]. split; [reflexivity|].
           apply GW_idle; auto; try discriminate. apply filter_sorted; auto.
        -- destruct HR as (m' & -> & Hw'). simpl. split; [reflexivity|].
           unfold GR; simpl. split; [reflexivity|]. exists a. rewrite Hw'.
           apply GW_idle; auto; discriminate.
  - destruct H as (a & v1 & v2 & v3 & v4 & v5 & v6 & Hst & He & HW). simpl in *. subst.
    split; [reflexivity | exact H0].
  - destruct H as (a & v1 & v2 & v3 & v4 & v5 & v6 & Hst & He & HW). simpl in *. subst.
    split; [reflexivity | exact H0].
  - destruct H as (Hst & a & HW). simpl in *. subst. split; [reflexivity | exact H0].
  - destruct H as (Hst & a & HW). simpl in *. subst. split; [reflexivity | exact H0].
Qed.

Lemma GW_ext st w a tasks' :
  GW st w a ->
  GW (mkG (g_phase st) (g_rest st) (g_anext st) tasks' (g_pending st) (g_done st))
     (mkW (w_srcs w) (w_an w) tasks') a.
Proof. intros [H1 H2 H3 H4 H5 H6]. constructor; simpl; auto. Qed.

Lemma GW_nopend st w a : GW st w a -> g_anext st <> APend -> forall t j, nth_error (w_an w) t <> Some (j, AnPend).
Proof. intros HW Hn t j Ht. destruct (gw_pend _ _ _ HW _ _ Ht) as (_ & _ & ?). contradiction. Qed.

Lemma GR_GW st c : GR st c -> g_phase st <> GFresh -> exists a, GW st (i_w (c_m c)) a.
Proof.
  unfold GR. destruct (g_phase st); try contradiction; intros H _;
    try destruct H as (a & _ & _ & _ & _ & _ & _ & _ & _ & HW); try destruct H as (_ & a & HW); eauto.
Qed.

Lemma GR_world st c :
  GR st c ->
  w_srcs (i_w (c_m c)) = [g_rest st] /\ w_ext (i_w (c_m c)) = g_tasks st /\
  (g_anext st <> APend -> forall t j, nth_error (w_an (i_w (c_m c))) t <> Some (j, AnPend)).
Proof.
  intros H. destruct (g_phase st) eqn:Ep.
  1: { unfold GR in H. rewrite Ep in H. destruct H as (_ & _ & -> & _). repeat split. intros _ [|t] j; discriminate. }
  all: destruct (GR_GW _ _ H) as [a HW]; [congruence|]; repeat split; try apply HW; apply (GW_nopend _ _ _ HW).
Qed.

Lemma GR_ext st c tasks' :
  GR st c ->
  GR (mkG (g_phase st) (g_rest st) (g_anext st) tasks' (g_pending st) (g_done st))
     (mkC (c_st c) (setw (c_m c) (mkW (w_srcs (i_w (c_m c))) (w_an (i_w (c_m c))) tasks'))).
Proof.
  unfold GR. destruct st as [ph rest an tasks p d]. destruct c as [cst [e w o]]. simpl.
  destruct ph.
  1: intros (Hst & He & Hw & Hp & Hd & Ha); subst; simpl; repeat split; auto.
  1-3: intros (a & v1 & v2 & v3 & v4 & v5 & v6 & Hst & He & HW); do 7 eexists; split; [eauto|]; split; [eauto|];
       apply (GW_ext _ _ _ tasks' HW).
  all: intros (Hst & a & HW); split; auto; exists a; apply (GW_ext _ _ _ tasks' HW).
Qed.

Lemma sim_spawn st c : GR st c -> SIM st c GSpawn.
Proof.
  intros H. unfold SIM. simpl. split; [reflexivity|].
  rewrite (proj1 (proj2 (GR_world _ _ H))). apply (GR_ext _ _ _ H).
Qed.

Lemma sim_taskend st c t r : GR st c -> SIM st c (GTaskEnd t r).
Proof.
  intros H. unfold SIM. simpl. rewrite (proj1 (proj2 (GR_world _ _ H))).
  destruct (nth_error (g_tasks st) t) as [[|]|]; simpl; try (split; [reflexivity | exact H]).
  split; [reflexivity|]. apply (GR_ext _ _ _ H).
Qed.

Lemma sim_src st c : GR st c -> SIM st c GSrc.
Proof.
  intros H. unfold SIM.
  destruct st as [ph rest an tasks p d]. destruct c as [cst m].
  assert (Hidle : an <> APend -> SIM (mkG ph rest an tasks p d) (mkC cst m) GSrc).
  { intros Hn. unfold SIM. simpl.
    rewrite (complete_src_none (i_w m) 0), setw_same by (intros t; exact (proj2 (proj2 (GR_world _ _ H)) Hn t 0)).
    destruct an; try contradiction; (split; [reflexivity | exact H]). }
  destruct an; try (apply Hidle; discriminate).
  (* the anext is pending: only in GWait *)
  destruct ph;
    try (exfalso; destruct (GR_GW _ _ H) as [a HW]; [discriminate|];
         apply (gw_idle _ _ _ HW); simpl; [discriminate | reflexivity]);
    unfold GR in H; simpl in H.
  - destruct H as (_ & _ & _ & _ & _ & Ha). discriminate.
  - destruct H as (a & v1 & v2 & v3 & v4 & v5 & v6 & Hst & He & HW). simpl in *.
    pose proof (GW_inv _ _ _ HW) as Hw. simpl in Hw.
    destruct HW as [_ _ Hpend Han _ Hsorted]. simpl in *. specialize (Han eq_refl).
    destruct m as [e w o]. simpl in *. subst cst e. rewrite Hw.
    rewrite (complete_src_pend _ 0 a); cbn [w_an w_srcs w_ext];
      [| exact Han | intros t Ht; destruct (Hpend _ _ Ht); auto].
    simpl nth. destruct (src_complete rest) as [rest' r]. simpl.
    split; [reflexivity|]. unfold GR; simpl. do 7 eexists. split; [reflexivity|]. split; [reflexivity|].
    apply GW_wait; auto.
    + intros t j Ht. destruct (nth_error_upd_inv _ _ _ _ _ Ht) as [[_ ?]|[Hne Ht']]; [discriminate|].
      destruct (Hpend _ _ Ht'). congruence.
    + eapply nth_error_upd_eq; eauto.
Qed.

Lemma start_run rest tasks o :
  go g_body [] (mkMach (set (init_env agen_with_wait_vars) "agen" (PySrc 0)) (mkW [rest] [] tasks) o) =
  OWait "done_" "pending_" (mkS [0] []) k_wait
    (mkMach (genv 0 [] [] PyUndef PyUndef PyUndef PyUndef PyUndef PyUndef) (mkW [rest] [(0, AnPend)] tasks) o).
Proof.
  fuel 12. unfold g_body. do 9 step. reflexivity.
Qed.

Lemma resume_none a p d v1 v2 v3 v4 v5 v6 w o :
  go SSkip k_item (send (Some "new") (mkMach (genv a p d v1 v2 v3 v4 v5 v6) w o) PyNone) =
  OWait "done_" "pending_" (mkS [length (w_an w)] p) k_wait
    (mkMach (genv (length (w_an w)) p d v1 v2 v3 v4 v5 PyNone) (arm_world w 0) o).
Proof.
  fuel 12. unfold k_item, g_after_yield. repeat step. reflexivity.
Qed.

Lemma resume_some a p d v1 v2 v3 v4 v5 v6 w o ts :
  go SSkip k_item (send (Some "new") (mkMach (genv a p d v1 v2 v3 v4 v5 v6) w o) (PyExts ts)) =
  OYield None (PyPair (PySet (mkS [] d)) (PySet (mkS [] (union p (union [] ts))))) k_sets
    (mkMach (genv a (union p (union [] ts)) d v1 v2 v3 v4 v5 (PyExts ts)) w o).
Proof.
  fuel 12. unfold k_item, g_after_yield. repeat step. reflexivity.
Qed.

Lemma resume_sets a p d v1 v2 v3 v4 v5 v6 w o :
  go SSkip k_sets (mkMach (genv a p d v1 v2 v3 v4 v5 v6) w o) =
  OWait "done_" "pending_" (mkS [length (w_an w)] p) k_wait
    (mkMach (genv (length (w_an w)) p [] v1 v2 v3 v4 v5 v6) (arm_world w 0) o).
Proof.
  fuel 12. unfold k_sets. repeat step. reflexivity.
Qed.

Lemma GW_armed st w a rest tasks p d :
  GW st w a -> g_anext st <> APend -> g_rest st = rest -> g_tasks st = tasks -> ssorted p ->
  GW (mkG GWait rest APend tasks p d) (arm_world w 0) (length (w_an w)).
Proof.
  intros HW Hn <- <- Hs. pose proof (GW_inv _ _ _ HW) as Hw. rewrite Hw. unfold arm_world. simpl.
  apply GW_wait; auto.
  - intros t j Ht. split; auto. apply nth_error_snoc_cases in Ht. destruct Ht as [[_ Ht]|[-> _]]; auto.
    contradiction (GW_nopend _ _ _ HW Hn _ _ Ht).
  - apply nth_error_snoc_last.
Qed.

Lemma sim_send st c new : GR st c -> SIM st c (GSend new).
Proof.
  intros H. pose proof H as H0. unfold SIM.
  destruct st as [ph rest an tasks p d]. destruct c as [cst [e w o]].
  unfold GR in H; simpl in H. destruct ph.
  - (* not started *)
    destruct H as (Hst & He & Hw & Hp & Hd & Ha). subst.
    destruct new as [ts|].
    + simpl. split; [reflexivity|]. unfold GR; simpl. repeat split; auto.
    + unfold igstep, gstep. cbn [c_st c_m g_phase]. rewrite start_run. simpl. split; [reflexivity|].
      unfold GR; simpl. do 7 eexists. split; [reflexivity|]. split; [reflexivity|].
      apply GW_wait; simpl; auto.
      intros [|[|t]] j Ht; simpl in Ht; try discriminate. auto.
  - (* waiting: an anext is already outstanding *)
    destruct H as (a & v1 & v2 & v3 & v4 & v5 & v6 & Hst & He & HW). simpl in *. subst.
    split; [reflexivity | exact H0].
  - (* at `new = yield item` *)
    destruct H as (a & v1 & v2 & v3 & v4 & v5 & v6 & Hst & He & HW). simpl in *. subst.
    assert (Hn : an <> APend) by (apply (gw_idle _ _ _ HW); simpl; discriminate).
    pose proof (gw_sorted _ _ _ HW) as Hs. simpl in Hs.
    destruct new as [ts|]; unfold igstep, gstep; cbn [c_st c_m g_phase].
    + rewrite resume_some. rewrite union_set_of by auto. simpl. split; [reflexivity|].
      unfold GR; simpl. do 7 eexists. split; [reflexivity|]. split; [reflexivity|].
      pose proof (GW_inv _ _ _ HW) as Hw. simpl in Hw. rewrite Hw.
      apply GW_idle; auto; try discriminate.
      * apply union_sorted; auto.
      * apply (GW_nopend _ _ _ HW Hn).
    + rewrite resume_none. simpl. split; [reflexivity|].
      unfold GR; simpl. do 7 eexists. split; [reflexivity|]. split; [reflexivity|].
      apply (GW_armed _ _ _ rest tasks p d HW); auto.
  - (* at `yield tuple(done), tuple(pending)`: the sent value is discarded *)
    destruct H as (a & v1 & v2 & v3 & v4 & v5 & v6 & Hst & He & HW). simpl in *. subst.
    assert (Hn : an <> APend) by (apply (gw_idle _ _ _ HW); simpl; discriminate).
    pose proof (gw_sorted _ _ _ HW) as Hs. simpl in Hs.
    unfold igstep, gstep; cbn [c_st c_m g_phase send]. rewrite resume_sets. simpl. split; [reflexivity|].
    unfold GR; simpl. do 7 eexists. split; [reflexivity|]. split; [reflexivity|].
    apply (GW_armed _ _ _ rest tasks p [] HW); auto.
  - destruct H as (Hst & a & HW). simpl in *. subst. split; [reflexivity | exact H0].
  - destruct H as (Hst & a & HW). simpl in *. subst. split; [reflexivity | exact H0].
Qed.

Lemma gstep_sim st c l : GR st c -> SIM st c l.
Proof.
  destruct l; [apply sim_spawn | apply sim_taskend | apply sim_src | apply sim_send | apply sim_wake].
Qed.

Definition igouts (items : list V) (ls : list glabel) : list gout :=
  snd (igrun_from (ginit_cfg agen_with_wait_vars agen_with_wait_body items) ls).
Definition igrun (items : list V) (ls : list glabel) : cfg :=
  fst (igrun_from (ginit_cfg agen_with_wait_vars agen_with_wait_body items) ls).

Lemma GR_init items : GR (ginit items) (ginit_cfg agen_with_wait_vars agen_with_wait_body items).
Proof. unfold GR. simpl. repeat split; reflexivity. Qed.

Theorem agen_tie items ls :
  igouts items ls = gouts items ls /\ GR (grun items ls) (igrun items ls).
Proof. unfold igouts, gouts, igrun, grun. apply (runs_sim gstep igstep GR gstep_sim). apply GR_init. Qed.

Lemma GR_not_stuck st c : GR st c -> stuck c = false.
Proof.
  unfold GR, stuck. destruct (g_phase st).
  - intros (-> & _). reflexivity.
  - intros (a & v1 & v2 & v3 & v4 & v5 & v6 & -> & _). reflexivity.
  - intros (a & v1 & v2 & v3 & v4 & v5 & v6 & -> & _). reflexivity.
  - intros (a & v1 & v2 & v3 & v4 & v5 & v6 & -> & _). reflexivity.
  - intros (-> & _). reflexivity.
  - intros (-> & _). reflexivity.
Qed.

Lemma GR_state st c :
  GR st c -> g_phase st <> GFresh -> g_phase st <> GRaised -> g_phase st <> GFin ->
  get (i_env (c_m c)) "pending" = Some (PySet (mkS [] (g_pending st))) /\
  get (i_env (c_m c)) "done" = Some (PySet (mkS [] (g_done st))) /\
  w_ext (i_w (c_m c)) = g_tasks st /\ w_srcs (i_w (c_m c)) = [g_rest st].
Proof.
  unfold GR. destruct (g_phase st); try contradiction; intros (a & v1 & v2 & v3 & v4 & v5 & v6 & _ & -> & HW) _ _ _;
    (split; [reflexivity|]; split; [reflexivity|]; split; [apply (gw_ext _ _ _ HW) | apply (gw_srcs _ _ _ HW)]).
Qed.

(** No close label in Model.v; on the machine: [iclose] ends the generator at its suspension point (no
    try/finally in the source: neither the pending `__anext__` of the wrapped iterator nor the awaited tasks
    are cancelled); afterwards the environment goes on (the anext may complete, tasks may end).  Then the
    wrapped iterator's items = what was yielded before the close ++ AT MOST ONE item consumed from it and
    never yielded ++ what it still holds.  (Exceptions of awaited tasks that end after the close are not
    surfaced to anybody.) *)

Definition envstep (m : mach) (l : glabel) : mach :=
  let w := i_w m in
  match l with
  | GSpawn => setw m (mkW (w_srcs w) (w_an w) (w_ext w ++ [TRunning]))
  | GTaskEnd t r =>
    match nth_error (w_ext w) t with
    | Some TRunning => setw m (mkW (w_srcs w) (w_an w) (upd (w_ext w) t (TEnded r)))
    | _ => m
    end
  | GSrc => setw m (complete_src w 0)
  | _ => m
  end.

Lemma igstep_env st m l :
  glabel_env l = true -> igstep (mkC st m) l = (mkC st (envstep m l), ((false, []), GVNone)).
Proof.
  destruct l; try discriminate; intros _; simpl; auto.
  destruct (nth_error (w_ext (i_w m)) t) as [[|]|]; reflexivity.
Qed.

Lemma igrun_env es : forall st m,
  Forall (fun l => glabel_env l = true) es ->
  fst (igrun_from (mkC st m) es) = mkC st (fold_left envstep es m).
Proof.
  induction es as [|l r IH]; intros st m H; [reflexivity|].
  inversion H; subst. simpl. rewrite igstep_env by auto.
  specialize (IH st (envstep m l) H3). destruct (igrun_from {| c_st := st; c_m := envstep m l |} r). exact IH.
Qed.

Lemma gstep_env_out st l : glabel_env l = true -> snd (gstep st l) = ((false, []), GVNone).
Proof.
  destruct l; try discriminate; intros _; simpl; auto.
  - destruct (nth_error (g_tasks st) t) as [[|]|]; reflexivity.
  - destruct (g_anext st); try reflexivity. destruct (src_complete (g_rest st)); reflexivity.
Qed.

Lemma gitems_env es : forall st,
  Forall (fun l => glabel_env l = true) es -> gitems (snd (grun_from st es)) = [].
Proof.
  induction es as [|l r IH]; intros st H; [reflexivity|]. inversion H; subst.
  rewrite (runs_cons_snd gstep), gitems_cons, gstep_env_out, IH by auto. reflexivity.
Qed.

Theorem agen_close_loss items ls es :
  Forall (fun l => glabel_env l = true) es ->
  let c' := fst (igrun_from (iclose (igrun items ls)) es) in
  let lost := ainfl (g_anext (grun items (ls ++ es))) in
  (c_st c' = StFinished \/ c_st c' = StRaised) /\
  items = gitems (igouts items ls) ++ lost ++ nth 0 (w_srcs (i_w (c_m c'))) [] /\
  length lost <= 1.
Proof.
  intros Hes c' lost.
  destruct (agen_tie items ls) as [Ho HR]. destruct (agen_tie items (ls ++ es)) as [_ HR2].
  assert (Hc : c_m c' = fold_left envstep es (c_m (igrun items ls)) /\ (c_st c' = StFinished \/ c_st c' = StRaised)).
  { unfold c', iclose. pose proof (GR_not_stuck _ _ HR) as Hns. unfold stuck in Hns.
    destruct (igrun items ls) as [st m]. simpl in *.
    destruct st; try discriminate; rewrite igrun_env by auto; simpl; auto. }
  destruct Hc as [Hm Hst].
  assert (Hm2 : c_m (igrun items (ls ++ es)) = fold_left envstep es (c_m (igrun items ls))).
  { unfold igrun at 1. rewrite (runs_app_fst igstep). change (runs igstep) with igrun_from. fold (igrun items ls).
    destruct (igrun items ls) as [st m]. rewrite igrun_env by auto. reflexivity. }
  pose proof (proj1 (GR_world _ _ HR2)) as Hsrcs. rewrite Hm2, <- Hm in Hsrcs.
  split; [exact Hst|]. split.
  - rewrite Hsrcs, Ho. simpl nth.
    destruct (agen_items_full items (ls ++ es)) as [Hacc _].
    assert (Hg : gitems (gouts items (ls ++ es)) = gitems (gouts items ls)).
    { unfold gouts. rewrite (runs_app_snd gstep), gitems_app, (gitems_env es), app_nil_r by auto. reflexivity. }
    rewrite Hg in Hacc. exact Hacc.
  - unfold lost, ainfl. destruct (g_anext (grun items (ls ++ es))) as [| |[v|]|]; simpl; lia.
Qed.
