(** Tie of the hand-written model of [merge_aiters] (Model.v: [mstep]) to the
    regenerated body (Gen/AioFuns.v: [merge_aiters_body]) under the semantics of
    Interp.v ([imstep]): a simulation relation [MR] between model states and
    machine configurations, preserved by every label, with equal outputs.

    The model keeps, per source, WHERE its current `__anext__` task is ([loc]);
    the machine keeps the Python variables `tasks`, `done`, `task_map`, ... and a
    heap of tasks.  The relation says, with a ghost map [cur] from a source to
    its current task: a source is LPend/LDone exactly when its current task is
    in `tasks` (pending / done in the heap), LBatch exactly when it is in `done`;
    only current tasks can be pending; `task_map` knows the source of every task. *)
(** KIND OF OBLIGATION: pin + simulation of the pinned term.  The program points below are hand-copied;
    [merge_body_shape] pins the regenerated body to them by [reflexivity]; the simulation is about the pinned term.
    Any change of the AST of `merge_aiters`, behaviour-preserving or not, breaks the pin. *)
From NL Require Import Aio.Model Aio.Syntax Aio.Interp Gen.AioFuns Aio.Merge Aio.Agen Aio.TieBase.
From Coq Require Import Lia.
Local Notation length := List.length (only parsing).
Local Open Scope string_scope.
Local Open Scope list_scope.
Local Open Scope nat_scope.

Definition m_after_yield : stmt :=
  SSeq (SEnsureAnext "task" (EVar "aiter"))
  (SSeq (SAdd "tasks" (EVar "task"))
        (SSetItem "task_map" (EVar "task") (EVar "aiter"))).

Definition m_inner_body : stmt :=
  SSeq (SPop "task" "done")
  (SSeq (SResult "item" (EVar "task") (Some SContinue))
  (SSeq (SAssign "aiter" (EIndex (EVar "task_map") (EVar "task")))
  (SSeq (SYield None (EPair (EIndex (EVar "aiter_map") (EVar "aiter")) (EVar "item")))
        m_after_yield))).

Definition m_inner : stmt := SWhile (EVar "done") m_inner_body.

Definition m_outer_body : stmt :=
  SSeq (SWait "done" "pending" (EVar "tasks"))
  (SSeq (SMove "tasks" "pending")
        m_inner).

Definition m_outer : stmt := SWhile (EVar "tasks") m_outer_body.

Definition m_body : stmt :=
  SSeq (SAssign "aiter_map" (EEnumMap (EVar "aiters")))
  (SSeq (SArmAll "task_map" (EKeys (EVar "aiter_map")))
  (SSeq (SAssign "tasks" (ESetOf (EKeys (EVar "task_map"))))
        m_outer)).

Lemma merge_body_shape : merge_aiters_body = m_body.
Proof. reflexivity. Qed.
Lemma merge_vars_shape :
  merge_aiters_vars = ["aiters"; "aiter_map"; "task_map"; "tasks"; "done"; "pending"; "task"; "item"; "aiter"].
Proof. reflexivity. Qed.

Definition k_inner : list frame := [FWhile (EVar "tasks") m_outer_body].
(** suspended in `await asyncio.wait(tasks, ...)` *)
Definition k_mwait : list frame := FSeq (SSeq (SMove "tasks" "pending") m_inner) :: k_inner.
(** suspended at `yield aiter_map[aiter], item` *)
Definition k_myield : list frame := FSeq m_after_yield :: FWhile (EVar "done") m_inner_body :: k_inner.

Definition menv (n : nat) (tm : list (nat * nat)) (ts : list nat) (vd vp vt vi va : val) : env :=
  [("aiters", PySrcs (seq 0 n)); ("aiter_map", PySrcMap (combine (seq 0 n) (seq 0 n)));
   ("task_map", PyTaskMap tm); ("tasks", PySet (mkS ts [])); ("done", vd); ("pending", vp);
   ("task", vt); ("item", vi); ("aiter", va)].

Record MI (ss : list srcst) (heap : list (nat * anst)) (tm : list (nat * nat)) (ts ds : list nat)
          (cur : nat -> nat) : Prop := mkMI {
  mi_tm : forall t i s, nth_error heap t = Some (i, s) -> lookup tm t = Some i;
  mi_ts : forall t, In t ts <-> exists i s, nth_error ss i = Some s /\ in_tasks s = true /\ t = cur i;
  mi_ds : forall t, In t ds <-> exists i s r, nth_error ss i = Some s /\ snd s = LBatch r /\ t = cur i;
  mi_cur : forall i s, nth_error ss i = Some s ->
           match snd s with
           | LPend => nth_error heap (cur i) = Some (i, AnPend)
           | LDone r | LBatch r => nth_error heap (cur i) = Some (i, AnRes r)
           | LIdle => False
           | _ => True
           end;
  mi_pend : forall t i, nth_error heap t = Some (i, AnPend) ->
            exists s, nth_error ss i = Some s /\ snd s = LPend /\ t = cur i
}.

Definition mworld (ss : list srcst) (heap : list (nat * anst)) : world := mkW (map fst ss) heap [].

Definition MR (st : mstate) (c : cfg) : Prop :=
  let ss := m_srcs st in
  let n := length ss in
  let m := c_m c in
  match m_phase st with
  | MFresh =>
    c_st c = StFresh m_body /\
    i_env m = set (init_env merge_aiters_vars) "aiters" (PySrcs (seq 0 n)) /\
    i_w m = mworld ss [] /\ (forall s, In s ss -> snd s = LIdle)
  | MWait =>
    exists heap tm ts cur vd vp vt vi va,
      c_st c = StWait "done" "pending" (mkS ts []) k_mwait /\
      i_env m = menv n tm ts vd vp vt vi va /\ i_w m = mworld ss heap /\
      MI ss heap tm ts [] cur /\ noY ss
  | MYield =>
    exists heap tm ts ds cur vp vt vi i0 rest,
      c_st c = StYield None k_myield /\
      i_env m = menv n tm ts (PySet (mkS ds [])) vp vt vi (PySrc i0) /\ i_w m = mworld ss heap /\
      i_ord m = m_order st /\
      MI ss heap tm ts ds cur /\
      nth_error ss i0 = Some (rest, LYielded) /\
      (forall j s, nth_error ss j = Some s -> snd s = LYielded -> j = i0) /\
      covered ss (m_order st)
  | MFin =>
    exists heap,
      c_st c = StFinished /\ i_w m = mworld ss heap /\
      (forall s, In s ss -> snd s <> LPend) /\
      (forall t i, nth_error heap t <> Some (i, AnPend))
  end.

Lemma MR_state st c :
  MR st c ->
  (exists heap, i_w (c_m c) = mworld (m_srcs st) heap /\
     forall t i, nth_error heap t = Some (i, AnPend) -> exists s, nth_error (m_srcs st) i = Some s /\ snd s = LPend) /\
  match m_phase st, c_st c with
  | MFresh, StFresh _ | MWait, StWait _ _ _ _ | MYield, StYield _ _ | MFin, StFinished => True
  | _, _ => False
  end.
Proof.
  unfold MR. destruct (m_phase st).
  - intros (-> & _ & -> & _). split; auto. exists []. split; auto. intros [|t]; discriminate.
  - intros (heap & tm & ts & cur & vd & vp & vt & vi & va & -> & _ & -> & HI & _). split; auto. exists heap. split; auto.
    intros t i Ht. destruct (mi_pend _ _ _ _ _ _ HI _ _ Ht) as (s & ? & ? & _); eauto.
  - intros (heap & tm & ts & ds & cur & vp & vt & vi & i0 & rest & -> & _ & -> & _ & HI & _). split; auto.
    exists heap. split; auto. intros t i Ht. destruct (mi_pend _ _ _ _ _ _ HI _ _ Ht) as (s & ? & ? & _); eauto.
  - intros (heap & -> & -> & _ & Hp). split; auto. exists heap. split; auto. intros t i Ht. destruct (Hp _ _ Ht).
Qed.

Definition live (l : loc) : bool := match l with LPend | LDone _ | LBatch _ => true | _ => false end.

Lemma MI_heap_cur ss heap tm ts ds cur i s :
  MI ss heap tm ts ds cur -> nth_error ss i = Some s -> live (snd s) = true ->
  exists a, nth_error heap (cur i) = Some (i, a).
Proof.
  intros HI Hs Hl. pose proof (mi_cur _ _ _ _ _ _ HI _ _ Hs) as H.
  destruct (snd s); try discriminate; eauto.
Qed.

Lemma MI_cur_inj ss heap tm ts ds cur i j s s' :
  MI ss heap tm ts ds cur -> nth_error ss i = Some s -> nth_error ss j = Some s' ->
  live (snd s) = true -> live (snd s') = true -> cur i = cur j -> i = j.
Proof.
  intros HI Hs Hs' Hl Hl' He.
  destruct (MI_heap_cur _ _ _ _ _ _ _ _ HI Hs Hl) as [a Ha].
  destruct (MI_heap_cur _ _ _ _ _ _ _ _ HI Hs' Hl') as [b Hb].
  rewrite He in Ha. rewrite Ha in Hb. inversion Hb. auto.
Qed.

Lemma complete_pend rest0 :
  complete (rest0, LPend) = (fst (src_complete rest0), LDone (snd (src_complete rest0))).
Proof. destruct rest0; reflexivity. Qed.

Lemma complete_idle s : snd s <> LPend -> complete s = s.
Proof. destruct s as [[|v r] l]; destruct l; simpl; auto; intros H; contradiction H; reflexivity. Qed.

Lemma MI_complete ss heap tm ts ds cur i rest0 :
  MI ss heap tm ts ds cur -> nth_error ss i = Some (rest0, LPend) ->
  let rest' := fst (src_complete rest0) in
  let r := snd (src_complete rest0) in
  complete_src (mworld ss heap) i = mworld (upd ss i (rest', LDone r)) (upd heap (cur i) (i, AnRes r)) /\
  MI (upd ss i (rest', LDone r)) (upd heap (cur i) (i, AnRes r)) tm ts ds cur.
Proof.
  intros HI Hs rest' r.
  pose proof (mi_cur _ _ _ _ _ _ HI _ _ Hs) as Hc. simpl in Hc.
  split.
  - rewrite (complete_src_pend _ i (cur i)); unfold mworld; cbn [w_an w_srcs w_ext].
    + rewrite (nth_map_fst _ _ _ _ Hs), map_upd. reflexivity.
    + exact Hc.
    + intros t Ht. destruct (mi_pend _ _ _ _ _ _ HI _ _ Ht) as (s & Hs' & _ & ->). reflexivity.
  - pose proof HI as [Htm Hts Hds Hcur Hpend]. constructor.
    + intros t j s Ht. destruct (nth_error_upd_inv _ _ _ _ _ Ht) as [[-> E]|[_ Ht']]; [inversion E; subst j|]; eauto.
    + intros t. rewrite Hts. split; intros (j & s & Hj & Hin & ->).
      * destruct (Nat.eq_dec j i) as [->|Hne].
        -- exists i, (rest', LDone r). rewrite (nth_error_upd_eq _ _ _ _ Hs). auto.
        -- exists j, s. auto using nth_error_upd_other.
      * destruct (nth_error_upd_inv _ _ _ _ _ Hj) as [[-> ->]|[_ Hj']]; [exists i, (rest0, LPend) | exists j, s]; auto.
    + intros t. rewrite Hds. split; intros (j & s & r0 & Hj & Hl & ->).
      * exists j, s, r0. split; auto. apply nth_error_upd_other; auto.
        intros ->. rewrite Hs in Hj. inversion Hj; subst; discriminate.
      * destruct (nth_error_upd_inv _ _ _ _ _ Hj) as [[-> ->]|[_ Hj']]; [discriminate | exists j, s, r0; auto].
    + intros j s Hj. destruct (nth_error_upd_inv _ _ _ _ _ Hj) as [[-> ->]|[Hne Hj']].
      * simpl. eapply nth_error_upd_eq; eauto.
      * pose proof (Hcur _ _ Hj') as Hcj.
        assert (Hd : live (snd s) = true -> cur i <> cur j).
        { intros Hl He. apply Hne. symmetry. eapply (MI_cur_inj _ _ _ _ _ _ i j _ s HI Hs Hj'); auto. }
        destruct (snd s); auto; rewrite nth_error_upd_neq by (apply Hd; reflexivity); auto.
    + intros t j Ht. destruct (nth_error_upd_inv _ _ _ _ _ Ht) as [[_ ?]|[Hne Ht']]; [discriminate|].
      destruct (Hpend _ _ Ht') as (s & Hj & Hl & ->). exists s. split; auto.
      apply nth_error_upd_other; auto.
Qed.

Definition MSIM (st : mstate) (c : cfg) (l : mlabel) : Prop :=
  snd (imstep c l) = snd (mstep st l) /\ MR (fst (mstep st l)) (fst (imstep c l)).

Lemma mstep_complete_idle st i :
  (forall s, nth_error (m_srcs st) i = Some s -> snd s <> LPend) -> mstep st (MComplete i) = (st, ([], VNone)).
Proof.
  intros H. simpl. destruct (nth_error (m_srcs st) i) as [s|] eqn:E; auto.
  rewrite (complete_idle s (H s eq_refl)), (upd_same _ _ _ E). destruct st; reflexivity.
Qed.

Lemma msim_complete_idle st c i :
  MR st c -> (forall s, nth_error (m_srcs st) i = Some s -> snd s <> LPend) -> MSIM st c (MComplete i).
Proof.
  intros H Hn. unfold MSIM.
  rewrite mstep_complete_idle by auto.
  cbn [imstep fst snd]. split; [reflexivity|].
  destruct (MR_state _ _ H) as [(heap & Hw & Hp) _].
  rewrite complete_src_none, setw_same; [destruct c; exact H|].
  rewrite Hw. intros t Ht. destruct (Hp _ _ Ht) as (s & Hs & Hl). exact (Hn s Hs Hl).
Qed.

Lemma msim_complete st c i : MR st c -> MSIM st c (MComplete i).
Proof.
  intros H.
  destruct (nth_error (m_srcs st) i) as [[rest0 l0]|] eqn:Es;
    [|apply msim_complete_idle; auto; intros s Hs; congruence].
  destruct l0; try (apply msim_complete_idle; auto; intros s Hs; rewrite Es in Hs; inversion Hs; subst; discriminate).
  unfold MSIM. cbn [mstep imstep fst snd]. rewrite Es, complete_pend. cbn [fst snd]. split; [reflexivity|].
  destruct st as [ph ss order]. destruct c as [cst [e w o]]. unfold MR in *. cbn [m_phase m_srcs m_order c_m c_st i_env i_w i_ord setw] in *.
  set (rest' := fst (src_complete rest0)). set (r := snd (src_complete rest0)).
  assert (Hnth : forall j, j <> i -> nth_error (upd ss i (rest', LDone r)) j = nth_error ss j)
    by (intros j Hj; apply nth_error_upd_neq; auto).
  destruct ph.
  - destruct H as (_ & _ & _ & Hidle). specialize (Hidle _ (nth_error_In _ _ Es)). discriminate.
  - destruct H as (heap & tm & ts & cur & vd & vp & vt & vi & va & Hst & He & Hw & HI & HnY).
    destruct (MI_complete _ _ _ _ _ _ _ _ HI Es) as [Hc HI']. fold rest' r in Hc, HI'.
    exists (upd heap (cur i) (i, AnRes r)), tm, ts, cur, vd, vp, vt, vi, va.
    rewrite length_upd. subst w. rewrite Hc.
    split; [exact Hst|]. split; [exact He|]. split; [reflexivity|]. split; [exact HI'|].
    apply noY_upd; [exact HnY | discriminate].
  - destruct H as (heap & tm & ts & ds & cur & vp & vt & vi & i0 & rest & Hst & He & Hw & Ho & HI & Hy & Hyu & Hcov).
    destruct (MI_complete _ _ _ _ _ _ _ _ HI Es) as [Hc HI']. fold rest' r in Hc, HI'.
    assert (Hne : i0 <> i) by (intros ->; rewrite Es in Hy; discriminate).
    exists (upd heap (cur i) (i, AnRes r)), tm, ts, ds, cur, vp, vt, vi, i0, rest.
    rewrite length_upd. subst w. rewrite Hc.
    split; [exact Hst|]. split; [exact He|]. split; [reflexivity|]. split; [exact Ho|]. split; [exact HI'|].
    split; [|split].
    + rewrite Hnth; auto.
    + intros j s Hj Hl. destruct (nth_error_upd_inv _ _ _ _ _ Hj) as [[_ ->]|[_ Hj']]; [discriminate | eauto].
    + apply covered_upd; [discriminate|]. intros j s r0 Hj Hl. right. eauto.
  - destruct H as (heap & _ & _ & Hnp & _). exfalso. apply (Hnp _ (nth_error_In _ _ Es)). reflexivity.
Qed.

Lemma pop_by_found w skipped i r ds c :
  (forall j, In j skipped -> forall t, In t ds -> owner w t <> Some j) ->
  In c ds -> owner w c = Some i -> (forall t, In t ds -> owner w t = Some i -> t = c) ->
  pop_by w (skipped ++ i :: r) ds = Some (c, r).
Proof.
  intros Hsk Hin Hc Hu. induction skipped as [|j sk IH]; simpl.
  - rewrite (find_unique _ ds c); auto.
    + rewrite Hc. apply Nat.eqb_refl.
    + intros t Ht Hf. apply Hu; auto. destruct (owner w t) as [k|]; [|discriminate].
      apply Nat.eqb_eq in Hf. subst; reflexivity.
  - rewrite find_none_all.
    + apply IH. intros j' Hj'. apply Hsk. right; auto.
    + intros t Ht. specialize (Hsk j (or_introl eq_refl) t Ht).
      destruct (owner w t) as [k|]; auto. destruct (Nat.eqb_spec k j); auto. subst. contradiction Hsk; reflexivity.
Qed.

Lemma MI_owner ss heap tm ts ds cur i s :
  MI ss heap tm ts ds cur -> nth_error ss i = Some s -> live (snd s) = true ->
  owner (mworld ss heap) (cur i) = Some i.
Proof.
  intros HI Hs Hl. destruct (MI_heap_cur _ _ _ _ _ _ _ _ HI Hs Hl) as [a Ha].
  unfold owner, mworld. cbn [w_an]. rewrite Ha. reflexivity.
Qed.

Lemma MI_pop ss heap tm ts ds cur i rest r0 l' :
  MI ss heap tm ts ds cur -> nth_error ss i = Some (rest, LBatch r0) -> l' = LDropped \/ l' = LYielded ->
  MI (upd ss i (rest, l')) heap tm ts (minus ds [cur i]) cur.
Proof.
  intros HI Hs Hl'. pose proof HI as [Htm Hts Hds Hcur Hpend].
  assert (Hnl : forall r, l' <> LBatch r) by (intros r; destruct Hl' as [->| ->]; discriminate).
  assert (Hnt : in_tasks (rest, l') = false) by (destruct Hl' as [->| ->]; reflexivity).
  constructor; auto.
  - intros t. rewrite Hts. split; intros (j & s & Hj & Hin & ->).
    + exists j, s. split; auto. apply nth_error_upd_other; auto.
      intros ->. rewrite Hs in Hj. inversion Hj; subst; discriminate.
    + destruct (nth_error_upd_inv _ _ _ _ _ Hj) as [[-> ->]|[_ Hj']]; [congruence | exists j, s; auto].
  - intros t. rewrite In_minus_single, Hds. split.
    + intros [(j & s & r & Hj & Hl & ->) Hne]. exists j, s, r. split; auto.
      apply nth_error_upd_other; auto.
    + intros (j & s & r & Hj & Hl & ->).
      destruct (nth_error_upd_inv _ _ _ _ _ Hj) as [[-> ->]|[Hne Hj']]; [exfalso; exact (Hnl _ Hl)|].
      split; [exists j, s, r; auto|]. intros He. apply Hne.
      eapply (MI_cur_inj _ _ _ _ _ _ j i _ _ HI Hj' Hs); auto. rewrite Hl; reflexivity.
  - intros j s Hj. destruct (nth_error_upd_inv _ _ _ _ _ Hj) as [[-> ->]|[_ Hj']];
      [destruct Hl' as [->| ->]; exact I | apply Hcur; auto].
  - intros t j Ht. destruct (Hpend _ _ Ht) as (s & Hj & Hl & ->). exists s. split; auto.
    apply nth_error_upd_other; auto. intros ->. rewrite Hs in Hj. inversion Hj; subst; discriminate.
Qed.

Lemma mworld_upd_loc ss heap i rest l l' :
  nth_error ss i = Some (rest, l) -> mworld (upd ss i (rest, l')) heap = mworld ss heap.
Proof.
  intros E. unfold mworld. rewrite map_upd. simpl fst.
  rewrite (upd_same (map fst ss) i rest); auto. rewrite nth_error_map, E. reflexivity.
Qed.

(** under the invariant `done.pop()` returns the current task of the first source of the order
    that is in the batch *)
Lemma MI_pop_by ss heap tm ts ds cur skipped i r rest r0 :
  MI ss heap tm ts ds cur ->
  (forall j, In j skipped -> forall rest r0, nth_error ss j <> Some (rest, LBatch r0)) ->
  nth_error ss i = Some (rest, LBatch r0) ->
  pop_by (mworld ss heap) (skipped ++ i :: r) ds = Some (cur i, r).
Proof.
  intros HI Hsk Ei.
  assert (Hown : forall t, In t ds -> exists j s r1, nth_error ss j = Some s /\ snd s = LBatch r1 /\
                                       t = cur j /\ owner (mworld ss heap) t = Some j).
  { intros t Ht. destruct (proj1 (mi_ds _ _ _ _ _ _ HI t) Ht) as (j & s & r1 & Hj & Hl & ->).
    exists j, s, r1. repeat split; auto. eapply MI_owner; eauto. rewrite Hl; reflexivity. }
  apply pop_by_found.
  - intros j Hj t Ht Ho. destruct (Hown t Ht) as (j' & s & r1 & Hj' & Hl & -> & Ho').
    rewrite Ho' in Ho. inversion Ho; subst j'. destruct s as [a b]; simpl in Hl; subst.
    eapply Hsk; eauto.
  - apply (mi_ds _ _ _ _ _ _ HI). exists i, (rest, LBatch r0), r0. auto.
  - eapply MI_owner; eauto.
  - intros t Ht Ho. destruct (Hown t Ht) as (j' & s & r1 & Hj' & Hl & -> & Ho').
    rewrite Ho' in Ho. inversion Ho; subst j'. reflexivity.
Qed.

Lemma inner_exit n tm ts vp vt vi va w ord f :
  run (5 + f) m_inner k_inner (mkMach (menv n tm ts (PySet (mkS [] [])) vp vt vi va) w ord) =
  (if is_nil ts then OFinished else OWait "done" "pending" (mkS ts []) k_mwait)
    (mkMach (menv n tm ts (PySet (mkS [] [])) vp vt vi va) w ord).
Proof.
  simpl Nat.add. unfold m_inner, k_inner. step. step.
  destruct ts as [|t ts']; [reflexivity|].
  unfold sis_empty. cbn [s_an s_ext is_nil andb negb]. simpl runo.
  unfold m_outer_body. step. step. reflexivity.
Qed.

Lemma inner_iter n tm ts ds vp vt vi va w ord c r i r0 f :
  pop_by w ord ds = Some (c, r) -> nth_error (w_an w) c = Some (i, AnRes r0) ->
  lookup tm c = Some i -> i < n -> In c ds ->
  run (9 + f) m_inner k_inner (mkMach (menv n tm ts (PySet (mkS ds [])) vp vt vi va) w ord) =
  match r0 with
  | RItem v =>
    OYield None (PyPair (PyIdx i) (PyItem v)) k_myield
      (mkMach (menv n tm ts (PySet (mkS (minus ds [c]) [])) vp (PyTask (TAn c)) (PyItem v) (PySrc i)) w r)
  | RStop =>
    run (3 + f) m_inner k_inner
      (mkMach (menv n tm ts (PySet (mkS (minus ds [c]) [])) vp (PyTask (TAn c)) vi va) w r)
  end.
Proof.
  intros Hpop Hc Htm Hi Hin.
  assert (Hnil : is_nil ds = false) by (destruct ds; [contradiction | reflexivity]).
  simpl Nat.add. unfold m_inner, k_inner. step.
  unfold sis_empty. cbn [s_an s_ext is_nil]. rewrite Hnil. cbn [andb negb]. simpl runo.
  unfold m_inner_body at 1 3. step. step. rewrite Hpop. simpl runo. step. step.
  rewrite Hc.
  destruct r0 as [v|].
  - step. step. rewrite Htm. simpl runo. step. step.
    pose proof (lookup_enum n 0 i Hi) as Henum. simpl in Henum. rewrite Henum. reflexivity.
  - step. reflexivity.
Qed.

Definition msim_out (p : mstate * vis) (o : outcome) : Prop := mvis o = snd p /\ MR (fst p) (cfg_of o).

Lemma MI_tasks_nil ss heap tm ts ds cur :
  MI ss heap tm ts ds cur -> is_nil ts = negb (existsb in_tasks ss).
Proof.
  intros HI. destruct ts as [|t ts'].
  - simpl. destruct (existsb in_tasks ss) eqn:E; auto.
    apply existsb_exists in E. destruct E as (s & Hs & Hin). apply In_nth_error in Hs. destruct Hs as [i Hi].
    exfalso. apply (proj2 (mi_ts _ _ _ _ _ _ HI (cur i))). eauto.
  - simpl. destruct (proj1 (mi_ts _ _ _ _ _ _ HI t) (or_introl eq_refl)) as (i & s & Hi & Hin & _).
    assert (E : existsb in_tasks ss = true) by (apply existsb_exists; exists s; split; eauto using nth_error_In).
    rewrite E. reflexivity.
Qed.

Lemma settle_skip ss i r :
  (forall rest r0, nth_error ss i <> Some (rest, LBatch r0)) -> settle ss (i :: r) = settle ss r.
Proof.
  intros H. unfold settle. rewrite process_skip by auto. reflexivity.
Qed.

(** [skipped]: the part of the label's order already passed over by `pop` *)
Lemma settle_sim_from n : forall order skipped ss heap tm ts ds cur vp vt vi va fuel,
  n = length ss ->
  MI ss heap tm ts ds cur -> noY ss -> covered ss order ->
  (forall j, In j skipped -> forall rest r0, nth_error ss j <> Some (rest, LBatch r0)) ->
  fuel >= 8 * length ds + 12 ->
  msim_out (settle ss order)
    (run fuel m_inner k_inner
       (mkMach (menv n tm ts (PySet (mkS ds [])) vp vt vi va) (mworld ss heap) (skipped ++ order))).
Proof.
  induction order as [|i r IH]; intros skipped ss heap tm ts ds cur vp vt vi va fuel Hn HI HnY Hcov Hsk Hf.
  - (* the order is exhausted: `done` is empty *)
    assert (ds = []).
    { destruct ds as [|t ds']; auto. exfalso.
      destruct (proj1 (mi_ds _ _ _ _ _ _ HI t) (or_introl eq_refl)) as (j & s & r0 & Hj & Hl & _).
      apply (Hcov _ _ _ Hj Hl). }
    subst ds. destruct (fuel_split fuel 5 ltac:(simpl in Hf; lia)) as [f ->]. rewrite inner_exit.
    unfold msim_out, settle. simpl process. rewrite (MI_tasks_nil _ _ _ _ _ _ HI).
    destruct (existsb in_tasks ss) eqn:E; cbn [negb fst snd cfg_of mvis]; (split; [reflexivity|]);
      unfold MR; cbn [m_phase m_srcs c_st c_m i_env i_w].
    + (* tasks left: back to asyncio.wait *)
      rewrite <- Hn. exists heap, tm, ts, cur, (PySet (mkS [] [])), vp, vt, vi, va. auto.
    + (* no task left: the generator ends *)
      assert (Hnp : forall s, In s ss -> snd s <> LPend).
      { intros s Hs Hl. assert (existsb in_tasks ss = true); [|congruence].
        apply existsb_exists. exists s. split; auto. unfold in_tasks. rewrite Hl. reflexivity. }
      exists heap. split; [reflexivity|]. split; [reflexivity|]. split; [exact Hnp|].
      intros t j Ht. destruct (mi_pend _ _ _ _ _ _ HI _ _ Ht) as (s & Hs & Hl & _).
      exact (Hnp s (nth_error_In _ _ Hs) Hl).
  - destruct (batch_dec ss i) as [(rest & r0 & Ei) | Hnb].
    2: { (* source i has nothing in `done`: the pop order moves on *)
      rewrite settle_skip by auto.
      replace (skipped ++ i :: r) with ((skipped ++ [i]) ++ r) by (rewrite <- app_assoc; reflexivity).
      apply (IH (skipped ++ [i]) ss heap tm ts ds cur vp vt vi va fuel); auto.
      - intros j s r1 Hj Hl. destruct (Hcov j s r1 Hj Hl) as [<-|]; auto.
        exfalso. destruct s as [a b]; simpl in Hl; subst. eapply Hnb; eauto.
      - intros j Hj. apply in_app_or in Hj. destruct Hj as [Hj|[<-|[]]]; auto. }
    (* source i has its task in `done`: it is the one popped *)
    pose proof (mi_cur _ _ _ _ _ _ HI _ _ Ei) as Hci. simpl in Hci.
    assert (Hin : In (cur i) ds) by (apply (mi_ds _ _ _ _ _ _ HI); exists i, (rest, LBatch r0), r0; auto).
    pose proof (minus_single_lt _ _ Hin) as Hlt.
    destruct (fuel_split fuel 9 ltac:(lia)) as [f ->].
    rewrite (inner_iter n tm ts ds vp vt vi va (mworld ss heap) (skipped ++ i :: r) (cur i) r i r0 f);
      [| eapply MI_pop_by; eauto | exact Hci | eapply mi_tm; eauto
       | subst n; apply nth_error_Some; congruence | exact Hin].
    unfold settle. simpl process. rewrite Ei.
    assert (Hcov' : forall l', (forall r1, l' <> LBatch r1) -> covered (upd ss i (rest, l')) r)
      by (intros l' Hl'; apply covered_upd; auto).
    destruct r0 as [v|].
    + (* an item: suspended at the yield *)
      split; [reflexivity|].
      unfold MR. cbn [fst m_phase m_srcs m_order cfg_of c_st c_m]. rewrite length_upd, <- Hn.
      exists heap, tm, ts, (minus ds [cur i]), cur, vp, (PyTask (TAn (cur i))), (PyItem v), i, rest.
      split; [reflexivity|]. split; [reflexivity|].
      split; [simpl; rewrite (mworld_upd_loc _ _ _ _ _ _ Ei); reflexivity|]. split; [reflexivity|].
      split; [eapply MI_pop; eauto|].
      split; [eapply nth_error_upd_eq; eauto|]. split.
      * intros j s Hj Hl. destruct (nth_error_upd_inv _ _ _ _ _ Hj) as [[-> _]|[_ Hj']]; auto.
        exfalso. eapply HnY; eauto using nth_error_In.
      * apply Hcov'. discriminate.
    + (* StopAsyncIteration: continue *)
      rewrite <- (mworld_upd_loc ss heap i rest _ LDropped Ei).
      apply (IH [] (upd ss i (rest, LDropped)) heap tm ts (minus ds [cur i]) cur vp (PyTask (TAn (cur i))) vi va).
      * rewrite length_upd. auto.
      * eapply MI_pop; eauto.
      * apply noY_upd; [exact HnY | discriminate].
      * apply Hcov'. discriminate.
      * intros j [].
      * lia.
Qed.

Corollary settle_sim n ss heap tm ts ds cur vp vt vi va order fuel :
  n = length ss ->
  MI ss heap tm ts ds cur -> noY ss -> covered ss order ->
  fuel >= 8 * length ds + 12 ->
  msim_out (settle ss order)
    (run fuel m_inner k_inner (mkMach (menv n tm ts (PySet (mkS ds [])) vp vt vi va) (mworld ss heap) order)).
Proof. intros. apply (settle_sim_from n order [] ss heap tm ts ds cur); auto. Qed.

Lemma rearm_nth ss i0 rest j :
  nth_error ss i0 = Some (rest, LYielded) ->
  (forall j s, nth_error ss j = Some s -> snd s = LYielded -> j = i0) ->
  nth_error (map rearm ss) j = if j =? i0 then Some (rest, LPend) else nth_error ss j.
Proof.
  intros Hy Hu. rewrite nth_error_map. destruct (Nat.eqb_spec j i0) as [->|Hne].
  - rewrite Hy. reflexivity.
  - destruct (nth_error ss j) as [[a l]|] eqn:E; auto. simpl. unfold rearm. simpl.
    destruct l; auto. exfalso. apply Hne. eapply Hu; eauto.
Qed.

Lemma MI_rearm ss heap tm ts ds cur i0 rest :
  MI ss heap tm ts ds cur -> nth_error ss i0 = Some (rest, LYielded) ->
  (forall j s, nth_error ss j = Some s -> snd s = LYielded -> j = i0) ->
  MI (map rearm ss) (heap ++ [(i0, AnPend)]) ((length heap, i0) :: tm) (union ts [length heap]) ds
     (fun j => if j =? i0 then length heap else cur j).
Proof.
  intros HI Hy Hu. pose proof HI as [Htm Hts Hds Hcur Hpend].
  pose proof (rearm_nth ss i0 rest) as Hnth.
  constructor.
  - intros t j s Ht. simpl. apply nth_error_snoc_cases in Ht. destruct Ht as [[Hlt Ht]|[-> Hx]].
    + destruct (Nat.eqb_spec t (length heap)); [lia|]. eapply Htm; eauto.
    + inversion Hx; subst. rewrite Nat.eqb_refl. reflexivity.
  - intros t. rewrite In_union. split.
    + intros [Ht|[<-|[]]].
      * destruct (proj1 (Hts t) Ht) as (j & s & Hj & Hin & ->).
        assert (j <> i0) by (intros ->; rewrite Hy in Hj; inversion Hj; subst; discriminate).
        exists j, s. rewrite Hnth by auto. destruct (Nat.eqb_spec j i0); [contradiction|]. auto.
      * exists i0, (rest, LPend). rewrite Hnth by auto. rewrite Nat.eqb_refl. auto.
    + intros (j & s & Hj & Hin & ->). rewrite Hnth in Hj by auto.
      destruct (Nat.eqb_spec j i0) as [->|Hne]; [right; left; reflexivity|].
      left. apply Hts. eauto.
  - intros t. rewrite Hds. split; intros (j & s & r & Hj & Hl & ->).
    + assert (j <> i0) by (intros ->; rewrite Hy in Hj; inversion Hj; subst; discriminate).
      exists j, s, r. rewrite Hnth by auto. destruct (Nat.eqb_spec j i0); [contradiction|]. auto.
    + rewrite Hnth in Hj by auto. destruct (Nat.eqb_spec j i0) as [->|Hne].
      * inversion Hj; subst; discriminate.
      * exists j, s, r. auto.
  - intros j s Hj. rewrite Hnth in Hj by auto. destruct (Nat.eqb_spec j i0) as [->|Hne].
    + inversion Hj; subst. simpl. apply nth_error_snoc_last.
    + pose proof (Hcur _ _ Hj) as Hc. destruct (snd s); auto; apply nth_error_app_keep; auto.
  - intros t j Ht. apply nth_error_snoc_cases in Ht. destruct Ht as [[Hlt Ht]|[-> Hx]].
    + destruct (Hpend _ _ Ht) as (s & Hj & Hl & ->).
      assert (j <> i0) by (intros ->; rewrite Hy in Hj; inversion Hj; subst; simpl in Hl; discriminate).
      exists s. rewrite Hnth by auto. destruct (Nat.eqb_spec j i0); [contradiction|]. auto.
    + inversion Hx; subst. exists (rest, LPend). rewrite Hnth by auto. rewrite Nat.eqb_refl. auto.
Qed.

Lemma nth_error_seq_some b n t x : nth_error (seq b n) t = Some x -> x = b + t /\ t < n.
Proof.
  revert b t. induction n as [|n IH]; intros b [|t]; simpl; intros H; try discriminate.
  - inversion H. split; lia.
  - destruct (IH _ _ H). split; lia.
Qed.

Lemma nth_error_seq_lt b n t : t < n -> nth_error (seq b n) t = Some (b + t).
Proof.
  revert b t. induction n as [|n IH]; intros b [|t] H; simpl; try lia.
  - f_equal. lia.
  - rewrite IH by lia. f_equal. lia.
Qed.

Definition heap0 (n : nat) : list (nat * anst) := map (fun a => (a, AnPend)) (seq 0 n).

Lemma heap0_nth n t i s : nth_error (heap0 n) t = Some (i, s) -> i = t /\ t < n.
Proof.
  unfold heap0. rewrite nth_error_map. destruct (nth_error (seq 0 n) t) as [x|] eqn:E; simpl; [|discriminate].
  intros H. inversion H; subst. apply nth_error_seq_some in E. simpl in E. destruct E. subst. auto.
Qed.

Lemma heap0_lt n t : t < n -> nth_error (heap0 n) t = Some (t, AnPend).
Proof. intros H. unfold heap0. rewrite nth_error_map, nth_error_seq_lt by auto. reflexivity. Qed.

Lemma MI_start ss :
  MI (map arm ss) (heap0 (length ss)) (combine (seq 0 (length ss)) (seq 0 (length ss))) (seq 0 (length ss)) []
     (fun j => j).
Proof.
  set (n := length ss).
  assert (Harm : forall j s, nth_error (map arm ss) j = Some s -> snd s = LPend /\ in_tasks s = true /\ j < n).
  { intros j s Hj. assert (j < n) by (unfold n; rewrite <- (map_length arm); apply nth_error_Some; congruence).
    rewrite nth_error_map in Hj. destruct (nth_error ss j); inversion Hj; subst. auto. }
  assert (Hex : forall j, j < n -> exists s, nth_error (map arm ss) j = Some s).
  { intros j Hj. destruct (nth_error (map arm ss) j) eqn:E; eauto.
    apply nth_error_None in E. rewrite map_length in E. unfold n in Hj. lia. }
  constructor.
  - intros t i s Ht. apply heap0_nth in Ht. destruct Ht as (-> & Hlt). apply (lookup_enum n 0 t Hlt).
  - intros t. rewrite in_seq. split.
    + intros [_ Hlt]. destruct (Hex t Hlt) as [s Hs]. exists t, s. destruct (Harm _ _ Hs) as (_ & ? & _). auto.
    + intros (j & s & Hj & _ & ->). destruct (Harm _ _ Hj) as (_ & _ & ?). lia.
  - intros t. split; [intros []|]. intros (j & s & r & Hj & Hl & _). destruct (Harm _ _ Hj) as (Hp & _). congruence.
  - intros j s Hj. destruct (Harm _ _ Hj) as (-> & _ & Hlt). apply heap0_lt; auto.
  - intros t i Ht. apply heap0_nth in Ht. destruct Ht as (-> & Hlt).
    destruct (Hex t Hlt) as [s Hs]. exists s. destruct (Harm _ _ Hs) as (? & _). auto.
Qed.

Lemma start_run ss o :
  let n := length ss in
  go m_body [] (mkMach (set (init_env merge_aiters_vars) "aiters" (PySrcs (seq 0 n))) (mworld ss []) o) =
  if is_nil ss then
    OFinished (mkMach (menv n (combine (seq 0 n) (seq 0 n)) (seq 0 n) PyUndef PyUndef PyUndef PyUndef PyUndef)
                      (mworld ss (heap0 n)) o)
  else
    OWait "done" "pending" (mkS (seq 0 n) []) k_mwait
      (mkMach (menv n (combine (seq 0 n) (seq 0 n)) (seq 0 n) PyUndef PyUndef PyUndef PyUndef PyUndef)
              (mworld ss (heap0 n)) o).
Proof.
  intros n. fuel 12. unfold m_body. step. step. rewrite seq_length.
  step. step. rewrite !map_fst_combine, !seq_length. simpl length. simpl app.
  step. step. rewrite !map_fst_combine, (union_nil_sorted _ (seq_sorted n 0)).
  unfold m_outer. step.
  destruct ss as [|s0 ss']; [reflexivity|].
  cbn [is_nil]. subst n. simpl length. simpl seq. unfold sis_empty. cbn [s_an s_ext is_nil andb negb]. simpl runo.
  unfold m_outer_body. step. step. reflexivity.
Qed.

Lemma env_size_menv n tm ts ds vp vt vi va :
  env_size (menv n tm ts (PySet (mkS ds [])) vp vt vi va) >= length ds.
Proof.
  pose proof (env_size_get (menv n tm ts (PySet (mkS ds [])) vp vt vi va) "done" (mkS ds []) eq_refl) as H.
  unfold ssize in H. cbn [s_an s_ext List.length] in H. lia.
Qed.

Lemma resume_run n tm ts ds vp vt vi i0 w o :
  exists f, f >= 8 * length ds + 12 /\
  go SSkip k_myield (mkMach (menv n tm ts (PySet (mkS ds [])) vp vt vi (PySrc i0)) w o) =
  run f m_inner k_inner
    (mkMach (menv n ((length (w_an w), i0) :: tm) (union ts [length (w_an w)]) (PySet (mkS ds []))
                  vp (PyTask (TAn (length (w_an w)))) vi (PySrc i0))
            (arm_world w i0) o).
Proof.
  pose proof (env_size_menv n tm ts ds vp vt vi (PySrc i0)) as He.
  destruct (go_split SSkip k_myield (mkMach (menv n tm ts (PySet (mkS ds [])) vp vt vi (PySrc i0)) w o)
                     6 (8 * length ds + 12)) as (f & Hf & ->); [unfold fuel_of; cbn [i_env i_ord]; lia|].
  exists f. split; [exact Hf|]. simpl Nat.add.
  unfold k_myield, m_after_yield. step. step. step. step. step. step.
  reflexivity.
Qed.

Lemma map_fst_arm ss : map fst (map arm ss) = map fst ss.
Proof. rewrite map_map. apply map_ext. intros [a l]; reflexivity. Qed.
Lemma map_fst_rearm ss : map fst (map rearm ss) = map fst ss.
Proof. rewrite map_map. apply map_ext. intros [a l]; destruct l; reflexivity. Qed.
Lemma map_fst_to_batch ss : map fst (map to_batch ss) = map fst ss.
Proof. rewrite map_map. apply map_ext. intros [a l]; destruct l; reflexivity. Qed.

Lemma existsb_arm ss : existsb in_tasks (map arm ss) = negb (is_nil ss).
Proof. destruct ss; reflexivity. Qed.

Lemma msim_next st c : MR st c -> MSIM st c MNext.
Proof.
  intros H. unfold MSIM. destruct st as [ph ss order]. destruct c as [cst [e w o]].
  unfold MR in H. cbn [m_phase m_srcs m_order c_m c_st i_env i_w i_ord] in H.
  destruct ph.
  - (* the first anext *)
    destruct H as (Hst & He & Hw & Hidle). subst.
    unfold imstep, mstep. cbn [c_st c_m m_phase m_srcs]. rewrite start_run, existsb_arm.
    destruct ss as [|s0 ss'] eqn:Ess; cbn [is_nil negb].
    + simpl. split; [reflexivity|]. unfold MR. simpl. exists []. repeat split; auto.
      intros [|t] j; discriminate.
    + rewrite <- Ess in *. cbn [fst snd cfg_of mvis]. split; [reflexivity|].
      unfold MR. cbn [m_phase m_srcs c_st c_m i_env i_w]. rewrite map_length.
      exists (heap0 (length ss)), (combine (seq 0 (length ss)) (seq 0 (length ss))), (seq 0 (length ss)), (fun j => j),
             PyUndef, PyUndef, PyUndef, PyUndef, PyUndef.
      split; [reflexivity|]. split; [reflexivity|].
      split; [unfold mworld; rewrite map_fst_arm; reflexivity|]. split; [apply MI_start|].
      intros s Hs. apply in_map_iff in Hs. destruct Hs as (s1 & <- & _). discriminate.
  - (* an anext is already outstanding *)
    pose proof H as (heap & tm & ts & cur & vd & vp & vt & vi & va & Hst & _). subst cst.
    simpl. split; [reflexivity|]. exact H.
  - (* resumed at the yield *)
    destruct H as (heap & tm & ts & ds & cur & vp & vt & vi & i0 & rest & Hst & He & Hw & Ho & HI & Hy & Hyu & Hcov).
    subst cst e w o.
    unfold imstep, mstep. cbn [c_st c_m m_phase m_srcs m_order send].
    destruct (resume_run (length ss) tm ts ds vp vt vi i0 (mworld ss heap) order) as (f & Hf & ->).
    assert (Hw' : arm_world (mworld ss heap) i0 = mworld (map rearm ss) (heap ++ [(i0, AnPend)])).
    { unfold arm_world, mworld. simpl. rewrite map_fst_rearm. reflexivity. }
    rewrite Hw'. cbn [mworld w_an].
    destruct (settle_sim (length ss) (map rearm ss) (heap ++ [(i0, AnPend)]) ((length heap, i0) :: tm)
                (union ts [length heap]) ds (fun j => if j =? i0 then length heap else cur j)
                vp (PyTask (TAn (length heap))) vi (PySrc i0) order f) as [Hv HR];
      [symmetry; apply map_length | eapply MI_rearm; eauto | apply noY_rearm | apply covered_rearm; auto | exact Hf |].
    destruct (settle (map rearm ss) order) as [st' v]. cbn [fst snd] in *. split; [congruence | exact HR].
  - (* finished *)
    destruct H as (heap & Hst & Hw & Hnp & Hp). subst. simpl. split; [reflexivity|].
    unfold MR. simpl. exists heap. auto.
Qed.

Lemma In_done_idx ss : forall b i,
  In i (done_idx b ss) <-> b <= i /\ exists s, nth_error ss (i - b) = Some s /\ is_done s = true.
Proof.
  induction ss as [|s r IH]; intros b i; simpl.
  - split; [tauto|]. intros (_ & s & Hs & _). destruct (i - b); discriminate.
  - assert (Hr : In i (done_idx (S b) r) <-> S b <= i /\ exists s', nth_error (s :: r) (i - b) = Some s' /\ is_done s' = true).
    { rewrite IH. split; intros (Hle & s' & Hs' & Hd); (split; [auto|]); exists s'; split; auto.
      - replace (i - b) with (S (i - S b)) by lia. exact Hs'.
      - replace (i - b) with (S (i - S b)) in Hs' by lia. exact Hs'. }
    destruct (is_done s) eqn:Ed.
    + simpl. rewrite Hr. split.
      * intros [<-|(Hle & H)]; [|split; [lia | exact H]].
        split; [lia|]. exists s. rewrite Nat.sub_diag. auto.
      * intros (Hle & s' & Hs' & Hd). destruct (Nat.eq_dec b i) as [->|Hne]; [left; reflexivity|].
        right. split; [lia|]. eauto.
    + rewrite Hr. split.
      * intros (Hle & H). split; [lia | exact H].
      * intros (Hle & s' & Hs' & Hd). destruct (Nat.eq_dec b i) as [->|Hne].
        -- rewrite Nat.sub_diag in Hs'. simpl in Hs'. inversion Hs'; subst. congruence.
        -- split; [lia|]. eauto.
Qed.

Lemma done_idx_sorted ss : forall b, ssorted (done_idx b ss).
Proof.
  induction ss as [|s r IH]; intros b; simpl; auto.
  destruct (is_done s); [|apply IH]. simpl. split; [|apply IH].
  intros y Hy. apply In_done_idx in Hy. lia.
Qed.

Lemma MI_an_done ss heap tm ts ds cur j s :
  MI ss heap tm ts ds cur -> nth_error ss j = Some s -> in_tasks s = true ->
  an_done (mworld ss heap) (cur j) = is_done s.
Proof.
  intros HI Hj Hin. pose proof (mi_cur _ _ _ _ _ _ HI _ _ Hj) as Hc.
  unfold an_done, mworld. cbn [w_an]. unfold in_tasks, is_done in *.
  destruct (snd s); try discriminate; rewrite Hc; reflexivity.
Qed.

Lemma MI_wake ss heap tm ts cur :
  MI ss heap tm ts [] cur ->
  MI (map to_batch ss) heap tm
     (filter (fun t => negb (an_done (mworld ss heap) t)) ts) (filter (an_done (mworld ss heap)) ts) cur.
Proof.
  intros HI. pose proof HI as [Htm Hts Hds Hcur Hpend].
  assert (Hnb : forall j s r, nth_error ss j = Some s -> snd s <> LBatch r).
  { intros j s r Hj Hl. apply (proj2 (Hds (cur j))). exists j, s, r. auto. }
  constructor; auto.
  - intros t. rewrite filter_In, Hts. split.
    + intros [(j & s & Hj & Hin & ->) Hnd]. exists j, (to_batch s).
      rewrite nth_error_map, Hj. split; [reflexivity|]. split; auto.
      rewrite (MI_an_done _ _ _ _ _ _ _ _ HI Hj Hin) in Hnd.
      unfold in_tasks, is_done, to_batch in *. destruct s as [a l]; simpl in *. destruct l; simpl in *; auto; discriminate.
    + intros (j & s' & Hj & Hin & ->). rewrite nth_error_map in Hj.
      destruct (nth_error ss j) as [s|] eqn:E; [|discriminate]. simpl in Hj. inversion Hj; subst s'.
      assert (Hin0 : in_tasks s = true /\ is_done s = false).
      { unfold in_tasks, is_done, to_batch in *. destruct s as [a l]; simpl in *. destruct l; simpl in *; auto; discriminate. }
      destruct Hin0 as [Hin0 Hd0]. split; [eauto|].
      rewrite (MI_an_done _ _ _ _ _ _ _ _ HI E Hin0), Hd0. reflexivity.
  - intros t. rewrite filter_In, Hts. split.
    + intros [(j & s & Hj & Hin & ->) Hd]. rewrite (MI_an_done _ _ _ _ _ _ _ _ HI Hj Hin) in Hd.
      destruct s as [a l]. unfold is_done in Hd. simpl in Hd. destruct l; try discriminate.
      exists j, (a, LBatch r), r. rewrite nth_error_map, Hj. auto.
    + intros (j & s' & r & Hj & Hl & ->). rewrite nth_error_map in Hj.
      destruct (nth_error ss j) as [[a l]|] eqn:E; [|discriminate]. simpl in Hj. inversion Hj; subst s'.
      unfold to_batch in Hl. simpl in Hl. destruct l; simpl in Hl; try discriminate.
      * inversion Hl; subst. split; [exists j, (a, LDone r); auto|].
        rewrite (MI_an_done _ _ _ _ _ _ _ _ HI E eq_refl). reflexivity.
      * exfalso. eapply (Hnb j (a, LBatch r0)); eauto.
  - intros j s' Hj. rewrite nth_error_map in Hj.
    destruct (nth_error ss j) as [[a l]|] eqn:E; [|discriminate]. simpl in Hj. inversion Hj; subst s'.
    pose proof (Hcur _ _ E) as Hc. unfold to_batch. simpl in *. destruct l; simpl; auto.
  - intros t j Ht. destruct (Hpend _ _ Ht) as ([a l] & Hj & Hl & ->). simpl in Hl. subst l.
    exists (a, LPend). rewrite nth_error_map, Hj. auto.
Qed.

Lemma srcs_of_done ss heap tm ts cur :
  MI ss heap tm ts [] cur ->
  srcs_of (mworld ss heap) (mkS (filter (an_done (mworld ss heap)) ts) []) = done_idx 0 ss.
Proof.
  intros HI. unfold srcs_of. cbn [s_an].
  apply sorted_ext.
  - apply union_sorted. exact I.
  - apply done_idx_sorted.
  - intros i. rewrite In_union, In_done_idx, in_flat_map. rewrite Nat.sub_0_r. simpl. split.
    + intros [[]|(t & Ht & Hi)]. apply filter_In in Ht. destruct Ht as [Ht Hd].
      destruct (proj1 (mi_ts _ _ _ _ _ _ HI t) Ht) as (j & s & Hj & Hin & ->).
      rewrite (MI_an_done _ _ _ _ _ _ _ _ HI Hj Hin) in Hd.
      assert (Hl : live (snd s) = true) by (unfold in_tasks in Hin; destruct (snd s); auto).
      rewrite (MI_owner _ _ _ _ _ _ _ _ HI Hj Hl) in Hi. destruct Hi as [<-|[]].
      split; [lia|]. eauto.
    + intros (_ & s & Hj & Hd). right.
      assert (Hin : in_tasks s = true) by (unfold is_done, in_tasks in *; destruct (snd s); auto; discriminate).
      assert (Hl : live (snd s) = true) by (unfold in_tasks in Hin; destruct (snd s); auto).
      exists (cur i). split.
      * apply filter_In. split; [apply (mi_ts _ _ _ _ _ _ HI); eauto|].
        rewrite (MI_an_done _ _ _ _ _ _ _ _ HI Hj Hin). exact Hd.
      * rewrite (MI_owner _ _ _ _ _ _ _ _ HI Hj Hl). left; reflexivity.
Qed.

Lemma wake_mrun n tm ts vd vp vt vi va w o ord :
  exists f, f >= 8 * length (filter (an_done w) ts) + 12 /\
  go SSkip k_mwait (wake "done" "pending" (mkS ts []) (mkMach (menv n tm ts vd vp vt vi va) w o) ord) =
  run f m_inner k_inner
    (mkMach (menv n tm (filter (fun t => negb (an_done w t)) ts) (PySet (mkS (filter (an_done w) ts) []))
                  PyUndef vt vi va) w ord).
Proof.
  unfold wake. cbn [i_w i_env i_ord]. unfold done_of, notdone_of. cbn [s_an s_ext filter].
  set (ds := filter (an_done w) ts). set (nds := filter (fun t => negb (an_done w t)) ts).
  pose proof (env_size_menv n tm ts ds (PySet (mkS nds [])) vt vi va) as He.
  unfold setord, setv. cbn [i_env i_w i_ord]. simpl set.
  fold (menv n tm ts (PySet (mkS ds [])) (PySet (mkS nds [])) vt vi va).
  destruct (go_split SSkip k_mwait (mkMach (menv n tm ts (PySet (mkS ds [])) (PySet (mkS nds [])) vt vi va) w ord)
                     3 (8 * length ds + 12)) as (f & Hf & ->); [unfold fuel_of; cbn [i_env i_ord]; lia|].
  exists f. split; [exact Hf|]. simpl Nat.add.
  unfold k_mwait. step. step. step. reflexivity.
Qed.

Lemma msim_wake st c ord : MR st c -> MSIM st c (MWake ord).
Proof.
  intros H. unfold MSIM. destruct st as [ph ss order]. destruct c as [cst [e w o]].
  unfold MR in H. cbn [m_phase m_srcs m_order c_m c_st i_env i_w i_ord] in H.
  destruct ph.
  - destruct H as (Hst & He & Hw & Hidle). subst. simpl. split; [reflexivity|]. unfold MR; simpl. auto.
  - destruct H as (heap & tm & ts & cur & vd & vp & vt & vi & va & Hst & He & Hw & HI & HnY).
    subst cst e w.
    unfold imstep, mstep. cbn [c_st c_m m_phase m_srcs m_order i_w].
    pose proof (srcs_of_done _ _ _ _ _ HI) as Hsrcs.
    unfold done_of. cbn [s_an s_ext filter]. change (w_ext (mworld ss heap)) with (@nil tst). cbn [filter].
    set (w := mworld ss heap) in *. set (ds := filter (an_done w) ts) in *.
    unfold sis_empty. cbn [s_an s_ext is_nil]. rewrite andb_true_r.
    destruct ds as [|t0 ds0] eqn:Eds.
    + (* nothing is done: asyncio.wait keeps waiting *)
      cbn [is_nil]. unfold srcs_of in Hsrcs. simpl in Hsrcs. rewrite <- Hsrcs. simpl.
      split; [reflexivity|]. unfold MR; simpl. exists heap, tm, ts, cur, vd, vp, vt, vi, va. auto.
    + cbn [is_nil]. rewrite <- Eds in *.
      assert (Hne : done_idx 0 ss <> []).
      { assert (Ht0 : In t0 ds) by (rewrite Eds; left; reflexivity).
        unfold ds in Ht0. apply filter_In in Ht0. destruct Ht0 as [Ht0 Hd].
        destruct (proj1 (mi_ts _ _ _ _ _ _ HI t0) Ht0) as (j & s & Hj & Hin & ->).
        unfold w in Hd. rewrite (MI_an_done _ _ _ _ _ _ _ _ HI Hj Hin) in Hd.
        intros E. apply (in_nil (a := j)). rewrite <- E. apply In_done_idx. rewrite Nat.sub_0_r. split; [lia | eauto]. }
      destruct (done_idx 0 ss) as [|d0 dl] eqn:Edi; [contradiction Hne; reflexivity|].
      assert (Hlen : length (w_srcs w) = length ss) by (unfold w, mworld; simpl; apply map_length).
      rewrite Hlen.
      destruct (wake_mrun (length ss) tm ts vd vp vt vi va w o (ord ++ seq 0 (length ss))) as (f & Hf & ->).
      fold ds.
      assert (Hw' : w = mworld (map to_batch ss) heap) by (unfold w, mworld; rewrite map_fst_to_batch; reflexivity).
      rewrite Hw' at 2 4.
      destruct (settle_sim (length ss) (map to_batch ss) heap tm (filter (fun t => negb (an_done w t)) ts) ds cur
                  PyUndef vt vi va (ord ++ seq 0 (length ss)) f) as [Hv HR];
        [symmetry; apply map_length | apply MI_wake; auto | apply noY_to_batch; auto
         | rewrite <- (map_length to_batch); apply covered_all | exact Hf |].
      destruct (settle (map to_batch ss) (ord ++ seq 0 (length ss))) as [st' v]. cbn [fst snd] in *.
      split; [congruence | exact HR].
  - pose proof H as (heap & tm & ts & ds & cur & vp & vt & vi & i0 & rest & Hst & _). subst cst.
    simpl. split; [reflexivity|]. exact H.
  - pose proof H as (heap & Hst & _). subst cst. simpl. split; [reflexivity|]. exact H.
Qed.

Lemma mstep_sim st c l : MR st c -> MSIM st c l.
Proof. destruct l; [apply msim_next | apply msim_complete | apply msim_wake]. Qed.

Definition imouts (items : list (list V)) (ls : list mlabel) : list mout :=
  snd (imrun_from (minit_cfg merge_aiters_vars merge_aiters_body items) ls).
Definition imrun (items : list (list V)) (ls : list mlabel) : cfg :=
  fst (imrun_from (minit_cfg merge_aiters_vars merge_aiters_body items) ls).

Lemma MR_init items : MR (minit items) (minit_cfg merge_aiters_vars merge_aiters_body items).
Proof.
  unfold MR, minit, minit_cfg. cbn [m_phase m_srcs c_st c_m i_env i_w]. rewrite map_length.
  split; [reflexivity|]. split; [reflexivity|]. split.
  - unfold mworld. rewrite map_map. simpl. rewrite map_id. reflexivity.
  - intros s Hs. apply in_map_iff in Hs. destruct Hs as (l & <- & _). reflexivity.
Qed.

Theorem merge_tie items ls :
  imouts items ls = mouts items ls /\ MR (mrun items ls) (imrun items ls).
Proof. unfold imouts, mouts, imrun, mrun. apply (runs_sim mstep imstep MR mstep_sim). apply MR_init. Qed.

Lemma MR_not_stuck st c : MR st c -> stuck c = false.
Proof.
  intros H. destruct (MR_state _ _ H) as [_ Hs]. unfold stuck.
  destruct (m_phase st), (c_st c); try contradiction; reflexivity.
Qed.

(** There is NO close label in Model.v; this states, on the machine, what `aclose()` / cancellation of the
    consumer at ANY moment costs.  [iclose] ends the generator at its suspension point (no try/finally in the
    source: nothing cancels the armed `__anext__` tasks); afterwards the sources' pending anexts may still
    complete ([MComplete] in any number and order).  Then, for every source: its items = what was yielded with
    its tag before the close ++ AT MOST ONE item that was consumed from the source and is never yielded ++
    what the source still holds. *)

Definition completes (ks : list nat) (m : mach) : mach :=
  fold_left (fun m k => setw m (complete_src (i_w m) k)) ks m.

Lemma imrun_completes ks : forall st m,
  fst (imrun_from (mkC st m) (map MComplete ks)) = mkC st (completes ks m).
Proof.
  induction ks as [|k r IH]; intros st m; [reflexivity|].
  simpl. specialize (IH st (setw m (complete_src (i_w m) k))).
  destruct (imrun_from {| c_st := st; c_m := setw m (complete_src (i_w m) k) |} (map MComplete r)) as [c1 o1].
  simpl in *. exact IH.
Qed.

Lemma yields_completes ks : forall st, yields (snd (mrun_from st (map MComplete ks))) = [].
Proof.
  induction ks as [|k r IH]; intros st; [reflexivity|].
  change (map MComplete (k :: r)) with (MComplete k :: map MComplete r).
  rewrite (runs_cons_snd mstep), yields_cons, IH. simpl. destruct (nth_error (m_srcs st) k); reflexivity.
Qed.

Lemma mouts_completes items ls ks : yields (mouts items (ls ++ map MComplete ks)) = yields (mouts items ls).
Proof. unfold mouts. rewrite (runs_app_snd mstep), yields_app, yields_completes. apply app_nil_r. Qed.

Theorem merge_close_loss items ls ks i s :
  nth_error (m_srcs (mrun items (ls ++ map MComplete ks))) i = Some s ->
  let c' := fst (imrun_from (iclose (imrun items ls)) (map MComplete ks)) in
  c_st c' = StFinished /\
  nth i items [] = proj i (yields (imouts items ls)) ++ inflight s ++ nth i (w_srcs (i_w (c_m c'))) [] /\
  length (inflight s) <= 1.
Proof.
  intros Hs c'.
  destruct (merge_tie items ls) as [Ho HR]. destruct (merge_tie items (ls ++ map MComplete ks)) as [_ HR2].
  assert (Hc : c' = mkC StFinished (completes ks (c_m (imrun items ls)))).
  { unfold c', iclose. destruct (MR_state _ _ HR) as [_ Hph].
    destruct (imrun items ls) as [st m]. simpl in *.
    destruct st; try (destruct (m_phase (mrun items ls)); contradiction); rewrite imrun_completes; reflexivity. }
  assert (Hm : c_m (imrun items (ls ++ map MComplete ks)) = completes ks (c_m (imrun items ls))).
  { unfold imrun at 1. rewrite (runs_app_fst imstep). change (runs imstep) with imrun_from. fold (imrun items ls).
    destruct (imrun items ls) as [st m]. rewrite imrun_completes. reflexivity. }
  destruct (MR_state _ _ HR2) as [(heap2 & Hw2 & _) _]. rewrite Hm in Hw2.
  assert (Hsrcs := f_equal w_srcs Hw2). simpl in Hsrcs.
  rewrite Hc. simpl. split; [reflexivity|]. split.
  - rewrite Hsrcs, Ho, <- (mouts_completes items ls ks).
    destruct s as [rest l]. rewrite (nth_map_fst _ _ _ _ Hs).
    apply (merge_accounting items (ls ++ map MComplete ks) i (rest, l) Hs).
  - unfold inflight. destruct (snd s) as [| |[v|]|[v|]| |]; simpl; lia.
Qed.
