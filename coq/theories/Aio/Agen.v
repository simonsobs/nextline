(** Proofs about the model of [agen_with_wait] (Model.v), for EVERY label
    sequence: source completions, task endings/failures, asend/anext of the
    consumer, wake-ups with any iteration order of the done-set. *)
From NL Require Import Aio.Model Aio.Runs Aio.Merge.
From Coq Require Import Lia.

Lemma In_ins x y l : In x (ins y l) <-> x = y \/ In x l.
Proof.
  induction l as [|z r IH]; simpl.
  - intuition.
  - destruct (y <? z); simpl; [intuition|].
    destruct (Nat.eqb_spec y z); simpl.
    + subst. intuition.
    + rewrite IH. intuition.
Qed.

Lemma In_union x b : forall a, In x (union a b) <-> In x a \/ In x b.
Proof.
  unfold union. induction b as [|y r IH]; simpl; intros a.
  - intuition.
  - rewrite IH, In_ins. intuition.
Qed.

Lemma mem_In x l : mem x l = true <-> In x l.
Proof.
  unfold mem. rewrite existsb_exists. split.
  - intros (y & Hy & He). apply Nat.eqb_eq in He. subst; auto.
  - intros H. exists x. split; auto. apply Nat.eqb_refl.
Qed.

Lemma In_minus x a b : In x (minus a b) <-> In x a /\ ~ In x b.
Proof.
  unfold minus. rewrite filter_In, negb_true_iff. split; intros [H1 H2]; split; auto.
  - intros Hb. apply mem_In in Hb. congruence.
  - destruct (mem x b) eqn:E; auto. apply mem_In in E. contradiction.
Qed.

Lemma first_exc_some ts l e : first_exc ts l = Some e -> exists t, In t l /\ texc ts t = Some e.
Proof.
  induction l as [|t r IH]; simpl; [discriminate|].
  destruct (texc ts t) eqn:E.
  - intros H; inversion H; subst. eauto.
  - intros H. destruct (IH H) as (t' & ? & ?). eauto.
Qed.

Lemma first_exc_none ts l : first_exc ts l = None -> forall t, In t l -> texc ts t = None.
Proof.
  induction l as [|t r IH]; simpl; [tauto|].
  destruct (texc ts t) eqn:E; [discriminate|]. intros H t' [<-|Ht']; auto.
Qed.

Lemma texc_tdone ts t e : texc ts t = Some e -> tdone ts t = true.
Proof. unfold texc, tdone. destruct (nth_error ts t) as [[|[|]]|]; simpl; congruence. Qed.

(** what a wake-up scans for exceptions, in whatever order: awaited tasks that have ended *)
Lemma In_scan tasks p ord t :
  In t (filter (fun t0 => mem t0 (filter (tdone tasks) p)) ord ++ filter (tdone tasks) p) ->
  In t p /\ tdone tasks t = true.
Proof.
  intros H. apply filter_In. apply in_app_or in H. destruct H as [H|H]; auto.
  apply filter_In in H. apply mem_In, H.
Qed.

Lemma grun_snoc items ls l : grun items (ls ++ [l]) = fst (gstep (grun items ls) l).
Proof.
  unfold grun. rewrite (runs_app_fst gstep). simpl. destruct (gstep _ l); reflexivity.
Qed.

Lemma gouts_snoc items ls l : gouts items (ls ++ [l]) = gouts items ls ++ [snd (gstep (grun items ls) l)].
Proof.
  unfold gouts, grun. rewrite (runs_app_snd gstep). simpl. destruct (gstep _ l); reflexivity.
Qed.

Lemma gitems_app a b : gitems (a ++ b) = gitems a ++ gitems b.
Proof. unfold gitems. apply flat_map_app. Qed.

Definition ainfl (a : ast) : list V := match a with ADone (RItem v) => [v] | _ => [] end.

Definition idle_phase (p : gphase) : Prop :=
  match p with GFresh | GItem | GSets | GFin => True | _ => False end.

Record SInv (items : list V) (got : list V) (st : gstate) : Prop := mkSInv {
  S_acct : items = got ++ ainfl (g_anext st) ++ g_rest st;
  S_idle : idle_phase (g_phase st) -> g_anext st = ANone;
  S_stop : g_anext st = ADone RStop -> g_rest st = [];
  S_fin : g_phase st = GFin -> g_rest st = []
}.

Definition gv (v : gvis) : list V := match v with GVItem x => [x] | _ => [] end.

Lemma gitems_cons o os : gitems (o :: os) = gv (snd o) ++ gitems os.
Proof. unfold gitems, gv. simpl. destruct (snd o); reflexivity. Qed.

Lemma gstep_sinv items got st l st' o :
  SInv items got st -> gstep st l = (st', o) -> SInv items (got ++ gv (snd o)) st'.
Proof.
  intros [Ha Hi Hs Hf] H. destruct l as [|t r| |new|ord]; simpl in H.
  - injection H as <- <-; simpl. rewrite app_nil_r. constructor; auto.
  - destruct (nth_error (g_tasks st) t) as [[|]|]; injection H as <- <-; simpl; rewrite app_nil_r; constructor; auto.
  - destruct (g_anext st) eqn:Ea;
      try solve [injection H as <- <-; simpl; rewrite app_nil_r; constructor; rewrite ?Ea; auto].
    assert (Hni : ~ idle_phase (g_phase st)) by (intros Hp; specialize (Hi Hp); discriminate).
    assert (Hnf : g_phase st <> GFin) by (intros Hp; apply Hni; rewrite Hp; exact I).
    destruct (g_rest st) as [|v rest] eqn:Er; simpl in H; injection H as <- <-; simpl; rewrite app_nil_r;
      constructor; simpl; auto; try discriminate; try tauto.
  - destruct (g_phase st) eqn:Ep.
    + destruct new; injection H as <- <-; simpl; rewrite app_nil_r.
      * constructor; rewrite ?Ep; auto.
      * constructor; simpl; try tauto; try discriminate. rewrite Hi in Ha by exact I. exact Ha.
    + injection H as <- <-; simpl; rewrite app_nil_r. constructor; rewrite ?Ep; auto.
    + destruct new; injection H as <- <-; simpl; rewrite app_nil_r.
      * constructor; simpl; auto; try discriminate.
      * constructor; simpl; try tauto; try discriminate. rewrite Hi in Ha by exact I. exact Ha.
    + injection H as <- <-; simpl; rewrite app_nil_r.
      constructor; simpl; try tauto; try discriminate. rewrite Hi in Ha by exact I. exact Ha.
    + injection H as <- <-; simpl; rewrite app_nil_r. constructor; rewrite ?Ep; auto.
    + injection H as <- <-; simpl; rewrite app_nil_r. constructor; rewrite ?Ep; auto.
  - destruct (g_phase st) eqn:Ep;
      try (injection H as <- <-; simpl; rewrite app_nil_r; constructor; rewrite ?Ep; auto; fail).
    match type of H with (if ?c then _ else _) = _ => destruct c end.
    { injection H as <- <-; simpl; rewrite app_nil_r; constructor; rewrite ?Ep; auto. }
    match type of H with match ?c with _ => _ end = _ => destruct c end.
    { injection H as <- <-; simpl; rewrite app_nil_r. constructor; simpl; try tauto; try discriminate.
      - destruct (g_anext st); auto.
      - destruct (g_anext st); auto; discriminate. }
    destruct (g_anext st) as [| |[v|]|] eqn:Ea; injection H as <- <-; simpl; rewrite ?app_nil_r;
      constructor; simpl; auto; try tauto; try discriminate.
    + simpl in Ha. rewrite <- app_assoc. exact Ha.
Qed.

Lemma run_sinv items ls : SInv items (gitems (gouts items ls)) (grun items ls).
Proof.
  induction ls as [|l ls IH] using rev_ind.
  - unfold gouts, grun; simpl. constructor; simpl; auto; discriminate.
  - rewrite grun_snoc, gouts_snoc, gitems_app.
    destruct (gstep (grun items ls) l) as [st' o] eqn:E.
    cbn [fst snd]. rewrite gitems_cons. simpl (gitems []). rewrite app_nil_r. eapply gstep_sinv; eauto.
Qed.

(** The items yielded are, in order, a prefix of the wrapped iterator's items:
    nothing foreign, nothing twice, nothing out of order; the rest is what is in
    flight (at most one) and what the iterator has not produced yet. *)
Theorem agen_items items ls :
  items = gitems (gouts items ls) ++ ainfl (g_anext (grun items ls)) ++ g_rest (grun items ls).
Proof. apply (run_sinv items ls). Qed.

Theorem agen_complete_when_finished items ls :
  g_phase (grun items ls) = GFin -> gitems (gouts items ls) = items.
Proof.
  intros Hp. destruct (run_sinv items ls) as [Ha Hi Hs Hf].
  rewrite Hi in Ha by (rewrite Hp; exact I). rewrite (Hf Hp) in Ha. simpl in Ha.
  rewrite app_nil_r in Ha. auto.
Qed.

(** promptness: a wake-up while an awaited task has failed raises (whatever the
    set order), and what it raises is the exception of an awaited failed task *)
Theorem agen_wake_raises st ord t e :
  g_phase st = GWait -> In t (g_pending st) -> texc (g_tasks st) t = Some e ->
  exists e' t', snd (snd (gstep st (GWake ord))) = GVRaise e' /\ g_phase (fst (gstep st (GWake ord))) = GRaised /\
                In t' (g_pending st) /\ texc (g_tasks st) t' = Some e'.
Proof.
  intros Hp Hin He. simpl. rewrite Hp.
  set (dts := filter (tdone (g_tasks st)) (g_pending st)).
  assert (Hd : In t dts) by (apply filter_In; split; auto; eapply texc_tdone; eauto).
  assert (Hne : (negb match g_anext st with ADone _ => true | _ => false end &&
                 match dts with [] => true | _ :: _ => false end) = false).
  { destruct dts; [contradiction|]. apply andb_false_r. }
  rewrite Hne.
  destruct (first_exc (g_tasks st) (filter (fun t0 => mem t0 dts) ord ++ dts)) as [e'|] eqn:Ef.
  - apply first_exc_some in Ef. destruct Ef as (t' & Ht' & He').
    exists e', t'. simpl. repeat split; auto. exact (proj1 (In_scan _ _ _ _ Ht')).
  - exfalso. pose proof (first_exc_none _ _ Ef t). rewrite H in He; [discriminate|].
    apply in_or_app. right. auto.
Qed.

(** hence: an item or a normal end is only ever produced when no awaited task has failed *)
Theorem agen_no_item_past_failure st ord :
  g_phase st = GWait ->
  (forall v, snd (snd (gstep st (GWake ord))) <> GVItem v) /\ snd (snd (gstep st (GWake ord))) <> GVStop \/
  forall t, In t (g_pending st) -> texc (g_tasks st) t = None.
Proof.
  intros Hp.
  destruct (existsb (fun t => match texc (g_tasks st) t with Some _ => true | None => false end) (g_pending st)) eqn:Ee.
  - left. apply existsb_exists in Ee. destruct Ee as (t & Ht & He).
    destruct (texc (g_tasks st) t) as [e|] eqn:Et; [|discriminate].
    destruct (agen_wake_raises st ord t e Hp Ht Et) as (e' & t' & Ho & _). rewrite Ho.
    split; [intros v|]; discriminate.
  - right. intros t Ht. destruct (texc (g_tasks st) t) eqn:Et; auto.
    assert (existsb (fun t => match texc (g_tasks st) t with Some _ => true | None => false end) (g_pending st) = true).
    { apply existsb_exists. exists t. rewrite Et. auto. }
    congruence.
Qed.

(** awaited tasks stay awaited: a task leaves `pending` only when it has ended
    without an exception *)
Theorem agen_pending_kept st l t :
  In t (g_pending st) -> In t (g_pending (fst (gstep st l))) \/
  (tdone (g_tasks st) t = true /\ texc (g_tasks st) t = None).
Proof.
  intros Hin. destruct l as [|t0 r| |new|ord]; simpl; auto.
  - destruct (nth_error (g_tasks st) t0) as [[|]|]; simpl; auto.
  - destruct (g_anext st); simpl; auto. destruct (src_complete (g_rest st)); simpl; auto.
  - destruct (g_phase st); simpl; auto; destruct new; simpl; auto.
    left. apply In_union. auto.
  - destruct (g_phase st); simpl; auto.
    match goal with |- context [if ?c then _ else _] => destruct c end; simpl; auto.
    set (dts := filter (tdone (g_tasks st)) (g_pending st)).
    destruct (first_exc (g_tasks st) (filter (fun t1 => mem t1 dts) ord ++ dts)) eqn:Ef; simpl; auto.
    destruct (g_anext st) as [| |[v|]|]; simpl; auto.
    destruct (in_dec Nat.eq_dec t dts) as [Hd|Hnd].
    + right. split.
      * apply filter_In in Hd. tauto.
      * eapply first_exc_none; eauto. apply in_or_app; auto.
    + left. apply In_minus. auto.
Qed.

Lemma gstep_raise st l x e :
  snd (gstep st l) = (x, GVRaise e) ->
  exists ord,
    first_exc (g_tasks st) (filter (fun t => mem t (filter (tdone (g_tasks st)) (g_pending st))) ord ++
                            filter (tdone (g_tasks st)) (g_pending st)) = Some e.
Proof.
  destruct l as [|t r| |new|ord]; simpl.
  - discriminate.
  - destruct (nth_error (g_tasks st) t) as [[|]|]; discriminate.
  - destruct (g_anext st); try discriminate. destruct (src_complete (g_rest st)); discriminate.
  - destruct (g_phase st); try destruct new; discriminate.
  - destruct (g_phase st); try discriminate.
    destruct (negb _ && _); [discriminate|].
    destruct (first_exc _ _) as [e'|] eqn:Ef.
    + intros H; inversion H; subst. eauto.
    + destruct (g_anext st) as [| |[v|]|]; discriminate.
Qed.

(** identity of the raised exception, in terms of the history alone: whatever is
    raised is the exception with which some task ended that had been handed to
    the generator with asend *)
Record HInv (ls : list glabel) (st : gstate) : Prop := mkHInv {
  H_exc : forall t e, texc (g_tasks st) t = Some e -> In (GTaskEnd t (TExc e)) ls;
  H_sent : forall t, In t (g_pending st) -> exists ts, In (GSend (Some ts)) ls /\ In t ts
}.

Lemma texc_upd ts t0 r t e :
  texc (upd ts t0 (TEnded r)) t = Some e -> (t = t0 /\ r = TExc e) \/ texc ts t = Some e.
Proof.
  unfold texc. intros H. destruct (nth_error (upd ts t0 (TEnded r)) t) as [x|] eqn:E; [|discriminate].
  destruct (nth_error_upd_inv _ _ _ _ _ E) as [[-> ->]|[_ ->]]; auto. destruct r; inversion H; auto.
Qed.

Lemma texc_app ts t e : texc (ts ++ [TRunning]) t = Some e -> texc ts t = Some e.
Proof.
  unfold texc. destruct (nth_error (ts ++ [TRunning]) t) as [x|] eqn:E; [|discriminate].
  destruct (nth_error_snoc_cases _ _ _ _ E) as [[_ ->]|[_ ->]]; [auto | discriminate].
Qed.

Lemma run_hinv items ls : HInv ls (grun items ls).
Proof.
  induction ls as [|l ls IH] using rev_ind.
  - constructor; unfold grun; simpl.
    + intros t e. unfold texc. destruct t; discriminate.
    + tauto.
  - rewrite grun_snoc. destruct IH as [He Hs].
    assert (He' : forall t e, texc (g_tasks (grun items ls)) t = Some e -> In (GTaskEnd t (TExc e)) (ls ++ [l]))
      by (intros; apply in_or_app; left; auto).
    assert (Hs' : forall t, In t (g_pending (grun items ls)) -> exists ts, In (GSend (Some ts)) (ls ++ [l]) /\ In t ts).
    { intros t Ht. destruct (Hs t Ht) as (ts & ? & ?). exists ts. split; auto. apply in_or_app; auto. }
    set (st := grun items ls) in *.
    destruct l as [|t0 r| |new|ord]; simpl.
    + constructor; simpl; auto. intros t e Ht. apply texc_app in Ht. auto.
    + destruct (nth_error (g_tasks st) t0) as [[|]|] eqn:En; simpl; try (constructor; auto; fail).
      constructor; simpl; auto. intros t e Ht.
      destruct (texc_upd _ _ _ _ _ Ht) as [[-> ->]|]; auto.
      apply in_or_app. right. left. reflexivity.
    + destruct (g_anext st); simpl; try (constructor; auto; fail).
      destruct (src_complete (g_rest st)); simpl. constructor; auto.
    + destruct (g_phase st); simpl; try (constructor; auto; fail); destruct new; simpl; try (constructor; auto; fail).
      constructor; simpl; auto. intros t Ht. apply In_union in Ht. destruct Ht as [Ht|Ht]; auto.
      exists l. split; auto. apply in_or_app. right. left. reflexivity.
    + destruct (g_phase st); simpl; try (constructor; auto; fail).
      match goal with |- context [if ?c then _ else _] => destruct c end; simpl; try (constructor; auto; fail).
      match goal with |- context [match ?c with Some _ => _ | None => _ end] => destruct c end; simpl;
        try (constructor; auto; fail).
      destruct (g_anext st) as [| |[v|]|]; simpl; constructor; simpl; auto.
      intros t Ht. apply In_minus in Ht. destruct Ht. auto.
Qed.

Theorem agen_raise_identity items ls x e :
  In (x, GVRaise e) (gouts items ls) ->
  exists t ts, In (GTaskEnd t (TExc e)) ls /\ In (GSend (Some ts)) ls /\ In t ts.
Proof.
  induction ls as [|l ls IH] using rev_ind.
  - unfold gouts; simpl; tauto.
  - rewrite gouts_snoc. intros H. apply in_app_or in H. destruct H as [H|[H|[]]].
    + destruct (IH H) as (t & ts & ? & ? & ?). exists t, ts. repeat split; auto; apply in_or_app; auto.
    + pose proof (run_hinv items ls) as [He Hs]. set (st := grun items ls) in *.
      assert (G : exists t, In t (g_pending st) /\ texc (g_tasks st) t = Some e).
      { destruct (gstep_raise _ _ _ _ H) as (ord & Hf).
        apply first_exc_some in Hf. destruct Hf as (t' & Ht' & He').
        exists t'. split; auto. exact (proj1 (In_scan _ _ _ _ Ht')). }
      destruct G as (t & Hin & Hex). destruct (Hs t Hin) as (ts & ? & ?).
      exists t, ts. repeat split; auto; apply in_or_app; auto.
Qed.

Theorem agen_no_failure_no_raise items ls :
  (forall t e, ~ In (GTaskEnd t (TExc e)) ls) ->
  g_phase (grun items ls) <> GRaised /\ forall x e, ~ In (x, GVRaise e) (gouts items ls).
Proof.
  intros Hno. split.
  - induction ls as [|l ls IH] using rev_ind; [unfold grun; simpl; discriminate|].
    assert (Hno' : forall t e, ~ In (GTaskEnd t (TExc e)) ls).
    { intros t e Hi. apply (Hno t e). apply in_or_app; auto. }
    specialize (IH Hno'). rewrite grun_snoc.
    pose proof (run_hinv items ls) as [He _]. set (st := grun items ls) in *.
    destruct l as [|t0 r| |new|ord]; simpl; auto.
    + destruct (nth_error (g_tasks st) t0) as [[|]|]; simpl; auto.
    + destruct (g_anext st); simpl; auto. destruct (src_complete (g_rest st)); simpl; auto.
    + destruct (g_phase st) eqn:Ep; try destruct new; simpl; rewrite ?Ep; congruence.
    + destruct (g_phase st) eqn:Ep; simpl; rewrite ?Ep; auto.
      match goal with |- context [if ?c then _ else _] => destruct c end; simpl; [rewrite Ep; discriminate|].
      match goal with |- context [match ?c with Some _ => _ | None => _ end] => destruct c as [e'|] eqn:Ef end; simpl.
      * exfalso. apply first_exc_some in Ef. destruct Ef as (t' & _ & He'). eapply Hno'; eauto.
      * destruct (g_anext st) as [| |[v|]|]; simpl; discriminate.
  - intros x e Hin. destruct (agen_raise_identity _ _ _ _ Hin) as (t & ts & H1 & _). eapply Hno; eauto.
Qed.

Theorem agen_single_failure st ord t e :
  g_phase st = GWait -> In t (g_pending st) -> texc (g_tasks st) t = Some e ->
  (forall t' e', In t' (g_pending st) -> texc (g_tasks st) t' = Some e' -> e' = e) ->
  snd (snd (gstep st (GWake ord))) = GVRaise e.
Proof.
  intros Hp Hin He Hu. destruct (agen_wake_raises st ord t e Hp Hin He) as (e' & t' & Ho & _ & Hin' & He').
  rewrite Ho. f_equal. eauto.
Qed.

Theorem agen_items_full items ls :
  items = gitems (gouts items ls) ++ ainfl (g_anext (grun items ls)) ++ g_rest (grun items ls) /\
  (g_phase (grun items ls) = GFin -> gitems (gouts items ls) = items).
Proof. split; [exact (agen_items items ls) | exact (agen_complete_when_finished items ls)]. Qed.

Theorem agen_first_exception :
  (forall st ord t e, g_phase st = GWait -> In t (g_pending st) -> texc (g_tasks st) t = Some e ->
     exists e' t', snd (snd (gstep st (GWake ord))) = GVRaise e' /\ g_phase (fst (gstep st (GWake ord))) = GRaised /\
                   In t' (g_pending st) /\ texc (g_tasks st) t' = Some e') /\
  (forall st ord, g_phase st = GWait ->
     (forall v, snd (snd (gstep st (GWake ord))) <> GVItem v) /\ snd (snd (gstep st (GWake ord))) <> GVStop \/
     forall t, In t (g_pending st) -> texc (g_tasks st) t = None) /\
  (forall st l t, In t (g_pending st) ->
     In t (g_pending (fst (gstep st l))) \/ (tdone (g_tasks st) t = true /\ texc (g_tasks st) t = None)) /\
  (forall items ls x e, In (x, GVRaise e) (gouts items ls) ->
     exists t ts, In (GTaskEnd t (TExc e)) ls /\ In (GSend (Some ts)) ls /\ In t ts) /\
  (forall items ls, (forall t e, ~ In (GTaskEnd t (TExc e)) ls) ->
     g_phase (grun items ls) <> GRaised /\ forall x e, ~ In (x, GVRaise e) (gouts items ls)).
Proof.
  split; [exact agen_wake_raises|]. split; [exact agen_no_item_past_failure|].
  split; [exact agen_pending_kept|]. split; [exact agen_raise_identity | exact agen_no_failure_no_raise].
Qed.
