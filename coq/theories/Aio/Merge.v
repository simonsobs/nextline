(** Proofs about the model of [merge_aiters] (Model.v): for EVERY label
    sequence (every schedule of source completions, wake-ups with any
    done-set pop order, consumer resumptions) and every number/length of
    sources. *)
From NL Require Import Aio.Model Aio.Runs.
From Coq Require Import Lia.

Lemma nth_error_upd_eq {A} (l : list A) i x a :
  nth_error l i = Some a -> nth_error (upd l i x) i = Some x.
Proof. revert i; induction l; intros [|i]; simpl; intros; try discriminate; auto. Qed.

Lemma nth_error_upd_neq {A} (l : list A) i j x :
  i <> j -> nth_error (upd l i x) j = nth_error l j.
Proof.
  revert i j; induction l; intros [|i] [|j]; simpl; intros; auto; try congruence.
Qed.

Lemma nth_error_upd_other {A} (l : list A) i x j y :
  j <> i -> nth_error l j = Some y -> nth_error (upd l i x) j = Some y.
Proof. intros. rewrite nth_error_upd_neq; auto. Qed.

Lemma length_upd {A} (l : list A) i x : length (upd l i x) = length l.
Proof. revert i; induction l; intros [|i]; simpl; auto. Qed.

Lemma In_upd {A} (l : list A) i x s : In s (upd l i x) -> s = x \/ In s l.
Proof.
  revert i; induction l; intros [|i]; simpl; intros; auto.
  - destruct H; auto.
  - destruct H; auto. destruct (IHl _ H); auto.
Qed.

Lemma nth_error_upd_inv {A} (l : list A) i x j y :
  nth_error (upd l i x) j = Some y -> j = i /\ y = x \/ j <> i /\ nth_error l j = Some y.
Proof.
  revert i j; induction l as [|a l IH]; intros [|i] [|j]; simpl; intros H; try discriminate.
  - inversion H; auto.
  - right; split; [discriminate | exact H].
  - right; split; [discriminate | exact H].
  - destruct (IH _ _ H) as [[-> ->]|[Hne Hj]]; auto.
Qed.

Lemma upd_same {A} (l : list A) i x : nth_error l i = Some x -> upd l i x = l.
Proof. revert i; induction l; intros [|i]; simpl; intros H; try discriminate; [inversion H; auto | rewrite IHl; auto]. Qed.

Lemma map_upd {A B} (f : A -> B) l i x : map f (upd l i x) = upd (map f l) i (f x).
Proof. revert i; induction l; intros [|i]; simpl; auto. rewrite IHl. reflexivity. Qed.

Lemma exists_upd {A} (P : A -> Prop) l i a a' :
  nth_error l i = Some a -> (P a -> P a') -> (exists x, In x l /\ P x) -> exists x, In x (upd l i a') /\ P x.
Proof.
  intros Hi Hp (x & Hx & Px). apply In_nth_error in Hx. destruct Hx as [j Hj].
  destruct (Nat.eq_dec i j) as [->|Hne].
  - exists a'. split; [eapply nth_error_In, nth_error_upd_eq; eauto|]. rewrite Hi in Hj. inversion Hj; subst; auto.
  - exists x. split; auto. eapply nth_error_In. rewrite nth_error_upd_neq; eauto.
Qed.

Lemma nth_error_snoc_cases {A} (l : list A) x t y :
  nth_error (l ++ [x]) t = Some y ->
  (t < length l /\ nth_error l t = Some y) \/ (t = length l /\ y = x).
Proof.
  intros H. destruct (lt_dec t (length l)) as [Hlt|Hge].
  - left. rewrite nth_error_app1 in H by auto. auto.
  - right. rewrite nth_error_app2 in H by lia. destruct (t - length l) as [|k] eqn:E.
    + simpl in H. inversion H. split; auto. lia.
    + destruct k; discriminate.
Qed.

Lemma nth_error_snoc_last {A} (l : list A) x : nth_error (l ++ [x]) (length l) = Some x.
Proof. rewrite nth_error_app2 by lia. rewrite Nat.sub_diag. reflexivity. Qed.

Lemma nth_error_app_keep {A} (l l' : list A) t y : nth_error l t = Some y -> nth_error (l ++ l') t = Some y.
Proof. intros H. rewrite nth_error_app1; auto. apply nth_error_Some. congruence. Qed.

Lemma nth_error_In_some {A} (l : list A) i s : nth_error l i = Some s -> In s l.
Proof. apply nth_error_In. Qed.

Lemma nth_error_map_some {A B} (f : A -> B) l i s' :
  nth_error (map f l) i = Some s' -> exists s, nth_error l i = Some s /\ s' = f s.
Proof.
  rewrite nth_error_map. destruct (nth_error l i); simpl; intros; try discriminate.
  inversion H; eauto.
Qed.

Lemma proj_app i a b : proj i (a ++ b) = proj i a ++ proj i b.
Proof. unfold proj. rewrite filter_app, map_app. reflexivity. Qed.

Lemma proj_single_eq i v : proj i [(i, v)] = [v].
Proof. unfold proj; simpl. rewrite Nat.eqb_refl. reflexivity. Qed.

Lemma proj_single_neq i j v : i <> j -> proj i [(j, v)] = [].
Proof. unfold proj; simpl. intros. destruct (Nat.eqb_spec j i); [congruence | reflexivity]. Qed.

Lemma yields_app a b : yields (a ++ b) = yields a ++ yields b.
Proof. unfold yields. apply flat_map_app. Qed.

(** the item of a source that has left the source but has not been yielded yet *)
Definition inflight (s : srcst) : list V :=
  match snd s with LDone (RItem v) | LBatch (RItem v) => [v] | _ => [] end.

Definition acct (items : list (list V)) (ys : list (nat * V)) (ss : list srcst) : Prop :=
  length ss = length items /\
  forall i s, nth_error ss i = Some s -> nth i items [] = proj i ys ++ inflight s ++ fst s.

Definition tags_ok (n : nat) (ys : list (nat * V)) : Prop := forall i v, In (i, v) ys -> i < n.

Definition okloc (p : mphase) (l : loc) : Prop :=
  match p, l with
  | MFresh, LIdle => True
  | MWait, (LPend | LDone _ | LDropped) => True
  | MYield, (LPend | LDone _ | LBatch _ | LYielded | LDropped) => True
  | MFin, LDropped => True
  | _, _ => False
  end.

Definition wf (s : srcst) : Prop :=
  match snd s with LDone RStop | LBatch RStop | LDropped => fst s = [] | _ => True end.

Definition covered (ss : list srcst) (order : list nat) : Prop :=
  forall j s r, nth_error ss j = Some s -> snd s = LBatch r -> In j order.

Definition noY (ss : list srcst) : Prop := forall s, In s ss -> snd s <> LYielded.

Record Inv (items : list (list V)) (ys : list (nat * V)) (st : mstate) : Prop := mkInv {
  I_acct : acct items ys (m_srcs st);
  I_tags : tags_ok (length items) ys;
  I_loc : forall s, In s (m_srcs st) -> okloc (m_phase st) (snd s) /\ wf s;
  I_cov : covered (m_srcs st) (m_order st);
  I_wait : m_phase st = MWait -> existsb in_tasks (m_srcs st) = true;
  I_yield : m_phase st = MYield -> exists s, In s (m_srcs st) /\ snd s = LYielded
}.

Definition vy (v : vis) : list (nat * V) := match v with VYield i x => [(i, x)] | _ => [] end.

Lemma yields_cons o os : yields (o :: os) = vy (snd o) ++ yields os.
Proof. unfold yields, vy. simpl. destruct (snd o); reflexivity. Qed.

Lemma tags_ok_app n a b : tags_ok n a -> tags_ok n b -> tags_ok n (a ++ b).
Proof. unfold tags_ok; intros. apply in_app_or in H1. destruct H1; eauto. Qed.

Lemma noY_upd ss i s : noY ss -> snd s <> LYielded -> noY (upd ss i s).
Proof. intros H Hs x Hx. apply In_upd in Hx. destruct Hx as [->|Hx]; auto. Qed.

Lemma noY_rearm ss : noY (map rearm ss).
Proof. intros s Hs. apply in_map_iff in Hs. destruct Hs as ([a l] & <- & _). destruct l; discriminate. Qed.

Lemma noY_to_batch ss : noY ss -> noY (map to_batch ss).
Proof.
  intros H s Hs. apply in_map_iff in Hs. destruct Hs as ([a l] & <- & Hs). specialize (H _ Hs).
  destruct l; simpl in *; auto; discriminate.
Qed.

Lemma covered_upd ss i s order :
  (forall r, snd s <> LBatch r) -> covered ss (i :: order) -> covered (upd ss i s) order.
Proof.
  intros Hs Hc j s' r Hj Hl. destruct (nth_error_upd_inv _ _ _ _ _ Hj) as [[-> ->]|[Hne Hj']].
  - contradiction (Hs r).
  - destruct (Hc _ _ _ Hj' Hl) as [<-|]; [contradiction Hne; reflexivity | auto].
Qed.

Lemma covered_rearm ss order : covered ss order -> covered (map rearm ss) order.
Proof.
  intros Hc j s r Hj Hl. apply nth_error_map_some in Hj. destruct Hj as ([a l] & Hj & ->).
  apply (Hc j (a, l) r Hj). destruct l; simpl in *; try discriminate; auto.
Qed.

Lemma covered_all ss ord : covered ss (ord ++ seq 0 (length ss)).
Proof.
  intros j s r Hj _. apply in_or_app. right. apply in_seq.
  assert (j < length ss) by (apply nth_error_Some; congruence). lia.
Qed.

Lemma batch_dec (ss : list srcst) i :
  (exists rest r0, nth_error ss i = Some (rest, LBatch r0)) \/
  (forall rest r0, nth_error ss i <> Some (rest, LBatch r0)).
Proof. destruct (nth_error ss i) as [[rest [| | |r0| |]]|]; try (right; intros; discriminate). left; eauto. Qed.

Lemma process_skip (ss : list srcst) i r :
  (forall rest r0, nth_error ss i <> Some (rest, LBatch r0)) -> process ss (i :: r) = process ss r.
Proof.
  intros H. simpl. destruct (nth_error ss i) as [[rest [| | |r0| |]]|] eqn:E; auto.
  exfalso. eapply H; eauto.
Qed.

Lemma process_quiet order : forall ss ss' order', process ss order = (ss', order', VNone) -> order' = [].
Proof.
  induction order as [|i r IH]; intros ss ss' order' H; [inversion H; auto|].
  destruct (batch_dec ss i) as [(rest & [v|] & E)|Hnb]; [| |rewrite process_skip in H by auto; eauto];
    simpl in H; rewrite E in H; [discriminate | eauto].
Qed.

Lemma process_cov order : forall ss ss' order' v,
  process ss order = (ss', order', v) ->
  forall j s' r, nth_error ss' j = Some s' -> snd s' = LBatch r ->
    (exists s, nth_error ss j = Some s /\ snd s = LBatch r) /\ (In j order -> In j order').
Proof.
  induction order as [|i rest IH]; intros ss ss' order' v H j s' r Hn Hl.
  - inversion H; subst. split; [eauto | tauto].
  - destruct (batch_dec ss i) as [(ri & r0 & En)|Hnb].
    2: { rewrite process_skip in H by auto. destruct (IH _ _ _ _ H _ _ _ Hn Hl) as [Hex Hin]. split; [exact Hex|].
         intros [->|]; auto. destruct Hex as ([a b] & Hs & Hls). simpl in Hls; subst. contradiction (Hnb _ _ Hs). }
    simpl in H. rewrite En in H. destruct r0 as [v0|].
    + inversion H; subst; clear H.
      destruct (nth_error_upd_inv _ _ _ _ _ Hn) as [[_ ->]|[Hne Hn']]; [discriminate|].
      split; [eauto|]. intros [->|]; [congruence | auto].
    + destruct (IH _ _ _ _ H _ _ _ Hn Hl) as [(s & Hs & Hls) Hin].
      destruct (nth_error_upd_inv _ _ _ _ _ Hs) as [[_ ->]|[Hne Hs']]; [discriminate|].
      split; [eauto|]. intros [->|]; [congruence | auto].
Qed.

Lemma acct_upd_same items ys ss i s s' :
  acct items ys ss -> nth_error ss i = Some s ->
  inflight s' ++ fst s' = inflight s ++ fst s ->
  acct items ys (upd ss i s').
Proof.
  intros [Hl Ha] En He. split; [rewrite length_upd; auto|].
  intros j x Hj. destruct (nth_error_upd_inv _ _ _ _ _ Hj) as [[-> ->]|[_ Hj']]; [rewrite He|]; auto.
Qed.

Lemma process_inv items order : forall ss ss' order' v ys,
  process ss order = (ss', order', v) ->
  acct items ys ss -> (forall s, In s ss -> okloc MYield (snd s) /\ wf s) -> noY ss ->
  acct items (ys ++ vy v) ss' /\ (forall s, In s ss' -> okloc MYield (snd s) /\ wf s) /\
  (v = VNone -> noY ss') /\ v <> VStop /\ (forall i x, v = VYield i x -> i < length ss).
Proof.
  induction order as [|i rest IH]; simpl; intros ss ss' order' v ys H Ha Hok Hny.
  - inversion H; subst. simpl. rewrite app_nil_r.
    split; [auto|]. split; [auto|]. split; [auto|]. split; [discriminate|]. intros; discriminate.
  - destruct (nth_error ss i) as [[ri li]|] eqn:En; [|eapply IH; eauto].
    destruct li as [ | |r0|r0| | ]; try solve [eapply IH; eauto].
    destruct r0 as [v0|].
    + inversion H; subst; clear H. simpl. split; [|split; [|split; [|split]]].
      * split; [rewrite length_upd; apply Ha|].
        intros j x Hj. destruct Ha as [Hl Ha]. destruct (nth_error_upd_inv _ _ _ _ _ Hj) as [[-> ->]|[Hne Hj']].
        -- rewrite proj_app, proj_single_eq. rewrite (Ha _ _ En). unfold inflight; simpl.
           rewrite <- app_assoc. reflexivity.
        -- rewrite proj_app, proj_single_neq by auto. rewrite app_nil_r. auto.
      * intros s Hs. apply In_upd in Hs. destruct Hs as [->|Hs]; [split; simpl; exact I | apply Hok; auto].
      * intros; discriminate.
      * discriminate.
      * intros j x Hv. inversion Hv; subst. apply nth_error_Some. congruence.
    + assert (Hwf : ri = []).
      { destruct (Hok _ (nth_error_In _ _ En)) as [_ Hw]. exact Hw. }
      subst ri.
      destruct (IH (upd ss i ([], LDropped)) ss' order' v ys H) as (A & B & Cc & D & E).
      * eapply acct_upd_same; eauto.
      * intros s Hs. apply In_upd in Hs. destruct Hs as [->|Hs]; [split; [exact I | reflexivity] | apply Hok; auto].
      * intros s Hs. apply In_upd in Hs. destruct Hs as [->|Hs]; [simpl; discriminate | apply Hny; auto].
      * split; [auto|]. split; [auto|]. split; [auto|]. split; [auto|].
        intros j x Hv. rewrite <- (length_upd ss i ([], LDropped)). eauto.
Qed.

Lemma process_yielded order : forall ss ss' order' i x,
  process ss order = (ss', order', VYield i x) -> exists s, In s ss' /\ snd s = LYielded.
Proof.
  induction order as [|a order IH]; simpl; intros; [discriminate|].
  destruct (nth_error ss a) as [[ri li]|] eqn:En; [|eauto].
  destruct li; eauto. destruct r; eauto.
  inversion H; subst. exists (ri, LYielded). split; auto.
  eapply nth_error_In. eapply nth_error_upd_eq; eauto.
Qed.

Lemma in_tasks_false_dropped ss :
  existsb in_tasks ss = false ->
  (forall s, In s ss -> okloc MYield (snd s)) -> noY ss ->
  (forall s r, In s ss -> snd s <> LBatch r) ->
  forall s, In s ss -> okloc MFin (snd s).
Proof.
  intros He Hok Hny Hnb s Hs.
  assert (Hf : in_tasks s = false).
  { destruct (in_tasks s) eqn:E; auto.
    assert (existsb in_tasks ss = true) by (apply existsb_exists; eauto). congruence. }
  specialize (Hok _ Hs). specialize (Hny _ Hs). pose proof (Hnb s) as Hb.
  unfold in_tasks in Hf. destruct (snd s) eqn:El; simpl in *; try discriminate; try tauto.
  exfalso. eapply Hb; eauto.
Qed.

Lemma settle_inv items ss order ys st' v :
  settle ss order = (st', v) ->
  acct items ys ss -> tags_ok (length items) ys ->
  (forall s, In s ss -> okloc MYield (snd s) /\ wf s) -> noY ss -> covered ss order ->
  Inv items (ys ++ vy v) st'.
Proof.
  unfold settle. intros H Ha Ht Hok Hny Hc.
  destruct (process ss order) as [[ss' order'] v0] eqn:Ep.
  destruct (process_inv items _ _ _ _ _ _ Ep Ha Hok Hny) as (A & B & Cc & D & E).
  assert (Hcov : covered ss' order').
  { intros j s r Hj Hl. destruct (process_cov _ _ _ _ _ Ep _ _ _ Hj Hl) as [(s0 & Hs0 & Hl0) Hin].
    apply Hin. eapply Hc; eauto. }
  destruct v0 as [i x| |].
  - inversion H; subst; clear H. constructor; simpl; auto.
    + apply tags_ok_app; auto. intros j y [Hy|[]]. inversion Hy; subst.
      destruct Ha as [<- _]. eapply E; eauto.
    + discriminate.
    + intros _. eapply process_yielded; eauto.
  - congruence.
  - assert (Hnb : forall s r, In s ss' -> snd s <> LBatch r).
    { intros s r Hs Hl. apply In_nth_error in Hs. destruct Hs as [j Hj].
      pose proof (process_cov _ _ _ _ _ Ep _ _ _ Hj Hl) as [(s0 & Hs0 & Hl0) Hin].
      assert (Hj' : In j order') by (apply Hin; eapply Hc; eauto).
      rewrite (process_quiet _ _ _ _ Ep) in Hj'. contradiction. }
    assert (Hwait : forall s, In s ss' -> okloc MWait (snd s)).
    { intros s Hs. destruct (B _ Hs) as [Ho _]. pose proof (Cc eq_refl _ Hs). pose proof (Hnb s).
      destruct (snd s) eqn:El; simpl in *; try tauto. exfalso; eapply H1; eauto. }
    simpl in A; rewrite app_nil_r in A.
    destruct (existsb in_tasks ss') eqn:Ee; inversion H; subst; clear H; simpl; rewrite app_nil_r.
    + constructor; simpl; auto.
      * intros s Hs. split; [apply Hwait; auto | apply B; auto].
      * intros j s r Hj Hl. exfalso. eapply Hnb; eauto using nth_error_In.
      * discriminate.
    + constructor; simpl; auto.
      * intros s Hs. split; [|apply B; auto].
        eapply in_tasks_false_dropped; eauto. intros; apply B; auto.
      * intros j s r Hj Hl. exfalso. eapply Hnb; eauto using nth_error_In.
      * discriminate.
      * discriminate.
Qed.

Lemma acct_map items ys ss f :
  acct items ys ss -> (forall s, In s ss -> inflight (f s) ++ fst (f s) = inflight s ++ fst s) ->
  acct items ys (map f ss).
Proof.
  intros [Hl Ha] Hf. split; [rewrite map_length; auto|].
  intros i s' Hi. apply nth_error_map_some in Hi. destruct Hi as (s & Hs & ->).
  rewrite Hf by eauto using nth_error_In. auto.
Qed.

Lemma step_inv items ys st l st' o :
  Inv items ys st -> mstep st l = (st', o) -> Inv items (ys ++ vy (snd o)) st'.
Proof.
  intros [Ha Ht Hl Hc Hw Hy] H. destruct l as [|i|ord]; simpl in H.
  - (* MNext *)
    destruct (m_phase st) eqn:Ep.
    + (* MFresh *)
      assert (Hall : forall s, In s (map arm (m_srcs st)) -> snd s = LPend).
      { intros s Hs. apply in_map_iff in Hs. destruct Hs as (s0 & <- & _). reflexivity. }
      assert (Ha' : acct items ys (map arm (m_srcs st))).
      { apply acct_map; auto. intros s Hs. destruct (Hl _ Hs) as [Ho _].
        destruct s as [r lc]; simpl in *. destruct lc; simpl in Ho; try tauto; reflexivity. }
      destruct (existsb in_tasks (map arm (m_srcs st))) eqn:Ee; inversion H; subst; clear H; simpl; rewrite app_nil_r.
      * constructor; simpl; auto.
        -- intros s Hs. rewrite (Hall _ Hs). split; simpl; auto. unfold wf. rewrite (Hall _ Hs). exact I.
        -- intros j s r Hj Hlr. rewrite (Hall s) in Hlr by eauto using nth_error_In. discriminate.
        -- discriminate.
      * assert (m_srcs st = []).
        { destruct (m_srcs st) as [|s r]; auto. simpl in Ee. discriminate. }
        rewrite H in *. constructor; simpl; auto.
        -- intros s [].
        -- intros j s r Hj. destruct j; discriminate.
        -- discriminate.
        -- discriminate.
    + (* MWait *) inversion H; subst; simpl. rewrite app_nil_r. constructor; rewrite ?Ep; auto.
    + (* MYield *)
      destruct (settle (map rearm (m_srcs st)) (m_order st)) as [st1 v] eqn:Es.
      inversion H; subst; clear H. simpl.
      eapply settle_inv; eauto.
      * apply acct_map; auto. intros s Hs. unfold rearm. destruct s as [r lc]; destruct lc; reflexivity.
      * intros s Hs. apply in_map_iff in Hs. destruct Hs as (s0 & <- & Hs0).
        destruct (Hl _ Hs0) as [Ho Hwf]. destruct s0 as [r lc]; unfold rearm, wf in *; simpl in *.
        destruct lc; simpl; auto.
      * apply noY_rearm.
      * apply covered_rearm; auto.
    + (* MFin *) inversion H; subst; simpl. rewrite app_nil_r. constructor; rewrite ?Ep; auto.
  - (* MComplete *)
    destruct (nth_error (m_srcs st) i) as [s|] eqn:En; inversion H; subst; clear H; simpl; rewrite app_nil_r;
      [|constructor; auto].
    assert (Hs : In s (m_srcs st)) by eauto using nth_error_In.
    destruct (Hl _ Hs) as [Ho Hwf].
    constructor; simpl; auto.
    + eapply acct_upd_same; eauto. destruct s as [[|v r] lc]; destruct lc; reflexivity.
    + intros s' Hs'. apply In_upd in Hs'. destruct Hs' as [->|Hs']; [|auto].
      destruct s as [[|v r] lc]; destruct lc; simpl in *; unfold wf in *; simpl in *; auto;
        destruct (m_phase st); simpl in *; auto.
    + intros j s' r Hj Hlr. destruct (nth_error_upd_inv _ _ _ _ _ Hj) as [[-> ->]|[_ Hj']]; [|eauto].
      apply (Hc i s r En). destruct s as [[|v r0] lc]; destruct lc; simpl in *; auto; discriminate.
    + intros Hp. apply existsb_exists, (exists_upd (fun x => in_tasks x = true) _ _ _ _ En).
      * destruct s as [[|v r0] lc]; destruct lc; simpl; auto.
      * apply existsb_exists; auto.
    + intros Hp. apply (exists_upd (fun x => snd x = LYielded) _ _ _ _ En); auto.
      destruct s as [[|v r0] lc]; simpl; intros ->; reflexivity.
  - (* MWake *)
    destruct (m_phase st) eqn:Ep; try solve [inversion H; subst; simpl; rewrite app_nil_r; constructor; rewrite ?Ep; auto].
    destruct (done_idx 0 (m_srcs st)) as [|d ds] eqn:Ed.
    + inversion H; subst; simpl; rewrite app_nil_r; constructor; rewrite ?Ep; auto.
    + destruct (settle (map to_batch (m_srcs st)) (ord ++ seq 0 (length (m_srcs st)))) as [st1 v] eqn:Es.
      inversion H; subst; clear H. simpl.
      eapply settle_inv; eauto.
      * apply acct_map; auto. intros s Hs. unfold to_batch. destruct s as [r lc]; destruct lc; reflexivity.
      * intros s Hs. apply in_map_iff in Hs. destruct Hs as (s0 & <- & Hs0).
        destruct (Hl _ Hs0) as [Ho Hwf]. destruct s0 as [r lc]; unfold to_batch, wf in *; simpl in *.
        destruct lc; simpl in *; auto.
      * apply noY_to_batch. intros s Hs Hly. destruct (Hl _ Hs) as [Ho _]. rewrite ?Ep, Hly in Ho. exact Ho.
      * rewrite <- (map_length to_batch). apply covered_all.
Qed.

Lemma init_inv items : Inv items [] (minit items).
Proof.
  constructor; simpl.
  - split; [apply map_length|]. intros i s Hs. apply nth_error_map_some in Hs.
    destruct Hs as (l & Hl & ->). simpl. apply nth_error_nth. auto.
  - intros i v [].
  - intros s Hs. apply in_map_iff in Hs. destruct Hs as (l & <- & _). simpl. split; exact I.
  - intros j s r Hj Hl. apply nth_error_map_some in Hj. destruct Hj as (l & _ & ->). discriminate.
  - discriminate.
  - discriminate.
Qed.

Lemma run_from_inv items ls : forall st ys st' os,
  Inv items ys st -> mrun_from st ls = (st', os) -> Inv items (ys ++ yields os) st'.
Proof.
  induction ls as [|l r IH]; simpl; intros st ys st' os HI H.
  - inversion H; subst. simpl. rewrite app_nil_r. auto.
  - destruct (mstep st l) as [st1 o] eqn:E1. destruct (mrun_from st1 r) as [st2 os2] eqn:E2.
    inversion H; subst; clear H.
    pose proof (step_inv _ _ _ _ _ _ HI E1) as HI1.
    pose proof (IH _ _ _ _ HI1 E2) as HI2.
    rewrite yields_cons, app_assoc. exact HI2.
Qed.

Lemma run_inv items ls : Inv items (yields (mouts items ls)) (mrun items ls).
Proof.
  unfold mouts, mrun. destruct (mrun_from (minit items) ls) as [st os] eqn:E.
  simpl. exact (run_from_inv _ _ _ _ _ _ (init_inv items) E).
Qed.

(** Every (tag, item) yielded carries the tag of an existing source, and the
    items yielded with tag i are -- in order, without gap or repetition -- a
    prefix of source i's items; what is missing is exactly what is in flight
    (at most one item) and what the source has not produced yet. *)
Theorem merge_projection items ls i :
  (forall j v, In (j, v) (yields (mouts items ls)) -> j < length items) /\
  exists rest, nth i items [] = proj i (yields (mouts items ls)) ++ rest.
Proof.
  destruct (run_inv items ls) as [[Hl Ha] Ht _ _ _]. split; [exact Ht|].
  destruct (nth_error (m_srcs (mrun items ls)) i) as [s|] eqn:En.
  - exists (inflight s ++ fst s). auto.
  - apply nth_error_None in En. rewrite Hl in En.
    exists []. rewrite app_nil_r. rewrite nth_overflow by auto.
    destruct (proj i (yields (mouts items ls))) as [|v r] eqn:Ep; auto.
    exfalso. assert (In v (proj i (yields (mouts items ls)))) by (rewrite Ep; left; auto).
    unfold proj in H. apply in_map_iff in H. destruct H as ([j w] & _ & Hin).
    apply filter_In in Hin. destruct Hin as [Hin Heq]. simpl in Heq. apply Nat.eqb_eq in Heq. subst j.
    apply Ht in Hin. lia.
Qed.

Theorem merge_accounting items ls i s :
  nth_error (m_srcs (mrun items ls)) i = Some s ->
  nth i items [] = proj i (yields (mouts items ls)) ++ inflight s ++ fst s.
Proof. destruct (run_inv items ls) as [[Hl Ha] _ _ _ _]. apply Ha. Qed.

(** The merged iterator is finished exactly when it has started and every source
    has been seen to finish (its StopAsyncIteration consumed); then every item of
    every source has been yielded. *)
Theorem merge_finished_iff items ls :
  m_phase (mrun items ls) = MFin <->
  (m_phase (mrun items ls) <> MFresh /\ forall s, In s (m_srcs (mrun items ls)) -> s = ([], LDropped)).
Proof.
  destruct (run_inv items ls) as [_ _ Hl _ Hw Hy]. split.
  - intros Hp. split; [congruence|]. intros s Hs. destruct (Hl _ Hs) as [Ho Hwf].
    rewrite Hp in Ho. destruct s as [r lc]; unfold wf in Hwf; simpl in *.
    destruct lc; simpl in Ho; try tauto. subst; reflexivity.
  - intros [Hnf Hall]. destruct (m_phase (mrun items ls)) eqn:Ep; auto; try congruence.
    + specialize (Hw eq_refl). apply existsb_exists in Hw. destruct Hw as (s & Hs & Hin).
      rewrite (Hall _ Hs) in Hin. discriminate.
    + (* MYield: the yielded source is neither dropped nor re-armed *)
      destruct (Hy eq_refl) as (s & Hs & Hly). rewrite (Hall _ Hs) in Hly. discriminate.
Qed.

Theorem merge_complete_when_finished items ls i :
  m_phase (mrun items ls) = MFin -> proj i (yields (mouts items ls)) = nth i items [].
Proof.
  intros Hp. destruct (run_inv items ls) as [[Hlen Ha] Ht Hl _ _].
  destruct (nth_error (m_srcs (mrun items ls)) i) as [s|] eqn:En.
  - rewrite (Ha _ _ En). destruct (Hl _ (nth_error_In _ _ En)) as [Ho Hwf]. rewrite Hp in Ho.
    destruct s as [r lc]; unfold wf, inflight in *; simpl in *. destruct lc; simpl in Ho; try tauto.
    subst. rewrite app_nil_r. reflexivity.
  - destruct (merge_projection items ls i) as [_ [rest Hr]].
    apply nth_error_None in En. rewrite Hlen in En. rewrite nth_overflow in Hr |- * by auto.
    destruct (proj i (yields (mouts items ls))); auto; discriminate.
Qed.

(** The measure.  A source moves along Idle > Pend > Done > Batch > Yielded / Dropped, and every such
    move lowers [cw]; re-arming is Yielded 5 -> Pend 4.  The one move that raises it, Pend 4 ->
    Done (RItem _) 7, consumes an item of the source, which [w] counts 4; an exhausted source goes
    Pend 4 -> Done RStop 3.  [mu] adds 1 before the first anext, so that starting is a move too. *)
Definition cw (l : loc) : nat :=
  match l with
  | LIdle => 5 | LPend => 4 | LDone (RItem _) => 7 | LDone RStop => 3
  | LBatch (RItem _) => 6 | LBatch RStop => 2 | LYielded => 5 | LDropped => 0
  end.
Definition w (s : srcst) : nat := 4 * length (fst s) + cw (snd s).
Definition sumw (ss : list srcst) : nat := fold_right (fun s a => w s + a) 0 ss.
Definition mu (st : mstate) : nat :=
  sumw (m_srcs st) + match m_phase st with MFresh => 1 | _ => 0 end.

Lemma sumw_map_le f ss : (forall s, In s ss -> w (f s) <= w s) -> sumw (map f ss) <= sumw ss.
Proof.
  induction ss as [|a ss IH]; simpl; intros Hf; auto.
  pose proof (Hf a (or_introl eq_refl)). specialize (IH (fun s H => Hf s (or_intror H))). lia.
Qed.

Lemma sumw_map_lt f ss :
  (forall s, w (f s) <= w s) -> (exists s, In s ss /\ w (f s) < w s) -> sumw (map f ss) < sumw ss.
Proof.
  intros Hf (s & Hs & Hlt). induction ss; simpl in *; [contradiction|].
  destruct Hs as [->|Hs].
  - pose proof (sumw_map_le f ss (fun s _ => Hf s)). lia.
  - specialize (IHss Hs). specialize (Hf a). lia.
Qed.

Lemma sumw_upd ss : forall i s s', nth_error ss i = Some s -> sumw (upd ss i s') + w s = sumw ss + w s'.
Proof.
  induction ss; intros [|i] s s' H; simpl in *; try discriminate.
  - inversion H; subst. lia.
  - specialize (IHss _ _ s' H). lia.
Qed.

Lemma process_le order : forall ss ss' o' v, process ss order = (ss', o', v) -> sumw ss' <= sumw ss.
Proof.
  induction order as [|i rest IH]; simpl; intros ss ss' o' v H.
  - inversion H; subst; auto.
  - destruct (nth_error ss i) as [[ri li]|] eqn:En; [|eauto].
    destruct li; eauto. destruct r.
    + inversion H; subst. pose proof (sumw_upd _ _ _ (ri, LYielded) En). unfold w in *; simpl in *. lia.
    + apply IH in H. pose proof (sumw_upd _ _ _ (ri, LDropped) En). unfold w in *; simpl in *. lia.
Qed.

Lemma settle_le ss order st' v : settle ss order = (st', v) -> mu st' <= sumw ss.
Proof.
  unfold settle. destruct (process ss order) as [[ss' o'] v0] eqn:Ep. apply process_le in Ep.
  intros H. destruct v0; [|destruct (existsb in_tasks ss')..]; inversion H; subst; unfold mu; simpl; lia.
Qed.

Lemma done_idx_nil ss : forall n, done_idx n ss = [] -> forall s, In s ss -> is_done s = false.
Proof.
  induction ss; simpl; intros n H s Hs; [contradiction|].
  destruct (is_done a) eqn:Ed; [discriminate|]. destruct Hs as [->|Hs]; eauto.
Qed.

Lemma done_idx_some ss : forall n, done_idx n ss <> [] -> exists s, In s ss /\ is_done s = true.
Proof.
  induction ss; simpl; intros n H; [congruence|].
  destruct (is_done a) eqn:Ed; [eauto|]. destruct (IHss _ H) as (s & Hs & Hd). eauto.
Qed.

Lemma progress items ys st :
  Inv items ys st -> m_phase st <> MFin -> exists l, mu (fst (mstep st l)) < mu st.
Proof.
  intros [Ha Ht Hl Hc Hw Hy] Hnf. destruct (m_phase st) eqn:Ep; try congruence.
  - (* MFresh *) exists MNext. simpl. rewrite Ep.
    assert (Hle : forall s, In s (m_srcs st) -> snd s = LIdle).
    { intros s Hs. destruct (Hl _ Hs) as [Ho _]. destruct (snd s); simpl in Ho; tauto. }
    assert (sumw (map arm (m_srcs st)) <= sumw (m_srcs st)).
    { apply sumw_map_le. intros [r lc] Hs. pose proof (Hle _ Hs) as E. simpl in E; subst. unfold w; simpl. lia. }
    destruct (existsb in_tasks (map arm (m_srcs st))); unfold mu; simpl; rewrite Ep; lia.
  - (* MWait *)
    destruct (done_idx 0 (m_srcs st)) as [|d ds] eqn:Ed.
    + pose proof (done_idx_nil _ _ Ed) as Hnd.
      specialize (Hw eq_refl). apply existsb_exists in Hw. destruct Hw as (s & Hs & Hin).
      apply In_nth_error in Hs. destruct Hs as [i Hi].
      exists (MComplete i). simpl. rewrite Hi. unfold mu; simpl. rewrite Ep.
      pose proof (sumw_upd _ _ _ (complete s) Hi).
      assert (w (complete s) < w s).
      { pose proof (Hnd _ (nth_error_In _ _ Hi)). destruct s as [[|v r] lc]; unfold in_tasks, is_done in *; simpl in *;
          destruct lc; try discriminate; unfold w; simpl; lia. }
      lia.
    + exists (MWake []). simpl. rewrite Ep, Ed.
      destruct (settle (map to_batch (m_srcs st)) (seq 0 (length (m_srcs st)))) as [st1 v] eqn:Es.
      simpl. apply settle_le in Es.
      assert (sumw (map to_batch (m_srcs st)) < sumw (m_srcs st)).
      { apply sumw_map_lt.
        - intros [r lc]. unfold w, to_batch; simpl. destruct lc as [| |[|]|[|]| |]; simpl; lia.
        - destruct (done_idx_some (m_srcs st) 0) as (s & Hs & Hd); [congruence|].
          exists s. split; auto. destruct s as [r lc]; unfold is_done, w, to_batch in *; simpl in *.
          destruct lc as [| |[|]|[|]| |]; try discriminate; simpl; lia. }
      unfold mu at 2. rewrite Ep. lia.
  - (* MYield *) exists MNext. simpl. rewrite Ep.
    destruct (settle (map rearm (m_srcs st)) (m_order st)) as [st1 v] eqn:Es.
    simpl. apply settle_le in Es.
    assert (sumw (map rearm (m_srcs st)) < sumw (m_srcs st)).
    { apply sumw_map_lt.
      - intros [r lc]. unfold w, rearm; simpl. destruct lc as [| |[|]|[|]| |]; simpl; lia.
      - destruct (Hy eq_refl) as (s & Hs & Hly). exists s. split; auto.
        destruct s as [r lc]; simpl in *; subst. unfold w, rearm; simpl. lia. }
    unfold mu at 2. rewrite Ep. lia.
Qed.

Lemma can_finish_from items : forall n st ys,
  Inv items ys st -> mu st < n -> exists ls', m_phase (fst (mrun_from st ls')) = MFin.
Proof.
  induction n; intros st ys HI Hn; [lia|].
  destruct (m_phase st) eqn:Ep; try (exists []; exact Ep);
    (destruct (progress _ _ _ HI) as [l Hl]; [congruence|];
     destruct (mstep st l) as [st1 o] eqn:E1;
     pose proof (step_inv _ _ _ _ _ _ HI E1) as HI1; simpl in Hl;
     destruct (IHn st1 _ HI1) as [ls' Hls]; [lia|];
     exists (l :: ls'); rewrite (runs_cons_fst mstep), E1; exact Hls).
Qed.

(** For every run there is a continuation (release the remaining gates, keep
    consuming) after which the merged iterator has finished: it cannot get stuck. *)
Theorem merge_can_finish items ls : exists ls', m_phase (mrun items (ls ++ ls')) = MFin.
Proof.
  destruct (can_finish_from items (S (mu (mrun items ls))) _ _ (run_inv items ls)) as [ls' H]; [lia|].
  exists ls'. unfold mrun in *. rewrite (runs_app_fst mstep). exact H.
Qed.

Theorem merge_finished_stays items ls ls' :
  m_phase (mrun items ls) = MFin ->
  m_phase (mrun items (ls ++ ls')) = MFin /\ yields (mouts items (ls ++ ls')) = yields (mouts items ls).
Proof.
  intros Hp.
  assert (G : forall ls' st, m_phase st = MFin ->
              m_phase (fst (mrun_from st ls')) = MFin /\ yields (snd (mrun_from st ls')) = []).
  { clear. induction ls' as [|l r IH]; simpl; intros st Hp; auto.
    destruct (mstep st l) as [st1 o] eqn:E1.
    assert (m_phase st1 = MFin /\ vy (snd o) = []).
    { destruct l; simpl in E1.
      - rewrite Hp in E1. inversion E1; subst; auto.
      - destruct (nth_error (m_srcs st) i); inversion E1; subst; auto.
      - rewrite Hp in E1. inversion E1; subst; auto. }
    destruct H as [Hp1 Hv]. destruct (IH _ Hp1) as [A B].
    destruct (mrun_from st1 r) as [st2 os] eqn:E2. cbn [fst snd] in *. split; auto.
    rewrite yields_cons, Hv, B. reflexivity. }
  unfold mrun, mouts in *.
  rewrite (runs_app_fst mstep), (runs_app_snd mstep), yields_app. destruct (G ls' _ Hp) as [A B].
  split; [exact A|]. etransitivity; [apply f_equal; exact B | apply app_nil_r].
Qed.

Theorem merge_terminates items ls :
  (m_phase (mrun items ls) = MFin <->
   (m_phase (mrun items ls) <> MFresh /\ forall s, In s (m_srcs (mrun items ls)) -> s = ([], LDropped))) /\
  (m_phase (mrun items ls) = MFin -> forall i, proj i (yields (mouts items ls)) = nth i items []).
Proof.
  split; [exact (merge_finished_iff items ls)|].
  intros H i. exact (merge_complete_when_finished items ls i H).
Qed.
