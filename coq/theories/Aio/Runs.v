(** Runs of a labelled step function.  [mrun_from], [grun_from] (Aio/Model.v), [imrun_from] and
    [igrun_from] (Aio/Interp.v) are [runs] of their step function by conversion, so what is proved
    here applies to them as it stands.  [trun_from] and [itrun_from] take their parameters before the
    state inside the fixpoint and are not convertible: they go through the equations
    [ToAiter.trun_from_runs] and [TieToAiter.itrun_from_runs]. *)
From Coq Require Import List.
Import ListNotations.

Section Runs.
  Context {S L O : Type} (step : S -> L -> S * O).

  Fixpoint runs (st : S) (ls : list L) : S * list O :=
    match ls with
    | [] => (st, [])
    | l :: r => let '(st', o) := step st l in
                let '(st'', os) := runs st' r in (st'', o :: os)
    end.

  Lemma runs_app ls : forall st ls',
    runs st (ls ++ ls') =
    let '(st1, os1) := runs st ls in let '(st2, os2) := runs st1 ls' in (st2, os1 ++ os2).
  Proof.
    induction ls as [|l r IH]; simpl; intros.
    - destruct (runs st ls'); reflexivity.
    - destruct (step st l) as [st1 o]. rewrite IH.
      destruct (runs st1 r) as [st2 os2]. destruct (runs st2 ls'); reflexivity.
  Qed.

  Lemma runs_app_fst st ls ls' : fst (runs st (ls ++ ls')) = fst (runs (fst (runs st ls)) ls').
  Proof. rewrite runs_app. destruct (runs st ls) as [st1 os1]. simpl. destruct (runs st1 ls'); reflexivity. Qed.

  Lemma runs_app_snd st ls ls' :
    snd (runs st (ls ++ ls')) = snd (runs st ls) ++ snd (runs (fst (runs st ls)) ls').
  Proof. rewrite runs_app. destruct (runs st ls) as [st1 os1]. simpl. destruct (runs st1 ls'); reflexivity. Qed.

  Lemma runs_cons_fst st l r : fst (runs st (l :: r)) = fst (runs (fst (step st l)) r).
  Proof. simpl. destruct (step st l) as [st1 o]. simpl. destruct (runs st1 r). reflexivity. Qed.
  Lemma runs_cons_snd st l r : snd (runs st (l :: r)) = snd (step st l) :: snd (runs (fst (step st l)) r).
  Proof. simpl. destruct (step st l) as [st1 o]. simpl. destruct (runs st1 r). reflexivity. Qed.
End Runs.

Lemma runs_sim {S1 S2 L O} (step1 : S1 -> L -> S1 * O) (step2 : S2 -> L -> S2 * O) (R : S1 -> S2 -> Prop) :
  (forall a b l, R a b -> snd (step2 b l) = snd (step1 a l) /\ R (fst (step1 a l)) (fst (step2 b l))) ->
  forall ls a b, R a b ->
  snd (runs step2 b ls) = snd (runs step1 a ls) /\ R (fst (runs step1 a ls)) (fst (runs step2 b ls)).
Proof.
  intros Hstep. induction ls as [|l r IH]; simpl; intros a b H; [split; auto|].
  destruct (Hstep a b l H) as [Ho H'].
  destruct (step1 a l) as [a1 o1]. destruct (step2 b l) as [b1 o2]. simpl in *.
  destruct (IH _ _ H') as [Hos H''].
  destruct (runs step1 a1 r) as [a2 os1]. destruct (runs step2 b1 r) as [b2 os2]. simpl in *.
  subst. split; auto.
Qed.
