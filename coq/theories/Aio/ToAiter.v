(** Proofs about the model of [to_aiter] (Model.v): for every interleaving of
    anext calls, worker-thread executions and deliveries. *)
From NL Require Import Aio.Model Aio.Runs Aio.Merge.
From Coq Require Import Lia.

(** what the n-th execution of `next(self._it)` must return *)
Definition res_at (items : list V) (n : nat) : res :=
  match nth_error items n with Some v => RItem v | None => RStop end.

Lemma src_complete_skipn items n :
  src_complete (skipn n items) = (skipn (S n) items, res_at items n).
Proof.
  unfold res_at. revert n. induction items as [|v r IH]; intros [|n]; simpl; auto.
  - rewrite IH. reflexivity.
Qed.

Record TInv (items : list V) (st : tstate) : Prop := mkTInv {
  T_rest : t_rest st = skipn (length (t_log st)) items;
  T_log : map snd (t_log st) = map (res_at items) (seq 0 (length (t_log st)));
  T_ran : forall c r, nth_error (t_calls st) c = Some (CRan r) -> In (c, r) (t_log st)
}.

Lemma log_snoc items (lg : list (nat * res)) c :
  map snd lg = map (res_at items) (seq 0 (length lg)) ->
  map snd (lg ++ [(c, res_at items (length lg))]) = map (res_at items) (seq 0 (length (lg ++ [(c, res_at items (length lg))]))).
Proof.
  intros H. rewrite app_length; simpl. rewrite Nat.add_1_r, seq_S, !map_app, H. reflexivity.
Qed.

Lemma nth_error_snoc_ran (cs : list cst) x c r :
  x <> CRan r -> nth_error (cs ++ [x]) c = Some (CRan r) -> nth_error cs c = Some (CRan r).
Proof.
  intros Hx H. destruct (nth_error_snoc_cases _ _ _ _ H) as [[_ ?]|[_ E]]; [auto | congruence].
Qed.

Lemma tstep_inv thread items st l st' o :
  TInv items st -> tstep thread st l = (st', o) ->
  TInv items st' /\ (exists ext, t_log st' = t_log st ++ ext) /\
  (forall c r, o = TORes c r -> In (c, r) (t_log st')).
Proof.
  intros [Hr Hl Hc] H. destruct l as [|c|c]; simpl in H.
  - destruct thread.
    + injection H as <- <-. simpl. split; [|split; [exists []; rewrite app_nil_r; auto | discriminate]].
      constructor; simpl; auto. intros c r Hn. apply nth_error_snoc_ran in Hn; [auto | discriminate].
    + rewrite Hr, src_complete_skipn in H. injection H as <- <-. simpl.
      split; [|split; [eauto|]].
      * constructor; simpl.
        -- rewrite app_length; simpl. rewrite Nat.add_1_r. reflexivity.
        -- apply log_snoc; auto.
        -- intros c r Hn. apply nth_error_snoc_ran in Hn; [|discriminate]. apply in_or_app; auto.
      * intros c r Ho. inversion Ho; subst. apply in_or_app. right. left. reflexivity.
  - destruct (nth_error (t_calls st) c) as [[| |]|] eqn:En;
      try (injection H as <- <-; split; [constructor; auto | split; [exists []; rewrite app_nil_r; auto | discriminate]]).
    rewrite Hr, src_complete_skipn in H. injection H as <- <-. simpl.
    split; [|split; [eauto | discriminate]].
    constructor; simpl.
    + rewrite app_length; simpl. rewrite Nat.add_1_r. reflexivity.
    + apply log_snoc; auto.
    + intros c' r Hn. apply in_or_app.
      destruct (nth_error_upd_inv _ _ _ _ _ Hn) as [[-> E]|[_ Hn']]; [inversion E; subst; right; left; reflexivity | auto].
  - destruct (nth_error (t_calls st) c) as [[|r|]|] eqn:En;
      try (injection H as <- <-; split; [constructor; auto | split; [exists []; rewrite app_nil_r; auto | discriminate]]).
    injection H as <- <-. simpl. split; [|split; [exists []; rewrite app_nil_r; auto|]].
    + constructor; simpl; auto. intros c' r' Hn.
      destruct (nth_error_upd_inv _ _ _ _ _ Hn) as [[_ ?]|[_ ?]]; [discriminate | auto].
    + intros c' r' Ho. inversion Ho; subst. auto.
Qed.

Lemma trun_from_inv thread items ls : forall st st' os,
  TInv items st -> trun_from thread st ls = (st', os) ->
  TInv items st' /\ (exists ext, t_log st' = t_log st ++ ext) /\
  (forall c r, In (TORes c r) os -> In (c, r) (t_log st')).
Proof.
  induction ls as [|l r IH]; simpl; intros st st' os HI H.
  - injection H as <- <-. split; auto. split; [exists []; rewrite app_nil_r; auto | intros c r []].
  - destruct (tstep thread st l) as [st1 o] eqn:E1. destruct (trun_from thread st1 r) as [st2 os2] eqn:E2.
    injection H as <- <-.
    destruct (tstep_inv _ _ _ _ _ _ HI E1) as (HI1 & (e1 & He1) & Ho1).
    destruct (IH _ _ _ HI1 E2) as (HI2 & (e2 & He2) & Ho2).
    split; auto. split.
    + exists (e1 ++ e2). rewrite He2, He1, app_assoc. reflexivity.
    + intros c r0 [Hin|Hin]; [|auto]. rewrite He2. apply in_or_app. left. apply Ho1. auto.
Qed.

Lemma tinit_inv items : TInv items (tinit items).
Proof. constructor; simpl; auto. intros c r H. destruct c; discriminate. Qed.

(** The successive executions of `next(self._it)` -- whatever call and whatever
    thread performs them, in whatever order -- obtain exactly the iterable's
    items in order, each once, and StopIteration afterwards; and what an anext
    call delivers is what its own execution obtained. *)
Theorem to_aiter_items thread items ls :
  let st := trun thread items ls in
  map snd (t_log st) = map (res_at items) (seq 0 (length (t_log st))) /\
  t_rest st = skipn (length (t_log st)) items /\
  forall c r, In (TORes c r) (touts thread items ls) -> In (c, r) (t_log st).
Proof.
  unfold trun, touts. destruct (trun_from thread (tinit items) ls) as [st os] eqn:E. simpl.
  destruct (trun_from_inv _ _ _ _ _ _ (tinit_inv items) E) as ([Hr Hl _] & _ & Ho). auto.
Qed.

(** a consumer that awaits each anext before the next one (e.g. `async for`) *)
Definition seq_labels (thread : bool) (k : nat) : list tlabel :=
  flat_map (fun c => if thread then [TCall; TRun c; TDeliver c] else [TCall]) (seq 0 k).

Definition delivered (os : list tout) : list res :=
  flat_map (fun o => match o with TORes _ r => [r] | TONone => [] end) os.

Lemma trun_from_runs thread ls : forall st, trun_from thread st ls = runs (tstep thread) st ls.
Proof.
  induction ls as [|l r IH]; simpl; intros st; [reflexivity|].
  destruct (tstep thread st l). rewrite IH. reflexivity.
Qed.

Lemma trun_from_app thread ls st ls' :
  trun_from thread st (ls ++ ls') =
  let '(st1, os1) := trun_from thread st ls in
  let '(st2, os2) := trun_from thread st1 ls' in (st2, os1 ++ os2).
Proof.
  rewrite !trun_from_runs, runs_app. destruct (runs (tstep thread) st ls). rewrite trun_from_runs. reflexivity.
Qed.

Lemma rep_nth {A} k (a x : A) : nth_error (repeat a k ++ [x]) k = Some x.
Proof. rewrite <- (repeat_length a k) at 2. apply nth_error_snoc_last. Qed.

Lemma rep_upd {A} k (a x y : A) : upd (repeat a k ++ [x]) k y = repeat a k ++ [y].
Proof. induction k; simpl; intros; auto. f_equal. apply IHk. Qed.

Lemma rep_S {A} k (a : A) : repeat a k ++ [a] = repeat a (S k).
Proof. symmetry. apply (repeat_cons k a). Qed.

Lemma round_thread items k lg :
  trun_from true (mkT (skipn k items) (repeat CDelivered k) lg) [TCall; TRun k; TDeliver k] =
  (mkT (skipn (S k) items) (repeat CDelivered (S k)) (lg ++ [(k, res_at items k)]),
   [TONone; TONone; TORes k (res_at items k)]).
Proof.
  cbn [trun_from tstep t_calls t_rest t_log].
  rewrite rep_nth, src_complete_skipn. cbn [t_calls t_rest t_log].
  rewrite rep_upd, rep_nth, rep_upd, rep_S. reflexivity.
Qed.

Lemma round_nothread items k lg :
  trun_from false (mkT (skipn k items) (repeat CDelivered k) lg) [TCall] =
  (mkT (skipn (S k) items) (repeat CDelivered (S k)) (lg ++ [(k, res_at items k)]), [TORes k (res_at items k)]).
Proof.
  unfold trun_from, tstep. cbn [t_calls t_rest t_log]. rewrite src_complete_skipn, repeat_length, rep_S. reflexivity.
Qed.

Lemma seq_run thread items k :
  exists lg,
    fst (trun_from thread (tinit items) (seq_labels thread k)) = mkT (skipn k items) (repeat CDelivered k) lg /\
    delivered (snd (trun_from thread (tinit items) (seq_labels thread k))) = map (res_at items) (seq 0 k).
Proof.
  induction k as [|k IH].
  - simpl. exists []. auto.
  - destruct IH as (lg & Hst & Hd). unfold seq_labels in *. rewrite seq_S, flat_map_app, trun_from_app.
    destruct (trun_from thread (tinit items) (flat_map (fun c : nat => if thread then [TCall; TRun c; TDeliver c] else [TCall]) (seq 0 k)))
      as [st os] eqn:E. cbn [fst snd] in Hst, Hd. subst st. cbn [flat_map app plus].
    destruct thread.
    + rewrite round_thread. cbn [fst snd]. eexists. split; [reflexivity|].
      unfold delivered in *. rewrite map_app, flat_map_app, Hd. reflexivity.
    + rewrite round_nothread. cbn [fst snd]. eexists. split; [reflexivity|].
      unfold delivered in *. rewrite map_app, flat_map_app, Hd. reflexivity.
Qed.

Theorem to_aiter_sequential thread items k :
  delivered (touts thread items (seq_labels thread k)) = map (res_at items) (seq 0 k).
Proof. destruct (seq_run thread items k) as (lg & _ & H). exact H. Qed.
