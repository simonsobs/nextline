(** The invariant of DoneCb/Model.v (repaired thread.py, with the lock), for
    EVERY schedule and any number of registering threads. *)
From NL Require Import DoneCb.Model DoneCb.Safety.
From Coq Require Import Lia.

(** what the history says (functions of the history alone) *)
Record ghost := mkG {
  g_cl : list nat;            (* threads the callback was invoked with (newest first, with repetitions) *)
  g_rg : list nat;            (* threads whose register() returned *)
  g_rgc : list nat;           (* threads whose register() had returned when close() was called *)
  g_dd : list nat;            (* threads that ended *)
  g_rz : list nat;            (* threads whose callback raised, oldest first *)
  g_cr : list (option exn);   (* results of close() *)
  g_mx : list (option exn)    (* how the monitor thread ended *)
}.
Definition g0 : ghost := mkG [] [] [] [] [] [] [].

Definition ev_ghost (g : ghost) (e : event) : ghost :=
  match e with
  | EvRegistered t => mkG (g_cl g) (t :: g_rg g) (g_rgc g) (g_dd g) (g_rz g) (g_cr g) (g_mx g)
  | EvCb t r => mkG (t :: g_cl g) (g_rg g) (g_rgc g) (g_dd g) (if r then g_rz g ++ [t] else g_rz g) (g_cr g) (g_mx g)
  | EvMonExit e => mkG (g_cl g) (g_rg g) (g_rgc g) (g_dd g) (g_rz g) (g_cr g) (e :: g_mx g)
  | EvCloseRet e => mkG (g_cl g) (g_rg g) (g_rgc g) (g_dd g) (g_rz g) (e :: g_cr g) (g_mx g)
  end.

Definition evs_of (o : out) : list event := match o with OAcc _ e => e | _ => [] end.

Definition g_step (g : ghost) (l : label) (o : out) : ghost :=
  let g1 := match l, o with
            | Die t, OOk => mkG (g_cl g) (g_rg g) (g_rgc g) (t :: g_dd g) (g_rz g) (g_cr g) (g_mx g)
            | CloseCall, OOk => mkG (g_cl g) (g_rg g) (g_rg g) (g_dd g) (g_rz g) (g_cr g) (g_mx g)
            | _, _ => g
            end in
  fold_left ev_ghost (evs_of o) g1.

Definition ghost_of (h : list (label * out)) : ghost :=
  fold_left (fun g lo => g_step g (fst lo) (snd lo)) h g0.

Fixpoint grun_from (raises : nat -> bool) (g : ghost) (s : state) (ls : list label) : ghost * state :=
  match ls with
  | [] => (g, s)
  | l :: r => let '(s', o) := step raises s l in grun_from raises (g_step g l o) s' r
  end.

Lemma grun_from_spec raises ls : forall g s,
  grun_from raises g s ls =
  (fold_left (fun g lo => g_step g (fst lo) (snd lo)) (combine ls (snd (run_from raises s ls))) g,
   fst (run_from raises s ls)).
Proof.
  induction ls as [|l r IH]; intros g s; simpl; [reflexivity|].
  destruct (step raises s l) as [s' o]. rewrite IH.
  destruct (run_from raises s' r) as [s'' os]. reflexivity.
Qed.

Lemma grun_app raises ls1 : forall g s ls2,
  grun_from raises g s (ls1 ++ ls2) =
  grun_from raises (fst (grun_from raises g s ls1)) (snd (grun_from raises g s ls1)) ls2.
Proof.
  induction ls1 as [|l r IH]; intros g s ls2; simpl; [reflexivity|].
  destruct (step raises s l) as [s' o]. apply IH.
Qed.

Lemma grun_spec raises ls :
  grun_from raises g0 init ls = (ghost_of (history raises ls), run raises ls).
Proof. apply grun_from_spec. Qed.

Definition scanning (p : mpc) : Prop := match p with MIterNext | MIsAlive _ => True | _ => False end.
(** from the creation of `done` to the store *)
Definition prestore (p : mpc) : Prop :=
  match p with MIterNext | MIsAlive _ | MLoadRebuild | MSetDiff _ | MStore _ => True | _ => False end.
(** `for d in done` is pending / running *)
Definition cbpc (p : mpc) : Prop := match p with MRel1 | MCallback => True | _ => False end.
Definition mon_locked (p : mpc) : Prop :=
  match p with
  | MLoadScan | MGetIter _ | MIterNext | MIsAlive _ | MLoadRebuild | MSetDiff _ | MStore _ | MRel1
  | MLoadCheck | MTruth _ | MLoadClosed | MRelBreak | MRelLoop | MRelExc => True
  | _ => False
  end.
Definition reg_locked (r : rst) : Prop := match r with RLoad | RAdd _ | RRel => True | _ => False end.
(** the thread's `add` has been executed *)
Definition added (r : rst) : Prop := match r with RRel | RIdle | RDead => True | _ => False end.

(** The fields on which the rest turns: [i_owed] is the conservation law (a thread whose `add` was executed
    and that has not been called back is in `_active` or among the pending callbacks); [i_noexc]: the scan
    never finds the set changed in size (it runs under the lock); [i_store]: the object about to be stored
    is `_active` minus `done`. *)
Record Inv (g : ghost) (s : state) : Prop := {
  i_dead : forall t, regs s t = RDead -> In t (g_dd g) /\ In t (g_rg g);
  i_idle : forall t, regs s t = RIdle -> In t (g_rg g);
  i_rg : forall t, In t (g_rg g) -> regs s t = RIdle \/ regs s t = RDead;
  i_rgc : forall t, In t (g_rgc g) -> In t (g_rg g);
  i_done_dead : forall d, In d (m_done s) -> regs s d = RDead;
  i_done_asc : asc (m_done s);
  i_cl_nodup : NoDup (g_cl g);
  i_cl_dead : forall t, In t (g_cl g) -> regs s t = RDead;
  i_cbs : forall d, In d (m_cbs s) -> regs s d = RDead /\ ~ In d (g_cl g) /\ ~ In d (obj (heap s) (active s));
  i_cbs_asc : asc (m_cbs s);
  i_cbs_nil : ~ cbpc (m_pc s) -> m_cbs s = [];
  i_scan_done : prestore (m_pc s) -> forall d, In d (m_done s) -> ~ In d (g_cl g);
  i_active : forall t, In t (obj (heap s) (active s)) -> ~ In t (g_cl g);
  i_owed : forall t, added (regs s t) -> ~ In t (g_cl g) -> In t (obj (heap s) (active s)) \/ In t (m_cbs s);
  i_todo : scanning (m_pc s) -> forall t, In t (m_todo s) -> In t (obj (heap s) (active s));
  i_isalive : forall t, m_pc s = MIsAlive t -> In t (obj (heap s) (active s));
  i_ref : match m_pc s with MGetIter r | MSetDiff r | MTruth r => r = active s | _ => True end;
  i_bound : active s < length (heap s);
  i_store : forall n, m_pc s = MStore n ->
            active s < n /\ n < length (heap s) /\
            forall t, In t (obj (heap s) n) <-> In t (obj (heap s) (active s)) /\ ~ In t (m_done s);
  i_radd : forall t r, regs s t = RAdd r -> r = active s;
  i_iter : scanning (m_pc s) -> m_itref s = active s /\ m_itused s = length (obj (heap s) (active s));
  i_empty : m_pc s = MLoadClosed \/ m_pc s = MRelBreak -> obj (heap s) (active s) = [];
  i_break : m_pc s = MRelBreak -> closed s = true;
  i_closed : closed s = true -> closer s <> CNone;
  i_noexc : m_pc s <> MRelExc;
  i_exc : (forall e, m_pc s <> MExited e) -> m_exc s = map ExCb (g_rz g);
  i_exit : forall e, m_pc s = MExited e ->
           e = hd_error (map ExCb (g_rz g)) /\ (forall t, In t (g_rgc g) -> In t (g_cl g)) /\ closer s <> CNone;
  i_mx : forall e, In e (g_mx g) -> m_pc s = MExited e;
  i_mx_rev : forall e, m_pc s = MExited e -> In e (g_mx g);
  i_cr : forall e, In e (g_cr g) -> closer s = CDone e;
  i_cdone : forall e, closer s = CDone e -> m_pc s = MExited e;
  i_lock_mon : lock s = Some Mon <-> mon_locked (m_pc s);
  i_lock_reg : forall t, lock s = Some (Reg t) <-> reg_locked (regs s t);
  i_lock_closer : lock s <> Some Closer
}.

Lemma Inv_init : Inv g0 init.
Proof.
  constructor; simpl; try tauto; try discriminate; try (intros; discriminate); try constructor; auto;
    try (intros; intuition discriminate).
Qed.

Lemma scanning_locked p : scanning p -> mon_locked p.
Proof. destruct p; simpl; trivial. Qed.

Lemma is_alive_false r : is_alive r = false -> r = RDead.
Proof. destruct r; simpl; congruence. Qed.

Lemma g_step_noev g w a : g_step g (Step w) (OAcc a []) = g.
Proof. reflexivity. Qed.

Lemma set_reg_eq f t v : set_reg f t v t = v.
Proof. unfold set_reg. rewrite Nat.eqb_refl. reflexivity. Qed.
Lemma set_reg_neq f t v x : x <> t -> set_reg f t v x = f x.
Proof. unfold set_reg. intros H. apply Nat.eqb_neq in H. rewrite H. reflexivity. Qed.

(* case analysis on `set_reg f t v x` *)
Ltac sr x t :=
  destruct (Nat.eq_dec x t) as [->|?];
  [rewrite ?set_reg_eq in *|rewrite ?set_reg_neq in * by assumption].

(* the fields a step does not touch, and those guarded by a program counter it does not reach *)
Ltac frame :=
  simpl; trivial;
  try solve [intros; discriminate | intros [|]; discriminate | intros []
            | split; trivial | split; [discriminate|intros []]].

Lemma lock_mon_reg g s t : Inv g s -> mon_locked (m_pc s) -> reg_locked (regs s t) -> False.
Proof.
  intros I H1 H2. apply (i_lock_mon _ _ I) in H1. apply (i_lock_reg _ _ I) in H2. congruence.
Qed.

Lemma no_reg_locked g s : Inv g s -> (forall t, lock s <> Some (Reg t)) -> forall t, ~ reg_locked (regs s t).
Proof. intros I H t R. apply (H t), (i_lock_reg _ _ I), R. Qed.

Lemma lock_reg_free (l : option who) (f : nat -> rst) :
  (forall t, l <> Some (Reg t)) -> (forall t, ~ reg_locked (f t)) -> forall t, l = Some (Reg t) <-> reg_locked (f t).
Proof. intros A B t. split; intros H; [elim (A t H)|elim (B t H)]. Qed.

Lemma running g s : Inv g s -> (forall e, m_pc s <> MExited e) ->
  m_exc s = map ExCb (g_rz g) /\ (forall e, ~ In e (g_mx g)) /\ (forall e, closer s <> CDone e).
Proof.
  intros I R. split; [exact (i_exc _ _ I R)|]. split; intros e H.
  - exact (R e (i_mx _ _ I e H)).
  - exact (R e (i_cdone _ _ I e H)).
Qed.

(** when the monitor leaves its loop, every thread whose `add` was executed has been called back:
    `_active` was found empty under the lock and no callback is pending *)
Lemma break_all_called g s : Inv g s -> m_pc s = MRelBreak ->
  forall t, added (regs s t) -> In t (g_cl g).
Proof.
  intros I Epc t Ha. destruct (in_dec Nat.eq_dec t (g_cl g)) as [H|H]; [exact H|].
  destruct (i_owed _ _ I t Ha H) as [F|F].
  - rewrite (i_empty _ _ I) in F by (right; exact Epc). destruct F.
  - rewrite (i_cbs_nil _ _ I) in F by (rewrite Epc; simpl; tauto). destruct F.
Qed.

Lemma break_registered_called g s : Inv g s -> m_pc s = MRelBreak ->
  forall t, In t (g_rg g) -> In t (g_cl g).
Proof.
  intros I Epc t H. apply (break_all_called g s I Epc).
  destruct (i_rg _ _ I t H) as [E|E]; rewrite E; exact Logic.I.
Qed.

Section Steps.
Variable raises : nat -> bool.

(* a monitor step from the program counter [Epc]: the facts of [running] under the names Hx, Hmx,
   Hcd, the invariant taken apart, [frame]; what is left are the fields the step establishes *)
Ltac go I Epc :=
  let Hx := fresh "Hx" in let Hmx := fresh "Hmx" in let Hcd := fresh "Hcd" in
  destruct (running _ _ I) as (Hx & Hmx & Hcd); [rewrite Epc; discriminate|];
  cbn [fst snd]; unfold g_step; cbn [evs_of fold_left ev_ghost];
  destruct I; rewrite Epc in *; constructor; frame;
  try solve [intros _; exact Hx | intros ? H; elim (Hmx _ H) | intros ? H; elim (Hcd _ H)].

Lemma mon_exit_inv g s :
  Inv g s -> m_pc s = MRelBreak ->
  Inv (g_step g (Step Mon) (snd (mon_exit s LockRelease (hd_error (m_exc s)))))
      (fst (mon_exit s LockRelease (hd_error (m_exc s)))).
Proof.
  intros I Epc.
  pose proof (break_registered_called g s I Epc) as Hall.
  assert (Hcl : closer s <> CNone) by (apply (i_closed _ _ I), (i_break _ _ I), Epc).
  assert (Hnr : forall t, ~ reg_locked (regs s t)).
  { apply (no_reg_locked g s I). intros t.
    rewrite (proj2 (i_lock_mon _ _ I)) by (rewrite Epc; exact Logic.I). discriminate. }
  unfold mon_exit. destruct (closer s) eqn:Ec; try (elim Hcl; reflexivity); go I Epc.
  all: try (apply lock_reg_free; [discriminate|exact Hnr]).
  (* the fields that record the end, the same in every state of close(); one line each, in this order:
     i_exit (the exception is the first recorded one, everybody registered before close() was called back),
     i_mx, i_mx_rev (the exit now on record is this one), and, when close() was blocked in join and
     returns with the same exception, i_cr and i_cdone *)
  all: try solve [intros ? E; injection E as <-; rewrite Hx; split; [reflexivity|split; [auto|congruence]]].
  all: try solve [intros ? [<-|H]; [reflexivity|elim (Hmx _ H)]].
  all: try solve [intros ? E; injection E as <-; left; reflexivity].
  all: try solve [intros ? [<-|H]; [reflexivity|]; specialize (i_cr0 _ H); congruence].
  all: try solve [intros ? E; injection E as <-; reflexivity].
Qed.

Lemma step_mon_inv g s :
  Inv g s -> Inv (g_step g (Step Mon) (snd (step_mon raises s))) (fst (step_mon raises s)).
Proof.
  intros I. pose proof (fun t => lock_mon_reg g s t I) as Hmr. unfold step_mon. destruct (m_pc s) eqn:Epc.
  - (* MAcq1 *)
    destruct (lock s) eqn:El; [exact I|].
    assert (Hnr := no_reg_locked g s I). rewrite El in Hnr. go I Epc.
    apply lock_reg_free; [discriminate|apply Hnr; discriminate].
  - (* MLoadScan *) go I Epc.
  - (* MGetIter *)
    pose proof (i_ref _ _ I) as Hr. rewrite Epc in Hr. subst r.
    pose proof (i_cbs_nil _ _ I) as Hn. rewrite Epc in Hn. specialize (Hn (fun x => x)).
    go I Epc; try solve [constructor | intros; contradiction | auto].
    intros t H1 H2. destruct (i_owed0 t H1 H2) as [H|H]; [left; exact H|]. rewrite Hn in H. destruct H.
  - (* MIterNext *)
    destruct (i_iter _ _ I) as (Hit & Hus); [rewrite Epc; exact Logic.I|].
    rewrite Hit, Hus, Nat.eqb_refl.
    destruct (m_todo s) as [|t rest] eqn:Etodo.
    + go I Epc.
    + pose proof (i_todo _ _ I) as Ht. rewrite Epc, Etodo in Ht. go I Epc.
      * intros _ x Hx'. apply Ht; [exact Logic.I|right; exact Hx'].
      * intros x E. injection E as <-. apply Ht; [exact Logic.I|left; reflexivity].
  - (* MIsAlive *)
    destruct (is_alive (regs s t)) eqn:Ea.
    + go I Epc.
    + apply is_alive_false in Ea.
      assert (Hnc : ~ In t (g_cl g)) by (apply (i_active _ _ I), (i_isalive _ _ I), Epc).
      go I Epc.
      * intros d Hd. apply In_ins in Hd. destruct Hd as [->|Hd]; auto.
      * apply asc_ins. assumption.
      * intros _ d Hd. apply In_ins in Hd. destruct Hd as [->|Hd]; auto.
  - (* MLoadRebuild *) go I Epc.
  - (* MSetDiff *)
    pose proof (i_ref _ _ I) as Hr. rewrite Epc in Hr. subst r.
    pose proof (i_bound _ _ I) as Hb.
    go I Epc; rewrite ?obj_app_old by assumption; frame.
    + rewrite app_length. simpl. lia.
    + intros n E. injection E as <-. rewrite app_length. simpl. split; [assumption|]. split; [lia|].
      intros t. rewrite obj_app_new. apply In_diff.
  - (* MStore *)
    pose proof (i_cbs_nil _ _ I) as Hn. rewrite Epc in Hn. specialize (Hn (fun x => x)).
    destruct (i_store _ _ I n Epc) as (Hlt & Hlen & Hobj).
    go I Epc.
    + intros d Hd. split; [auto|]. split; [apply i_scan_done0; [exact Logic.I|exact Hd]|].
      intros H. apply Hobj in H. tauto.
    + tauto.
    + intros t H. apply Hobj in H. apply i_active0. tauto.
    + intros t H1 H2. destruct (i_owed0 t H1 H2) as [H|H]; [|rewrite Hn in H; destruct H].
      destruct (in_dec Nat.eq_dec t (m_done s)) as [Hd|Hd]; [right; exact Hd|left; apply Hobj; tauto].
    + intros t r E. exfalso. apply (Hmr t); [exact Logic.I|rewrite E; exact Logic.I].
  - (* MRel1 *)
    assert (Hnr := no_reg_locked g s I).
    rewrite (proj2 (i_lock_mon _ _ I)) in Hnr by (rewrite Epc; exact Logic.I).
    destruct (m_cbs s) as [|d rest] eqn:Ecbs; go I Epc.
    all: apply lock_reg_free; [discriminate|apply Hnr; discriminate].
  - (* MCallback *)
    destruct (m_cbs s) as [|d rest] eqn:Ecbs.
    + go I Epc.
    + destruct (i_cbs _ _ I d) as (Hdd & Hdc & Hda); [rewrite Ecbs; left; reflexivity|].
      pose proof (i_cbs_asc _ _ I) as Ha. rewrite Ecbs in Ha.
      assert (Hnr : ~ In d rest) by (intros H; pose proof (asc_lt _ _ Ha _ H); lia).
      (* the fields that mention [g_cl], [m_cbs] or [m_exc], for the state after the call; A1..A6 are
         picked up by [trivial] in [frame], in both shapes of the rest of the list *)
      assert (A1 : NoDup (d :: g_cl g)) by (constructor; [exact Hdc|apply (i_cl_nodup _ _ I)]).
      assert (A2 : forall t, In t (d :: g_cl g) -> regs s t = RDead).
      { intros t [<-|H]; [exact Hdd|apply (i_cl_dead _ _ I), H]. }
      assert (A3 : forall x, In x rest ->
                regs s x = RDead /\ ~ In x (d :: g_cl g) /\ ~ In x (obj (heap s) (active s))).
      { intros x H. destruct (i_cbs _ _ I x) as (B1 & B2 & B3); [rewrite Ecbs; right; exact H|].
        split; [exact B1|]. split; [intros [<-|B]; tauto|exact B3]. }
      assert (A4 : asc rest) by (eapply asc_tail; exact Ha).
      assert (A5 : forall t, In t (obj (heap s) (active s)) -> ~ In t (d :: g_cl g)).
      { intros t H1 [<-|H2]; [tauto|]. apply (i_active _ _ I t H1 H2). }
      assert (A6 : forall t, added (regs s t) -> ~ In t (d :: g_cl g) ->
                In t (obj (heap s) (active s)) \/ In t rest).
      { intros t H1 H2. destruct (i_owed _ _ I t H1) as [H|H]; [simpl in H2; tauto|left; exact H|].
        rewrite Ecbs in H. destruct H as [<-|H]; [simpl in H2; tauto|right; exact H]. }
      assert (A7 : (if raises d then m_exc s ++ [ExCb d] else m_exc s)
                   = map ExCb (if raises d then g_rz g ++ [d] else g_rz g)).
      { rewrite (i_exc _ _ I) by (rewrite Epc; discriminate).
        destruct (raises d); [rewrite map_app|]; reflexivity. }
      destruct rest; go I Epc; try (intros _; exact A7). intros H. elim H. exact Logic.I.
  - (* MAcq2 *)
    destruct (lock s) eqn:El; [exact I|].
    assert (Hnr := no_reg_locked g s I). rewrite El in Hnr. go I Epc.
    apply lock_reg_free; [discriminate|apply Hnr; discriminate].
  - (* MLoadCheck *) go I Epc.
  - (* MTruth *)
    pose proof (i_ref _ _ I) as Hr. rewrite Epc in Hr. subst r.
    destruct (obj (heap s) (active s)) eqn:Eo; go I Epc.
  - (* MLoadClosed *)
    destruct (closed s) eqn:Ecl; go I Epc. intros _. apply i_empty0. left. reflexivity.
  - (* MRelBreak *) apply mon_exit_inv; assumption.
  - (* MRelLoop *)
    assert (Hnr := no_reg_locked g s I).
    rewrite (proj2 (i_lock_mon _ _ I)) in Hnr by (rewrite Epc; exact Logic.I).
    go I Epc. apply lock_reg_free; [discriminate|apply Hnr; discriminate].
  - (* MRelExc *) elim (i_noexc _ _ I Epc).
  - (* MExited *) exact I.
Qed.

Lemma reg_early_inv g s t v l a :
  Inv g s -> ~ added (regs s t) -> ~ added v -> (forall r, v = RAdd r -> r = active s) ->
  (l = Some Mon <-> mon_locked (m_pc s)) ->
  (forall x, l = Some (Reg x) <-> reg_locked (set_reg (regs s) t v x)) -> l <> Some Closer ->
  Inv g (mkState (heap s) (active s) (closed s) l (set_reg (regs s) t v) a (closer s)
                 (m_pc s) (m_itref s) (m_itused s) (m_todo s) (m_done s) (m_cbs s) (m_exc s)).
Proof.
  intros I Ho Hv Hr Hlm Hlr Hlc.
  assert (Hd : regs s t <> RDead /\ regs s t <> RIdle) by (split; intros E; rewrite E in Ho; apply Ho; exact Logic.I).
  assert (Hd' : v <> RDead /\ v <> RIdle) by (split; intros E; rewrite E in Hv; apply Hv; exact Logic.I).
  destruct I; constructor; frame.
  - intros x H. sr x t; [tauto|auto].
  - intros x H. sr x t; [tauto|auto].
  - intros x H. specialize (i_rg0 x H). sr x t; [tauto|auto].
  - intros x H. specialize (i_done_dead0 x H). sr x t; [tauto|auto].
  - intros x H. specialize (i_cl_dead0 x H). sr x t; [tauto|auto].
  - intros x H. destruct (i_cbs0 x H) as (? & ? & ?). sr x t; [tauto|auto].
  - intros x H1 H2. sr x t; [tauto|auto].
  - intros x r H. sr x t; eauto.
Qed.

Lemma closer_move_inv g s c b :
  Inv g s -> (forall e, closer s <> CDone e) -> c <> CNone -> (forall e, c <> CDone e) ->
  (closed s = true -> b = true) ->
  Inv g (mkState (heap s) (active s) b (lock s) (regs s) (arrived s) c
                 (m_pc s) (m_itref s) (m_itused s) (m_todo s) (m_done s) (m_cbs s) (m_exc s)).
Proof.
  intros I Ho Hc Hd Hb. destruct I; constructor; frame.
  - intros H. apply Hb, i_break0, H.
  - intros e E. destruct (i_exit0 e E) as (? & ? & ?). auto.
  - intros e H. elim (Ho e (i_cr0 e H)).
  - intros e E. elim (Hd e E).
Qed.

Lemma step_reg_inv g s t :
  Inv g s -> Inv (g_step g (Step (Reg t)) (snd (step_reg s t))) (fst (step_reg s t)).
Proof.
  intros I. pose proof (fun x => lock_mon_reg g s x I) as Hmr.
  pose proof (i_lock_reg _ _ I) as Hlr. pose proof (i_lock_mon _ _ I) as Hlm.
  unfold step_reg. destruct (regs s t) eqn:Er; try exact I.
  - (* RAcq: BEFORE_WITH *)
    destruct (lock s) eqn:El; [exact I|].
    apply reg_early_inv; rewrite ?Er; trivial; try discriminate; try solve [intros []].
    + split; [discriminate|]. intros H. apply Hlm in H. discriminate.
    + intros x. sr x t; [simpl; tauto|]. split; [intros E; injection E; congruence|].
      intros H. apply Hlr in H. discriminate.
  - (* RLoad: LOAD_ATTR _active *)
    apply reg_early_inv; rewrite ?Er; trivial; try solve [intros []].
    + intros r E. congruence.
    + intros x. sr x t; [|apply Hlr]. rewrite Hlr, Er. simpl. tauto.
    + apply (i_lock_closer _ _ I).
  - (* RAdd r: CALL add *)
    assert (Hl : reg_locked (regs s t)) by (rewrite Er; exact Logic.I).
    assert (Hnm : ~ mon_locked (m_pc s)) by (intros H; exact (Hmr t H Hl)).
    pose proof (i_radd _ _ I t r Er) as ->. pose proof (i_bound _ _ I) as Hb.
    cbn [fst snd]; rewrite g_step_noev. destruct I. constructor; simpl; rewrite ?length_upd; trivial.
    + intros x H. sr x t; [discriminate|auto].
    + intros x H. sr x t; [discriminate|auto].
    + intros x H. specialize (i_rg0 x H). sr x t; [intuition congruence|auto].
    + intros d H. pose proof (i_done_dead0 d H). sr d t; [congruence|auto].
    + intros d H. pose proof (i_cl_dead0 d H). sr d t; [congruence|auto].
    + intros d H. destruct (i_cbs0 d H) as (H1 & H2 & H3).
      sr d t; [congruence|]. split; [assumption|]. split; [assumption|].
      intros H4. apply In_obj_add in H4. destruct H4 as [H4|(-> & _)]; tauto.
    + intros x H1 H2. apply In_obj_add in H1. destruct H1 as [H1|(-> & _)]; [exact (i_active0 x H1 H2)|].
      specialize (i_cl_dead0 t H2). congruence.
    + intros x H1 H2. sr x t.
      * left. rewrite obj_upd_same by assumption. apply In_ins. tauto.
      * destruct (i_owed0 x H1 H2) as [H|H]; [left; apply obj_add_mono; exact H|right; exact H].
    (* the fields about the scan, the store and the exit check: the monitor is outside its critical sections *)
    + intros H. elim Hnm. apply scanning_locked, H.
    + intros x E. elim Hnm. rewrite E. exact Logic.I.
    + intros n E. elim Hnm. rewrite E. exact Logic.I.
    + intros x r' H. sr x t; [discriminate|eauto].
    + intros H. elim Hnm. apply scanning_locked, H.
    + intros [E|E]; elim Hnm; rewrite E; exact Logic.I.
    + intros x. sr x t; [|apply Hlr]. rewrite Hlr, Er. simpl. tauto.
  - (* RRel: release; register() returns *)
    assert (Hl : lock s = Some (Reg t)) by (apply Hlr; rewrite Er; exact Logic.I).
    cbn [fst snd]. unfold g_step; simpl. destruct I. constructor; simpl; trivial; try discriminate.
    + intros x H. sr x t; [discriminate|]. destruct (i_dead0 x H). auto.
    + intros x H. sr x t; [left; reflexivity|right; auto].
    + intros x [<-|H]; [rewrite set_reg_eq; left; reflexivity|].
      specialize (i_rg0 x H). sr x t; [intuition congruence|auto].
    + intros x H. right. auto.
    + intros d H. pose proof (i_done_dead0 d H). sr d t; [congruence|auto].
    + intros d H. pose proof (i_cl_dead0 d H). sr d t; [congruence|auto].
    + intros d H. destruct (i_cbs0 d H) as (? & ? & ?). sr d t; [congruence|auto].
    + intros x H1 H2. sr x t; [apply i_owed0; [rewrite Er; exact Logic.I|assumption]|auto].
    + intros x r' H. sr x t; [discriminate|eauto].
    + split; [discriminate|]. intros H. apply Hlm in H. congruence.
    + intros x. split; [discriminate|]. sr x t; [intros []|]. intros H. apply Hlr in H. congruence.
Qed.

Lemma step_closer_inv g s :
  Inv g s -> Inv (g_step g (Step Closer) (snd (step_closer s))) (fst (step_closer s)).
Proof.
  intros I. unfold step_closer. destruct (closer s) eqn:Ec; try exact I.
  1-3: apply closer_move_inv; rewrite ?Ec; trivial; discriminate.
  destruct (m_pc s) eqn:Epc.
  1-17: apply closer_move_inv; rewrite ?Ec; trivial; discriminate.
  (* CJoin, the monitor thread has ended: close() returns *)
  cbn [fst snd]; unfold g_step; simpl; destruct I; constructor; frame.
  - intros e' E. destruct (i_exit0 e' E) as (? & ? & ?). split; [assumption|]. split; [assumption|discriminate].
  - intros e' [<-|H]; [reflexivity|]. specialize (i_cr0 e' H). congruence.
  - intros e' E. injection E as <-. exact Epc.
Qed.

Lemma step_inv g s l :
  Inv g s -> Inv (g_step g l (snd (step raises s l))) (fst (step raises s l)).
Proof.
  intros I. destruct l as [t|[| |t]|t|]; simpl.
  - (* Arrive *)
    pose proof (i_lock_reg _ _ I) as Hlr.
    destruct (regs s t) eqn:Er; try exact I.
    apply reg_early_inv; rewrite ?Er; trivial; try solve [intros []].
    + discriminate.
    + apply (i_lock_mon _ _ I).
    + intros x. sr x t; [|apply Hlr]. rewrite Hlr, Er. simpl. tauto.
    + apply (i_lock_closer _ _ I).
  - apply step_mon_inv; assumption.
  - apply step_closer_inv; assumption.
  - apply step_reg_inv; assumption.
  - (* Die *)
    pose proof (i_lock_reg _ _ I) as Hlr.
    destruct (regs s t) eqn:Er; try exact I.
    cbn [fst snd]. unfold g_step; simpl. destruct I. constructor; simpl; trivial.
    + intros x H. sr x t; [split; [left; reflexivity|auto]|].
      destruct (i_dead0 x H). split; [right|]; assumption.
    + intros x H. sr x t; [discriminate|auto].
    + intros x H. specialize (i_rg0 x H). sr x t; [right; reflexivity|auto].
    + intros d H. pose proof (i_done_dead0 d H). sr d t; [reflexivity|auto].
    + intros d H. pose proof (i_cl_dead0 d H). sr d t; [reflexivity|auto].
    + intros d H. destruct (i_cbs0 d H) as (? & ? & ?). sr d t; [congruence|auto].
    + intros x H1 H2. sr x t; [apply i_owed0; [rewrite Er; exact Logic.I|assumption]|auto].
    + intros x r' H. sr x t; [discriminate|eauto].
    + intros x. sr x t; [|apply Hlr]. rewrite Hlr, Er. simpl. tauto.
  - (* CloseCall *)
    destruct (closer s) eqn:Ec; try exact I.
    cbn [fst snd]. unfold g_step; simpl. destruct I. constructor; frame.
    + intros e E. destruct (i_exit0 e E) as (? & ? & F). elim F. exact Ec.
    + intros e H. specialize (i_cr0 e H). congruence.
Qed.

End Steps.

Lemma grun_inv raises (P : ghost -> state -> Prop) :
  (forall g s l, P g s -> P (g_step g l (snd (step raises s l))) (fst (step raises s l))) ->
  forall ls g s, P g s -> P (fst (grun_from raises g s ls)) (snd (grun_from raises g s ls)).
Proof.
  intros HP. induction ls as [|l r IH]; intros g s I; simpl; [exact I|].
  pose proof (HP g s l I) as I'. destruct (step raises s l) as [s' o]. apply IH. exact I'.
Qed.

Theorem Inv_run raises ls : Inv (ghost_of (history raises ls)) (run raises ls).
Proof.
  pose proof (grun_inv raises Inv (step_inv raises) ls g0 init Inv_init) as H. rewrite grun_spec in H. exact H.
Qed.
