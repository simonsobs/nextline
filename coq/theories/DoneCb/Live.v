(** A second invariant of DoneCb/Model.v (facts not needed for safety) and NO DEADLOCK in any
    reachable state.  That close() terminates is DoneCb/Term.v. *)
From NL Require Import DoneCb.Model DoneCb.Safety DoneCb.Inv.
From Coq Require Import Lia.

Record Inv2 (g : ghost) (s : state) : Prop := {
  j_join : closer s = CJoining -> forall e, m_pc s <> MExited e;
  j_added : forall r t, In t (obj (heap s) r) -> added (regs s t);
  j_closed : closer s = CJoin \/ closer s = CJoining \/ (exists e, closer s = CDone e) -> closed s = true;
  j_cr : forall e, closer s = CDone e -> In e (g_cr g)
}.

Lemma Inv2_init : Inv2 g0 init.
Proof.
  constructor; simpl; try discriminate.
  - intros [|[|r]] t H; simpl in H; destruct H.
  - intros [H|[H|[e H]]]; discriminate.
Qed.

Lemma added_set_reg f t v x :
  (added (f t) -> added v) -> added (f x) -> added (set_reg f t v x).
Proof. intros H1 H2. unfold set_reg. destruct (x =? t) eqn:E; [apply Nat.eqb_eq in E; subst; auto|assumption]. Qed.

Section Steps2.
Variable raises : nat -> bool.

Lemma step2_mon g s :
  Inv2 g s -> Inv2 (g_step g (Step Mon) (snd (step_mon raises s))) (fst (step_mon raises s)).
Proof.
  intros J. unfold step_mon, mon_exit.
  destruct (m_pc s) eqn:Epc; destruct_matches; destruct J as [J1 J2 J3 J4];
    cbn [fst snd]; unfold g_step; simpl; constructor; frame; try solve [intros; congruence].
  - (* MSetDiff: the new object is a subset of an old one *)
    intros r' t H. apply In_obj_app in H.
    destruct H as [H|H]; [eauto|apply In_diff in H; destruct H; eauto].
  (* MRelBreak, MRelExc: a close() blocked in join returns *)
  - intros _. apply J3. auto.
  - intros e E. injection E as <-. left. reflexivity.
  - intros _. apply J3. auto.
  - intros e E. injection E as <-. left. reflexivity.
Qed.

Lemma inv2_set_reg g g' s t v l a :
  Inv2 g s -> g_cr g' = g_cr g -> (added (regs s t) -> added v) ->
  Inv2 g' (mkState (heap s) (active s) (closed s) l (set_reg (regs s) t v) a (closer s)
                   (m_pc s) (m_itref s) (m_itused s) (m_todo s) (m_done s) (m_cbs s) (m_exc s)).
Proof.
  intros [J1 J2 J3 J4] Hg H. constructor; frame.
  - intros r x Hx. apply added_set_reg; [exact H|eauto].
  - rewrite Hg. exact J4.
Qed.

Lemma step2_reg g s t :
  Inv2 g s -> Inv2 (g_step g (Step (Reg t)) (snd (step_reg s t))) (fst (step_reg s t)).
Proof.
  intros J. unfold step_reg.
  destruct (regs s t) eqn:Er; try exact J.
  - destruct (lock s); [exact J|]. apply (inv2_set_reg g); trivial. rewrite Er. intros [].
  - apply (inv2_set_reg g); trivial. rewrite Er. intros [].
  - destruct J as [J1 J2 J3 J4]. cbn [fst snd]; unfold g_step; simpl. constructor; simpl; auto.
    intros r' x H. apply In_obj_add in H. destruct H as [H|(-> & _)].
    + apply added_set_reg; [intros _; exact Logic.I|eauto].
    + rewrite set_reg_eq. exact Logic.I.
  - apply (inv2_set_reg g); trivial. intros _. exact Logic.I.
Qed.

Lemma step2_closer g s :
  Inv2 g s -> Inv2 (g_step g (Step Closer) (snd (step_closer s))) (fst (step_closer s)).
Proof.
  intros J. unfold step_closer. destruct (closer s) eqn:Ec; try exact J.
  (* CJoin: `_closed` has been stored *)
  4: assert (Hc : closed s = true) by (apply (j_closed _ _ J); rewrite Ec; auto).
  all: destruct_matches; destruct J as [J1 J2 J3 J4];
    cbn [fst snd]; unfold g_step; simpl; constructor; frame; try solve [intros; congruence].
  all: try solve [intros _; exact Hc].
  (* CLoad, CContains: still before the store *)
  1,2: intros [H|[H|[e' H]]]; discriminate.
  intros e' E. injection E as <-. left. reflexivity.
Qed.

Lemma step2 g s l :
  Inv2 g s -> Inv2 (g_step g l (snd (step raises s l))) (fst (step raises s l)).
Proof.
  intros J. destruct l as [t|[| |t]|t|]; simpl.
  - destruct (regs s t) eqn:Er; try exact J. apply (inv2_set_reg g); trivial. rewrite Er. intros [].
  - apply step2_mon; assumption.
  - apply step2_closer; assumption.
  - apply step2_reg; assumption.
  - destruct (regs s t) eqn:Er; try exact J. apply (inv2_set_reg g); trivial. intros _. exact Logic.I.
  - destruct (closer s) eqn:Ec; try exact J. destruct J as [J1 J2 J3 J4]. rewrite Ec in *.
    cbn [fst snd]; unfold g_step; simpl. constructor; simpl; auto; try discriminate.
    all: try solve [intros [H|[H|[e H]]]; discriminate].
    all: try solve [intros e H; discriminate].
Qed.

End Steps2.

Theorem Inv2_run raises ls : Inv2 (ghost_of (history raises ls)) (run raises ls).
Proof.
  pose proof (grun_inv raises Inv2 (step2 raises) ls g0 init Inv2_init) as H. rewrite grun_spec in H. exact H.
Qed.

Definition unfinished (s : state) (w : who) : Prop :=
  match w with
  | Mon => forall e, m_pc s <> MExited e
  | Closer => match closer s with CNone | CDone _ => False | _ => True end
  | Reg t => is_mid (regs s t) = true
  end.

Definition enabled (raises : nat -> bool) (s : state) (w : who) : Prop :=
  snd (step raises s (Step w)) <> ODisabled.

Definition at_acquire (s : state) (w : who) : Prop :=
  match w with
  | Mon => m_pc s = MAcq1 \/ m_pc s = MAcq2
  | Reg t => regs s t = RAcq
  | Closer => False
  end.

Section NoDeadlock.
Variable raises : nat -> bool.

Lemma disabled_unchanged s w :
  snd (step raises s (Step w)) = ODisabled -> fst (step raises s (Step w)) = s.
Proof.
  destruct w as [| |t]; simpl.
  - unfold step_mon, mon_exit. destruct (m_pc s); destruct_matches; simpl; intros H; try discriminate; reflexivity.
  - unfold step_closer. destruct (closer s); destruct_matches; simpl; intros H; try discriminate; reflexivity.
  - unfold step_reg. destruct (regs s t); destruct_matches; simpl; intros H; try discriminate; reflexivity.
Qed.

Lemma mon_locked_enabled s : mon_locked (m_pc s) -> enabled raises s Mon.
Proof.
  unfold enabled. simpl. unfold step_mon, mon_exit.
  destruct (m_pc s); simpl; intros H; try elim H; destruct_matches; simpl; discriminate.
Qed.

Lemma reg_locked_enabled s t : reg_locked (regs s t) -> enabled raises s (Reg t).
Proof.
  unfold enabled. simpl. unfold step_reg. destruct (regs s t); simpl; intros H; try elim H; discriminate.
Qed.

(** every unfinished thread is enabled, or waits for the lock whose holder is inside its
    critical section and enabled, or is close() waiting in join() for the live monitor *)
Theorem no_deadlock_state g s : Inv g s -> Inv2 g s ->
  forall w, unfinished s w ->
    enabled raises s w
    \/ (at_acquire s w /\ exists h, lock s = Some h /\ h <> w /\ unfinished s h /\ enabled raises s h)
    \/ (w = Closer /\ closer s = CJoining /\ unfinished s Mon).
Proof.
  intros I J w Hu.
  assert (Hholder : forall h, lock s = Some h -> unfinished s h /\ enabled raises s h).
  { intros [| |t] Hl.
    - apply (i_lock_mon _ _ I) in Hl. split; [|apply mon_locked_enabled; exact Hl].
      simpl. intros e E. rewrite E in Hl. exact Hl.
    - elim (i_lock_closer _ _ I Hl).
    - apply (i_lock_reg _ _ I) in Hl. split; [|apply reg_locked_enabled; exact Hl].
      simpl. destruct (regs s t); simpl in *; tauto. }
  destruct w as [| |t]; simpl in Hu.
  - (* monitor *)
    destruct (m_pc s) eqn:Epc;
      try (left; apply mon_locked_enabled; rewrite Epc; exact Logic.I).
    (* MAcq1, MAcq2: the lock is free, or its holder is somebody else *)
    1,3: destruct (lock s) as [h|] eqn:El;
      [ right; left; split; [simpl; tauto|]; exists h; destruct (Hholder h eq_refl); repeat split; auto;
        intros ->; apply (i_lock_mon _ _ I) in El; rewrite Epc in El; exact El
      | left; unfold enabled; simpl; unfold step_mon; rewrite Epc, El; simpl; discriminate ].
    + left. unfold enabled. simpl. unfold step_mon. rewrite Epc. destruct_matches; simpl; discriminate.
    + elim (Hu e). reflexivity.
  - (* close() *)
    destruct (closer s) eqn:Ec; try elim Hu;
      try (left; unfold enabled; simpl; unfold step_closer; rewrite Ec; destruct_matches; simpl; discriminate).
    right; right. split; [reflexivity|]. split; [reflexivity|]. simpl. apply (j_join _ _ J Ec).
  - (* register() in thread t *)
    destruct (regs s t) eqn:Er; try discriminate;
      try (left; apply reg_locked_enabled; rewrite Er; exact Logic.I).
    destruct (lock s) as [h|] eqn:El.
    + right; left. split; [simpl; exact Er|]. exists h. destruct (Hholder h eq_refl). repeat split; auto.
      intros ->. apply (i_lock_reg _ _ I) in El. rewrite Er in El. exact El.
    + left. unfold enabled. simpl. unfold step_reg. rewrite Er, El. simpl. discriminate.
Qed.

Corollary some_enabled g s : Inv g s -> Inv2 g s ->
  (exists w, unfinished s w) -> exists w, unfinished s w /\ enabled raises s w.
Proof.
  intros I J [w Hu].
  destruct (no_deadlock_state g s I J w Hu) as [H|[(_ & h & _ & _ & H1 & H2)|(E & _ & Hm)]].
  - exists w. tauto.
  - exists h. tauto.
  - (* close() waits in join: the monitor thread is unfinished, and it is not close() *)
    destruct (no_deadlock_state g s I J Mon Hm) as [H|[(_ & h & _ & _ & H1 & H2)|(E' & _)]];
      [exists Mon; tauto|exists h; tauto|discriminate].
Qed.

(** an enabled step really changes the state: it changes the thread's own control field (m_pc, closer,
    regs t), except the callback step that stays at MCallback, which shortens m_cbs *)
Lemma enabled_changes s w :
  enabled raises s w -> fst (step raises s (Step w)) <> s.
Proof.
  unfold enabled. destruct w as [| |t]; simpl.
  - unfold step_mon, mon_exit. destruct (m_pc s) eqn:Epc; destruct_matches; simpl; intros Hn H;
      try (elim Hn; reflexivity);
      try (apply (f_equal m_pc) in H; simpl in H; congruence).
    all: try (apply (f_equal m_cbs) in H; simpl in H;
              match goal with E : m_cbs _ = _ |- _ => rewrite E in H end;
              apply (f_equal (@length nat)) in H; simpl in H; lia).
  - unfold step_closer. destruct (closer s) eqn:Ec; destruct_matches; simpl; intros Hn H;
      try (elim Hn; reflexivity); apply (f_equal closer) in H; simpl in H; congruence.
  - unfold step_reg. destruct (regs s t) eqn:Er; destruct_matches; simpl; intros Hn H;
      try (elim Hn; reflexivity);
      apply (f_equal (fun x => regs x t)) in H; simpl in H; rewrite set_reg_eq in H; congruence.
Qed.

End NoDeadlock.
