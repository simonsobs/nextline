(** C18 tie, thread half, second layer: POLARITY, STORED VALUES, CALL ARGUMENTS and __init__.

    Gen/DoneCbSkeleton.v (regenerated on every run by translate/donecb_skeleton.py) contains, next to
    the `dis` access skeleton, every method of ThreadDoneCallback as a statement tree
    (DoneCb/SkelSyntax.v, from `ast`).  This file

    1. takes the trees apart with SHAPE MATCHERS ([monitor_facts], [register_facts], [close_facts]):
       the control shape of each method (which statement is inside which `with` / `while` / `if` /
       `for` / `try`) is PINNED -- any other shape makes the matcher return None and the theorems
       below fail; the order of the shared accesses inside that shape is the `dis` skeleton
       (theorems C18_skeleton_...);
    2. INTERPRETS THE LEAVES (the test of every `if`/`while`/comprehension filter with its
       polarity, the right-hand side of the stores to _active/_closed, the iterated expressions,
       the argument of the callback, of set.add, of join, the exception handler, `raise exc[0]`)
       over the state of DoneCb/Model.v: [step_mon_gen], [step_reg_gen], [step_closer_gen] are
       the model's step functions with every data-dependent decision and every stored value
       replaced by the interpretation of the regenerated leaf;
    3. proves, FOR ALL STATES (and all [raises]), that these steps on the regenerated leaves are
       equal to [Model.step_mon], [Model.step_reg], [Model.step_closer], and that the
       interpretation of the regenerated __init__ is [Model.init]. *)
From NL Require Import DoneCb.Model DoneCb.Safety DoneCb.SkelSyntax.
From Coq Require Import Lia.

Definition is_lock (e : pexpr) : bool := match e with PSelf FLock => true | _ => false end.
Definition is_active (e : pexpr) : bool := match e with PSelf FActive => true | _ => false end.
Definition is_local (x : nat) (e : pexpr) : bool := match e with PLocal y => y =? x | _ => false end.

(** a test over ONE boolean atom (recognised by [atom]); `not` nests *)
Fixpoint test1 (atom : pexpr -> bool) (e : pexpr) (v : bool) : option bool :=
  match e with
  | PNot e' => option_map negb (test1 atom e' v)
  | PBool b => Some b
  | _ => if atom e then Some v else None
  end.

(** `x.is_alive()` for the comprehension variable x *)
Definition alive_atom (x : nat) (e : pexpr) : bool :=
  match e with PCall (PAttr (PLocal y) NmIsAlive) [] [] => y =? x | _ => false end.

(** the filter of the comprehension: all conditions hold *)
Fixpoint keep (x : nat) (conds : list pexpr) (alive : bool) : option bool :=
  match conds with
  | [] => Some true
  | c :: r => match test1 (alive_atom x) c alive, keep x r alive with
              | Some a, Some b => Some (a && b) | _, _ => None end
  end.

Definition union (a b : list nat) : list nat := fold_right ins a b.
Definition inter (a b : list nat) : list nat := filter (fun x => mem x b) a.
Definition setop (o : binop) : option (list nat -> list nat -> list nat) :=
  match o with BSub => Some diff | BOr => Some union | BAnd => Some inter | _ => None end.

(** `exc[z]` on a non-empty list *)
Definition index {A} (l : list A) (z : Z) : option A :=
  if (0 <=? z)%Z then nth_error l (Z.to_nat z) else nth_error (rev l) (Z.to_nat (- z - 1)).

Inductive ival :=
| IVSet (l : list nat)                       (* a new builtin set() *)
| IVBool (b : bool)
| IVLock                                     (* a new threading.Lock(), not held *)
| IVThread (target : sattr) (daemon : bool)  (* ExcThread(target=self.<target>, daemon=..) *)
| IVParam (n : nat).

Definition init_val (e : pexpr) : option ival :=
  match e with
  | PCall (PGlobal GSet) [] [] => Some (IVSet [])
  | PBool b => Some (IVBool b)
  | PCall (PGlobal GLock) [] [] => Some IVLock
  | PCall (PGlobal GExcThread) [] [(k1, PSelf tg); (k2, PBool d)] =>
      if (String.eqb k1 "target" && String.eqb k2 "daemon")%bool then Some (IVThread tg d) else None
  | PLocal n => Some (IVParam n)
  | _ => None
  end.

Definition sattr_eqb (a b : sattr) : bool :=
  match a, b with
  | FActive, FActive | FClosed, FClosed | FDone, FDone | FInterval, FInterval | FLock, FLock
  | FThread, FThread | FMonitor, FMonitor | FClose, FClose => true
  | _, _ => false
  end.

(** the object under construction: attribute values, and whether the monitor thread was started *)
Definition obj0 := ((sattr -> option ival) * bool)%type.

(** stores before the start only (a store after `self._t.start()` would race with the monitor) *)
Fixpoint exec_init (b : list pstmt) (o : obj0) : option obj0 :=
  match b with
  | [] => Some o
  | KSetAttr a e :: r =>
      if snd o then None else
      match init_val e with
      | Some v => exec_init r (fun x => if sattr_eqb x a then Some v else fst o x, false)
      | None => None
      end
  | KExpr (PCall (PAttr (PSelf FThread) NmStart) [] []) :: r =>
      match fst o FThread, snd o with
      | Some (IVThread _ _), false => exec_init r (fst o, true)
      | _, _ => None
      end
  | _ => None
  end.

(** the model state that an object denotes: the monitor thread runs _monitor (daemon), from its
    first access; `done`/`interval` are the parameters; nobody has arrived, nobody closes.
    [exc0] = the initial value of the monitor's local `exc` *)
Definition state_of (o : obj0) (exc0 : pexpr) : option state :=
  match fst o FActive, fst o FClosed, fst o FLock, fst o FThread, fst o FDone, fst o FInterval, snd o, exc0 with
  | Some (IVSet l), Some (IVBool c), Some IVLock, Some (IVThread FMonitor true),
    Some (IVParam 0), Some (IVParam 1), true, PListLit [] =>
      Some (mkState [l] 0 c None (fun _ => RNone) [] CNone MAcq1 0 0 [] [] [] [])
  | _, _, _, _, _, _, _, _ => None
  end.

Record mfacts := mkMF {
  mf_exc : nat; mf_exc_init : pexpr;
  mf_loop : pexpr;
  mf_lock1 : pexpr;
  mf_done : nat; mf_elt : pexpr; mf_var : nat; mf_iter : pexpr; mf_conds : list pexpr;
  mf_store : pexpr;
  mf_guard : pexpr;
  mf_d : nat; mf_for_iter : pexpr;
  mf_callee : pexpr; mf_args : list pexpr; mf_kw : list (string * pexpr);
  mf_cls : pexpr; mf_e : nat; mf_h_recv : pexpr; mf_h_meth : mname; mf_h_args : list pexpr;
  mf_sleep : pexpr;
  mf_lock2 : pexpr; mf_exit_test : pexpr; mf_exit_then : list pstmt;
  mf_final_cond : pexpr; mf_final_raise : pexpr }.

Definition monitor_facts (b : list pstmt) : option mfacts :=
  match b with
  | [KAssign exc e0;
     KWhile loop
       [KWith l1 [KAssign dn (PSetComp elt x it conds); KSetAttr FActive rhs];
        KIf g [KFor d fit [KTry [KExpr (PCall callee args kw)] cls e
                                [KExpr (PCall (PAttr hrecv hm) hargs [])]]] [];
        KExpr slp;
        KWith l2 [KIf test th []]];
     KIf fc [KRaise fr] []] =>
      Some (mkMF exc e0 loop l1 dn elt x it conds rhs g d fit callee args kw cls e hrecv hm hargs slp
                 l2 test th fc fr)
  | _ => None
  end.

Definition stuck (s : state) : state * out := (s, ODisabled).

Section Gen.
Variable raises : nat -> bool.
Variable has_done : bool.      (* is a callback given (`self._done` truthy) *)
Variable f : mfacts.

(** a set-valued local of the monitor: only `done` *)
Definition mon_set_local (e : pexpr) (s : state) : option (list nat) :=
  if is_local (mf_done f) e then Some (m_done s) else None.

(** `if self._done:` -- [has_done] (true: ASSUMPTIONS of the property; false: done=None, see the end) *)
Definition done_atom (e : pexpr) : bool := match e with PSelf FDone => true | _ => false end.
Definition closed_atom (e : pexpr) : bool := match e with PSelf FClosed => true | _ => false end.

(** after the loop: `if exc: raise exc[z]` *)
Definition final_exn (excs : list exn) : option (option exn) :=
  match test1 (is_local (mf_exc f)) (mf_final_cond f) (match excs with [] => false | _ => true end) with
  | Some true =>
      match mf_final_raise f with
      | PSubscr e (PInt z) => if is_local (mf_exc f) e then Some (index excs z) else None
      | _ => None
      end
  | Some false => Some None
  | None => None
  end.

Definition step_mon_gen (s : state) : state * out :=
  match m_pc s with
  | MAcq1 =>
      if is_lock (mf_lock1 f) then
        match lock s with
        | None => (with_lock_pc s (Some Mon) MLoadScan, OAcc LockAcquire [])
        | Some _ => stuck s
        end
      else stuck s
  | MLoadScan =>
      if is_active (mf_iter f) then (with_pc s (MGetIter (active s)), OAcc LoadActive []) else stuck s
  | MGetIter r =>
      (with_mon s MIterNext r (List.length (obj (heap s) r)) (obj (heap s) r) [] [] (m_exc s), OAcc GetIter [])
  | MIterNext =>
      if List.length (obj (heap s) (m_itref s)) =? m_itused s then
        match m_todo s with
        | t :: rest =>
            (with_mon s (MIsAlive t) (m_itref s) (m_itused s) rest (m_done s) (m_cbs s) (m_exc s), OAcc IterNext [])
        | [] => (with_pc s MLoadRebuild, OAcc IterNext [])
        end
      else (with_pc s MRelExc, OAcc IterNext [])
  | MIsAlive t =>
      (* the filter of the comprehension, with its polarity; the element added is the scanned one *)
      match keep (mf_var f) (mf_conds f) (is_alive (regs s t)), is_local (mf_var f) (mf_elt f) with
      | Some true, true =>
          (with_mon s MIterNext (m_itref s) (m_itused s) (m_todo s) (ins t (m_done s)) (m_cbs s) (m_exc s),
           OAcc IsAlive [])
      | Some false, true => (with_pc s MIterNext, OAcc IsAlive [])
      | _, _ => stuck s
      end
  | MLoadRebuild =>
      match mf_store f with
      | PBin _ (PSelf FActive) _ => (with_pc s (MSetDiff (active s)), OAcc LoadActive [])
      | _ => stuck s
      end
  | MSetDiff r =>
      (* WHICH set is stored: <op> (the loaded object) (the local) *)
      match mf_store f with
      | PBin o (PSelf FActive) e2 =>
          match setop o, mon_set_local e2 s with
          | Some op, Some v =>
              (mkState (heap s ++ [op (obj (heap s) r) v]) (active s) (closed s) (lock s) (regs s) (arrived s)
                       (closer s) (MStore (List.length (heap s))) (m_itref s) (m_itused s) (m_todo s) (m_done s)
                       (m_cbs s) (m_exc s),
               OAcc SetDiff [])
          | _, _ => stuck s
          end
      | _ => stuck s
      end
  | MStore n =>
      (* what `for d in <iter>` will go through *)
      match mon_set_local (mf_for_iter f) s with
      | Some cbs =>
          (mkState (heap s) n (closed s) (lock s) (regs s) (arrived s) (closer s)
                   MRel1 (m_itref s) (m_itused s) (m_todo s) (m_done s) cbs (m_exc s),
           OAcc StoreActive [])
      | None => stuck s
      end
  | MRel1 =>
      match test1 done_atom (mf_guard f) has_done with
      | Some true =>
          (with_lock_pc s None (match m_cbs s with [] => MAcq2 | _ => MCallback end), OAcc LockRelease [])
      | Some false => (with_lock_pc s None MAcq2, OAcc LockRelease [])
      | None => stuck s
      end
  | MCallback =>
      match m_cbs s with
      | d :: rest =>
          (* self._done(<the element of this iteration>), every exception appended to `exc` *)
          match mf_callee f, mf_args f, mf_kw f, mf_cls f, mf_h_meth f, mf_h_args f with
          | PSelf FDone, [a], [], PGlobal GBaseException, NmAppend, [ha] =>
              if (is_local (mf_d f) a && is_local (mf_exc f) (mf_h_recv f) && is_local (mf_e f) ha)%bool then
                let exc := if raises d then m_exc s ++ [ExCb d] else m_exc s in
                (with_mon s (match rest with [] => MAcq2 | _ => MCallback end)
                          (m_itref s) (m_itused s) (m_todo s) (m_done s) rest exc,
                 OAcc Callback [EvCb d (raises d)])
              else stuck s
          | _, _, _, _, _, _ => stuck s
          end
      | [] => (with_pc s MAcq2, OAcc Callback [])
      end
  | MAcq2 =>
      if is_lock (mf_lock2 f) then
        match lock s with
        | None => (with_lock_pc s (Some Mon) MLoadCheck, OAcc LockAcquire [])
        | Some _ => stuck s
        end
      else stuck s
  | MLoadCheck =>
      match mf_exit_test f with
      | PAndE _ _ => (with_pc s (MTruth (active s)), OAcc LoadActive [])
      | _ => stuck s
      end
  | MTruth r =>
      (* `A and C`: A over the truth value of the set; false short-circuits to "do not break" *)
      match mf_exit_test f with
      | PAndE a _ =>
          match test1 is_active a (match obj (heap s) r with [] => false | _ => true end) with
          | Some true => (with_pc s MLoadClosed, OAcc TruthActive [])
          | Some false => (with_pc s MRelLoop, OAcc TruthActive [])
          | None => stuck s
          end
      | _ => stuck s
      end
  | MLoadClosed =>
      match mf_exit_test f, mf_exit_then f with
      | PAndE _ c, [KBreak] =>
          match test1 closed_atom c (closed s) with
          | Some true => (with_pc s MRelBreak, OAcc LoadClosed [])
          | Some false => (with_pc s MRelLoop, OAcc LoadClosed [])
          | None => stuck s
          end
      | _, _ => stuck s
      end
  | MRelLoop =>
      (* `while <cond>`: a constant *)
      match mf_loop f with
      | PBool true => (with_lock_pc s None MAcq1, OAcc LockRelease [])
      | _ => stuck s
      end
  | MRelBreak =>
      match final_exn (m_exc s) with
      | Some e => mon_exit s LockRelease e
      | None => stuck s
      end
  | MRelExc => mon_exit s LockRelease (Some ExSetChanged)
  | MExited _ => stuck s
  end.

End Gen.

Definition step_mon_ast (raises : nat -> bool) (s : state) : state * out :=
  match monitor_facts (pm_body monitor_ast) with
  | Some f => step_mon_gen raises true f s
  | None => stuck s
  end.

(** the same with NO callback (`done=None`, the default of __init__) *)
Definition step_mon_ast_nocb (raises : nat -> bool) (s : state) : state * out :=
  match monitor_facts (pm_body monitor_ast) with
  | Some f => step_mon_gen raises false f s
  | None => stuck s
  end.

Record rfacts := mkRF {
  rf_p : nat; rf_test : pexpr; rf_p' : nat; rf_default : pexpr;
  rf_lock : pexpr; rf_recv : pexpr; rf_meth : mname; rf_args : list pexpr;
  rf_ret : pexpr }.

Definition register_facts (b : list pstmt) : option rfacts :=
  match b with
  | [KIf tst [KAssign p' dflt] [];
     KWith l [KExpr (PCall (PAttr recv m) args [])];
     KReturn ret] => Some (mkRF 0 tst p' dflt l recv m args ret)
  | _ => None
  end.

Definition none_atom (p : nat) (e : pexpr) : bool :=
  match e with PIs (PLocal y) PNone => y =? p | _ => false end.

(** the value of the parameter `thread` after the first statement, when register(arg) is called
    in thread [cur] ([arg] = None: the default) *)
Definition reg_value (f : rfacts) (cur : nat) (arg : option nat) : option nat :=
  match test1 (none_atom (rf_p f)) (rf_test f) (match arg with None => true | _ => false end) with
  | Some true =>
      match rf_default f with
      | PCall (PGlobal GCurrentThread) [] [] => if rf_p' f =? rf_p f then Some cur else None
      | _ => None
      end
  | Some false => arg         (* None here: set.add(None) -- not a thread *)
  | None => None
  end.

(** [Model.step_reg]: thread t calls register(arg) *)
Definition step_reg_gen (f : rfacts) (arg : option nat) (s : state) (t : nat) : state * out :=
  match regs s t with
  | RAcq =>
      if is_lock (rf_lock f) then
        match lock s with
        | None => (with_lock_regs s (Some (Reg t)) (set_reg (regs s) t RLoad), OAcc LockAcquire [])
        | Some _ => stuck s
        end
      else stuck s
  | RLoad =>
      match is_active (rf_recv f), rf_meth f with
      | true, NmAdd => (with_regs s (set_reg (regs s) t (RAdd (active s))), OAcc LoadActive [])
      | _, _ => stuck s
      end
  | RAdd r =>
      match rf_args f with
      | [a] =>
          match is_local (rf_p f) a, reg_value f t arg with
          | true, Some v =>
              (mkState (upd (heap s) r (ins v (obj (heap s) r))) (active s) (closed s) (lock s)
                       (set_reg (regs s) t RRel) (arrived s) (closer s)
                       (m_pc s) (m_itref s) (m_itused s) (m_todo s) (m_done s) (m_cbs s) (m_exc s),
               OAcc SetAdd [])
          | _, _ => stuck s
          end
      | _ => stuck s
      end
  | RRel =>
      match is_local (rf_p f) (rf_ret f), reg_value f t arg with
      | true, Some v => (with_lock_regs s None (set_reg (regs s) t RIdle), OAcc LockRelease [EvRegistered v])
      | _, _ => stuck s
      end
  | _ => stuck s
  end.

Definition step_reg_ast (arg : option nat) (s : state) (t : nat) : state * out :=
  match register_facts (pm_body register_ast) with
  | Some f => step_reg_gen f arg s t
  | None => stuck s
  end.

Definition reg_value_ast (cur : nat) (arg : option nat) : option nat :=
  match register_facts (pm_body register_ast) with
  | Some f => reg_value f cur arg
  | None => None
  end.

Record cfacts := mkCF {
  cf_guard : pexpr; cf_closed_val : pexpr; cf_join_args : list pexpr; cf_join_kw : list (string * pexpr) }.

Definition close_facts (b : list pstmt) : option cfacts :=
  match b with
  | [KIf g [KRaise (PCall (PGlobal GRuntimeError) _ [])] [];
     KSetAttr FClosed v;
     KExpr (PCall (PAttr (PSelf FThread) NmJoin) ja jk)] => Some (mkCF g v ja jk)
  | _ => None
  end.

Definition member_atom (e : pexpr) : bool :=
  match e with PIn (PCall (PGlobal GCurrentThread) [] []) (PSelf FActive) => true | _ => false end.

(** [Model.step_closer]; [c_in]: is the calling thread in the loaded set *)
Definition step_closer_gen (f : cfacts) (c_in : bool) (s : state) : state * out :=
  match closer s with
  | CLoad =>
      match test1 member_atom (cf_guard f) c_in with
      | Some _ => (with_closer s (CContains (active s)), OAcc LoadActive [])
      | None => stuck s
      end
  | CContains r =>
      match test1 member_atom (cf_guard f) c_in with
      | Some false => (with_closer s CStore, OAcc Contains [])
      | Some true => (with_closer s (CDone (Some ExRegistered)), OAcc Contains [EvCloseRet (Some ExRegistered)])
      | None => stuck s
      end
  | CStore =>
      match cf_closed_val f with
      | PBool b =>
          (mkState (heap s) (active s) b (lock s) (regs s) (arrived s) CJoin
                   (m_pc s) (m_itref s) (m_itused s) (m_todo s) (m_done s) (m_cbs s) (m_exc s),
           OAcc StoreClosed [])
      | _ => stuck s
      end
  | CJoin =>
      (* join() without a timeout: returns only when the monitor thread has ended *)
      match cf_join_args f, cf_join_kw f with
      | [], [] =>
          match m_pc s with
          | MExited e => (with_closer s (CDone e), OAcc Join [EvCloseRet e])
          | _ => (with_closer s CJoining, OAcc Join [])
          end
      | _, _ => stuck s
      end
  | _ => stuck s
  end.

Definition step_closer_ast (c_in : bool) (s : state) : state * out :=
  match close_facts (pm_body close_ast) with
  | Some f => step_closer_gen f c_in s
  | None => stuck s
  end.

(** __init__: the regenerated body, interpreted, IS the model's initial state (a new empty builtin
    set, _closed False, a new lock, the monitor thread = ExcThread(target=self._monitor, daemon=True)
    started after all stores), together with the monitor's `exc = []` *)
Theorem skel_init :
  match exec_init (pm_body init_ast) (fun _ => None, false), monitor_facts (pm_body monitor_ast) with
  | Some o, Some f => state_of o (mf_exc_init f)
  | _, _ => None
  end = Some init.
Proof. reflexivity. Qed.

(** defaults (pin): done=None, interval=0.001; register(thread=None); close() has no parameters *)
Theorem skel_defaults :
  pm_defaults init_ast = [Some PNone; Some (PFloat "0.001")]
  /\ pm_defaults register_ast = [Some PNone] /\ pm_nparams register_ast = 1
  /\ pm_nparams close_ast = 0 /\ pm_nparams monitor_ast = 0.
Proof. repeat split; reflexivity. Qed.

(** __enter__ / __exit__ (pin): return self; del the three parameters, self.close() *)
Theorem skel_enter_exit :
  enter_ast = mkMeth 0 [] [KReturn PSelfObj]
  /\ exit_ast = mkMeth 3 [None; None; None] [KDel [0; 1; 2]; KExpr (PCall (PSelf FClose) [] [])].
Proof. split; reflexivity. Qed.

Lemma index0 : forall A (l : list A), index l 0 = hd_error l.
Proof. intros A l. destruct l; reflexivity. Qed.

(** no callback (`done=None`, the default of __init__): `if self._done:` is false and the `for d in done`
    loop is skipped.  [step_mon_nocb] is the model's monitor step with the ONE difference that after the
    scan section the monitor goes to the exit check. *)
Definition step_mon_nocb (raises : nat -> bool) (s : state) : state * out :=
  match m_pc s with
  | MRel1 => (with_lock_pc s None MAcq2, OAcc LockRelease [])
  | _ => step_mon raises s
  end.

Lemma skel_monitor_gen : forall raises has_done s,
  match monitor_facts (pm_body monitor_ast) with
  | Some f => step_mon_gen raises has_done f s
  | None => stuck s
  end = if has_done then step_mon raises s else step_mon_nocb raises s.
Proof.
  intros raises has_done s.
  set (F := monitor_facts (pm_body monitor_ast)). vm_compute in F. subst F. cbv beta iota.
  unfold step_mon_gen, step_mon_nocb, step_mon, stuck, final_exn, mon_set_local.
  destruct has_done, (m_pc s); cbn; try reflexivity.
  (* what is left: MIsAlive (polarity of the filter), MTruth, MLoadClosed, MRelBreak *)
  all: try (destruct (is_alive (regs s t)); reflexivity).
  all: try (destruct (obj (heap s) r); reflexivity).
  all: try (destruct (closed s); reflexivity).
  all: try (destruct (m_exc s); reflexivity).
Qed.

Theorem skel_monitor_step : forall raises s, step_mon_ast raises s = step_mon raises s.
Proof. intros raises s. exact (skel_monitor_gen raises true s). Qed.

(** register: the element added (and returned) is the argument, or the calling thread by default *)
Theorem skel_register_value : forall cur arg,
  reg_value_ast cur arg = Some (match arg with Some u => u | None => cur end).
Proof. intros cur [u|]; reflexivity. Qed.

(** register called by thread t on itself (no argument, or itself as the argument): the model's step *)
Theorem skel_register_step : forall arg s t, (arg = None \/ arg = Some t) ->
  step_reg_ast arg s t = step_reg s t.
Proof.
  intros arg s t H. unfold step_reg_ast.
  set (F := register_facts (pm_body register_ast)). vm_compute in F. subst F. cbv beta iota.
  unfold step_reg_gen, step_reg, stuck, reg_value.
  destruct H as [-> | ->]; destruct (regs s t); cbn; rewrite ?Nat.eqb_refl; reflexivity.
Qed.

(** close called by a thread that is not in the set: the model's step *)
Theorem skel_close_step : forall s, step_closer_ast false s = step_closer s.
Proof.
  intros s. unfold step_closer_ast.
  set (F := close_facts (pm_body close_ast)). vm_compute in F. subst F. cbv beta iota.
  unfold step_closer_gen, step_closer, stuck.
  destruct (closer s); cbn; try reflexivity.
Qed.

(** close called by a registered thread: RuntimeError at the membership test, _closed NOT stored,
    no join (the polarity of the guard) *)
Theorem skel_close_registered : forall s r, closer s = CContains r ->
  step_closer_ast true s =
  (with_closer s (CDone (Some ExRegistered)), OAcc Contains [EvCloseRet (Some ExRegistered)]).
Proof.
  intros s r H. unfold step_closer_ast.
  set (F := close_facts (pm_body close_ast)). vm_compute in F. subst F. cbv beta iota.
  unfold step_closer_gen. rewrite H. reflexivity.
Qed.

Definition step_ast (raises : nat -> bool) (s : state) (l : label) : state * out :=
  match l with
  | Step Mon => step_mon_ast raises s
  | Step (Reg t) => step_reg_ast None s t
  | Step Closer => step_closer_ast false s
  | _ => step raises s l
  end.

Theorem skel_step : forall raises s l, step_ast raises s l = step raises s l.
Proof.
  intros raises s l. destruct l as [t | [ | | t] | t | ]; cbn [step_ast step].
  all: first [ apply skel_monitor_step | apply skel_close_step
             | apply skel_register_step; now left | reflexivity ].
Qed.

Fixpoint run_from_ast (raises : nat -> bool) (s : state) (ls : list label) : state * list out :=
  match ls with
  | [] => (s, [])
  | l :: r => let '(s', o) := step_ast raises s l in
              let '(s'', os) := run_from_ast raises s' r in (s'', o :: os)
  end.

(** hence every run: all theorems of Props/C18.v about [run]/[outs]/[history] of the hand-written
    model are theorems about the runs of the interpreted regenerated code *)
Theorem skel_run : forall raises ls s, run_from_ast raises s ls = run_from raises s ls.
Proof.
  intros raises ls. induction ls as [| l r IH]; intro s; [reflexivity|].
  cbn [run_from_ast run_from]. rewrite skel_step. destruct (step raises s l) as [s' o].
  rewrite IH. reflexivity.
Qed.

Theorem skel_nocb_step : forall raises s, step_mon_ast_nocb raises s = step_mon_nocb raises s.
Proof. intros raises s. exact (skel_monitor_gen raises false s). Qed.

(** the scan and the rebuild are untouched: the scanned thread goes into `done` iff it is NOT alive, and
    the set stored is (the loaded set) minus exactly `done` -- the ended threads leave _active *)
Theorem skel_nocb_removes_ended : forall raises s,
  (forall t, m_pc s = MIsAlive t ->
     m_done (fst (step_mon_ast_nocb raises s)) = (if is_alive (regs s t) then m_done s else ins t (m_done s))
     /\ m_pc (fst (step_mon_ast_nocb raises s)) = MIterNext)
  /\ (forall r, m_pc s = MSetDiff r ->
     heap (fst (step_mon_ast_nocb raises s)) = heap s ++ [diff (obj (heap s) r) (m_done s)]
     /\ m_pc (fst (step_mon_ast_nocb raises s)) = MStore (List.length (heap s)))
  /\ (forall n, m_pc s = MStore n -> active (fst (step_mon_ast_nocb raises s)) = n).
Proof.
  intros raises s. rewrite skel_nocb_step. unfold step_mon_nocb, step_mon.
  repeat split; intros; rewrite H; cbn; try reflexivity; destruct (is_alive (regs s t)); reflexivity.
Qed.

(** the only ways out of the loop are the model's: the monitor ends only from the `break` of the exit check
    (reached only with _closed read True, after the set was found empty under the same lock) or from the
    exception of the scan; so join() in close() -- and close() -- still waits for that *)
Theorem skel_nocb_exit_path : forall raises s,
  let s' := fst (step_mon_ast_nocb raises s) in
  ((exists e, m_pc s' = MExited e) -> m_pc s = MRelBreak \/ m_pc s = MRelExc \/ exists e, m_pc s = MExited e)
  /\ (m_pc s' = MRelBreak -> (m_pc s = MLoadClosed /\ closed s = true) \/ m_pc s = MRelBreak)
  /\ (m_pc s' = MLoadClosed -> (exists r, m_pc s = MTruth r /\ obj (heap s) r = []) \/ m_pc s = MLoadClosed).
Proof.
  intros raises s. rewrite skel_nocb_step. unfold step_mon_nocb, step_mon, mon_exit.
  destruct (m_pc s) eqn:E; destruct_matches; cbn;
    repeat split; intros; try discriminate; try (destruct H; discriminate);
    try (rewrite E in H; first [discriminate | destruct H; discriminate]); eauto 6.
Qed.

Definition step_nocb (raises : nat -> bool) (s : state) (l : label) : state * out :=
  match l with
  | Step Mon => step_mon_ast_nocb raises s
  | _ => step_ast raises s l
  end.

Fixpoint run_from_nocb (raises : nat -> bool) (s : state) (ls : list label) : state * list out :=
  match ls with
  | [] => (s, [])
  | l :: r => let '(s', o) := step_nocb raises s l in
              let '(s'', os) := run_from_nocb raises s' r in (s'', o :: os)
  end.

Definition is_cb_out (o : out) : bool :=
  match o with OAcc Callback _ => true | OAcc _ evs => existsb (fun e => match e with EvCb _ _ => true | _ => false end) evs | _ => false end.

Lemma step_other_pc : forall raises s l, l <> Step Mon ->
  m_pc (fst (step raises s l)) = m_pc s /\ is_cb_out (snd (step raises s l)) = false.
Proof.
  intros raises s l Hl. destruct l as [t | [ | | t] | t | ]; try congruence; cbn; unfold step_closer, step_reg;
    destruct_matches; cbn; split; first [reflexivity | congruence].
Qed.

Lemma step_nocb_inv : forall raises s l, m_pc s <> MCallback ->
  m_pc (fst (step_nocb raises s l)) <> MCallback /\ is_cb_out (snd (step_nocb raises s l)) = false.
Proof.
  intros raises s l H. destruct l as [t | [ | | t] | t | ]; cbn [step_nocb]; rewrite ?skel_step.
  2:{ rewrite skel_nocb_step. unfold step_mon_nocb, step_mon, mon_exit.
      destruct (m_pc s) eqn:E; try congruence; destruct_matches; cbn;
        split; first [reflexivity | congruence | discriminate]. }
  all: match goal with |- context [step _ _ ?l] =>
         destruct (step_other_pc raises s l) as [-> ?]; [discriminate|auto] end.
Qed.

Theorem skel_nocb_never_calls : forall raises ls s, m_pc s <> MCallback ->
  m_pc (fst (run_from_nocb raises s ls)) <> MCallback
  /\ forallb (fun o => negb (is_cb_out o)) (snd (run_from_nocb raises s ls)) = true.
Proof.
  intros raises ls. induction ls as [| l r IH]; intros s H; [split; [exact H | reflexivity]|].
  cbn [run_from_nocb]. destruct (step_nocb_inv raises s l H) as [H1 H2].
  destruct (step_nocb raises s l) as [s' o]. cbn in H1, H2.
  specialize (IH s' H1). destruct (run_from_nocb raises s' r) as [s'' os]. cbn in *.
  destruct IH as [I1 I2]. split; [exact I1|]. rewrite H2. exact I2.
Qed.
