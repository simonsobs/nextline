(** C18, thread half: LATE registrations.

    DoneCb/Main.v speaks about [registered_before_close] = the threads whose register() had
    returned when close() was called.  The model (and the code) let a thread register at any
    time; this file proves that every thread whose register() returns BEFORE THE MONITOR THREAD
    ENDS ([registered_before_monitor_exit]) is monitored like any other: once the monitor thread
    has ended -- hence once close() has returned -- it has ended and its callback was invoked
    exactly once.  Among them are the threads whose register() returns AFTER close() was called,
    at a point of the history where close() is still waiting for some thread u of
    [registered_before_close] ([registered_while_close_waits]; [general_includes]): as long as u
    has not been called back, the monitor thread has not ended (Inv.i_exit).

    Why it holds: t's `add` precedes the return of its register(), and the monitor leaves its loop
    only from the exit check, under the lock, with `_active` empty and no callback pending -- at
    which point every thread whose `add` has been executed has been called back
    (Inv.break_all_called).  The invariant [BInv] records exactly that: the monitor thread cannot
    have ended while a recorded thread is still owed its callback.

    Both sets are functions of the observable history alone, defined with the ghost of Inv.v by one
    recorder ([rec_of P]: t is recorded at its [EvRegistered] iff [P] holds of the ghost just
    before); [late_spec] and [general_spec] restate them with prefixes of the schedule. *)
From NL Require Import DoneCb.Model DoneCb.Safety DoneCb.Inv DoneCb.Main DoneCb.Live.
From Coq Require Import Lia.

(** close() has been called and some thread whose register() had returned at that moment has not
    been called back yet ([g_rgc] is empty until close() is called) *)
Definition close_waits_for (g : ghost) : bool :=
  existsb (fun u => negb (mem u (g_cl g))) (g_rgc g).

Lemma close_waits_for_spec g :
  close_waits_for g = true <-> exists u, In u (g_rgc g) /\ ~ In u (g_cl g).
Proof.
  unfold close_waits_for. rewrite existsb_exists. split; intros (u & H1 & H2); exists u; (split; [exact H1|]).
  - intros H. apply mem_In in H. rewrite H in H2. discriminate.
  - destruct (mem u (g_cl g)) eqn:E; [apply mem_In in E; tauto|reflexivity].
Qed.

(** the part of Inv.g_step that depends on the label *)
Definition g_label (g : ghost) (l : label) (o : out) : ghost :=
  match l, o with
  | Die t, OOk => mkG (g_cl g) (g_rg g) (g_rgc g) (t :: g_dd g) (g_rz g) (g_cr g) (g_mx g)
  | CloseCall, OOk => mkG (g_cl g) (g_rg g) (g_rg g) (g_dd g) (g_rz g) (g_cr g) (g_mx g)
  | _, _ => g
  end.

Lemma g_step_label g l o : g_step g l o = fold_left ev_ghost (evs_of o) (g_label g l o).
Proof. reflexivity. Qed.

Lemma step_registers raises s l :
  (exists t, l = Step (Reg t) /\ snd (step raises s l) = OAcc LockRelease [EvRegistered t])
  \/ (forall t, ~ In (EvRegistered t) (evs_of (snd (step raises s l)))).
Proof.
  destruct l as [t|[| |t]|t|]; simpl.
  - right. destruct (regs s t); simpl; tauto.
  - right. unfold step_mon, mon_exit. destruct_matches; simpl; intros ? F; intuition discriminate.
  - right. unfold step_closer. destruct_matches; simpl; intros ? F; intuition discriminate.
  - unfold step_reg. destruct (regs s t) eqn:Er; try (right; simpl; tauto).
    + right. destruct (lock s); simpl; tauto.
    + left. exists t. split; reflexivity.
  - right. destruct (regs s t); simpl; tauto.
  - right. destruct (closer s); simpl; tauto.
Qed.

Section Rec.
Variable P : ghost -> bool.

Definition rec_ev (gl : ghost * list nat) (e : event) : ghost * list nat :=
  (ev_ghost (fst gl) e,
   match e with
   | EvRegistered t => if P (fst gl) then t :: snd gl else snd gl
   | _ => snd gl
   end).

Definition rec_step (gl : ghost * list nat) (l : label) (o : out) : ghost * list nat :=
  fold_left rec_ev (evs_of o) (g_label (fst gl) l o, snd gl).

Definition rec_fold (h : list (label * out)) (gl : ghost * list nat) : ghost * list nat :=
  fold_left (fun gl lo => rec_step gl (fst lo) (snd lo)) h gl.

Definition rec_of (h : list (label * out)) : list nat := snd (rec_fold h (g0, [])).

Lemma rec_ev_fst evs : forall gl, fst (fold_left rec_ev evs gl) = fold_left ev_ghost evs (fst gl).
Proof. induction evs as [|e r IH]; intros gl; simpl; [reflexivity|]. rewrite IH. reflexivity. Qed.

Lemma rec_step_fst gl l o : fst (rec_step gl l o) = g_step (fst gl) l o.
Proof. unfold rec_step. rewrite rec_ev_fst. reflexivity. Qed.

Lemma rec_fold_fst h : forall gl,
  fst (rec_fold h gl) = fold_left (fun g lo => g_step g (fst lo) (snd lo)) h (fst gl).
Proof.
  induction h as [|lo r IH]; intros gl; simpl; [reflexivity|].
  unfold rec_fold in IH. rewrite IH, rec_step_fst. reflexivity.
Qed.

Lemma rec_ev_noreg evs : (forall t, ~ In (EvRegistered t) evs) ->
  forall gl, snd (fold_left rec_ev evs gl) = snd gl.
Proof.
  induction evs as [|e r IH]; intros Hn gl; simpl; [reflexivity|].
  rewrite IH by (intros t H; apply (Hn t); right; exact H).
  destruct e; simpl; try reflexivity. elim (Hn t). left. reflexivity.
Qed.

Fixpoint rrun_from (raises : nat -> bool) (gl : ghost * list nat) (s : state) (ls : list label)
  : (ghost * list nat) * state :=
  match ls with
  | [] => (gl, s)
  | l :: r => let '(s', o) := step raises s l in rrun_from raises (rec_step gl l o) s' r
  end.

Lemma rrun_from_spec raises ls : forall gl s,
  rrun_from raises gl s ls =
  (rec_fold (combine ls (snd (run_from raises s ls))) gl, fst (run_from raises s ls)).
Proof.
  induction ls as [|l r IH]; intros gl s; simpl; [reflexivity|].
  destruct (step raises s l) as [s' o]. rewrite IH.
  destruct (run_from raises s' r) as [s'' os]. reflexivity.
Qed.

Lemma rrun_spec raises ls :
  rrun_from raises (g0, []) init ls =
  ((ghost_of (history raises ls), rec_of (history raises ls)), run raises ls).
Proof.
  rewrite rrun_from_spec. unfold rec_of, history, outs, run.
  pose proof (rec_fold_fst (combine ls (snd (run_from raises init ls))) (g0, [])) as H.
  unfold ghost_of. simpl in H. rewrite <- H. destruct (rec_fold _ _). reflexivity.
Qed.

Lemma rrun_app raises ls1 : forall gl s ls2,
  rrun_from raises gl s (ls1 ++ ls2) =
  rrun_from raises (fst (rrun_from raises gl s ls1)) (snd (rrun_from raises gl s ls1)) ls2.
Proof.
  induction ls1 as [|l r IH]; intros gl s ls2; simpl; [reflexivity|].
  destruct (step raises s l) as [s' o]. apply IH.
Qed.

Lemma rec_snoc raises ls l :
  rec_of (history raises (ls ++ [l])) =
  snd (rec_step (ghost_of (history raises ls), rec_of (history raises ls)) l
                (snd (step raises (run raises ls) l))).
Proof.
  pose proof (rrun_spec raises (ls ++ [l])) as H. rewrite rrun_app, rrun_spec in H. simpl in H.
  destruct (step raises (run raises ls) l) as [s' o]. simpl.
  injection H as H _. rewrite H. reflexivity.
Qed.

Lemma rec_snoc_In raises ls l t :
  In t (rec_of (history raises (ls ++ [l]))) <->
  In t (rec_of (history raises ls)) \/
  (l = Step (Reg t) /\ In (EvRegistered t) (evs_of (snd (step raises (run raises ls) l))) /\
   P (ghost_of (history raises ls)) = true).
Proof.
  rewrite rec_snoc. destruct (step_registers raises (run raises ls) l) as [(t0 & -> & Eo)|Hn].
  - rewrite Eo. unfold rec_step. cbn [evs_of fold_left g_label fst snd rec_ev].
    destruct (P _); simpl.
    + split.
      * intros [<-|H]; [right; auto|left; exact H].
      * intros [H|(E & _ & _)]; [right; exact H|left; congruence].
    + split; [tauto|]. intros [H|(_ & _ & F)]; [exact H|discriminate].
  - unfold rec_step. rewrite rec_ev_noreg by exact Hn. simpl. split; [tauto|].
    intros [H|(_ & F & _)]; [exact H|]. elim (Hn t F).
Qed.

Lemma rec_spec (R : ghost -> Prop) : (forall g, P g = true <-> R g) -> forall raises ls t,
  In t (rec_of (history raises ls)) <->
  exists ls1 ls2, ls = ls1 ++ Step (Reg t) :: ls2 /\
    In (EvRegistered t) (evs_of (snd (step raises (run raises ls1) (Step (Reg t))))) /\
    R (ghost_of (history raises ls1)).
Proof.
  intros HR raises ls t. induction ls as [|l ls IH] using rev_ind.
  - split; [intros []|]. intros (ls1 & ls2 & E & _). destruct ls1; discriminate.
  - rewrite rec_snoc_In, HR. split.
    + intros [H|(-> & He & W)].
      * apply IH in H. destruct H as (ls1 & ls2 & -> & H). exists ls1, (ls2 ++ [l]).
        split; [rewrite <- app_assoc; reflexivity|exact H].
      * exists ls, []. auto.
    + intros (ls1 & ls2 & E & He & W).
      destruct ls2 as [|l' ls2' _] using rev_ind.
      * apply app_inj_tail in E. destruct E as (<- & ->). right. auto.
      * change (ls ++ [l] = ls1 ++ (Step (Reg t) :: ls2') ++ [l']) in E. rewrite app_assoc in E.
        apply app_inj_tail in E. destruct E as (-> & _). left. apply IH. exists ls1, ls2'. auto.
Qed.

Lemma rrun_inv (Q : ghost -> list nat -> state -> Prop) raises :
  (forall g bm s l, Inv g s -> Q g bm s ->
     Q (fst (rec_step (g, bm) l (snd (step raises s l)))) (snd (rec_step (g, bm) l (snd (step raises s l))))
       (fst (step raises s l))) ->
  forall ls gl s, Inv (fst gl) s -> Q (fst gl) (snd gl) s ->
    Inv (fst (fst (rrun_from raises gl s ls))) (snd (rrun_from raises gl s ls)) /\
    Q (fst (fst (rrun_from raises gl s ls))) (snd (fst (rrun_from raises gl s ls))) (snd (rrun_from raises gl s ls)).
Proof.
  intros HQ. induction ls as [|l r IH]; intros [g bm] s I L; simpl; [split; assumption|].
  pose proof (step_inv raises g s l I) as I'. pose proof (HQ g bm s l I L) as L'.
  simpl in I, L. destruct (step raises s l) as [s' o]. apply IH.
  - rewrite rec_step_fst. exact I'.
  - exact L'.
Qed.

Lemma rec_run_inv (Q : ghost -> list nat -> state -> Prop) raises :
  Q g0 [] init ->
  (forall g bm s l, Inv g s -> Q g bm s ->
     Q (fst (rec_step (g, bm) l (snd (step raises s l)))) (snd (rec_step (g, bm) l (snd (step raises s l))))
       (fst (step raises s l))) ->
  forall ls, Q (ghost_of (history raises ls)) (rec_of (history raises ls)) (run raises ls).
Proof.
  intros Q0 HQ ls. pose proof (rrun_inv Q raises HQ ls (g0, []) init Inv_init Q0) as (_ & H).
  rewrite rrun_spec in H. exact H.
Qed.

End Rec.

(** [late_ev], [late_step], [late_fold], [late_of] ARE [rec_ev], [rec_step], [rec_fold], [rec_of] at
    [close_waits_for] ([late_of_rec]), written out under their own names because statements mention them *)
Definition late_ev (gl : ghost * list nat) (e : event) : ghost * list nat :=
  (ev_ghost (fst gl) e,
   match e with
   | EvRegistered t => if close_waits_for (fst gl) then t :: snd gl else snd gl
   | _ => snd gl
   end).

Definition late_step (gl : ghost * list nat) (l : label) (o : out) : ghost * list nat :=
  fold_left late_ev (evs_of o) (g_label (fst gl) l o, snd gl).

Definition late_fold (h : list (label * out)) (gl : ghost * list nat) : ghost * list nat :=
  fold_left (fun gl lo => late_step gl (fst lo) (snd lo)) h gl.

Definition late_of (h : list (label * out)) : list nat := snd (late_fold h (g0, [])).

Lemma late_of_rec h : late_of h = rec_of close_waits_for h.
Proof. reflexivity. Qed.

Record LInv (g : ghost) (lt : list nat) (s : state) : Prop := {
  l_rg : forall t, In t lt -> In t (g_rg g);
  l_none : closer s = CNone -> g_rgc g = [] /\ lt = [];
  l_fresh : forall t, In t lt -> ~ In t (g_rgc g)
}.

Lemma LInv_init : LInv g0 [] init.
Proof. constructor; simpl; auto; intros; tauto. Qed.

Lemma linv_mono g lt s g' s' :
  LInv g lt s ->
  (forall t, In t (g_rg g) -> In t (g_rg g')) ->
  g_rgc g' = g_rgc g ->
  (closer s' = CNone -> closer s = CNone) ->
  LInv g' lt s'.
Proof.
  intros [H1 H3 H4] Hrg Hrgc Hc. constructor.
  - intros t H. apply Hrg, H1, H.
  - intros E. rewrite Hrgc. apply H3, Hc, E.
  - intros t H. rewrite Hrgc. apply H4, H.
Qed.

Definition mon_running (g : ghost) : bool := match g_mx g with [] => true | _ => false end.

Lemma mon_running_true g : mon_running g = true <-> g_mx g = [].
Proof. unfold mon_running. destruct (g_mx g); split; congruence. Qed.

Record BInv (g : ghost) (bm : list nat) (s : state) : Prop := {
  b_rg : forall t, In t bm -> In t (g_rg g);
  b_exit : forall e, m_pc s = MExited e -> forall t, In t bm -> In t (g_cl g);
  b_all : (forall e, m_pc s <> MExited e) -> forall t, In t (g_rg g) -> In t bm;
  b_rgc : forall t, In t (g_rgc g) -> In t bm
}.

Lemma BInv_init : BInv g0 [] init.
Proof. constructor; simpl; auto; intros; tauto. Qed.

(** what a step from [g], [s] to [g'], [s'] leaves alone when it records no registration, does not
    end the monitor thread and is not the call of close() *)
Definition quiet (g : ghost) (s : state) (g' : ghost) (s' : state) : Prop :=
  g_rg g' = g_rg g /\ g_rgc g' = g_rgc g /\ (forall t, In t (g_cl g) -> In t (g_cl g')) /\
  (closer s' = CNone -> closer s = CNone) /\ (forall e, m_pc s' = MExited e <-> m_pc s = MExited e).

Lemma binv_mono g bm s g' s' : quiet g s g' s' -> BInv g bm s -> BInv g' bm s'.
Proof.
  intros (Hrg & Hrgc & Hcl & _ & Hx) [H1 H2 H3 H4]. constructor.
  - intros t H. rewrite Hrg. apply H1, H.
  - intros e E t H. apply Hcl. apply (H2 e (proj1 (Hx e) E) t H).
  - intros E t H. rewrite Hrg in H. apply H3; [|exact H]. intros e F. apply (E e), Hx, F.
  - intros t H. rewrite Hrgc in H. apply H4, H.
Qed.

Section Steps.
Variable raises : nat -> bool.

(** every step but three is quiet, and leaves the recorded threads as they are *)
Lemma step_quiet g s l : Inv g s ->
  (l = Step Mon /\ m_pc s = MRelBreak) \/ (exists t, l = Step (Reg t) /\ regs s t = RRel)
  \/ (l = CloseCall /\ closer s = CNone)
  \/ (quiet g s (g_step g l (snd (step raises s l))) (fst (step raises s l)) /\
      forall P bm, snd (rec_step P (g, bm) l (snd (step raises s l))) = bm).
Proof.
  intros I. destruct l as [t|[| |t]|t|]; simpl.
  - destruct (regs s t); do 3 right; repeat split; auto.
  - unfold step_mon. destruct (m_pc s) eqn:Epc; try solve [left; split; reflexivity];
      try solve [elim (i_noexc _ _ I Epc)];
      do 3 right; destruct_matches; repeat split; simpl; auto; congruence.
  - unfold step_closer. destruct (closer s) eqn:Ec; destruct_matches; do 3 right;
      repeat split; simpl; auto; congruence.
  - unfold step_reg. destruct (regs s t) eqn:Er; try solve [right; left; eauto];
      destruct_matches; do 3 right; repeat split; auto.
  - destruct (regs s t); do 3 right; repeat split; auto.
  - destruct (closer s) eqn:Ec; try solve [right; right; left; auto];
      do 3 right; repeat split; simpl; auto; congruence.
Qed.

Lemma lstep g lt s l :
  Inv g s -> LInv g lt s ->
  LInv (fst (rec_step close_waits_for (g, lt) l (snd (step raises s l))))
       (snd (rec_step close_waits_for (g, lt) l (snd (step raises s l))))
       (fst (step raises s l)).
Proof.
  intros I L. rewrite rec_step_fst. cbn [fst].
  destruct (step_quiet g s l I) as [(-> & Epc)|[(t & -> & Er)|[(-> & Ec)|((Hrg & Hrgc & _ & Hc & _) & R)]]].
  4:{ rewrite R. apply (linv_mono g lt s _ _ L); [rewrite Hrg; trivial|exact Hrgc|exact Hc]. }
  - (* the monitor thread ends: close() is not reset *)
    simpl. unfold step_mon. rewrite Epc. unfold mon_exit.
    destruct (closer s) eqn:Ec; apply (linv_mono g _ s); simpl; trivial; rewrite Ec; discriminate.
  - (* register() returns *)
    simpl. unfold step_reg. rewrite Er. unfold rec_step; simpl.
    destruct (close_waits_for g) eqn:W; [|apply (linv_mono g _ s); simpl; auto].
    apply close_waits_for_spec in W. destruct W as (u & Hu & Hnu).
    destruct L as [H1 H3 H4]. constructor; simpl.
    + intros x [<-|H]; auto.
    + intros E. destruct (H3 E) as (E1 & _). rewrite E1 in Hu. destruct Hu.
    + intros x [<-|H]; [|apply H4, H]. intros F.
      destruct (i_rg _ _ I _ (i_rgc _ _ I _ F)) as [E|E]; congruence.
  - (* close() is called: nothing is late yet *)
    simpl. rewrite Ec. destruct (l_none _ _ _ L Ec) as (_ & ->).
    constructor; simpl; try tauto. intros; discriminate.
Qed.

Lemma bstep g bm s l :
  Inv g s -> BInv g bm s ->
  BInv (fst (rec_step mon_running (g, bm) l (snd (step raises s l))))
       (snd (rec_step mon_running (g, bm) l (snd (step raises s l))))
       (fst (step raises s l)).
Proof.
  intros I L. rewrite rec_step_fst. cbn [fst].
  destruct (step_quiet g s l I) as [(-> & Epc)|[(t & -> & Er)|[(-> & Ec)|(Q & R)]]].
  4:{ rewrite R. exact (binv_mono g bm s _ _ Q L). }
  - (* the monitor thread ends: every registered thread has been called back *)
    pose proof (break_registered_called g s I Epc) as Hall. destruct L as [H1 H2 H3 H4].
    simpl. unfold step_mon. rewrite Epc. unfold mon_exit.
    destruct (closer s); unfold rec_step, g_step; simpl;
      constructor; simpl; auto; intros F; exfalso; eapply F; reflexivity.
  - (* register() returns: recorded iff the monitor thread runs *)
    simpl. unfold step_reg. rewrite Er. unfold rec_step, g_step; simpl.
    destruct L as [H1 H2 H3 H4]. unfold mon_running. destruct (g_mx g) as [|e0 r] eqn:Emx.
    + constructor; simpl.
      * intros x [<-|H]; auto.
      * intros e E. pose proof (i_mx_rev _ _ I e E) as F. rewrite Emx in F. destruct F.
      * intros E x [<-|H]; auto.
      * intros x H. right. apply H4, H.
    + assert (Hx : m_pc s = MExited e0) by (apply (i_mx _ _ I); rewrite Emx; left; reflexivity).
      constructor; simpl.
      * intros x H. right. apply H1, H.
      * exact H2.
      * intros E. elim (E e0 Hx).
      * exact H4.
  - (* close() is called: the monitor thread cannot have ended before *)
    assert (Hn : forall e, m_pc s <> MExited e).
    { intros e E. destruct (i_exit _ _ I e E) as (_ & _ & F). elim F. exact Ec. }
    destruct L as [H1 H2 H3 H4]. simpl. rewrite Ec. constructor; simpl; auto.
Qed.

End Steps.

Theorem LInv_run raises ls :
  LInv (ghost_of (history raises ls)) (late_of (history raises ls)) (run raises ls).
Proof. exact (rec_run_inv close_waits_for LInv raises LInv_init (lstep raises) ls). Qed.

Theorem BInv_run raises ls :
  BInv (ghost_of (history raises ls)) (rec_of mon_running (history raises ls)) (run raises ls).
Proof. exact (rec_run_inv mon_running BInv raises BInv_init (bstep raises) ls). Qed.

Section Late.
Variable raises : nat -> bool.

(** threads whose register() returned after close() was called, at a point of the history where
    some thread registered before the call had not yet been called back *)
Definition registered_while_close_waits (ls : list label) : list nat := late_of (history raises ls).

Theorem late_registered ls t :
  In t (registered_while_close_waits ls) ->
  In t (registered raises ls) /\ ~ In t (registered_before_close raises ls).
Proof.
  intros H. pose proof (LInv_run raises ls) as L. split; [apply (l_rg _ _ _ L), H|apply (l_fresh _ _ _ L), H].
Qed.

End Late.

Theorem late_spec raises ls t :
  In t (registered_while_close_waits raises ls) <->
  exists ls1 ls2, ls = ls1 ++ Step (Reg t) :: ls2 /\
    In (EvRegistered t) (evs_of (snd (step raises (run raises ls1) (Step (Reg t))))) /\
    exists u, In u (registered_before_close raises ls1) /\ ~ In u (called raises ls1).
Proof. exact (rec_spec close_waits_for _ close_waits_for_spec raises ls t). Qed.

(** The general form: every thread whose register() returned BEFORE THE MONITOR THREAD ENDED.

    [registered_while_close_waits] covers one generation of late threads (close() waits for a thread
    registered before the call).  A thread that registers while close() waits only for ANOTHER LATE
    thread ("chain-late"), or after a close() with nothing registered yet, is monitored as well: the
    only boundary is the end of the monitor thread.  [registered_before_monitor_exit] records t at
    its [EvRegistered] iff no [EvMonExit] has occurred so far ([g_mx = []]), a function of the
    observable history alone.  That IS the right boundary: the monitor's final exit check runs
    under the lock from its acquire (MAcq2) to the release that ends the thread (MRelBreak, which
    emits EvMonExit), and a register() returns with the release of the same lock after its `add`;
    so a register() that returns before EvMonExit has its `add` before the final check, and one
    that returns after it is never seen ([w_after_exit]). *)

Section General.
Variable raises : nat -> bool.

Definition registered_before_monitor_exit (ls : list label) : list nat :=
  rec_of mon_running (history raises ls).

Theorem general_spec ls t :
  In t (registered_before_monitor_exit ls) <->
  exists ls1 ls2, ls = ls1 ++ Step (Reg t) :: ls2 /\
    In (EvRegistered t) (evs_of (snd (step raises (run raises ls1) (Step (Reg t))))) /\
    monitor_exits raises ls1 = [].
Proof. exact (rec_spec mon_running _ mon_running_true raises ls t). Qed.

Theorem general_includes ls t :
  In t (registered_before_close raises ls ++ registered_while_close_waits raises ls) ->
  In t (registered_before_monitor_exit ls).
Proof.
  intros H. apply in_app_or in H. destruct H as [H|H].
  - apply (b_rgc _ _ _ (BInv_run raises ls)). exact H.
  - apply general_spec. apply late_spec in H. destruct H as (ls1 & ls2 & H1 & H2 & u & Hu & Hnu).
    exists ls1, ls2. split; [exact H1|]. split; [exact H2|].
    destruct (monitor_exits raises ls1) as [|e r] eqn:Em; [reflexivity|]. exfalso.
    pose proof (Inv_run raises ls1) as I.
    assert (Hx : m_pc (run raises ls1) = MExited e).
    { apply (i_mx _ _ I). unfold monitor_exits in Em. rewrite Em. left. reflexivity. }
    destruct (i_exit _ _ I e Hx) as (_ & Hall & _). apply Hnu. apply Hall. exact Hu.
Qed.

Theorem general_registered ls t :
  In t (registered_before_monitor_exit ls) -> In t (registered raises ls).
Proof. apply (b_rg _ _ _ (BInv_run raises ls)). Qed.

Theorem general_all_while_running ls :
  monitor_exits raises ls = [] ->
  forall t, In t (registered raises ls) -> In t (registered_before_monitor_exit ls).
Proof.
  intros Hm. apply (b_all _ _ _ (BInv_run raises ls)). intros e E.
  pose proof (i_mx_rev _ _ (Inv_run raises ls) e E) as F. unfold monitor_exits in Hm. rewrite Hm in F. destruct F.
Qed.

(** once the monitor thread has ended, every thread whose register() returned before that has ended
    and its callback was invoked exactly once *)
Theorem general_monitor_exactly_once ls e :
  In e (monitor_exits raises ls) ->
  forall t, In t (registered_before_monitor_exit ls) ->
    count_occ Nat.eq_dec (called raises ls) t = 1 /\ In t (ended raises ls).
Proof.
  intros Hm t Hr. pose proof (Inv_run raises ls) as I. pose proof (BInv_run raises ls) as L.
  pose proof (b_exit _ _ _ L e (i_mx _ _ I e Hm) t Hr) as Hall. split.
  - apply NoDup_count_occ'; [apply (i_cl_nodup _ _ I)|exact Hall].
  - apply (i_dead _ _ I). apply (i_cl_dead _ _ I). exact Hall.
Qed.

Theorem general_monitor_waits ls e :
  In e (monitor_exits raises ls) ->
  forall t, In t (registered_before_monitor_exit ls) -> In t (called raises ls) /\ In t (ended raises ls).
Proof.
  intros Hm t Hr. destruct (general_monitor_exactly_once ls e Hm t Hr) as (H1 & H2). split; [|exact H2].
  apply (count_occ_In Nat.eq_dec). lia.
Qed.

Theorem general_exactly_once ls e :
  In e (close_results raises ls) ->
  forall t, In t (registered_before_monitor_exit ls) ->
    count_occ Nat.eq_dec (called raises ls) t = 1 /\ In t (ended raises ls).
Proof. intros Hc. apply (general_monitor_exactly_once ls e). apply close_after_monitor. exact Hc. Qed.

Theorem general_close_waits ls e :
  In e (close_results raises ls) ->
  forall t, In t (registered_before_monitor_exit ls) -> In t (called raises ls) /\ In t (ended raises ls).
Proof. intros Hc. apply (general_monitor_waits ls e). apply close_after_monitor. exact Hc. Qed.

End General.


Section OneGeneration.
Variable raises : nat -> bool.

(** once close() has returned, every thread that registered while close() was still waiting for
    an earlier one has ended and its callback was invoked exactly once *)
Theorem late_exactly_once ls e :
  In e (close_results raises ls) ->
  forall t, In t (registered_while_close_waits raises ls) ->
    count_occ Nat.eq_dec (called raises ls) t = 1 /\ In t (ended raises ls).
Proof.
  intros Hc t H. apply (general_exactly_once raises ls e Hc), general_includes, in_or_app. right. exact H.
Qed.

(** the conclusions of thread_exactly_once / close_waits for BOTH kinds of threads *)
Theorem all_exactly_once ls e :
  In e (close_results raises ls) ->
  forall t, In t (registered_before_close raises ls ++ registered_while_close_waits raises ls) ->
    count_occ Nat.eq_dec (called raises ls) t = 1 /\ In t (ended raises ls).
Proof. intros Hc t H. apply (general_exactly_once raises ls e Hc), general_includes, H. Qed.

Theorem all_close_waits ls e :
  In e (close_results raises ls) ->
  forall t, In t (registered_before_close raises ls ++ registered_while_close_waits raises ls) ->
    In t (called raises ls) /\ In t (ended raises ls).
Proof. intros Hc t H. apply (general_close_waits raises ls e Hc), general_includes, H. Qed.

(** the monitor thread itself does not end before that (so neither does a close() in join) *)
Theorem late_monitor_waits ls e :
  In e (monitor_exits raises ls) ->
  forall t, In t (registered_before_close raises ls ++ registered_while_close_waits raises ls) ->
    In t (called raises ls) /\ In t (ended raises ls).
Proof. intros Hm t H. apply (general_monitor_waits raises ls e Hm), general_includes, H. Qed.

End OneGeneration.

(** concrete schedules.
    [w_late_pending]: thread 1 registers and ends, close() is called and blocks in join(); the
    monitor scans, removes 1 from `_active` and releases the lock with the callback for 1 still
    PENDING; now thread 2 registers (close() is waiting for 1); the monitor calls back 1, finds
    {2} in its exit check and loops; 2 ends, is called back, the monitor ends, close() returns.
    [w_late_alive]: thread 2 registers while thread 1 (registered before the call) is still alive.
    [w_after_exit]: the boundary -- thread 2's register() returns after everything close() waited
    for has been called back and the monitor thread has ended: it is NOT in
    [registered_while_close_waits], and is never called back (outside the contract of close()). *)
Definition mon (n : nat) : list label := repeat (Step Mon) n.
Definition reg4 (t : nat) : list label := [Arrive t; Step (Reg t); Step (Reg t); Step (Reg t); Step (Reg t)].
Definition close4 : list label := [CloseCall; Step Closer; Step Closer; Step Closer; Step Closer].

Definition w_late_pending : list label :=
  reg4 1 ++ [Die 1] ++ close4 ++ mon 10 ++ reg4 2 ++ mon 7 ++ [Die 2] ++ mon 17.
Definition w_late_alive : list label :=
  reg4 1 ++ close4 ++ mon 14 ++ reg4 2 ++ [Die 1; Die 2] ++ mon 21.
Definition w_after_exit : list label :=
  reg4 1 ++ [Die 1] ++ close4 ++ mon 17 ++ reg4 2 ++ [Die 2] ++ mon 5.

Definition only2 : nat -> bool := fun t => t =? 2.

Lemma example_late :
  (* registered while the callback for 1 is pending (1 is no longer in `_active`) *)
  (m_pc (run nobody (reg4 1 ++ [Die 1] ++ close4 ++ mon 10)) = MCallback
   /\ close_results nobody w_late_pending = [None]
   /\ registered_before_close nobody w_late_pending = [1]
   /\ registered_while_close_waits nobody w_late_pending = [2]
   /\ called nobody w_late_pending = [2; 1] /\ ended nobody w_late_pending = [2; 1])
  (* registered while thread 1 is still alive *)
  /\ (close_results nobody w_late_alive = [None]
      /\ registered_before_close nobody w_late_alive = [1]
      /\ registered_while_close_waits nobody w_late_alive = [2]
      /\ called nobody w_late_alive = [2; 1] /\ ended nobody w_late_alive = [2; 1])
  (* the callback of the late thread raises: close() re-raises it *)
  /\ (close_results only2 w_late_pending = [Some (ExCb 2)]
      /\ registered_while_close_waits only2 w_late_pending = [2]
      /\ called only2 w_late_pending = [2; 1]).
Proof. vm_compute. intuition. Qed.

(** the hypothesis "while close() is still waiting" cannot be dropped: a thread whose register()
    returns after the monitor thread ended is never called back, although it ended *)
Lemma example_after_exit :
  close_results nobody w_after_exit = [None]
  /\ registered_before_close nobody w_after_exit = [1]
  /\ registered_while_close_waits nobody w_after_exit = []
  /\ registered nobody w_after_exit = [2; 1] /\ ended nobody w_after_exit = [2; 1]
  /\ called nobody w_after_exit = [1].
Proof. vm_compute. intuition. Qed.

(** [w_chain]: 1 registers and ends, close() blocks in join(); 2 registers while the callback for 1
    is pending (late); 1 is called back; 3 registers while close() waits ONLY for the late thread 2
    (chain-late: not in [registered_while_close_waits]); 2 and 3 end and are called back.
    [w_close_first]: close() is called with nothing registered and blocks in join() while the
    monitor is between two exit checks; then 1 registers, ends, is called back; close() returns. *)
Definition w_chain : list label :=
  reg4 1 ++ [Die 1] ++ close4 ++ mon 10 ++ reg4 2 ++ mon 5 ++ reg4 3 ++ [Die 2; Die 3] ++ mon 21.
Definition w_close_first : list label :=
  mon 13 ++ close4 ++ reg4 1 ++ [Die 1] ++ mon 30.

Lemma example_general :
  (* a chain of two late threads: 3 is not covered by the one-generation set, but is by the general one *)
  (close_results nobody w_chain = [None]
   /\ registered_before_close nobody w_chain = [1]
   /\ registered_while_close_waits nobody w_chain = [2]
   /\ registered_before_monitor_exit nobody w_chain = [3; 2; 1]
   /\ called nobody w_chain = [3; 2; 1] /\ ended nobody w_chain = [3; 2; 1])
  (* close() called with nothing registered yet *)
  /\ (close_results nobody w_close_first = [None]
      /\ registered_before_close nobody w_close_first = []
      /\ registered_while_close_waits nobody w_close_first = []
      /\ registered_before_monitor_exit nobody w_close_first = [1]
      /\ called nobody w_close_first = [1] /\ ended nobody w_close_first = [1])
  (* the callback of the chain-late thread raises: close() re-raises it *)
  /\ (close_results (fun t => t =? 3) w_chain = [Some (ExCb 3)]
      /\ called (fun t => t =? 3) w_chain = [3; 2; 1]).
Proof. vm_compute. intuition. Qed.

Lemma example_general_boundary :
  close_results nobody w_after_exit = [None] /\ monitor_exits nobody w_after_exit = [None]
  /\ registered nobody w_after_exit = [2; 1] /\ ended nobody w_after_exit = [2; 1]
  /\ registered_before_monitor_exit nobody w_after_exit = [1]
  /\ called nobody w_after_exit = [1].
Proof. vm_compute. intuition. Qed.
