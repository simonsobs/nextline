(** Theorems about the sequential model of TaskDoneCallback (DoneCb/Task.v):
    for EVERY operation sequence (= every completion order) in which no task
    is registered again after it has ended. *)
From NL Require Import DoneCb.Model DoneCb.Safety DoneCb.Task.
From Coq Require Import Lia.

Definition tcb_of (e : tev) : list nat := match e with TCb t _ => [t] | _ => [] end.
Definition traised_of (e : tev) : list nat := match e with TCb t true => [t] | _ => [] end.
Definition tcalled (ess : list (list tev)) : list nat := flat_map tcb_of (concat ess).
Definition traised (ess : list (list tev)) : list nat := flat_map traised_of (concat ess).

Fixpoint twf_from (fin : list nat) (os : list top) : Prop :=
  match os with
  | [] => True
  | TReg t :: r => ~ In t fin /\ twf_from fin r
  | TComplete t :: r => twf_from (t :: fin) r
  | TClose :: r => twf_from fin r
  end.
Definition twf (os : list top) : Prop := twf_from [] os.

Lemma NoDup_app_snoc (l : list nat) x : NoDup l -> ~ In x l -> NoDup (l ++ [x]).
Proof. intros H N. apply (NoDup_Add (Add_app x l [])). rewrite app_nil_r. tauto. Qed.

Lemma In_remove x y l : In y (remove x l) <-> In y l /\ y <> x.
Proof.
  unfold remove. rewrite filter_In, negb_true_iff, Nat.eqb_neq. tauto.
Qed.

(** invariant: [rg]/[fin] = tasks registered / ended so far, [cl] = callbacks so far (oldest first),
    [rz] = raising callbacks so far *)
Record TInv (rg fin cl rz : list nat) (s : tstate) : Prop := {
  t_act : forall t, In t (t_active s) <-> In t rg /\ ~ In t fin;
  t_fin : forall t, In t (t_finished s) <-> In t fin;
  t_cl_nodup : NoDup cl;
  t_cl : forall t, In t cl <-> In t rg /\ In t fin;
  t_rz : t_excs s = rz
}.

Section T.
Variable raises : nat -> bool.

Definition trg (o : top) : list nat := match o with TReg t => [t] | _ => [] end.
Definition tfn (o : top) : list nat := match o with TComplete t => [t] | _ => [] end.

Lemma top_step_inv rg fin cl rz s o :
  TInv rg fin cl rz s ->
  (forall t, o = TReg t -> ~ In t fin) ->
  let '(s', evs) := top_step raises s o in
  TInv (trg o ++ rg) (tfn o ++ fin) (cl ++ flat_map tcb_of evs) (rz ++ flat_map traised_of evs) s'
  /\ (forall t, In t (flat_map tcb_of evs) -> o = TComplete t).
Proof.
  intros I Hwf. destruct I. destruct o as [t|t|]; simpl.
  - (* TReg *)
    specialize (Hwf t eq_refl).
    destruct (mem t (t_active s)) eqn:Em.
    + apply mem_In in Em. simpl. rewrite !app_nil_r. split; [|intros ? []].
      constructor; simpl; auto.
      * intros x. rewrite t_act0. apply t_act0 in Em. intuition. subst. tauto.
      * intros x. rewrite t_cl0. intuition. subst. tauto.
    + destruct (mem t (t_finished s)) eqn:Ef.
      * apply mem_In in Ef. apply t_fin0 in Ef. tauto.
      * simpl. rewrite !app_nil_r. split; [|intros ? []].
        constructor; simpl; auto.
        -- intros x. rewrite In_ins, t_act0. intuition. subst. tauto.
        -- intros x. rewrite t_cl0. intuition. subst. tauto.
  - (* TComplete *)
    destruct (mem t (t_finished s)) eqn:Ef.
    + apply mem_In in Ef. apply t_fin0 in Ef. simpl. rewrite !app_nil_r.
      split; [|intros ? []].
      constructor; simpl; auto.
      * intros x. rewrite t_act0. intuition. subst. tauto.
      * intros x. rewrite t_fin0. intuition. subst. assumption.
      * intros x. rewrite t_cl0. intuition. subst. assumption.
    + assert (Hnf : ~ In t fin).
      { intros H. apply t_fin0 in H. apply mem_In in H. congruence. }
      destruct (mem t (t_active s)) eqn:Em.
      * apply mem_In in Em. pose proof Em as Em'. apply t_act0 in Em'. destruct Em' as (Hrg & _).
        unfold callback. simpl.
        split; [|intros x [<-|[]]; reflexivity].
        constructor; simpl.
        -- intros x. rewrite In_remove, t_act0. intuition.
        -- intros x. rewrite In_ins, t_fin0. intuition.
        -- apply NoDup_app_snoc; [assumption|]. rewrite t_cl0. tauto.
        -- intros x. rewrite in_app_iff, t_cl0. simpl. intuition; subst; tauto.
        -- destruct (raises t); simpl; [rewrite t_rz0; reflexivity|rewrite app_nil_r; assumption].
      * assert (Hnr : ~ In t rg).
        { intros H. assert (In t (t_active s)) by (apply t_act0; tauto). apply mem_In in H0. congruence. }
        simpl. rewrite !app_nil_r. split; [|intros ? []].
        constructor; simpl; auto.
        -- intros x. rewrite t_act0. intuition. subst. tauto.
        -- intros x. rewrite In_ins, t_fin0. intuition.
        -- intros x. rewrite t_cl0. intuition. subst. tauto.
  - (* TClose *)
    destruct (t_closing s) eqn:Ec; simpl; rewrite !app_nil_r;
      (split; [constructor; simpl; auto|intros ? []]).
Qed.

End T.

Section Run.
Variable raises : nat -> bool.

Lemma top_step_no_closeret s o e : ~ In (TCloseRet e) (snd (top_step raises s o)).
Proof.
  destruct o as [t|t|]; simpl.
  - destruct (mem t (t_active s)); [simpl; tauto|]. destruct (mem t (t_finished s)); simpl; [|tauto].
    intros [H|[]]. discriminate.
  - destruct (mem t (t_finished s)); [simpl; tauto|]. destruct (mem t (t_active s)); simpl; [|tauto].
    intros [H|[]]. discriminate.
  - destruct (t_closing s); simpl; tauto.
Qed.

Lemma tstep_inv rg fin cl rz s o :
  TInv rg fin cl rz s ->
  (forall t, o = TReg t -> ~ In t fin) ->
  let '(s', evs) := tstep raises s o in
  TInv (trg o ++ rg) (tfn o ++ fin) (cl ++ flat_map tcb_of evs) (rz ++ flat_map traised_of evs) s'
  /\ (forall t, In t (flat_map tcb_of evs) -> o = TComplete t)
  /\ (forall e, In (TCloseRet e) evs -> t_active s' = [] /\ e = hd_error (t_excs s')).
Proof.
  intros I Hwf. pose proof (top_step_inv raises rg fin cl rz s o I Hwf) as H.
  pose proof (top_step_no_closeret s o) as Hn.
  unfold tstep. destruct (top_step raises s o) as [s1 evs]. simpl in Hn.
  destruct H as (I1 & Hcb).
  destruct (t_closing s1) eqn:Ec; try (split; [exact I1|split; [exact Hcb|intros e He; elim (Hn e He)]]).
  destruct (t_active s1) eqn:Ea; try (split; [exact I1|split; [exact Hcb|intros e He; elim (Hn e He)]]).
  rewrite !flat_map_app. simpl. rewrite !app_nil_r. split; [|split].
  - destruct I1. constructor; simpl; auto. intros t. rewrite <- t_act0, Ea. simpl. tauto.
  - exact Hcb.
  - intros e He. apply in_app_iff in He. destruct He as [He|[He|[]]]; [elim (Hn e He)|].
    injection He as <-. simpl. split; reflexivity.
Qed.

Lemma trun_inv os : forall rg fin cl rz s,
  TInv rg fin cl rz s -> twf_from fin os ->
  exists rg' fin',
    TInv rg' fin' (cl ++ tcalled (snd (trun_from raises s os))) (rz ++ traised (snd (trun_from raises s os)))
         (fst (trun_from raises s os))
    /\ (forall t, In t rg' <-> In t rg \/ In (TReg t) os)
    /\ (forall t, In t fin' <-> In t fin \/ In (TComplete t) os).
Proof.
  induction os as [|o r IH]; intros rg fin cl rz s I W; simpl.
  - exists rg, fin. unfold tcalled, traised. simpl. rewrite !app_nil_r. intuition.
  - assert (Hwf : forall t, o = TReg t -> ~ In t fin) by (intros t ->; simpl in W; tauto).
    assert (W' : twf_from (tfn o ++ fin) r) by (destruct o; simpl in *; tauto).
    pose proof (tstep_inv rg fin cl rz s o I Hwf) as H.
    destruct (tstep raises s o) as [s' evs]. destruct H as (I' & _ & _).
    destruct (IH _ _ _ _ _ I' W') as (rg' & fin' & I'' & Hrg & Hfin).
    destruct (trun_from raises s' r) as [s'' ess]. simpl in *.
    exists rg', fin'. unfold tcalled, traised in *. simpl. rewrite !flat_map_app, !app_assoc.
    split; [exact I''|]. split.
    + intros t. rewrite Hrg, in_app_iff. destruct o as [x|x|]; simpl; intuition (try discriminate; try congruence).
    + intros t. rewrite Hfin, in_app_iff. destruct o as [x|x|]; simpl; intuition (try discriminate; try congruence).
Qed.

Lemma TInv_init : TInv [] [] [] [] tinit.
Proof. constructor; simpl; try tauto; try constructor. Qed.

(** the callback is invoked exactly once for every task that was registered
    and ended, never for another one *)
Theorem task_exactly_once os : twf os ->
  NoDup (tcalled (touts raises os)) /\
  forall t, In t (tcalled (touts raises os)) <-> In (TReg t) os /\ In (TComplete t) os.
Proof.
  intros W. destruct (trun_inv os [] [] [] [] tinit TInv_init W) as (rg & fin & I & Hrg & Hfin).
  simpl in I. destruct I. split; [exact t_cl_nodup0|].
  intros t. unfold touts. rewrite t_cl0, Hrg, Hfin. simpl. tauto.
Qed.

(** step by step: a callback is invoked only in the step in which its task
    ends; close() returns only when every task registered so far has ended
    (hence been called back), with the first exception raised so far *)
Fixpoint steps_ok (rg fin rz : list nat) (os : list top) (ess : list (list tev)) : Prop :=
  match os, ess with
  | o :: r, evs :: er =>
      let rg' := trg o ++ rg in
      let fin' := tfn o ++ fin in
      let rz' := rz ++ flat_map traised_of evs in
      (forall t, In t (flat_map tcb_of evs) -> o = TComplete t) /\
      (forall e, In (TCloseRet e) evs -> (forall t, In t rg' -> In t fin') /\ e = hd_error rz') /\
      steps_ok rg' fin' rz' r er
  | _, _ => True
  end.

Lemma steps_ok_run os : forall rg fin cl rz s,
  TInv rg fin cl rz s -> twf_from fin os -> steps_ok rg fin rz os (snd (trun_from raises s os)).
Proof.
  induction os as [|o r IH]; intros rg fin cl rz s I W; simpl; [exact Logic.I|].
  assert (Hwf : forall t, o = TReg t -> ~ In t fin) by (intros t ->; simpl in W; tauto).
  assert (W' : twf_from (tfn o ++ fin) r) by (destruct o; simpl in *; tauto).
  pose proof (tstep_inv rg fin cl rz s o I Hwf) as H.
  destruct (tstep raises s o) as [s' evs]. destruct H as (I' & Hcb & Hcl).
  specialize (IH _ _ _ _ _ I' W').
  destruct (trun_from raises s' r) as [s'' ess]. simpl in *.
  split; [exact Hcb|]. split; [|exact IH].
  intros e He. destruct (Hcl e He) as (Ha & ->). destruct I'. split.
  - intros t Hr. destruct (in_dec Nat.eq_dec t (tfn o ++ fin)) as [H|H]; [exact H|].
    assert (F : In t (t_active s')) by (apply t_act0; tauto). rewrite Ha in F. destruct F.
  - rewrite t_rz0. reflexivity.
Qed.

Theorem task_steps_ok os : twf os -> steps_ok [] [] [] os (touts raises os).
Proof. intros W. apply (steps_ok_run os [] [] [] [] tinit TInv_init W). Qed.

End Run.
