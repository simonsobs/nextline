(** Termination of close(): an explicit measure on the states of DoneCb/Model.v
    that strictly decreases on every effective step once the registered threads
    have ended and `_closed` is set -- under ANY scheduler. *)
From NL Require Import DoneCb.Model DoneCb.Safety DoneCb.Inv DoneCb.Live.
From Coq Require Import Lia.

(** cost of the remaining part of the loop after the truth test, when the set that
    `self._active` will then refer to has m elements: m = 0: LOAD _closed, release+break;
    m > 0: release, and one more complete iteration that removes the m (dead) threads *)
Definition tail (m : nat) : nat := match m with 0 => 2 | _ => 15 + 3 * m end.

(** elements the running scan has not yet looked at *)
Definition pend (s : state) : list nat :=
  match m_pc s with MIterNext => m_todo s | MIsAlive t => t :: m_todo s | _ => [] end.

(** elements of the set that the running scan has passed as alive (they stay for the next iteration) *)
Definition stale (s : state) : nat :=
  length (filter (fun x => negb (mem x (m_done s)) && negb (mem x (pend s))) (obj (heap s) (active s))).

Definition mu_mon (s : state) : nat :=
  let n := length (obj (heap s) (active s)) in
  let d := length (m_done s) in
  let k := length (m_todo s) in
  let c := length (m_cbs s) in
  match m_pc s with
  | MAcq1 => 14 + 3 * n
  | MLoadScan => 13 + 3 * n
  | MGetIter r => 12 + 3 * length (obj (heap s) r)
  | MIterNext => 3 * k + d + 9 + tail (stale s)
  | MIsAlive _ => 3 * k + d + 11 + tail (stale s)
  | MLoadRebuild => d + 8 + tail (stale s)
  | MSetDiff r => d + 7 + tail (length (diff (obj (heap s) r) (m_done s)))
  | MStore n' => d + 6 + tail (length (obj (heap s) n'))
  | MRel1 => c + 5 + tail n
  | MCallback => c + 4 + tail n
  | MAcq2 => 3 + tail n
  | MLoadCheck => 2 + tail n
  | MTruth r => 1 + tail (length (obj (heap s) r))
  | MLoadClosed => 2
  | MRelBreak => 1
  | MRelLoop => 15 + 3 * n
  | MRelExc => 1
  | MExited _ => 0
  end.

Definition mu_closer (s : state) : nat :=
  match closer s with CLoad => 4 | CContains _ => 3 | CStore => 2 | CJoin => 1 | _ => 0 end.

Definition mu (s : state) : nat := mu_mon s + mu_closer s.

Definition all_ended (s : state) : Prop := forall t, regs s t = RNone \/ regs s t = RDead.

Lemma length_ins t l : length (ins t l) <= S (length l).
Proof.
  induction l as [|a l IH]; simpl; [lia|].
  destruct (t <? a); simpl; [lia|]. destruct (t =? a); simpl; lia.
Qed.

Lemma filter_none {A} (f : A -> bool) l : (forall x, In x l -> f x = false) -> filter f l = [].
Proof.
  induction l as [|a l IH]; simpl; intros H; [reflexivity|].
  rewrite (H a) by tauto. apply IH. intros x Hx. apply H. tauto.
Qed.

Lemma filter_length_le {A} (f : A -> bool) l : length (filter f l) <= length l.
Proof. induction l as [|a l IH]; simpl; [lia|]. destruct (f a); simpl; lia. Qed.

Section Decrease.
Variable raises : nat -> bool.

Lemma closer_mon s :
  closer (fst (step_mon raises s)) = closer s
  \/ (closer s = CJoining /\ exists e, closer (fst (step_mon raises s)) = CDone e).
Proof.
  unfold step_mon, mon_exit. destruct (m_pc s); destruct_matches; simpl; auto; right; split; eauto.
Qed.

Lemma mu_closer_mon s : mu_closer (fst (step_mon raises s)) = mu_closer s.
Proof.
  unfold mu_closer. destruct (closer_mon s) as [E|(E1 & e & E2)]; [rewrite E; reflexivity|].
  rewrite E1, E2. reflexivity.
Qed.

Lemma mon_decreases g s :
  Inv g s -> Inv2 g s -> all_ended s -> closed s = true -> enabled raises s Mon ->
  mu_mon (fst (step_mon raises s)) < mu_mon s.
Proof.
  intros I J Hend Hcl Hen. unfold enabled in Hen. simpl in Hen. revert Hen.
  unfold step_mon. destruct (m_pc s) eqn:Epc.
  - (* MAcq1 *) destruct (lock s); simpl; intros Hen; [elim Hen; reflexivity|].
    unfold mu_mon. simpl. rewrite Epc. lia.
  - (* MLoadScan *) intros _. unfold mu_mon. simpl. rewrite Epc. lia.
  - (* MGetIter *) intros _. pose proof (i_ref _ _ I) as Hr. rewrite Epc in Hr. subst r.
    unfold mu_mon, stale, pend. simpl. rewrite Epc.
    rewrite filter_none; [simpl; lia|].
    intros x Hx. apply mem_In in Hx. rewrite Hx. reflexivity.
  - (* MIterNext *) intros _.
    destruct (length (obj (heap s) (m_itref s)) =? m_itused s).
    + destruct (m_todo s) as [|t rest] eqn:Et.
      * unfold mu_mon, stale, pend. simpl. rewrite Epc, Et. simpl. lia.
      * unfold mu_mon, stale, pend. simpl. rewrite Epc, Et. simpl. lia.
    + unfold mu_mon. simpl. rewrite Epc. lia.
  - (* MIsAlive *) intros _.
    assert (Hd : regs s t = RDead).
    { destruct (Hend t) as [H|H]; [|exact H]. exfalso.
      pose proof (j_added _ _ J _ _ (i_isalive _ _ I t Epc)) as Ha. rewrite H in Ha. exact Ha. }
    rewrite Hd. simpl.
    unfold mu_mon, stale, pend. simpl. rewrite Epc.
    pose proof (length_ins t (m_done s)) as Hl.
    replace (filter (fun x => negb (mem x (ins t (m_done s))) && negb (mem x (m_todo s))) (obj (heap s) (active s)))
      with (filter (fun x => negb (mem x (m_done s)) && negb (mem x (t :: m_todo s))) (obj (heap s) (active s))).
    2:{ apply filter_ext. intros x. rewrite mem_ins. simpl.
        destruct (x =? t), (mem x (m_done s)), (mem x (m_todo s)); reflexivity. }
    lia.
  - (* MLoadRebuild *) intros _. unfold mu_mon, stale, pend. simpl. rewrite Epc.
    replace (filter (fun x => negb (mem x (m_done s)) && negb (mem x [])) (obj (heap s) (active s)))
      with (diff (obj (heap s) (active s)) (m_done s)).
    2:{ unfold diff. apply filter_ext. intros x. simpl. rewrite andb_true_r. reflexivity. }
    lia.
  - (* MSetDiff *) intros _. unfold mu_mon. simpl. rewrite Epc, obj_app_new. lia.
  - (* MStore *) intros _. unfold mu_mon. simpl. rewrite Epc. lia.
  - (* MRel1 *) intros _. unfold mu_mon. simpl. rewrite Epc. destruct (m_cbs s); simpl; lia.
  - (* MCallback *) intros _. unfold mu_mon. rewrite Epc.
    destruct (m_cbs s) as [|d [|d' rest]]; simpl; lia.
  - (* MAcq2 *) destruct (lock s); simpl; intros Hen; [elim Hen; reflexivity|].
    unfold mu_mon. simpl. rewrite Epc. lia.
  - (* MLoadCheck *) intros _. unfold mu_mon. simpl. rewrite Epc. lia.
  - (* MTruth *) intros _. pose proof (i_ref _ _ I) as Hr. rewrite Epc in Hr. subst r.
    unfold mu_mon. rewrite Epc.
    destruct (obj (heap s) (active s)) eqn:Eo; simpl; rewrite ?Eo; simpl; lia.
  - (* MLoadClosed *) intros _. rewrite Hcl. unfold mu_mon. simpl. rewrite Epc. lia.
  - (* MRelBreak *) intros _. unfold mon_exit, mu_mon. rewrite Epc. destruct (closer s); simpl; lia.
  - (* MRelLoop *) intros _. unfold mu_mon. simpl. rewrite Epc. lia.
  - (* MRelExc *) intros _. unfold mon_exit, mu_mon. rewrite Epc. destruct (closer s); simpl; lia.
  - (* MExited *) simpl. intros Hen. elim Hen. reflexivity.
Qed.

Lemma closer_decreases s :
  enabled raises s Closer ->
  mu_closer (fst (step_closer s)) < mu_closer s /\ mu_mon (fst (step_closer s)) = mu_mon s.
Proof.
  unfold enabled. simpl. unfold step_closer, mu_closer.
  destruct (closer s) eqn:Ec; simpl; intros Hen; try (elim Hen; reflexivity);
    try (split; [lia|reflexivity]).
  destruct (m_pc s) eqn:Epc; simpl; (split; [lia|unfold mu_mon, stale, pend; simpl; reflexivity]).
Qed.

Lemma reg_disabled s t : all_ended s -> ~ enabled raises s (Reg t).
Proof.
  intros Hend Hen. unfold enabled in Hen. simpl in Hen. unfold step_reg in Hen.
  destruct (Hend t) as [E|E]; rewrite E in Hen; apply Hen; reflexivity.
Qed.

Theorem step_decreases g s w :
  Inv g s -> Inv2 g s -> all_ended s -> closed s = true -> enabled raises s w ->
  mu (fst (step raises s (Step w))) < mu s.
Proof.
  intros I J Hend Hcl Hen. unfold mu. destruct w as [| |t]; simpl.
  - pose proof (mon_decreases g s I J Hend Hcl Hen). rewrite mu_closer_mon. lia.
  - destruct (closer_decreases s Hen). lia.
  - elim (reg_disabled s t Hend Hen).
Qed.

Lemma step_keeps_ended s w : all_ended s -> all_ended (fst (step raises s (Step w))).
Proof.
  intros Hend. destruct w as [| |t]; simpl.
  - unfold step_mon, mon_exit. destruct (m_pc s); destruct_matches; exact Hend.
  - unfold step_closer. destruct (closer s); destruct_matches; exact Hend.
  - unfold step_reg. destruct (Hend t) as [E|E]; rewrite E; exact Hend.
Qed.

Lemma step_keeps_closed s w : closed s = true -> closed (fst (step raises s (Step w))) = true.
Proof.
  intros Hcl. destruct w as [| |t]; simpl.
  - unfold step_mon, mon_exit. destruct (m_pc s); destruct_matches; simpl; congruence.
  - unfold step_closer. destruct (closer s); destruct_matches; simpl; auto.
  - unfold step_reg. destruct (regs s t); destruct_matches; simpl; congruence.
Qed.

End Decrease.

Definition steps_only (ls : list label) : Prop := forall l, In l ls -> exists w, l = Step w.

Lemma run_from_app raises s l1 l2 :
  run_from raises s (l1 ++ l2) =
  let '(s1, o1) := run_from raises s l1 in let '(s2, o2) := run_from raises s1 l2 in (s2, o1 ++ o2).
Proof.
  revert s. induction l1 as [|l r IH]; intros s; simpl.
  - destruct (run_from raises s l2). reflexivity.
  - destruct (step raises s l) as [s' o]. rewrite IH.
    destruct (run_from raises s' r) as [s1 o1]. destruct (run_from raises s1 l2). reflexivity.
Qed.

Lemma run_snoc raises ls l : run raises (ls ++ [l]) = fst (step raises (run raises ls) l).
Proof.
  unfold run. rewrite run_from_app. destruct (run_from raises init ls) as [s1 o1]. simpl.
  destruct (step raises s1 l). reflexivity.
Qed.

(** number of effective (state-changing) steps of a continuation *)
Fixpoint effective (raises : nat -> bool) (s : state) (ls : list label) : nat :=
  match ls with
  | [] => 0
  | l :: r => let '(s', o) := step raises s l in
              (match o with ODisabled => 0 | _ => 1 end) + effective raises s' r
  end.

Theorem bounded_after_end raises ls ls' :
  steps_only ls' ->
  all_ended (run raises ls) -> closed (run raises ls) = true ->
  effective raises (run raises ls) ls' <= mu (run raises ls).
Proof.
  revert ls. induction ls' as [|l r IH]; intros ls Hs Hend Hcl; [simpl; lia|].
  destruct (Hs l (or_introl eq_refl)) as [w ->].
  assert (Hs' : steps_only r) by (intros x Hx; apply Hs; right; exact Hx).
  pose proof (run_snoc raises ls (Step w)) as Hrun.
  pose proof (step_keeps_ended raises (run raises ls) w Hend) as Hend'.
  pose proof (step_keeps_closed raises (run raises ls) w Hcl) as Hcl'.
  specialize (IH (ls ++ [Step w])). rewrite Hrun in IH. specialize (IH Hs' Hend' Hcl').
  pose proof (Inv_run raises ls) as I. pose proof (Inv2_run raises ls) as J.
  pose proof (disabled_unchanged raises (run raises ls) w) as Hdis.
  pose proof (step_decreases raises _ _ w I J Hend Hcl) as Hdec. unfold enabled in Hdec.
  cbn [effective]. clear Hrun Hend' Hcl'.
  destruct (step raises (run raises ls) (Step w)) as [s' o]. cbn [fst snd] in *.
  destruct o.
  - pose proof (Hdis eq_refl) as E. subst s'. lia.
  - assert (mu s' < mu (run raises ls)) by (apply Hdec; discriminate). lia.
  - assert (mu s' < mu (run raises ls)) by (apply Hdec; discriminate). lia.
Qed.

Lemma closer_not_reset raises s w :
  closer s <> CNone -> closer (fst (step raises s (Step w))) <> CNone.
Proof.
  intros H. destruct w as [| |t]; simpl.
  - destruct (closer_mon raises s) as [E|(_ & e & E)]; rewrite E; [exact H|discriminate].
  - unfold step_closer. destruct (closer s) eqn:Ec; destruct_matches; simpl; congruence.
  - unfold step_reg. destruct (regs s t); destruct_matches; simpl; exact H.
Qed.

Lemma run_app_snoc raises ls w l2 : run raises ((ls ++ [Step w]) ++ l2) = run raises (ls ++ Step w :: l2).
Proof. rewrite <- app_assoc. reflexivity. Qed.

Lemma steps_only_cons w l : steps_only l -> steps_only (Step w :: l).
Proof. intros H x [<-|Hx]; [eauto|auto]. Qed.

Lemma stored raises ls :
  mu_closer (run raises ls) <= 1 -> closer (run raises ls) <> CNone -> closed (run raises ls) = true.
Proof.
  intros Z Hc. apply (j_closed _ _ (Inv2_run raises ls)). unfold mu_closer in Z.
  destruct (closer (run raises ls)); try lia; eauto. elim Hc. reflexivity.
Qed.

Lemma mu_closer_step raises s : 1 < mu_closer s -> mu_closer (fst (step raises s (Step Closer))) < mu_closer s.
Proof. simpl. unfold step_closer, mu_closer. destruct (closer s); simpl; intros H; lia. Qed.

(** close() executes its (lock-free) accesses up to `self._closed = True` *)
Lemma finish_store raises k : forall ls,
  mu_closer (run raises ls) <= 1 + k -> all_ended (run raises ls) -> closer (run raises ls) <> CNone ->
  exists l1, steps_only l1 /\ all_ended (run raises (ls ++ l1)) /\ closed (run raises (ls ++ l1)) = true
             /\ closer (run raises (ls ++ l1)) <> CNone.
Proof.
  induction k as [|k IH]; intros ls Hk Hend Hc;
    (destruct (le_lt_dec (mu_closer (run raises ls)) 1) as [Z|NZ];
     [exists []; rewrite app_nil_r; split; [intros x []|]; split; [exact Hend|];
      split; [exact (stored raises ls Z Hc)|exact Hc]|]); [lia|].
  pose proof (run_snoc raises ls (Step Closer)) as Hrun.
  destruct (IH (ls ++ [Step Closer])) as (l2 & Hs2 & H1 & H2 & H3).
  - rewrite Hrun. pose proof (mu_closer_step raises _ NZ). lia.
  - rewrite Hrun. apply step_keeps_ended, Hend.
  - rewrite Hrun. apply closer_not_reset, Hc.
  - exists (Step Closer :: l2). rewrite <- run_app_snoc. split; [apply steps_only_cons; exact Hs2|tauto].
Qed.

Lemma advance raises ls :
  all_ended (run raises ls) -> closed (run raises ls) = true -> closer (run raises ls) <> CNone ->
  (forall e, closer (run raises ls) <> CDone e) ->
  exists w, mu (run raises (ls ++ [Step w])) < mu (run raises ls)
    /\ all_ended (run raises (ls ++ [Step w])) /\ closed (run raises (ls ++ [Step w])) = true
    /\ closer (run raises (ls ++ [Step w])) <> CNone.
Proof.
  intros Hend Hcl Hc Hnd. pose proof (Inv_run raises ls) as I. pose proof (Inv2_run raises ls) as J.
  assert (Hu : exists w, unfinished (run raises ls) w).
  { exists Closer. simpl. destruct (closer (run raises ls)) eqn:E; try exact Logic.I;
      [elim Hc; reflexivity|elim (Hnd _ eq_refl)]. }
  destruct (some_enabled raises _ _ I J Hu) as (w & _ & Hen). exists w. rewrite run_snoc.
  split; [exact (step_decreases raises _ _ w I J Hend Hcl Hen)|].
  split; [apply step_keeps_ended, Hend|]. split; [apply step_keeps_closed, Hcl|].
  apply closer_not_reset. exact Hc.
Qed.

Lemma returned_dec s : (exists e, closer s = CDone e) \/ (forall e, closer s <> CDone e).
Proof. destruct (closer s); eauto; right; intros; discriminate. Qed.

Lemma finish_closed raises n : forall ls,
  mu (run raises ls) <= n ->
  all_ended (run raises ls) -> closed (run raises ls) = true -> closer (run raises ls) <> CNone ->
  exists ls', steps_only ls' /\ exists e, closer (run raises (ls ++ ls')) = CDone e.
Proof.
  induction n as [|n IH]; intros ls Hmu Hend Hcl Hc;
    (destruct (returned_dec (run raises ls)) as [(e & He)|Hnd];
     [exists []; split; [intros x []|]; exists e; rewrite app_nil_r; exact He|]);
    destruct (advance raises ls Hend Hcl Hc Hnd) as (w & Hd & Hend' & Hcl' & Hc'); [lia|].
  destruct (IH (ls ++ [Step w])) as (l2 & Hs2 & e & He); [lia|assumption|assumption|assumption|].
  exists (Step w :: l2). split; [apply steps_only_cons; exact Hs2|]. exists e. rewrite <- run_app_snoc. exact He.
Qed.

Theorem close_can_finish raises ls :
  closer (run raises ls) <> CNone -> all_ended (run raises ls) ->
  exists ls', steps_only ls' /\ exists e, closer (run raises (ls ++ ls')) = CDone e.
Proof.
  intros Hc Hend.
  destruct (finish_store raises 3 ls) as (l1 & Hs1 & Hend1 & Hcl1 & Hc1); auto.
  { unfold mu_closer. destruct (closer (run raises ls)); lia. }
  destruct (finish_closed raises _ (ls ++ l1) (le_n _) Hend1 Hcl1 Hc1) as (l2 & Hs2 & e & He).
  exists (l1 ++ l2). split.
  - intros x Hx. apply in_app_iff in Hx. destruct Hx; auto.
  - exists e. rewrite app_assoc. exact He.
Qed.
