(** C18 tie, asyncio-task half -- obligations about the REGENERATED method bodies of
    TaskDoneCallback / ThreadTaskDoneCallback / ExcThread (Gen/TaskDoneFuns.v, rebuilt from
    /repo on every run) against the hand-written sequential model DoneCb/Task.v.

    Kind (b) of harness/TIE_TASK.md: an interpreter (DoneCb/TaskInterp.v) driven by the model's
    own operations, and

    * [istep_tstep]: for EVERY well-formed state and EVERY operation (register a task / a task
      ends / the close method is called) one step of the interpreter on the regenerated bodies
      produces exactly the model's events and the model's next state ([abs]), and well-formedness
      is preserved;
    * [irun_trun]: hence for EVERY operation sequence (every completion order, any number of
      tasks, re-registrations included) the interpreter's outputs are the model's outputs;
    * the close method under test is any of close / aclose / __exit__ / __aexit__ of
      TaskDoneCallback (events = the model's) or of ThreadTaskDoneCallback (the model's events,
      a normal return replaced by "the thread helper's close() is invoked and its outcome is
      the outcome"); register is TaskDoneCallback.register or ThreadTaskDoneCallback.register;
    * corollaries: exactly once, close waits, the first exception is re-raised -- of the
      regenerated code; the guard "called from a registered task"; the union's dispatch;
      ExcThread.run/join; the __init__ tables. *)
From NL Require Import DoneCb.Model DoneCb.Safety DoneCb.Task DoneCb.TaskProofs DoneCb.TaskInterp.
From Coq Require Import Lia.

Lemma mem_remove t x l : mem t (Task.remove x l) = (negb (t =? x) && mem t l)%bool.
Proof.
  apply eq_true_iff_eq. rewrite andb_true_iff, negb_true_iff, !mem_In, In_remove, Nat.eqb_neq. tauto.
Qed.

Lemma ins_not_nil x l : ins x l <> [].
Proof.
  intros H. assert (I : In x (ins x l)) by (apply In_ins; tauto). rewrite H in I. destruct I.
Qed.

Lemma cbs_for_app t a b : cbs_for t (a ++ b) = cbs_for t a ++ cbs_for t b.
Proof. unfold cbs_for. rewrite filter_app, map_app. reflexivity. Qed.

Lemma cbs_for_without t x l : cbs_for t (cbs_without x l) = if t =? x then [] else cbs_for t l.
Proof.
  unfold cbs_for, cbs_without. induction l as [|[u f] l IH]; simpl.
  - destruct (t =? x); reflexivity.
  - destruct (u =? x) eqn:A; simpl.
    + rewrite IH. destruct (t =? x) eqn:B; [reflexivity|].
      apply Nat.eqb_eq in A. subst u. rewrite Nat.eqb_sym, B. reflexivity.
    + destruct (u =? t) eqn:C; simpl; rewrite IH; destruct (t =? x) eqn:B; try reflexivity.
      apply Nat.eqb_eq in C. apply Nat.eqb_eq in B. subst. rewrite Nat.eqb_refl in A. discriminate.
Qed.

Definition exn_task (x : pexn) : list nat := match x with PXCb t => [t] | _ => [] end.
Definition exn_tasks (l : list pexn) : list nat := flat_map exn_task l.

Lemma exn_tasks_app a b : exn_tasks (a ++ b) = exn_tasks a ++ exn_tasks b.
Proof. unfold exn_tasks. apply flat_map_app. Qed.

Lemma exn_tasks_map l : exn_tasks (map PXCb l) = l.
Proof. induction l; simpl; [reflexivity|]. rewrite IHl. reflexivity. Qed.

Definition kabs (k : kstate) : tclose :=
  match k with KNo => TCNo | KSusp _ => TCWaiting | _ => TCReturned end.

Definition abs (sk : istate * kstate) : tstate :=
  mkT (i_active (fst sk)) (i_finished (fst sk)) (exn_tasks (i_excs (fst sk))) (kabs (snd sk)).

(** the callback TaskDoneCallback hands to add_done_callback *)
Definition cbv : pval := PVMeth ObTask task_done_callback_name.

Definition icb_of (e : iev) : list nat := match e with ICb t _ => [t] | _ => [] end.
Definition iraised_of (e : iev) : list nat := match e with ICb t true => [t] | _ => [] end.
Definition icalled (ess : list (list iev)) : list nat := flat_map icb_of (List.concat ess).

Section Tie.
Variable raises : nat -> bool.
Variable cur : curctx.
Variable cur_thread : nat.
Variable thr_exc target_exc : option pexn.

Notation Invoke := (invoke raises true cur cur_thread thr_exc target_exc).
Notation Resume := (resume raises true cur cur_thread thr_exc target_exc).

(** the caller of the close method is not a registered task *)
Definition cur_ok (st : istate) : Prop :=
  match cur with InTask u => mem u (i_active st) = false | _ => True end.

(** TaskDoneCallback.register(task t) *)
Definition reg_result (st : istate) (t : nat) : istate :=
  if mem t (i_active st) then st
  else with_active (if mem t (i_finished st) then with_soon st (i_soon st ++ [(cbv, t)])
                    else with_cbs st (i_cbs st ++ [(t, cbv)]))
                   (ins t (i_active st)).

Lemma task_register_exec st t :
  Invoke (PVMeth ObTask "register"%string) [PVTask t] st = (reg_result st t, QNormal).
Proof.
  destruct st as [act excs cbs soon fin treg tcl exc lg]. unfold invoke, reg_result. simpl.
  destruct (mem t act) eqn:E; simpl; [reflexivity|].
  destruct (mem t fin) eqn:F; simpl; reflexivity.
Qed.

(** ThreadTaskDoneCallback.register(task t): handled by the task helper, the thread helper is not touched *)
Lemma union_register_task_exec st t :
  Invoke (PVMeth ObUnion "register"%string) [PVTask t] st = (reg_result st t, QNormal).
Proof.
  destruct st as [act excs cbs soon fin treg tcl exc lg]. unfold invoke, reg_result. simpl.
  destruct (mem t act) eqn:E; simpl; [reflexivity|].
  destruct (mem t fin) eqn:F; simpl; reflexivity.
Qed.

(** ThreadTaskDoneCallback.register(thread u): handled by the thread helper, the task helper is not touched *)
Lemma union_register_thread_exec st u :
  Invoke (PVMeth ObUnion "register"%string) [PVThread u] st
  = (with_thr st (i_thr_reg st ++ [u]) (i_thr_closed st), QNormal).
Proof. destruct st. unfold invoke. simpl. reflexivity. Qed.

(** ThreadTaskDoneCallback.register(): the current task if there is one, else the current thread *)
Lemma union_register_default_exec st :
  Invoke (PVMeth ObUnion "register"%string) [] st
  = match cur with
    | InTask t => (reg_result st t, QNormal)
    | _ => (with_thr st (i_thr_reg st ++ [cur_thread]) (i_thr_closed st), QNormal)
    end.
Proof.
  destruct st as [act excs cbs soon fin treg tcl exc lg]. unfold invoke, reg_result.
  destruct cur as [| |t]; simpl; try reflexivity.
  destruct (mem t act) eqn:E; simpl; [reflexivity|].
  destruct (mem t fin) eqn:F; simpl; reflexivity.
Qed.

(** TaskDoneCallback.register(): the current task; RuntimeError when there is none *)
Lemma task_register_default_exec st :
  Invoke (PVMeth ObTask "register"%string) [] st
  = match cur with
    | InTask t => (reg_result st t, QNormal)
    | _ => (st, QRaise PXRuntime)
    end.
Proof.
  destruct st as [act excs cbs soon fin treg tcl exc lg]. unfold invoke, reg_result.
  destruct cur as [| |t]; simpl; try reflexivity.
  destruct (mem t act) eqn:E; simpl; [reflexivity|].
  destruct (mem t fin) eqn:F; simpl; reflexivity.
Qed.

(** the done-callback wrapper, for a task in the active set *)
Definition cb_result (st : istate) (t : nat) : istate :=
  add_log (with_excs (with_active st (Task.remove t (i_active st)))
                     (if raises t then i_excs st ++ [PXCb t] else i_excs st))
          (ICb t (raises t)).

Lemma callback_exec st t : mem t (i_active st) = true ->
  Invoke cbv [PVTask t] st = (cb_result st t, QNormal).
Proof.
  destruct st as [act excs cbs soon fin treg tcl exc lg]. simpl. intros E.
  unfold invoke, cb_result. simpl. rewrite E. simpl.
  destruct (raises t); simpl; reflexivity.
Qed.

(** ... and for a task that is NOT in the active set (never the case in a well-formed state): the
    KeyError of `remove` is recorded, `done` is not invoked *)
Lemma callback_exec_absent st t : mem t (i_active st) = false ->
  Invoke cbv [PVTask t] st = (with_excs st (i_excs st ++ [PXKeyError]), QNormal).
Proof.
  destruct st as [act excs cbs soon fin treg tcl exc lg]. simpl. intros E.
  unfold invoke. simpl. rewrite E. simpl. reflexivity.
Qed.

(** [finish u st]: what the close method does once `_active` is empty.  u = false (a method of
    TaskDoneCallback): re-raise the first recorded exception, else return.  u = true
    (ThreadTaskDoneCallback, `try: <task helper>.close() finally: <thread helper>.close()`): the
    thread helper's close() is invoked ON EVERY PATH; its exception, if any, is the outcome,
    otherwise the first recorded exception of a task callback is re-raised, else return *)
Definition task_outcome (st : istate) : outcome :=
  match i_excs st with x :: _ => QRaise x | [] => QNormal end.

Definition finish (u : bool) (st : istate) : istate * outcome :=
  if u then (add_log (with_thr st (i_thr_reg st) true) IThrClose,
             match thr_exc with Some y => QRaise y | None => task_outcome st end)
  else (st, task_outcome st).

(** [k] is a close method waiting in `while self._active: sleep`: resumed in ANY state it either
    finishes (the set is empty) or sleeps again, unchanged *)
Definition waiting (u : bool) (k : stmt) : Prop :=
  forall st, Resume k st = match i_active st with [] => finish u st | _ => (st, QSuspend k) end.

Definition start_spec (u : bool) (f : pval) (args : list pval) : Prop :=
  forall st, cur_ok st ->
    match i_active st with
    | [] => Invoke f args st = finish u st
    | _ => exists k, Invoke f args st = (st, QSuspend k) /\ waiting u k
    end.

(** the close method called from a registered task: RuntimeError, nothing else happens *)
Definition guard_spec (f : pval) (args : list pval) : Prop :=
  forall st u, cur = InTask u -> mem u (i_active st) = true -> Invoke f args st = (st, QRaise PXRuntime).

(** the union: the RuntimeError of the task helper passes through the `finally`, so the thread
    helper's close() is invoked all the same (and its exception, if any, replaces the RuntimeError) *)
Definition guard_spec_union (f : pval) (args : list pval) : Prop :=
  forall st u, cur = InTask u -> mem u (i_active st) = true ->
    Invoke f args st = (add_log (with_thr st (i_thr_reg st) true) IThrClose,
                        match thr_exc with Some y => QRaise y | None => QRaise PXRuntime end).

Notation Exec := (exec raises true cur cur_thread thr_exc target_exc).
Notation Eval := (eval true cur cur_thread).
Notation Eval_args := (eval_args true cur cur_thread).
Notation Prim := (prim raises cur_thread thr_exc target_exc).

(** one step of [exec] per call layer, for any fuel *)
Lemma exec_call N o ret mode f args l st co m pos kw me cl :
  Eval o l st f = EV (PVMeth co m) -> Eval_args o l st args = Some (pos, kw) ->
  Prim (PVMeth co m) pos kw st = None -> prog co m = Some me -> bind_args (m_params me) pos kw = Some cl ->
  Exec (S N) o (SCall ret mode f args) l st = finish_call co ret l (Exec N co (m_body me) cl st).
Proof. intros E1 E2 E3 E4 E5. cbn [exec]. rewrite E1, E2, E3, E4, E5. reflexivity. Qed.

Lemma exec_prim N o ret mode f args l st fv pos kw st1 r :
  Eval o l st f = EV fv -> Eval_args o l st args = Some (pos, kw) -> Prim fv pos kw st = Some (st1, r) ->
  Exec (S N) o (SCall ret mode f args) l st = finish_call ObDriver ret l ([], st1, r).
Proof. intros E1 E2 E3. cbn [exec]. rewrite E1, E2, E3. reflexivity. Qed.

Lemma exec_frame N o co cl ret k l st :
  Exec (S N) o (SFrame co cl ret k) l st = finish_call co ret l (Exec N co k cl st).
Proof. reflexivity. Qed.

Lemma exec_finally N o b f l st :
  Exec (S N) o (SFinally b f) l st =
  let '(l1, st1, r) := Exec N o b l st in
  match r with
  | QSuspend k => (l1, st1, QSuspend (SFinally k f))
  | QStuck => (l1, st1, QStuck)
  | QNormal => Exec N o (SAfter f PNormal) l1 st1
  | QReturn v => Exec N o (SAfter f (PReturn v)) l1 st1
  | QRaise x => Exec N o (SAfter f (PRaise x)) l1 st1
  end.
Proof. reflexivity. Qed.

Lemma exec_after N o k p l st :
  Exec (S N) o (SAfter k p) l st =
  let '(l1, st1, r) := Exec N o k l st in
  match r with
  | QNormal => (l1, st1, match p with PNormal => QNormal | PReturn v => QReturn v | PRaise x => QRaise x end)
  | QSuspend k' => (l1, st1, QSuspend (SAfter k' p))
  | _ => (l1, st1, r)
  end.
Proof. reflexivity. Qed.

Definition close_locals : locals :=
  [("interval"%string, PVOpaque); ("task"%string, match cur with InTask u => PVTask u | _ => PVNone end)].

(** the body of TaskDoneCallback.close / .aclose ([m]) with enough fuel, from the locals it is called
    with, and its continuation [k]: both end as the task helper ends once `_active` is empty, and sleep
    (again) otherwise *)
Definition core (m : string) (k : stmt) : Prop :=
  (forall N b cl st, 30 <= N -> option_map m_body (prog ObTask m) = Some b ->
     cl = [("interval"%string, PVOpaque)] -> cur_ok st ->
     Exec N ObTask b cl st
     = match i_active st with
       | [] => (close_locals, st, task_outcome st) | _ => (close_locals, st, QSuspend k) end)
  /\ (forall N st, 30 <= N ->
     Exec N ObTask k close_locals st
     = match i_active st with
       | [] => (close_locals, st, task_outcome st) | _ => (close_locals, st, QSuspend k) end).

Ltac core_tac :=
  eexists;
  (split;
   [ intros N b cl st HN E -> Hc; injection E as <-; replace N with (30 + (N - 30)) by lia;
     destruct st as [act excs cbs soon fin treg tcl exc lg]; simpl in *; rewrite ?Hc; simpl;
     (destruct act as [|a0 act0]; simpl; [destruct excs; reflexivity|reflexivity])
   | intros N st HN; replace N with (30 + (N - 30)) by lia;
     destruct st as [act excs cbs soon fin treg tcl exc lg]; simpl;
     (destruct act as [|a0 act0]; simpl; [destruct excs; reflexivity|reflexivity]) ]).

Lemma close_core : exists k, core "close" k.
Proof. unfold core, cur_ok, close_locals, task_outcome. destruct cur as [| |u0]; core_tac. Qed.

Lemma aclose_core : cur <> NoLoop -> exists k, core "aclose" k.
Proof.
  intros Hn. unfold core, cur_ok, close_locals, task_outcome.
  destruct cur as [| |u0]; [elim Hn; reflexivity| |]; core_tac.
Qed.

(* one call layer: the step lemma for the statement that [exec] is applied to *)
Ltac step :=
  match goal with
  | |- context [exec _ _ _ _ _ _ _ _ ?s _ _] =>
      lazymatch s with
      | SFrame _ _ _ _ => rewrite exec_frame
      | SFinally _ _ => rewrite exec_finally
      | SAfter _ _ => rewrite exec_after
      | SCall _ _ _ _ =>
          first [erewrite exec_call; [|reflexivity..]; cbn [m_body] | erewrite exec_prim; [|reflexivity..]]
      end
  end.
(* what is left of a layer once the outcome below it is known *)
Ltac ret := cbv beta iota zeta delta [finish_call set_ret].

(* a close method that is [j] call layers around the body [core] speaks of: run the layers, hand the body
   (on resumption: its continuation) to [core], return through the layers; the union's `finally` then
   closes the thread helper.  Nothing here evaluates [exec]: every move is a rewrite with a step lemma *)
Tactic Notation "layers" integer(j) constr(C) :=
  let k := fresh "k" in let Hb := fresh "Hb" in let Hk := fresh "Hk" in
  destruct C as (k & Hb & Hk); intros st Hc; destruct (i_active st) eqn:Ea;
  [ unfold invoke, FUEL; do j step; erewrite Hb; [|lia|reflexivity|reflexivity|exact Hc]; rewrite Ea;
    unfold finish, task_outcome; destruct (i_excs st); ret; repeat step; try destruct thr_exc; reflexivity
  | eexists; split;
    [ unfold invoke, FUEL; do j step; erewrite Hb; [|lia|reflexivity|reflexivity|exact Hc]; rewrite Ea;
      reflexivity
    | intros st'; unfold resume, FUEL; do j step; rewrite Hk by lia; unfold finish, task_outcome;
      destruct (i_active st'); [|reflexivity];
      destruct (i_excs st'); ret; repeat step; try destruct thr_exc; reflexivity ] ].

Definition none3 : list pval := [PVNone; PVNone; PVNone].

Lemma start_task_close : start_spec false (PVMeth ObTask "close"%string) [].
Proof. layers 1 close_core. Qed.
Lemma start_task_exit : start_spec false (PVMeth ObTask "__exit__"%string) none3.
Proof. layers 2 close_core. Qed.
Lemma start_task_aclose : cur <> NoLoop -> start_spec false (PVMeth ObTask "aclose"%string) [].
Proof. intros Hn. layers 1 (aclose_core Hn). Qed.
Lemma start_task_aexit : cur <> NoLoop -> start_spec false (PVMeth ObTask "__aexit__"%string) none3.
Proof. intros Hn. layers 2 (aclose_core Hn). Qed.
Lemma start_union_close : start_spec true (PVMeth ObUnion "close"%string) [].
Proof. layers 3 close_core. Qed.
Lemma start_union_exit : start_spec true (PVMeth ObUnion "__exit__"%string) none3.
Proof. layers 4 close_core. Qed.
Lemma start_union_aclose : cur <> NoLoop -> start_spec true (PVMeth ObUnion "aclose"%string) [].
Proof. intros Hn. layers 3 (aclose_core Hn). Qed.
Lemma start_union_aexit : cur <> NoLoop -> start_spec true (PVMeth ObUnion "__aexit__"%string) none3.
Proof. intros Hn. layers 4 (aclose_core Hn). Qed.

Lemma body_guard m : m = "close"%string \/ m = "aclose"%string ->
  forall N b cl st u, 30 <= N -> option_map m_body (prog ObTask m) = Some b ->
    cl = [("interval"%string, PVOpaque)] -> cur = InTask u -> mem u (i_active st) = true ->
    Exec N ObTask b cl st = (close_locals, st, QRaise PXRuntime).
Proof.
  unfold close_locals. intros [-> | ->] N b cl st u HN E -> Hu Hm; injection E as <-;
    replace N with (30 + (N - 30)) by lia; destruct cur; try discriminate; injection Hu as ->;
    destruct st as [act excs cbs soon fin treg tcl exc lg]; simpl in *; rewrite Hm; reflexivity.
Qed.

Tactic Notation "guarded" integer(j) constr(m) :=
  intros st u Hu Hm; unfold invoke, FUEL; do j step;
  erewrite (body_guard m); [|auto|lia|reflexivity|reflexivity|exact Hu|exact Hm];
  ret; repeat step; try destruct thr_exc; reflexivity.

Lemma guard_task_close : guard_spec (PVMeth ObTask "close"%string) [].
Proof. guarded 1 "close"%string. Qed.
Lemma guard_task_exit : guard_spec (PVMeth ObTask "__exit__"%string) none3.
Proof. guarded 2 "close"%string. Qed.
Lemma guard_task_aclose : guard_spec (PVMeth ObTask "aclose"%string) [].
Proof. guarded 1 "aclose"%string. Qed.
Lemma guard_task_aexit : guard_spec (PVMeth ObTask "__aexit__"%string) none3.
Proof. guarded 2 "aclose"%string. Qed.
Lemma guard_union_close : guard_spec_union (PVMeth ObUnion "close"%string) [].
Proof. guarded 3 "close"%string. Qed.
Lemma guard_union_exit : guard_spec_union (PVMeth ObUnion "__exit__"%string) none3.
Proof. guarded 4 "close"%string. Qed.
Lemma guard_union_aclose : guard_spec_union (PVMeth ObUnion "aclose"%string) [].
Proof. guarded 3 "aclose"%string. Qed.
Lemma guard_union_aexit : guard_spec_union (PVMeth ObUnion "__aexit__"%string) none3.
Proof. guarded 4 "aclose"%string. Qed.

Lemma excthread_run_exec st :
  Invoke (PVMeth ObExcThread "run"%string) [] st = (with_exc st target_exc, QNormal).
Proof. destruct st. unfold invoke. destruct target_exc; simpl; reflexivity. Qed.

Lemma excthread_join_exec st :
  Invoke (PVMeth ObExcThread "join"%string) [] st
  = (st, match i_exc st with Some x => QRaise x | None => QNormal end).
Proof. destruct st as [? ? ? ? ? ? ? exc ?]. unfold invoke. destruct exc; simpl; reflexivity. Qed.

(** Generic in the methods under test: [regf] must behave like TaskDoneCallback.register and
    [closef] like a close method ([start_spec u]). *)
Section Generic.
Variable u : bool.
Variables regf closef : pval.
Variable cargs : list pval.
Hypothesis H_reg : forall st t, Invoke regf [PVTask t] st = (reg_result st t, QNormal).
Hypothesis H_start : start_spec u closef cargs.

Notation Istep := (istep raises true cur cur_thread thr_exc target_exc regf closef cargs).
Notation Irun_from := (irun_from raises true cur cur_thread thr_exc target_exc regf closef cargs).

(** how the close method ends, given how the task helper's part ends ([e]: the task whose callback
    raised first).  For the union the thread helper's exception, if any, takes precedence *)
Definition close_exn (e : option nat) : option pexn :=
  if u then match thr_exc with Some y => Some y | None => option_map PXCb e end
  else option_map PXCb e.

(** the model's events as events of the interpreter.  For the union the end of the task helper's
    close is followed ON EVERY PATH by the thread helper's close() *)
Definition evmap (e : tev) : list iev :=
  match e with
  | TCb t r => [ICb t r]
  | TCloseRet e => if u then [IThrClose; ICloseRet (close_exn e)] else [ICloseRet (close_exn e)]
  end.

(** the task that calls the close method is never registered *)
Definition op_ok (o : top) : Prop :=
  match cur with InTask v => o <> TReg v | _ => True end.

Record WF0 (st : istate) : Prop := {
  wf_cbs : forall t, cbs_for t (i_cbs st) = if mem t (i_active st) then [cbv] else [];
  wf_soon : i_soon st = [];
  wf_excs : i_excs st = map PXCb (exn_tasks (i_excs st));
  wf_cur : cur_ok st
}.

Definition khyp (k : kstate) : Prop :=
  match k with KSusp kk => waiting u kk | KStuck => False | _ => True end.

(** (the last conjunct is not needed for the step theorem: it is information about reachable states) *)
Definition WF (sk : istate * kstate) : Prop :=
  WF0 (fst sk) /\ i_log (fst sk) = [] /\ khyp (snd sk)
  /\ (forall kk, snd sk = KSusp kk -> i_active (fst sk) <> []).

Definition post (st1 : istate) (k1 : kstate) : istate * kstate :=
  match k1 with KSusp kk => settle (Resume kk st1) | _ => (st1, k1) end.

Definition fin_log (st : istate) : list iev :=
  flat_map evmap [TCloseRet (hd_error (exn_tasks (i_excs st)))].
Definition fin_state (st : istate) : istate :=
  if u then with_thr st (i_thr_reg st) true else st.

Lemma settle_finish st : i_excs st = map PXCb (exn_tasks (i_excs st)) ->
  settle (finish u st) = (with_log (fin_state st) (i_log st ++ fin_log st), KDone).
Proof.
  destruct st as [act excs cbs soon fin treg tcl exc lg]. simpl. intros H.
  unfold finish, fin_state, fin_log, task_outcome, evmap, close_exn. simpl. destruct excs as [|x xs]; simpl.
  - destruct u; [destruct thr_exc|]; simpl; unfold add_log, with_log; simpl;
      rewrite <- ?app_assoc; simpl; rewrite ?app_nil_r; reflexivity.
  - destruct x; simpl in H; try (destruct (exn_tasks xs); discriminate).
    destruct u; [destruct thr_exc|]; simpl; unfold add_log, with_log; simpl;
      rewrite <- ?app_assoc; simpl; rewrite ?app_nil_r; reflexivity.
Qed.

Lemma post_spec st1 k1 : i_excs st1 = map PXCb (exn_tasks (i_excs st1)) -> khyp k1 ->
  post st1 k1 = match kabs k1, i_active st1 with
                | TCWaiting, [] => (with_log (fin_state st1) (i_log st1 ++ fin_log st1), KDone)
                | _, _ => (st1, k1)
                end.
Proof.
  intros He Hk. destruct k1; simpl in *; try reflexivity.
  rewrite Hk. destruct (i_active st1); [apply settle_finish; assumption|reflexivity].
Qed.

(** the second half of [tstep] *)
Definition tpost (s1 : tstate) (evs : list tev) : tstate * list tev :=
  match t_closing s1, t_active s1 with
  | TCWaiting, [] =>
      (mkT (t_active s1) (t_finished s1) (t_excs s1) TCReturned, evs ++ [TCloseRet (hd_error (t_excs s1))])
  | _, _ => (s1, evs)
  end.

Lemma tstep_tpost s o :
  tstep raises s o = tpost (fst (top_step raises s o)) (snd (top_step raises s o)).
Proof. unfold tstep, tpost. destruct (top_step raises s o). reflexivity. Qed.

Lemma WF0_fin_state st : WF0 st -> WF0 (with_log (fin_state st) []).
Proof.
  intros [A B C D]. unfold fin_state. destruct st as [act excs cbs soon fin treg tcl exc lg].
  simpl in *. destruct u; constructor; assumption.
Qed.

Lemma post_tpost st1 k1 evs1 : WF0 st1 -> khyp k1 -> i_log st1 = flat_map evmap evs1 ->
  let r := post st1 k1 in
  let m := tpost (abs (st1, k1)) evs1 in
  WF (with_log (fst r) [], snd r) /\ abs (with_log (fst r) [], snd r) = fst m
  /\ i_log (fst r) = flat_map evmap (snd m).
Proof.
  intros W Hk Hl. pose proof W as [A B C D]. simpl. rewrite (post_spec _ _ C Hk).
  pose proof (WF0_fin_state _ W) as Wf.
  unfold tpost, abs, fin_log, fin_state in *.
  destruct st1 as [act excs cbs soon fin treg tcl exc lg]. simpl in *.
  assert (W1 : WF0 (mkI act excs cbs soon fin treg tcl exc [])) by (constructor; assumption).
  destruct k1 as [|kk| |]; simpl in *; try contradiction.
  -
    split; [|split; [reflexivity|assumption]].
    split; [exact W1|split; [reflexivity|split; [exact I|intros ? ?; discriminate]]].
  -
    destruct act as [|a0 act0]; simpl.
    + split; [|split].
      * split; [exact Wf|]. split; [destruct u; reflexivity|].
        split; [exact I|intros ? ?; discriminate].
      * destruct u; reflexivity.
      * rewrite flat_map_app, Hl. simpl.
        destruct u; simpl; rewrite ?app_nil_r; reflexivity.
    + split; [|split; [reflexivity|assumption]].
      split; [exact W1|split; [reflexivity|split; [exact Hk|intros ? _; discriminate]]].
  -
    split; [|split; [reflexivity|assumption]].
    split; [exact W1|split; [reflexivity|split; [exact I|intros ? ?; discriminate]]].
Qed.

Notation Op_part := (op_part raises true cur cur_thread thr_exc target_exc regf closef cargs).

Lemma istep_from_op st k o st1 k1 : Op_part st k o = Some (st1, k1) ->
  Istep (st, k) o = ((with_log (fst (post st1 k1)) [], snd (post st1 k1)), i_log (fst (post st1 k1))).
Proof.
  intros H. unfold istep. rewrite H. unfold post.
  destruct k1; try reflexivity. destruct (settle _). reflexivity.
Qed.

Lemma cbs_reg cbs act t : (forall x, cbs_for x cbs = if mem x act then [cbv] else []) ->
  mem t act = false ->
  forall x, cbs_for x (cbs ++ [(t, cbv)]) = if mem x (ins t act) then [cbv] else [].
Proof.
  intros A E x. rewrite cbs_for_app, mem_ins, A. unfold cbs_for at 1. simpl.
  rewrite (Nat.eqb_sym t x). destruct (x =? t) eqn:F; simpl.
  - apply Nat.eqb_eq in F. subst x. rewrite E. reflexivity.
  - apply app_nil_r.
Qed.

Lemma cbs_rm cbs act t : (forall x, cbs_for x cbs = if mem x act then [cbv] else []) ->
  forall x, cbs_for x (cbs_without t cbs) = if mem x (Task.remove t act) then [cbv] else [].
Proof.
  intros A x. rewrite cbs_for_without, mem_remove, A. destruct (x =? t); reflexivity.
Qed.

Lemma cbs_rm_ins cbs act t : (forall x, cbs_for x cbs = if mem x act then [cbv] else []) ->
  mem t act = false ->
  forall x, cbs_for x cbs = if mem x (Task.remove t (ins t act)) then [cbv] else [].
Proof.
  intros A E x. rewrite mem_remove, mem_ins, A. destruct (x =? t) eqn:F; simpl; [|reflexivity].
  apply Nat.eqb_eq in F. subst x. rewrite E. reflexivity.
Qed.

Lemma excs_app excs t : excs = map PXCb (exn_tasks excs) ->
  excs ++ [PXCb t] = map PXCb (exn_tasks (excs ++ [PXCb t])).
Proof. intros H. rewrite exn_tasks_app, map_app. simpl. rewrite <- H. reflexivity. Qed.

Lemma cur_ok_ins st st' t :
  cur_ok st -> op_ok (TReg t) -> i_active st' = ins t (i_active st) -> cur_ok st'.
Proof.
  unfold cur_ok, op_ok. destruct cur as [| |v]; auto. intros H N ->.
  rewrite mem_ins, H. destruct (v =? t) eqn:F; [|reflexivity].
  apply Nat.eqb_eq in F. subst. congruence.
Qed.

Lemma cur_ok_rm st st' t :
  cur_ok st -> i_active st' = Task.remove t (i_active st) -> cur_ok st'.
Proof.
  unfold cur_ok. destruct cur as [| |v]; auto. intros H ->.
  rewrite mem_remove, H. apply andb_false_r.
Qed.

Lemma cur_ok_rm_ins st st' t :
  cur_ok st -> op_ok (TReg t) -> i_active st' = Task.remove t (ins t (i_active st)) -> cur_ok st'.
Proof.
  unfold cur_ok, op_ok. destruct cur as [| |v]; auto. intros H N ->.
  rewrite mem_remove, mem_ins, H. destruct (v =? t) eqn:F; [|reflexivity].
  apply Nat.eqb_eq in F. subst. congruence.
Qed.

Lemma close_now_dec (st : istate) (k : kstate) (o : top) :
  (o = TClose /\ k = KNo /\ i_active st = []) \/ ~ (o = TClose /\ k = KNo /\ i_active st = []).
Proof.
  destruct o; try (right; intros (H & _); discriminate).
  destruct k; try (right; intros (_ & H & _); discriminate).
  destruct (i_active st); [left; auto|right; intros (_ & _ & H); discriminate].
Qed.

(** every operation except a close that finishes at once: the first half of the step.  (In the excluded
    case the interpreter's first half already returns, KDone with ICloseRet logged, while the model's
    [top_step] only sets TCWaiting: [abs] commutes only after [tpost]; [istep_tstep] treats it by hand.) *)
Lemma op_part_spec st k o : WF (st, k) -> op_ok o ->
  ~ (o = TClose /\ k = KNo /\ i_active st = []) ->
  exists st1 k1, Op_part st k o = Some (st1, k1) /\ WF0 st1 /\ khyp k1
    /\ abs (st1, k1) = fst (top_step raises (abs (st, k)) o)
    /\ i_log st1 = flat_map evmap (snd (top_step raises (abs (st, k)) o)).
Proof.
  intros [W0 [Hl [Hk Ha]]] Hop Hni. simpl in *. destruct W0 as [A B C D].
  destruct st as [act excs cbs soon fin treg tcl exc lg]. simpl in *. subst soon lg.
  unfold op_part, abs. simpl. destruct o as [t|t|].
  -
    rewrite H_reg. unfold reg_result. simpl. destruct (mem t act) eqn:E.
    + eexists _, _. split; [reflexivity|]. split; [constructor; (assumption || reflexivity)|]. auto.
    + destruct (mem t fin) eqn:F.
      * unfold drain. cbn [i_soon with_soon with_active i_active i_excs i_cbs i_finished i_thr_reg
                           i_thr_closed i_exc i_log app run_soon].
        rewrite callback_exec by (simpl; rewrite mem_ins, Nat.eqb_refl; reflexivity).
        unfold cb_result, callback. simpl.
        eexists _, _. split; [reflexivity|]. split; [|split; [assumption|split]].
        -- constructor; simpl.
           ++ apply cbs_rm_ins; assumption.
           ++ reflexivity.
           ++ destruct (raises t); [apply excs_app|]; assumption.
           ++ eapply cur_ok_rm_ins; [exact D|exact Hop|reflexivity].
        -- unfold abs. simpl. destruct (raises t); [rewrite exn_tasks_app|]; reflexivity.
        -- reflexivity.
      * unfold drain. simpl. eexists _, _. split; [reflexivity|].
        split; [|split; [assumption|split; reflexivity]].
        constructor; simpl; auto.
        -- apply cbs_reg; assumption.
        -- eapply cur_ok_ins; [exact D|exact Hop|reflexivity].
  -
    cbn [top_step t_finished t_active t_excs t_closing].
    destruct (mem t fin) eqn:F.
    + eexists _, _. split; [reflexivity|]. split; [constructor; (assumption || reflexivity)|]. auto.
    + unfold drain, complete.
      cbn [i_soon with_soon with_active i_active i_excs i_cbs i_finished i_thr_reg
           i_thr_closed i_exc i_log app]. rewrite A. destruct (mem t act) eqn:E.
      * cbn [map run_soon]. rewrite callback_exec by exact E.
        unfold cb_result, callback. simpl.
        eexists _, _. split; [reflexivity|]. split; [|split; [assumption|split]].
        -- constructor; simpl.
           ++ apply cbs_rm; assumption.
           ++ reflexivity.
           ++ destruct (raises t); [apply excs_app|]; assumption.
           ++ eapply cur_ok_rm; [exact D|reflexivity].
        -- unfold abs. simpl. destruct (raises t); [rewrite exn_tasks_app|]; reflexivity.
        -- reflexivity.
      * simpl. eexists _, _. split; [reflexivity|].
        split; [|split; [assumption|split; reflexivity]].
        constructor; simpl; auto.
        -- intros x. rewrite cbs_for_without, A. destruct (x =? t) eqn:G; [|reflexivity].
           apply Nat.eqb_eq in G. subst x. rewrite E. reflexivity.
  -
    cbn [top_step t_finished t_active t_excs t_closing].
    destruct k as [|kk| |]; simpl in *; try contradiction.
    + pose proof (H_start _ D) as Hs. simpl in Hs. destruct act as [|a0 act0].
      * exfalso. apply Hni. auto.
      * destruct Hs as (kk & -> & Hw). simpl.
        eexists _, _. split; [reflexivity|]. split; [constructor; (assumption || reflexivity)|].
        split; [exact Hw|]. split; reflexivity.
    + eexists _, _. split; [reflexivity|]. split; [constructor; (assumption || reflexivity)|]. auto.
    + eexists _, _. split; [reflexivity|]. split; [constructor; (assumption || reflexivity)|]. auto.
Qed.

Theorem istep_tstep st k o : WF (st, k) -> op_ok o ->
  let r := Istep (st, k) o in
  let m := tstep raises (abs (st, k)) o in
  WF (fst r) /\ abs (fst r) = fst m /\ snd r = flat_map evmap (snd m).
Proof.
  intros W Hop. cbv zeta. rewrite tstep_tpost.
  destruct (close_now_dec st k o) as [Hi|Hni].
  2:{ destruct (op_part_spec st k o W Hop Hni) as (st1 & k1 & Ho & W1 & Hk1 & Hab & Hlg).
      rewrite (istep_from_op _ _ _ _ _ Ho). simpl. rewrite <- Hab.
      apply post_tpost; assumption. }
  destruct Hi as (-> & -> & Ea). destruct W as [W0 [Hl _]]. simpl in *.
  pose proof W0 as [A B C D]. pose proof (H_start _ D) as Hs. rewrite Ea in Hs.
  unfold istep, op_part. rewrite Hs, (settle_finish _ C), Hl. simpl.
  pose proof (WF0_fin_state _ W0) as Wf.
  unfold tpost, abs, fin_log, fin_state in *.
  destruct st as [act excs cbs soon fin treg tcl exc lg]. simpl in *. subst act lg. simpl.
  split; [|split].
  - split; [exact Wf|]. split; [destruct u; reflexivity|].
    split; [exact I|intros ? ?; discriminate].
  - destruct u; reflexivity.
  - destruct u; simpl; rewrite ?app_nil_r; reflexivity.
Qed.

Lemma WF_init : WF (iinit, KNo).
Proof.
  split; [|split; [reflexivity|split; [exact I|intros ? ?; discriminate]]].
  constructor; simpl; auto. unfold cur_ok. destruct cur; reflexivity.
Qed.

Lemma irun_trun os : forall sk, WF sk -> Forall op_ok os ->
  WF (fst (Irun_from sk os))
  /\ abs (fst (Irun_from sk os)) = fst (trun_from raises (abs sk) os)
  /\ snd (Irun_from sk os) = map (flat_map evmap) (snd (trun_from raises (abs sk) os)).
Proof.
  induction os as [|o os IH]; intros [st k] W F; [simpl; auto|].
  inversion F as [|? ? Ho Fr]; subst.
  pose proof (istep_tstep st k o W Ho) as H. cbv zeta in H. destruct H as (W' & Ha & He).
  cbn [irun_from trun_from].
  destruct (Istep (st, k) o) as [sk' e]. destruct (tstep raises (abs (st, k)) o) as [m' te].
  simpl in W', Ha, He. specialize (IH sk' W' Fr). rewrite Ha in IH.
  destruct (Irun_from sk' os) as [sk'' es]. destruct (trun_from raises m' os) as [m'' tes].
  simpl in *. destruct IH as (? & ? & ?). subst. auto.
Qed.

Notation Iouts := (iouts raises true cur cur_thread thr_exc target_exc regf closef cargs).
Notation Irun := (irun raises true cur cur_thread thr_exc target_exc regf closef cargs).

Theorem tie_outputs os : Forall op_ok os ->
  Iouts os = map (flat_map evmap) (touts raises os) /\ abs (Irun os) = trun raises os
  /\ WF (Irun os).
Proof.
  intros F. destruct (irun_trun os _ WF_init F) as (W & A & E). unfold iouts, irun, touts, trun.
  auto.
Qed.

Lemma icb_evmap evs : flat_map icb_of (flat_map evmap evs) = flat_map tcb_of evs.
Proof.
  induction evs as [|[t r|e] evs IH]; simpl; rewrite ?IH; try reflexivity.
  destruct u; simpl; rewrite ?IH; reflexivity.
Qed.

Lemma iraised_evmap evs : flat_map iraised_of (flat_map evmap evs) = flat_map traised_of evs.
Proof.
  induction evs as [|[t r|e] evs IH]; simpl; rewrite ?IH; try reflexivity.
  destruct u; simpl; rewrite ?IH; reflexivity.
Qed.

Lemma icalled_evmap ess : icalled (map (flat_map evmap) ess) = tcalled ess.
Proof.
  unfold icalled, tcalled. induction ess as [|evs ess IH]; simpl; [reflexivity|].
  rewrite !flat_map_app, icb_evmap, IH. reflexivity.
Qed.

(** what the close method must end with, given the tasks whose callback raised (oldest first) *)
Definition close_result (rz : list nat) : option pexn := close_exn (hd_error rz).

(** [steps_ok] of DoneCb/TaskProofs.v, on the interpreter's own events: a callback only in the step
    in which its task ends; the close method ends only when every task registered so far has ended
    (hence been called back), with [close_result]; the thread helper's close() is invoked only
    then -- and (union) ALWAYS then: in the very step in which the close method ends *)
Fixpoint isteps_ok (rg fin rz : list nat) (os : list top) (ess : list (list iev)) : Prop :=
  match os, ess with
  | o :: r, evs :: er =>
      let rg' := trg o ++ rg in
      let fin' := tfn o ++ fin in
      let rz' := rz ++ flat_map iraised_of evs in
      (forall t, In t (flat_map icb_of evs) -> o = TComplete t) /\
      (forall e, In (ICloseRet e) evs -> (forall t, In t rg' -> In t fin') /\ e = close_result rz') /\
      (In IThrClose evs -> forall t, In t rg' -> In t fin') /\
      (u = true -> forall e, In (ICloseRet e) evs -> In IThrClose evs) /\
      isteps_ok rg' fin' rz' r er
  | _, _ => True
  end.

Lemma steps_ok_isteps_ok os : forall ess rg fin rz,
  steps_ok rg fin rz os ess -> isteps_ok rg fin rz os (map (flat_map evmap) ess).
Proof.
  induction os as [|o os IH]; intros [|evs ess] rg fin rz; simpl; auto.
  intros (H1 & H2 & H3). rewrite icb_evmap, iraised_evmap.
  split; [exact H1|]. split; [|split; [|split; [|apply IH; exact H3]]].
  - intros e He. apply in_flat_map in He. destruct He as (te & Hte & Hin).
    destruct te as [t r|e0]; simpl in Hin.
    + destruct Hin as [H|[]]. discriminate.
    + destruct (H2 _ Hte) as (Hall & Heq). split; [exact Hall|]. unfold close_result.
      rewrite <- Heq. destruct u; simpl in Hin.
      * destruct Hin as [H|[H|[]]]; [discriminate|]. injection H as <-. reflexivity.
      * destruct Hin as [H|[]]. injection H as <-. reflexivity.
  - intros He. apply in_flat_map in He. destruct He as (te & Hte & Hin).
    destruct te as [t r|e0]; simpl in Hin.
    + destruct Hin as [H|[]]. discriminate.
    + destruct (H2 _ Hte) as (Hall & _). exact Hall.
  - intros Hu e He. apply in_flat_map in He. destruct He as (te & Hte & Hin).
    apply in_flat_map. exists te. split; [exact Hte|].
    destruct te as [t r|e0]; simpl in *.
    + destruct Hin as [H|[]]. discriminate.
    + rewrite Hu. simpl. auto.
Qed.

Theorem tie_exactly_once os : Forall op_ok os -> twf os ->
  NoDup (icalled (Iouts os)) /\
  forall t, In t (icalled (Iouts os)) <-> In (TReg t) os /\ In (TComplete t) os.
Proof.
  intros F W. destruct (tie_outputs os F) as (-> & _). rewrite icalled_evmap.
  apply task_exactly_once. exact W.
Qed.

Theorem tie_close_waits os : Forall op_ok os -> twf os -> isteps_ok [] [] [] os (Iouts os).
Proof.
  intros F W. destruct (tie_outputs os F) as (-> & _). apply steps_ok_isteps_ok.
  apply task_steps_ok. exact W.
Qed.

End Generic.
End Tie.

Inductive close_method := MClose | MAclose | MExit | MAexit.

Definition close_name (m : close_method) : string :=
  match m with
  | MClose => "close" | MAclose => "aclose" | MExit => "__exit__" | MAexit => "__aexit__"
  end%string.
Definition close_args (m : close_method) : list pval :=
  match m with MClose | MAclose => [] | _ => none3 end.
(** aclose / __aexit__ are coroutines: they run inside an event loop *)
Definition needs_loop (m : close_method) : bool :=
  match m with MAclose | MAexit => true | _ => false end.
(** u = false: TaskDoneCallback; u = true: ThreadTaskDoneCallback *)
Definition helper_obj (u : bool) : pobj := if u then ObUnion else ObTask.

(** the interpreter's outputs for an operation sequence: [TReg t] = <helper>.register(task t),
    [TComplete t] = task t ends, [TClose] = <helper>.<m>(..) is called (once) *)
Definition outs_of (raises : nat -> bool) (cur : curctx) (cur_thread : nat) (thr_exc : option pexn)
                   (u : bool) (m : close_method) (os : list top) : list (list iev) :=
  iouts raises true cur cur_thread thr_exc None
        (PVMeth (helper_obj u) "register"%string) (PVMeth (helper_obj u) (close_name m)) (close_args m) os.

Definition step_of (raises : nat -> bool) (cur : curctx) (cur_thread : nat) (thr_exc : option pexn)
                   (u : bool) (m : close_method) (sk : istate * kstate) (o : top)
  : (istate * kstate) * list iev :=
  istep raises true cur cur_thread thr_exc None
        (PVMeth (helper_obj u) "register"%string) (PVMeth (helper_obj u) (close_name m)) (close_args m) sk o.

Definition final_of (raises : nat -> bool) (cur : curctx) (cur_thread : nat) (thr_exc : option pexn)
                    (u : bool) (m : close_method) (os : list top) : istate * kstate :=
  irun raises true cur cur_thread thr_exc None
       (PVMeth (helper_obj u) "register"%string) (PVMeth (helper_obj u) (close_name m)) (close_args m) os.

(** each of the eight (register, close method) pairs meets the hypotheses of the generic step theorem *)
Lemma target_specs raises cur cur_thread thr_exc u m : (needs_loop m = true -> cur <> NoLoop) ->
  (forall st t, invoke raises true cur cur_thread thr_exc None (PVMeth (helper_obj u) "register"%string) [PVTask t] st
                = (reg_result st t, QNormal))
  /\ start_spec raises cur cur_thread thr_exc None u (PVMeth (helper_obj u) (close_name m)) (close_args m).
Proof.
  intros Hl. destruct u, m; cbn [helper_obj close_name close_args needs_loop] in *.
  - split; [intros; apply union_register_task_exec|apply start_union_close].
  - split; [intros; apply union_register_task_exec|apply start_union_aclose; auto].
  - split; [intros; apply union_register_task_exec|apply start_union_exit].
  - split; [intros; apply union_register_task_exec|apply start_union_aexit; auto].
  - split; [intros; apply task_register_exec|apply start_task_close].
  - split; [intros; apply task_register_exec|apply start_task_aclose; auto].
  - split; [intros; apply task_register_exec|apply start_task_exit].
  - split; [intros; apply task_register_exec|apply start_task_aexit; auto].
Qed.

Theorem tie_task_step raises cur cur_thread thr_exc u m st k o :
  (needs_loop m = true -> cur <> NoLoop) ->
  WF raises cur cur_thread thr_exc None u (st, k) -> op_ok cur o ->
  let r := step_of raises cur cur_thread thr_exc u m (st, k) o in
  let mo := tstep raises (abs (st, k)) o in
  WF raises cur cur_thread thr_exc None u (fst r) /\ abs (fst r) = fst mo
  /\ snd r = flat_map (evmap thr_exc u) (snd mo).
Proof.
  intros Hl W Ho. destruct (target_specs raises cur cur_thread thr_exc u m Hl) as (Hr & Hs).
  exact (istep_tstep raises cur cur_thread thr_exc None u _ _ _ Hr Hs st k o W Ho).
Qed.

Theorem tie_task_outputs raises cur cur_thread thr_exc u m os :
  (needs_loop m = true -> cur <> NoLoop) -> Forall (op_ok cur) os ->
  outs_of raises cur cur_thread thr_exc u m os = map (flat_map (evmap thr_exc u)) (touts raises os)
  /\ abs (final_of raises cur cur_thread thr_exc u m os) = trun raises os.
Proof.
  intros Hl F. destruct (target_specs raises cur cur_thread thr_exc u m Hl) as (Hr & Hs).
  destruct (tie_outputs raises cur cur_thread thr_exc None u _ _ _ Hr Hs os F) as (A & B & _).
  split; assumption.
Qed.

(** the initial state is well-formed and so is every reachable one: the step theorem applies along
    every history *)
Theorem tie_task_wf_reachable raises cur cur_thread thr_exc u m os :
  (needs_loop m = true -> cur <> NoLoop) -> Forall (op_ok cur) os ->
  WF raises cur cur_thread thr_exc None u (final_of raises cur cur_thread thr_exc u m os).
Proof.
  intros Hl F. destruct (target_specs raises cur cur_thread thr_exc u m Hl) as (Hr & Hs).
  destruct (tie_outputs raises cur cur_thread thr_exc None u _ _ _ Hr Hs os F) as (_ & _ & W). exact W.
Qed.

(** hence C18_task_exactly_once holds of the regenerated code (both helpers, all four close methods) *)
Theorem tie_task_exactly_once raises cur cur_thread thr_exc u m os :
  (needs_loop m = true -> cur <> NoLoop) -> Forall (op_ok cur) os -> twf os ->
  NoDup (icalled (outs_of raises cur cur_thread thr_exc u m os)) /\
  forall t, In t (icalled (outs_of raises cur cur_thread thr_exc u m os)) <-> In (TReg t) os /\ In (TComplete t) os.
Proof.
  intros Hl F W. destruct (target_specs raises cur cur_thread thr_exc u m Hl) as (Hr & Hs).
  exact (tie_exactly_once raises cur cur_thread thr_exc None u _ _ _ Hr Hs os F W).
Qed.

(** ... and C18_task_close_waits + the re-raise of the first exception *)
Theorem tie_task_close_waits raises cur cur_thread thr_exc u m os :
  (needs_loop m = true -> cur <> NoLoop) -> Forall (op_ok cur) os -> twf os ->
  isteps_ok thr_exc u [] [] [] os (outs_of raises cur cur_thread thr_exc u m os).
Proof.
  intros Hl F W. destruct (target_specs raises cur cur_thread thr_exc u m Hl) as (Hr & Hs).
  exact (tie_close_waits raises cur cur_thread thr_exc None u _ _ _ Hr Hs os F W).
Qed.

(** the close method never ends with an exception of the helper's own making: the thread helper's
    exception (union), else that of a task callback, else a normal return *)
Theorem tie_task_close_result raises cur cur_thread thr_exc u m os e :
  (needs_loop m = true -> cur <> NoLoop) -> Forall (op_ok cur) os ->
  In (ICloseRet e) (List.concat (outs_of raises cur cur_thread thr_exc u m os)) ->
  match (if u then thr_exc else None) with
  | Some y => e = Some y
  | None => (exists t, e = Some (PXCb t)) \/ e = None
  end.
Proof.
  intros Hl F Hin. destruct (tie_task_outputs raises cur cur_thread thr_exc u m os Hl F) as (E & _).
  rewrite E in Hin. clear E.
  apply in_concat in Hin. destruct Hin as (evs & Hevs & Hin).
  apply in_map_iff in Hevs. destruct Hevs as (tevs & <- & Htevs).
  apply in_flat_map in Hin. destruct Hin as (te & Hte & Hin).
  destruct te as [t r|e0]; simpl in Hin.
  - destruct Hin as [H|[]]. discriminate.
  - unfold close_exn in Hin. destruct u; simpl in Hin.
    + destruct Hin as [H|[H|[]]]; [discriminate|]. injection H as <-.
      destruct thr_exc; [reflexivity|]. destruct e0; simpl; eauto.
    + destruct Hin as [H|[]]. injection H as <-. destruct e0; simpl; eauto.
Qed.

(** "cannot be called from a registered task": the regenerated guard.  From inside a
    registered task every close method raises RuntimeError at once: nothing is waited for, no
    state changes, the thread helper is not closed *)
Theorem tie_task_guard raises cur_thread thr_exc m st t :
  mem t (i_active st) = true ->
  invoke raises true (InTask t) cur_thread thr_exc None (PVMeth ObTask (close_name m)) (close_args m) st
  = (st, QRaise PXRuntime).
Proof.
  intros H. destruct m; cbn [close_name close_args].
  - eapply guard_task_close; eauto.
  - eapply guard_task_aclose; eauto.
  - eapply guard_task_exit; eauto.
  - eapply guard_task_aexit; eauto.
Qed.

(** the union: the same RuntimeError, but through the `finally`: the thread helper is closed first *)
Theorem tie_union_guard raises cur_thread thr_exc m st t :
  mem t (i_active st) = true ->
  invoke raises true (InTask t) cur_thread thr_exc None (PVMeth ObUnion (close_name m)) (close_args m) st
  = (add_log (with_thr st (i_thr_reg st) true) IThrClose,
     match thr_exc with Some y => QRaise y | None => QRaise PXRuntime end).
Proof.
  intros H. destruct m; cbn [close_name close_args].
  - eapply guard_union_close; eauto.
  - eapply guard_union_aclose; eauto.
  - eapply guard_union_exit; eauto.
  - eapply guard_union_aexit; eauto.
Qed.

(** ThreadTaskDoneCallback.register: the dispatch.  A task goes to the task helper (the state
    after union.register(task t) IS the state after TaskDoneCallback.register(task t); the thread
    helper is untouched), a thread to the thread helper (the task helper is untouched); without an
    argument the current task if there is one, else the current thread *)
Theorem tie_union_register_task raises cur cur_thread thr_exc st t :
  invoke raises true cur cur_thread thr_exc None (PVMeth ObUnion "register"%string) [PVTask t] st
  = invoke raises true cur cur_thread thr_exc None (PVMeth ObTask "register"%string) [PVTask t] st
  /\ i_thr_reg (fst (invoke raises true cur cur_thread thr_exc None (PVMeth ObUnion "register"%string) [PVTask t] st))
     = i_thr_reg st.
Proof.
  rewrite union_register_task_exec, task_register_exec. split; [reflexivity|].
  unfold reg_result. simpl. destruct (mem t (i_active st)); [reflexivity|].
  destruct (mem t (i_finished st)); reflexivity.
Qed.

Theorem tie_union_register_thread raises cur cur_thread thr_exc st v :
  invoke raises true cur cur_thread thr_exc None (PVMeth ObUnion "register"%string) [PVThread v] st
  = (with_thr st (i_thr_reg st ++ [v]) (i_thr_closed st), QNormal).
Proof. apply union_register_thread_exec. Qed.

Theorem tie_union_register_default raises cur cur_thread thr_exc st :
  invoke raises true cur cur_thread thr_exc None (PVMeth ObUnion "register"%string) [] st
  = match cur with
    | InTask t => invoke raises true cur cur_thread thr_exc None (PVMeth ObTask "register"%string) [PVTask t] st
    | _ => (with_thr st (i_thr_reg st ++ [cur_thread]) (i_thr_closed st), QNormal)
    end.
Proof. rewrite union_register_default_exec. destruct cur; try reflexivity. rewrite task_register_exec. reflexivity. Qed.

(** ThreadTaskDoneCallback.close / aclose / __exit__ / __aexit__ once every registered task has
    ended (`try: <task helper close> finally: <thread helper close>`): the thread helper's close() is
    invoked ON EVERY PATH; the outcome is its exception if it raised (it re-raises the first exception
    of a thread callback: DoneCb/Model.v, ExcThread.join below), else the first exception of a task
    callback, else a normal return *)
Theorem tie_union_close_outcome raises cur cur_thread thr_exc m st :
  (needs_loop m = true -> cur <> NoLoop) -> cur_ok cur st -> i_active st = [] ->
  invoke raises true cur cur_thread thr_exc None (PVMeth ObUnion (close_name m)) (close_args m) st
  = (add_log (with_thr st (i_thr_reg st) true) IThrClose,
     match thr_exc with
     | Some y => QRaise y
     | None => match i_excs st with x :: _ => QRaise x | [] => QNormal end
     end).
Proof.
  intros Hl Hc Ha. destruct (target_specs raises cur cur_thread thr_exc true m Hl) as (_ & Hs).
  specialize (Hs st Hc). rewrite Ha in Hs. exact Hs.
Qed.

Theorem tie_union_close_reraises raises cur cur_thread thr_exc m st :
  (needs_loop m = true -> cur <> NoLoop) -> cur_ok cur st -> i_active st = [] ->
  ((exists x, snd (invoke raises true cur cur_thread thr_exc None (PVMeth ObUnion (close_name m)) (close_args m) st)
              = QRaise x)
   <-> (i_excs st <> [] \/ thr_exc <> None))
  /\ (snd (invoke raises true cur cur_thread thr_exc None (PVMeth ObUnion (close_name m)) (close_args m) st) = QNormal
      <-> (i_excs st = [] /\ thr_exc = None)).
Proof.
  intros Hl Hc Ha. rewrite (tie_union_close_outcome raises cur cur_thread thr_exc m st Hl Hc Ha). simpl.
  destruct thr_exc as [y|]; [|destruct (i_excs st) as [|x xs]]; split; split.
  - intros _. right. discriminate.
  - intros _. exists y. reflexivity.
  - discriminate.
  - intros (_ & H). discriminate.
  - intros (x & H). discriminate.
  - intros [H|H]; congruence.
  - auto.
  - auto.
  - intros _. left. discriminate.
  - intros _. exists x. reflexivity.
  - discriminate.
  - intros (H & _). discriminate.
Qed.

(** "close closes both", IN FULL: every close method of the union closes BOTH helpers on every path --
    the thread helper's close() is invoked (exactly once: one IThrClose is logged) whether or not a
    task callback raised -- and it raises iff one of them raised: the thread helper's exception if it
    raised, else the task helper's *)
Theorem tie_union_close_both raises cur cur_thread thr_exc m st :
  (needs_loop m = true -> cur <> NoLoop) -> cur_ok cur st -> i_active st = [] ->
  let r := invoke raises true cur cur_thread thr_exc None (PVMeth ObUnion (close_name m)) (close_args m) st in
  i_thr_closed (fst r) = true
  /\ i_log (fst r) = i_log st ++ [IThrClose]
  /\ i_active (fst r) = [] /\ i_excs (fst r) = i_excs st
  /\ snd r = match thr_exc, i_excs st with
             | Some y, _ => QRaise y
             | None, x :: _ => QRaise x
             | None, [] => QNormal
             end.
Proof.
  intros Hl Hc Ha. cbv zeta. rewrite (tie_union_close_outcome raises cur cur_thread thr_exc m st Hl Hc Ha).
  destruct st. simpl in *. subst. repeat split; try (destruct thr_exc; reflexivity).
Qed.

(** ExcThread: run() stores what the target raised, join() re-raises it (so
    ThreadDoneCallback.close() = `self._t.join()` re-raises what _monitor raised) *)
Theorem tie_excthread_join_reraises raises cur cur_thread thr_exc target_exc st :
  let st1 := fst (invoke raises true cur cur_thread thr_exc target_exc (PVMeth ObExcThread "run"%string) [] st) in
  snd (invoke raises true cur cur_thread thr_exc target_exc (PVMeth ObExcThread "run"%string) [] st) = QNormal
  /\ snd (invoke raises true cur cur_thread thr_exc target_exc (PVMeth ObExcThread "join"%string) [] st1)
     = match target_exc with Some x => QRaise x | None => QNormal end.
Proof.
  cbv zeta. rewrite excthread_run_exec. simpl. rewrite excthread_join_exec. destruct st. simpl.
  split; reflexivity.
Qed.

Theorem tie_task_init : exists d,
  task_init_params = [(d, Some ENone)] /\
  forall f e, In (f, e) task_init <->
    (f, e) = (FDone, EVar d) \/ (f, e) = (FActive, ENewSet) \/ (f, e) = (FExceptions, ENewList).
Proof.
  eexists. split; [reflexivity|]. intros f e. simpl. split.
  - intros H. repeat destruct H as [H|H]; try (rewrite <- H; tauto). destruct H.
  - intros H. repeat destruct H as [H|H]; rewrite H; tauto.
Qed.

(** both helpers of the union are given the SAME `done` *)
Theorem tie_union_init : exists d i,
  union_init_params = [(d, Some ENone); (i, Some EOpaque)] /\
  forall f e, In (f, e) union_init <->
    (f, e) = (FThreadCb, ENew "ThreadDoneCallback" [("done"%string, EVar d); ("interval"%string, EVar i)])
    \/ (f, e) = (FTaskCb, ENew "TaskDoneCallback" [("done"%string, EVar d)]).
Proof.
  eexists _, _. split; [reflexivity|]. intros f e. simpl. split.
  - intros H. repeat destruct H as [H|H]; try (rewrite <- H; tauto). destruct H.
  - intros H. repeat destruct H as [H|H]; rewrite H; tauto.
Qed.

(** non-vacuity: a history with a re-registration, an unregistered task, a raising callback,
    close called while two tasks are active; all eight method pairs *)
Definition ex_os : list top := [TReg 1; TReg 2; TReg 1; TComplete 2; TClose; TComplete 3; TComplete 1].

Example tie_task_example :
  Forall (op_ok (InTask 7)) ex_os /\ twf ex_os
  /\ outs_of (fun t => t =? 2) NoLoop 0 None false MClose ex_os
     = [[]; []; []; [ICb 2 true]; []; []; [ICb 1 false; ICloseRet (Some (PXCb 2))]]
  /\ outs_of (fun t => t =? 2) (InTask 7) 0 None false MAexit ex_os
     = [[]; []; []; [ICb 2 true]; []; []; [ICb 1 false; ICloseRet (Some (PXCb 2))]]
  /\ outs_of (fun _ => false) (InTask 7) 0 (Some (PXOther 5)) true MAclose ex_os
     = [[]; []; []; [ICb 2 false]; []; []; [ICb 1 false; IThrClose; ICloseRet (Some (PXOther 5))]]
  /\ outs_of (fun t => t =? 2) LoopNoTask 0 (Some (PXOther 5)) true MExit ex_os
     = [[]; []; []; [ICb 2 true]; []; []; [ICb 1 false; IThrClose; ICloseRet (Some (PXOther 5))]]
  /\ outs_of (fun t => t =? 2) LoopNoTask 0 None true MExit ex_os
     = [[]; []; []; [ICb 2 true]; []; []; [ICb 1 false; IThrClose; ICloseRet (Some (PXCb 2))]]
  /\ outs_of (fun _ => false) (InTask 1) 0 None true MClose ex_os
     = [[]; []; []; [ICb 2 false]; [IThrClose; ICloseRet (Some PXRuntime)]; []; [ICb 1 false]].
Proof.
  split; [repeat constructor; discriminate|]. split; [vm_compute; intuition discriminate|].
  vm_compute. repeat split; reflexivity.
Qed.
