(** The progress statements of C18 in terms of runs and histories. *)
From NL Require Import DoneCb.Model DoneCb.Safety DoneCb.Inv DoneCb.Live DoneCb.Term DoneCb.Main.
From Coq Require Import Lia.

Section Progress.
Variable raises : nat -> bool.

Theorem no_deadlock ls w :
  let s := run raises ls in
  unfinished s w ->
    enabled raises s w
    \/ (at_acquire s w /\ exists h, lock s = Some h /\ h <> w /\ unfinished s h /\ enabled raises s h)
    \/ (w = Closer /\ closer s = CJoining /\ unfinished s Mon).
Proof. intros s. apply (no_deadlock_state raises _ s (Inv_run raises ls) (Inv2_run raises ls)). Qed.

Theorem no_deadlock_some ls :
  let s := run raises ls in
  (exists w, unfinished s w) ->
  exists w, unfinished s w /\ enabled raises s w /\ fst (step raises s (Step w)) <> s.
Proof.
  intros s H. destruct (some_enabled raises _ s (Inv_run raises ls) (Inv2_run raises ls) H) as (w & H1 & H2).
  exists w. split; [exact H1|]. split; [exact H2|]. apply enabled_changes. exact H2.
Qed.

Lemma ev_ghost_rgc evs : forall g, g_rgc (fold_left ev_ghost evs g) = g_rgc g.
Proof.
  induction evs as [|e r IH]; intros g; simpl; [reflexivity|]. rewrite IH. destruct e; reflexivity.
Qed.

Lemma grun_steps_rgc ls' : steps_only ls' -> forall g s,
  g_rgc (fst (grun_from raises g s ls')) = g_rgc g.
Proof.
  induction ls' as [|l r IH]; intros Hs g s; simpl; [reflexivity|].
  destruct (Hs l (or_introl eq_refl)) as [w ->].
  destruct (step raises s (Step w)) as [s' o]. rewrite IH by (intros x Hx; apply Hs; right; exact Hx).
  unfold g_step. rewrite ev_ghost_rgc. reflexivity.
Qed.

Lemma rgc_steps ls ls' : steps_only ls' ->
  registered_before_close raises (ls ++ ls') = registered_before_close raises ls.
Proof.
  intros Hs. unfold registered_before_close.
  pose proof (grun_spec raises (ls ++ ls')) as H1. pose proof (grun_spec raises ls) as H2.
  rewrite grun_app, H2 in H1. simpl in H1.
  pose proof (grun_steps_rgc ls' Hs (ghost_of (history raises ls)) (run raises ls)) as H3.
  rewrite H1 in H3. exact H3.
Qed.

(** close() can always return: from every reachable state in which close() has been called
    and every thread that started has ended, some continuation of Step labels makes close()
    return; every thread registered before close() was called has then been called back
    exactly once *)
Theorem close_can_return ls :
  closer (run raises ls) <> CNone -> all_ended (run raises ls) ->
  exists ls', steps_only ls' /\ close_results raises (ls ++ ls') <> [] /\
    forall t, In t (registered_before_close raises ls) ->
      count_occ Nat.eq_dec (called raises (ls ++ ls')) t = 1 /\ In t (ended raises (ls ++ ls')).
Proof.
  intros Hc Hend. destruct (close_can_finish raises ls Hc Hend) as (ls' & Hs & e & He).
  exists ls'. split; [exact Hs|].
  assert (Hin : In e (close_results raises (ls ++ ls'))).
  { apply (j_cr _ _ (Inv2_run raises (ls ++ ls'))). exact He. }
  split; [intros E; rewrite E in Hin; destruct Hin|].
  intros t Ht. apply (thread_exactly_once raises (ls ++ ls') e Hin). rewrite rgc_steps by exact Hs. exact Ht.
Qed.

Lemma closer_kept ls' : steps_only ls' -> forall ls,
  closer (run raises ls) <> CNone -> closer (run raises (ls ++ ls')) <> CNone.
Proof.
  induction ls' as [|l r IH]; intros Hs ls Hc; [rewrite app_nil_r; exact Hc|].
  destruct (Hs l (or_introl eq_refl)) as [w ->]. rewrite <- run_app_snoc.
  apply IH; [intros x Hx; apply Hs; right; exact Hx|]. rewrite run_snoc. apply closer_not_reset. exact Hc.
Qed.

(** no scheduler can avoid close() returning: once `_closed` is set, a continuation of Step labels has
    at most [mu] effective steps, and whenever nothing is enabled any more close() has returned *)
Theorem stuck_means_returned ls ls' :
  steps_only ls' -> closer (run raises ls) <> CNone ->
  (forall w, ~ enabled raises (run raises (ls ++ ls')) w) ->
  exists e, closer (run raises (ls ++ ls')) = CDone e.
Proof.
  intros Hs Hc Hstuck. pose proof (closer_kept ls' Hs ls Hc) as Hc'.
  destruct (closer (run raises (ls ++ ls'))) eqn:Ec; try (elim Hc'; reflexivity); eauto.
  all: exfalso; destruct (some_enabled raises _ _ (Inv_run raises (ls ++ ls')) (Inv2_run raises (ls ++ ls')))
         as (w & _ & Hen); [exists Closer; simpl; rewrite Ec; exact Logic.I|exact (Hstuck w Hen)].
Qed.

End Progress.

(** example: the lost-update schedule of the unrepaired code, cut where close() is called (both threads
    have ended) and where close() has set `_closed` and waits in join() *)
Definition pre_close : list label := firstn 25 w_lost_update.
Definition pre_closed : list label := firstn 29 w_lost_update.
Definition rest_closed : list label := skipn 29 w_lost_update.

Lemma all_ended_example : all_ended (run nobody pre_close) /\ all_ended (run nobody pre_closed).
Proof.
  split; intros t; destruct t as [|[|[|t]]]; vm_compute; auto.
Qed.

Lemma example_progress :
  closer (run nobody pre_close) = CLoad /\ closed (run nobody pre_close) = false
  /\ closer (run nobody pre_closed) = CJoining /\ closed (run nobody pre_closed) = true
  /\ mu (run nobody pre_closed) = 20
  /\ effective nobody (run nobody pre_closed) rest_closed = 19
  /\ pre_closed ++ rest_closed = w_lost_update
  /\ close_results nobody w_lost_update = [None]
  /\ unfinished (run nobody pre_closed) Closer /\ ~ enabled nobody (run nobody pre_closed) Closer
  /\ enabled nobody (run nobody pre_closed) Mon.
Proof.
  vm_compute. repeat split; try reflexivity; try exact Logic.I; try discriminate.
  intros H. apply H. reflexivity.
Qed.

Lemma steps_only_rest : steps_only rest_closed.
Proof.
  intros l H. vm_compute in H.
  repeat (destruct H as [<-|H]; [eauto|]). destruct H.
Qed.
