(** The C18 statements about the model of the repaired thread.py, in terms of the
    observable history; for EVERY schedule and any number of registering threads. *)
From NL Require Import DoneCb.Model DoneCb.Safety DoneCb.Inv.
From Coq Require Import Lia.

Section Main.
Variable raises : nat -> bool.

(** what a history shows (functions of the history alone, see Inv.ghost_of) *)
Definition called (ls : list label) : list nat := g_cl (ghost_of (history raises ls)).
Definition registered (ls : list label) : list nat := g_rg (ghost_of (history raises ls)).
(** threads whose register() had returned when close() was called *)
Definition registered_before_close (ls : list label) : list nat := g_rgc (ghost_of (history raises ls)).
Definition ended (ls : list label) : list nat := g_dd (ghost_of (history raises ls)).
Definition close_results (ls : list label) : list (option exn) := g_cr (ghost_of (history raises ls)).
Definition monitor_exits (ls : list label) : list (option exn) := g_mx (ghost_of (history raises ls)).
Definition first_raised (ls : list label) : option exn := hd_error (map ExCb (g_rz (ghost_of (history raises ls)))).

(** at any time: never twice, only registered threads, only after the thread ended.
    (The statement holds for every schedule, hence for the prefix that ends with the
    callback: the [Die t] label precedes the step that invokes the callback.) *)
Theorem thread_at_most_once ls :
  NoDup (called ls) /\ forall t, In t (called ls) -> In t (ended ls) /\ In t (registered ls).
Proof.
  pose proof (Inv_run raises ls) as I. split; [apply (i_cl_nodup _ _ I)|].
  intros t H. apply (i_dead _ _ I). apply (i_cl_dead _ _ I). exact H.
Qed.

(** close() returns only after the monitor thread ended, with the monitor's exception *)
Theorem close_after_monitor ls e : In e (close_results ls) -> In e (monitor_exits ls).
Proof.
  pose proof (Inv_run raises ls) as I. intros H.
  apply (i_mx_rev _ _ I). apply (i_cdone _ _ I). apply (i_cr _ _ I). exact H.
Qed.

(** the monitor thread can only end with the first callback exception (or normally):
    "Set changed size during iteration" is impossible *)
Theorem no_iteration_error ls e :
  In e (monitor_exits ls) -> e = first_raised ls /\ e <> Some ExSetChanged.
Proof.
  pose proof (Inv_run raises ls) as I. intros H.
  destruct (i_exit _ _ I e (i_mx _ _ I e H)) as (He & _). split; [exact He|].
  rewrite He. destruct (g_rz (ghost_of (history raises ls))); simpl; discriminate.
Qed.

(** once close() has returned, every thread registered before close() was called has ended
    and its callback was invoked exactly once *)
Theorem thread_exactly_once ls e :
  In e (close_results ls) ->
  forall t, In t (registered_before_close ls) ->
    count_occ Nat.eq_dec (called ls) t = 1 /\ In t (ended ls).
Proof.
  intros Hc t Hr. pose proof (Inv_run raises ls) as I.
  assert (Hx : m_pc (run raises ls) = MExited e).
  { apply (i_cdone _ _ I). apply (i_cr _ _ I). exact Hc. }
  destruct (i_exit _ _ I e Hx) as (_ & Hall & _). specialize (Hall t Hr). split.
  - apply NoDup_count_occ'; [apply (i_cl_nodup _ _ I)|exact Hall].
  - apply (i_dead _ _ I). apply (i_cl_dead _ _ I). exact Hall.
Qed.

Theorem close_waits ls e :
  In e (close_results ls) ->
  forall t, In t (registered_before_close ls) -> In t (called ls) /\ In t (ended ls).
Proof.
  intros Hc t Hr. destruct (thread_exactly_once ls e Hc t Hr) as (H1 & H2). split; [|exact H2].
  apply (count_occ_In Nat.eq_dec). lia.
Qed.

(** close() re-raises exactly the first callback exception, returns normally if there is none *)
Theorem exception_reraised ls e : In e (close_results ls) -> e = first_raised ls.
Proof.
  intros Hc. pose proof (Inv_run raises ls) as I.
  apply (i_exit _ _ I). apply (i_cdone _ _ I). apply (i_cr _ _ I). exact Hc.
Qed.

(** mutual exclusion: a registering thread inside `with self._lock` excludes the monitor's
    scan / rebuild / exit check, and any other registering thread *)
Theorem lock_excludes ls t :
  let s := run raises ls in
  reg_locked (regs s t) -> ~ mon_locked (m_pc s) /\ forall t', reg_locked (regs s t') -> t' = t.
Proof.
  intros s H. pose proof (Inv_run raises ls) as I. fold s in I.
  apply (i_lock_reg _ _ I) in H. split.
  - intros Hm. apply (i_lock_mon _ _ I) in Hm. congruence.
  - intros t' H'. apply (i_lock_reg _ _ I) in H'. congruence.
Qed.

End Main.

(** concrete schedules: the three schedules on which the unrepaired code lost a callback
    (as executed on the repaired class by the harness, drain included), and the same races
    aimed at the repaired code, where the registering thread now waits for the lock *)
Definition nobody : nat -> bool := fun _ => false.
Definition only1 : nat -> bool := fun t => t =? 1.

Definition w_iteration : list label :=
  [Step Mon; Step Mon; Arrive 1%nat; Step (Reg 1%nat); Step (Reg 1%nat); Step Mon; Step Mon; Step Mon; Step Mon; Step Mon; Step Mon; Step (Reg 1%nat); Step (Reg 1%nat); Step (Reg 1%nat); Step (Reg 1%nat); Die 1%nat; CloseCall; Step Closer; Step Closer; Step Closer; Step Closer; Step Mon; Step Mon; Step Mon; Step Mon; Step Mon; Step Mon; Step Mon; Step Mon; Step Mon; Step Mon; Step Mon; Step Mon; Step Mon; Step Mon; Step Mon; Step Mon; Step Mon; Step Mon; Step Mon; Step Mon].
Definition w_lost_update : list label :=
  [Arrive 1%nat; Step (Reg 1%nat); Step (Reg 1%nat); Die 1%nat; Step Mon; Step Mon; Step Mon; Step Mon; Step Mon; Step Mon; Step Mon; Step Mon; Arrive 2%nat; Step (Reg 2%nat); Step (Reg 2%nat); Step Mon; Step (Reg 1%nat); Step (Reg 1%nat); Step (Reg 2%nat); Step (Reg 2%nat); Step (Reg 2%nat); Step (Reg 2%nat); Die 1%nat; Die 2%nat; CloseCall; Step Closer; Step Closer; Step Closer; Step Closer; Step Mon; Step Mon; Step Mon; Step Mon; Step Mon; Step Mon; Step Mon; Step Mon; Step Mon; Step Mon; Step Mon; Step Mon; Step Mon; Step Mon; Step Mon; Step Mon; Step Mon; Step Mon; Step Mon].
Definition w_exit_race : list label :=
  [Step Mon; Step Mon; Step Mon; Step Mon; Step Mon; Arrive 1%nat; Step (Reg 1%nat); Step (Reg 1%nat); CloseCall; Step Closer; Step Closer; Step Closer; Step Mon; Step Mon; Step Mon; Step (Reg 1%nat); Step (Reg 1%nat); Step (Reg 1%nat); Step (Reg 1%nat); Die 1%nat; Step Closer; Step Mon; Step Mon; Step Mon; Step Mon; Step Mon; Step Mon; Step Mon; Step Mon; Step Mon; Step Mon; Step Mon; Step Mon; Step Mon; Step Mon; Step Mon; Step Mon; Step Mon; Step Mon; Step Mon; Step Mon].
Definition w_iteration_locked : list label :=
  [Step Mon; Step Mon; Step Mon; Arrive 1%nat; Step (Reg 1%nat); Step (Reg 1%nat); Step Mon; Step (Reg 1%nat); Step Mon; Step Mon; Step Mon; Step Mon; Step (Reg 1%nat); Step (Reg 1%nat); Step (Reg 1%nat); Step (Reg 1%nat); Die 1%nat; CloseCall; Step Closer; Step Closer; Step Closer; Step Closer; Step Mon; Step Mon; Step Mon; Step Mon; Step Mon; Step Mon; Step Mon; Step Mon; Step Mon; Step Mon; Step Mon; Step Mon; Step Mon; Step Mon; Step Mon; Step Mon; Step Mon; Step Mon; Step Mon; Step Mon].
Definition w_lost_update_locked : list label :=
  [Arrive 1%nat; Step (Reg 1%nat); Step (Reg 1%nat); Step (Reg 1%nat); Step (Reg 1%nat); Die 1%nat; Step Mon; Step Mon; Step Mon; Step Mon; Step Mon; Step Mon; Step Mon; Step Mon; Arrive 2%nat; Step (Reg 2%nat); Step (Reg 2%nat); Step Mon; Step (Reg 2%nat); Step Mon; Step (Reg 2%nat); Step (Reg 2%nat); Step (Reg 2%nat); Step (Reg 2%nat); Die 2%nat; CloseCall; Step Closer; Step Closer; Step Closer; Step Closer; Step Mon; Step Mon; Step Mon; Step Mon; Step Mon; Step Mon; Step Mon; Step Mon; Step Mon; Step Mon; Step Mon; Step Mon; Step Mon; Step Mon; Step Mon; Step Mon; Step Mon; Step Mon; Step Mon; Step Mon; Step Mon].
Definition w_exit_race_locked : list label :=
  [Step Mon; Step Mon; Step Mon; Step Mon; Step Mon; Step Mon; Step Mon; Step Mon; Step Mon; Step Mon; Step Mon; Arrive 1%nat; Step (Reg 1%nat); Step Mon; Step (Reg 1%nat); Step Mon; Step (Reg 1%nat); Step (Reg 1%nat); Step (Reg 1%nat); Step (Reg 1%nat); CloseCall; Step Closer; Step Closer; Step Closer; Die 1%nat; Step Closer; Step Mon; Step Mon; Step Mon; Step Mon; Step Mon; Step Mon; Step Mon; Step Mon; Step Mon; Step Mon; Step Mon; Step Mon; Step Mon; Step Mon; Step Mon; Step Mon].

Definition blocked_steps (ls : list label) : nat :=
  length (filter (fun lo => match lo with (Step _, ODisabled) => true | _ => false end) (history nobody ls)).

Lemma example_former_witnesses :
  (close_results nobody w_iteration = [None] /\ registered_before_close nobody w_iteration = [1]
   /\ called nobody w_iteration = [1] /\ monitor_exits nobody w_iteration = [None])
  /\ (close_results nobody w_lost_update = [None] /\ registered_before_close nobody w_lost_update = [2; 1]
      /\ called nobody w_lost_update = [2; 1])
  /\ (close_results nobody w_exit_race = [None] /\ registered nobody w_exit_race = [1]
      /\ called nobody w_exit_race = [1]).
Proof. vm_compute. intuition. Qed.

Lemma example_locked :
  (close_results nobody w_iteration_locked = [None] /\ called nobody w_iteration_locked = [1]
   /\ blocked_steps w_iteration_locked = 3)
  /\ (close_results nobody w_lost_update_locked = [None] /\ called nobody w_lost_update_locked = [2; 1]
      /\ blocked_steps w_lost_update_locked = 3)
  /\ (close_results nobody w_exit_race_locked = [None] /\ called nobody w_exit_race_locked = [1]
      /\ registered_before_close nobody w_exit_race_locked = [1] /\ blocked_steps w_exit_race_locked = 2).
Proof. vm_compute. intuition. Qed.

Lemma example_raises :
  close_results only1 w_lost_update = [Some (ExCb 1)] /\ first_raised only1 w_lost_update = Some (ExCb 1)
  /\ called only1 w_lost_update = [2; 1] /\ ended only1 w_lost_update = [2; 1].
Proof. vm_compute. intuition. Qed.
