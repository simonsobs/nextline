(** System/Pipeline.v -- the event pipeline END TO END, as a composition of the models of
    C09 (the subprocess' emitter), C10 (the relay between the processes), C11 (the
    main-process registrars) and C08 (the broker's topics).

      per-actor structured programs [ps], any interleaving [sched]
        --Events/Emitter.v-->  the stream the subprocess puts on its queue
        --Relay/Model.v, any interleaving [ls] of child, feeder, monitor, drain loop,
          timeout and kill-->  the events for which the main-process hooks are called
        --Registrars/Model.v-->  what the registrars publish
        --PubSub/Model.v-->  what a subscriber sees.

    The relay model treats events as opaque numbers (it never inspects them); here the
    stream is fed to it as the list of its own POSITIONS [0; 1; ...; n-1] and what it delivers
    is decoded back.  Every theorem below is stated for ALL programs, schedules, relay
    interleavings and kill points; none has a hypothesis about well-formedness: that is
    supplied by the emitter theorem.

    Proofs only compose the per-property theorems; no new facts about the code enter here. *)
From NL Require Import Events.Grammar Events.GrammarProofs Events.Emitter Events.EmitterProofs.
From NL Require Import Registrars.Model Registrars.Proofs.
From NL Require Relay.Model Relay.Proofs.
From Coq Require Import Lia.
Open Scope Z_scope.

Module R := NL.Relay.Model.

Definition encode (es : list event) : list Z := map Z.of_nat (seq 0 (length es)).

Definition decode (es : list event) (zs : list Z) : list event :=
  flat_map (fun z => match nth_error es (Z.to_nat z) with Some e => [e] | None => [] end) zs.

(** what the main-process hooks are called with, when the subprocess would emit [es] and the
    two processes interleave as [ls] *)
Definition delivered_events (boot : bool) (es : list event) (ls : list R.label) : list event :=
  decode es (R.delivered (R.run boot (encode es) ls)).

Lemma decode_app es a b : decode es (a ++ b) = decode es a ++ decode es b.
Proof. unfold decode. apply flat_map_app. Qed.

Lemma decode_cons es z zs :
  decode es (z :: zs) =
  (match nth_error es (Z.to_nat z) with Some e => [e] | None => [] end) ++ decode es zs.
Proof. reflexivity. Qed.

Lemma decode_beyond (es : list event) : forall n m, (length es <= m)%nat ->
  decode es (map Z.of_nat (seq m n)) = [].
Proof.
  induction n as [|n IHn]; intros m Hm; [reflexivity|]. cbn [seq map].
  rewrite decode_cons, Nat2Z.id.
  replace (nth_error es m) with (@None event) by (symmetry; apply nth_error_None; lia).
  cbn [app]. apply IHn. lia.
Qed.

Lemma decode_seq : forall k (es pre : list event),
  decode (pre ++ es) (map Z.of_nat (seq (length pre) k)) = firstn k es.
Proof.
  induction k as [|k IH]; intros es pre; [reflexivity|].
  destruct es as [|e es].
  - rewrite app_nil_r, firstn_nil. apply decode_beyond. lia.
  - cbn [seq map]. rewrite decode_cons, Nat2Z.id.
    rewrite nth_error_app2 by lia. rewrite Nat.sub_diag. cbn [nth_error app firstn]. f_equal.
    specialize (IH es (pre ++ [e])). rewrite <- app_assoc in IH. cbn [app] in IH.
    rewrite app_length in IH. cbn [length] in IH. rewrite Nat.add_1_r in IH. exact IH.
Qed.

Lemma firstn_seq_le : forall k a n, (k <= n)%nat -> firstn k (seq a n) = seq a k.
Proof.
  induction k as [|k IH]; intros a n H; [reflexivity|].
  destruct n as [|n]; [lia|]. cbn [seq firstn]. f_equal. apply IH. lia.
Qed.

(** a prefix of [a; a+1; ...] is such a list itself *)
Lemma seq_prefix a n (zs rest : list nat) : seq a n = zs ++ rest -> zs = seq a (length zs).
Proof.
  intros H. assert (Hl : (length zs <= n)%nat).
  { apply (f_equal (@length nat)) in H. rewrite seq_length, app_length in H. lia. }
  apply (f_equal (firstn (length zs))) in H.
  rewrite firstn_seq_le, firstn_app, Nat.sub_diag, firstn_O, app_nil_r, firstn_all in H by exact Hl.
  symmetry. exact H.
Qed.

Lemma decode_prefix es zs rest : encode es = zs ++ rest -> decode es zs = firstn (length zs) es.
Proof.
  intros H. destruct (map_eq_app _ _ _ _ H) as (l1 & l2 & E & <- & _).
  rewrite (seq_prefix _ _ _ _ E), map_length, seq_length. exact (decode_seq (length l1) es []).
Qed.

Lemma decode_encode es : decode es (encode es) = es.
Proof.
  rewrite (decode_prefix es (encode es) []) by (symmetry; apply app_nil_r).
  unfold encode. rewrite map_length, seq_length. apply firstn_all.
Qed.

(** whatever the interleaving and the kill point, the hooks are called with a PREFIX of the
    stream, in stream order, each event once *)
Theorem delivered_is_prefix boot es ls :
  exists k, delivered_events boot es ls = firstn k es.
Proof.
  unfold delivered_events.
  destruct (Relay.Proofs.prefix_always boot (encode es) ls) as [[r1 H1] [[r2 H2] _]].
  remember (R.run boot (encode es) ls) as s eqn:Hs. clear Hs.
  exists (length (R.delivered s)).
  apply (decode_prefix es _ (r1 ++ r2)). rewrite H2, H1. apply app_assoc_reverse.
Qed.

(** a run that ends normally delivers the whole stream *)
Theorem delivered_is_everything boot es ls :
  R.main (R.run boot (encode es) ls) = R.PEndRun -> R.child (R.run boot (encode es) ls) = R.CExited ->
  delivered_events boot es ls = es.
Proof.
  intros Hm Hc. unfold delivered_events.
  destruct (Relay.Proofs.complete_in_order boot (encode es) ls Hm Hc) as [H _]. rewrite H. apply decode_encode.
Qed.

(** what a recording plugin sees (the relay model's log, [ODeliver] entries) is the same prefix:
    the composition below goes through [delivered], and [delivered] is what the log shows *)
Theorem log_shows_delivered boot es ls :
  decode es (R.deliveries (R.log (R.run boot (encode es) ls))) = delivered_events boot es ls.
Proof.
  unfold delivered_events. destruct (Relay.Proofs.prefix_always boot (encode es) ls) as [_ [_ H]]. rewrite H. reflexivity.
Qed.

(** on_end_run is called only after every delivery: once the relay has reached [PEndRun] nothing is
    delivered any more, so the publications of the registrars for the whole run are those of
    [pubs_run] on [delivered_events] (init, start, the delivered events in order, then on_end_run) *)
Theorem nothing_delivered_after_end_run boot es ls l :
  R.main (R.run boot (encode es) ls) = R.PEndRun ->
  delivered_events boot es (ls ++ [l]) = delivered_events boot es ls.
Proof.
  intros H. unfold delivered_events.
  pose proof (Relay.Proofs.nothing_after_end boot (encode es) ls l H) as Hl.
  destruct (Relay.Proofs.prefix_always boot (encode es) (ls ++ [l])) as [_ [_ H1]].
  destruct (Relay.Proofs.prefix_always boot (encode es) ls) as [_ [_ H2]].
  rewrite <- H1, <- H2, Hl. reflexivity.
Qed.

(** C09 + C10: what reaches the main process is a well-formed stream cut at some point *)

Lemma wf_prefix_firstn r es k : wf_prefix r es = true -> wf_prefix r (firstn k es) = true.
Proof. intros H. rewrite <- (firstn_skipn k es) in H. exact (wf_prefix_app r _ _ H). Qed.

Theorem delivered_wf_prefix r ps sched boot ls :
  wf_prefix r (delivered_events boot (emitted r ps sched) ls) = true.
Proof.
  destruct (delivered_is_prefix boot (emitted r ps sched) ls) as [k Hk]. rewrite Hk.
  apply wf_prefix_firstn, emitter_prefix.
Qed.

Theorem delivered_wf_when_complete r ps sched boot ls :
  finished r ps sched = true ->
  R.main (R.run boot (encode (emitted r ps sched)) ls) = R.PEndRun ->
  R.child (R.run boot (encode (emitted r ps sched)) ls) = R.CExited ->
  WF r (delivered_events boot (emitted r ps sched) ls).
Proof.
  intros Hf Hm Hc. rewrite (delivered_is_everything _ _ _ Hm Hc). exact (emitter_wf r ps sched Hf).
Qed.

(** The [e2e_closed_out_*] theorems speak of [pubs_run], i.e. they are about runs in which on_end_run
    IS called (every run whose relay ends; a child killed inside a pipe write never gets there:
    C10_kill_mid_write_never_ends). *)
Section EndToEnd.
  Variables (r : Z) (ps : list prog) (sched : list nat) (boot : bool) (ls : list R.label).
  Let del := delivered_events boot (emitted r ps sched) ls.

  (** after the events that got through, the published active set is the set of traces that
      (as far as the main process was told) started and did not end, in start order *)
  Theorem e2e_active_set : last_nos (pubs_events r del) = active del.
  Proof. apply active_set. apply delivered_wf_prefix. Qed.

  (** and once on_end_run has run it is empty, whatever got through *)
  Theorem e2e_closed_out_active_set : last_nos (pubs_run r del) = [].
  Proof. apply active_set_closed. Qed.

  (** every trace whose start got through is reported running then finished, once each *)
  Theorem e2e_trace_info_once : forall t,
    filter (about t) (on_topic TTraceInfo (pubs_run r del)) =
    if in_dec Z.eq_dec t (trace_starts del)
    then [Some (VTraceInfo r t (pl_of t del) true); Some (VTraceInfo r t (pl_of t del) false)]
    else [].
  Proof. apply trace_info_once. apply delivered_wf_prefix. Qed.

  (** notices match the prompt starts that got through, one to one *)
  Theorem e2e_notice_bijection : on_topic TPromptNotice (pubs_events r del) = notices r del del.
  Proof. apply notice_bijection. apply delivered_wf_prefix. Qed.

  (** the per-trace prompt topics of the traces that got through, and prompt_notice, are ended,
      as the last thing sent on them *)
  Theorem e2e_closed_out_prompt_topics :
    (forall t, In t (trace_starts del) ->
       exists vs, on_topic (TPromptInfoFor t) (pubs_run r del) = map Some vs ++ [None]) /\
    (exists vs, on_topic TPromptNotice (pubs_run r del) = map Some vs ++ [None]).
  Proof. apply closed_out_prompt_topics. apply delivered_wf_prefix. Qed.

  (** hence (C08) every subscriber of such a topic terminates, whenever it attached and however
      it was scheduled against the registrar's publications.  [PS] is the broker model
      (PubSub/Model.v); [forget], [is_publisher_op], [to_op] (a topic's publications as broker
      operations) and [ended_topic_terminates] are those of Registrars/Proofs.v *)
  Theorem e2e_subscribers_terminate : forall t ops,
    In t (trace_starts del) ->
    map forget (filter is_publisher_op ops) = map to_op (on_topic (TPromptInfoFor t) (pubs_run r del)) ->
    forall s, (s < length (PS.i_subs (PS.run false ops)))%nat ->
    exists n,
      let tail := skipn (length ops) (PS.outs false (ops ++ repeat (PS.Next s) (S n))) in
      last tail PS.OBlocked = PS.OStop /\ ~ In PS.OBlocked tail.
  Proof.
    intros t ops Ht Hops s Hs. destruct e2e_closed_out_prompt_topics as [H _].
    exact (ended_topic_terminates _ ops (H t Ht) Hops s Hs).
  Qed.
End EndToEnd.
