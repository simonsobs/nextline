(** System/PipelineCode.v -- the end-to-end statements of System/Pipeline.v restated over the REGENERATED CODE of the four
    components that have a regenerated-source tie: the emitter interpreter ([Events/Interp.v] on [Gen/EmitterSkel.v]), the relay
    interpreter ([Relay/Tie.v] on [Gen/RelaySkel.v]), the registrars interpreter ([Registrars/Tie.v] on
    [Gen/RegistrarsFuns.v]) and, for the last theorem, the broker item's interpreter ([PubSub/Interp.v], tied in [PubSub/Tie.v]).
    Nothing is proved anew: each statement rewrites one of Pipeline.v with the four tie theorems
    ([tie_same_stream], [tie_same_histories], [tie_whole_run_stop] / [tie_whole_run_topics], [tie_outs]).

    Reading: take what the subprocess' CODE puts on its queue for any programs and schedule; push it through the relay CODE under
    any interleaving and kill point; feed what comes out to the registrars' CODE (which stops at the first exception, as the real
    relay does).  Then the registrars never raise, the run is never cut short, and what they publish on every topic is the
    encoding of [pubs_run] on the delivered prefix -- the sequence all the C11 theorems speak about. *)
From NL Require Import Events.Grammar Events.GrammarProofs Events.Emitter Events.EmitterProofs.
From NL Require Import Registrars.Model Registrars.Proofs System.Pipeline.
From NL Require Events.Interp Events.Tie Relay.Tie Registrars.Tie PubSub.Interp PubSub.Tie.
From Coq Require Import String.
Open Scope Z_scope.

Module EI := NL.Events.Interp.
Module RT := NL.Relay.Tie.
Module GT := NL.Registrars.Tie.
Module PI := NL.PubSub.Interp.

(** the topic of the run number, as a [string] (this file is in [Z_scope]) *)
Definition k_run_no : string := "run_no".

(** the events for which the relay CODE calls the main-process hooks, when the subprocess' CODE emits under [ps], [sched] *)
Definition code_delivered (r : Z) (ps : list prog) (sched : list nat) (boot : bool) (ls : list R.label) : list event :=
  let es := EI.iemitted r ps sched in
  decode es (RT.d_delivered (RT.dd (RT.irun boot (encode es) ls))).

Lemma code_delivered_is_model r ps sched boot ls :
  code_delivered r ps sched boot ls = delivered_events boot (emitted r ps sched) ls.
Proof.
  unfold code_delivered, delivered_events. rewrite Events.Tie.tie_same_stream.
  destruct (RT.tie_same_histories boot (encode (emitted r ps sched)) ls) as [_ [H _]]. rewrite H. reflexivity.
Qed.

(** emitter code + relay code: a well-formed stream cut at some point, a prefix of what was emitted *)
Theorem code_delivered_wf_prefix r ps sched boot ls : wf_prefix r (code_delivered r ps sched boot ls) = true.
Proof. rewrite code_delivered_is_model. apply delivered_wf_prefix. Qed.

Theorem code_delivered_is_prefix r ps sched boot ls :
  exists k, code_delivered r ps sched boot ls = firstn k (EI.iemitted r ps sched).
Proof.
  rewrite code_delivered_is_model, Events.Tie.tie_same_stream. apply delivered_is_prefix.
Qed.

(** + registrars code: the interpreted run over the delivered events is never cut short by an exception and publishes exactly
    the model's [pubs_run] (after the run_no publication of on_initialize_run) *)
Theorem code_whole_run r ps sched boot ls :
  let del := code_delivered r ps sched boot ls in
  GT.run_whole_stop r del =
  Some (GT.loadR r (fst (on_end_run r (state_events r del))),
        GT.GPub (NL.Registrars.Syntax.VStr k_run_no) (NL.Registrars.Syntax.VInt r) :: map GT.enc_pub (pubs_run r del), false).
Proof. intros del. apply GT.tie_whole_run_stop. apply code_delivered_wf_prefix. Qed.

(** per topic: what the registrars' code sends is the encoding of the sequence the C11 theorems characterise *)
Theorem code_topics r ps sched boot ls :
  let del := code_delivered r ps sched boot ls in
  exists G pubs, GT.run_whole r del = Some (G, pubs) /\
    forall k, GT.g_on_topic k pubs = map (option_map GT.enc_value) (on_topic k (pubs_run r del)).
Proof. intros del. apply GT.tie_whole_run_topics. Qed.

(** hence, on the code: the active set published last is empty, and every per-trace prompt topic of a trace whose start got
    through ends with the end marker *)
Theorem code_closed_out r ps sched boot ls :
  let del := code_delivered r ps sched boot ls in
  last_nos (pubs_run r del) = [] /\
  (forall t, In t (trace_starts del) ->
     exists vs, on_topic (TPromptInfoFor t) (pubs_run r del) = map Some vs ++ [None]) /\
  (exists vs, on_topic TPromptNotice (pubs_run r del) = map Some vs ++ [None]).
Proof.
  intros del. unfold del. rewrite code_delivered_is_model.
  exact (conj (e2e_closed_out_active_set r ps sched boot ls) (e2e_closed_out_prompt_topics r ps sched boot ls)).
Qed.

(** + broker code (C08's regenerated PubSubItem, [PubSub/Tie.v]): a subscriber of the per-trace prompt topic of a trace whose
    start got through, attached whenever and scheduled however against the registrars' publications, is told to stop by the
    ITEM'S CODE after finitely many steps and is never left blocked -- [PI.iouts] is the interpreter of the regenerated
    method bodies, [ops] any operation history whose publisher side is what the registrars' code sent on that topic *)
Theorem code_subscribers_terminate r ps sched boot ls :
  let del := code_delivered r ps sched boot ls in
  forall t ops,
    In t (trace_starts del) ->
    map forget (filter is_publisher_op ops) = map to_op (on_topic (TPromptInfoFor t) (pubs_run r del)) ->
    forall s, (s < List.length (PS.i_subs (PS.run false ops)))%nat ->
    exists n outs,
      PI.iouts false (ops ++ repeat (PS.Next s) (S n)) = Some outs /\
      let tail := skipn (List.length ops) outs in
      last tail PS.OBlocked = PS.OStop /\ ~ In PS.OBlocked tail.
Proof.
  intros del t ops Ht Hops s Hs. unfold del in *. rewrite code_delivered_is_model in *.
  destruct (e2e_subscribers_terminate r ps sched boot ls t ops Ht Hops s Hs) as [n Hn].
  exists n, (PS.outs false (ops ++ repeat (PS.Next s) (S n))). split; [apply PubSub.Tie.tie_outs | exact Hn].
Qed.
