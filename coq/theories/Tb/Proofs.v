(** What the traceback cleaners of Gen/TbFuns.v leave of the raw tracebacks of Tb/Model.v.  [clean] drops the runner's frame;
    the SyntaxError cleaner empties a traceback that ends in compose.py and leaves every other alone; the KeyboardInterrupt
    cleaner cuts at the first frame of a module through which tracing is entered.  Each lemma runs one cleaner over a
    stretch of user frames ([cut_wc_user_app], [clean_syntax_loop_user]) and then meets the frame that decides. *)
From NL Require Import Tb.Model.

Lemma user_not_entry f : user_frame f = true -> is_wc f = false /\ is_compose f = false.
Proof. destruct f; simpl; auto; discriminate. Qed.

Lemma cut_wc_user_app u rest : forallb user_frame u = true -> cut_wc (u ++ rest) = u ++ cut_wc rest.
Proof.
  induction u as [|f r IH]; simpl; [reflexivity|]. intros H. apply andb_prop in H as [Hf Hr].
  destruct (user_not_entry _ Hf) as [-> _]. rewrite IH; auto.
Qed.

Lemma cut_wc_user_only u : forallb user_frame u = true -> cut_wc u = u.
Proof. intros H. pose proof (cut_wc_user_app u [] H) as E. simpl in E. rewrite !app_nil_r in E. exact E. Qed.

(** a KeyboardInterrupt raised inside a trace call: the first frame stays whatever it is, then the user's stack up to [e],
    the first frame of a module through which tracing is entered (WithContext's at a line / return / exception event,
    global_.py at a call event) *)
Lemma clean_kbd_cut f u e rest : forallb user_frame u = true -> is_wc e = true ->
  clean KbdInterrupt (Runner :: (f :: u) ++ e :: rest) = f :: u.
Proof.
  intros Hu E. unfold clean. simpl. rewrite cut_wc_user_app by exact Hu. simpl. rewrite E, app_nil_r. reflexivity.
Qed.

Lemma forallb_tl {A} (p : A -> bool) x l : forallb p (x :: l) = true -> forallb p l = true.
Proof. simpl. intros H. apply andb_prop in H. apply H. Qed.

Lemma clean_kbd_user_cut f u inner : forallb user_frame (f :: u) = true ->
  clean KbdInterrupt (raw_kbd (f :: u) inner) = f :: u.
Proof. intros H. exact (clean_kbd_cut f u WithContextM inner (forallb_tl _ _ _ H) eq_refl). Qed.

Lemma clean_kbd_call_cut f u mid inner : forallb user_frame (f :: u) = true ->
  clean KbdInterrupt (raw_kbd_call (f :: u) mid inner) = f :: u.
Proof. intros H. exact (clean_kbd_cut f u GlobalTraceM (mid ++ WithContextM :: inner) (forallb_tl _ _ _ H) eq_refl). Qed.

Lemma user_no_nextline u : forallb user_frame u = true -> existsb nextline_frame u = false.
Proof.
  induction u as [|f r IH]; simpl; [reflexivity|]. intros H. apply andb_prop in H as [Hf Hr].
  unfold nextline_frame at 1. rewrite Hf. simpl. auto.
Qed.

Lemma no_nextline_ordinary u : forallb user_frame u = true -> existsb nextline_frame (clean Ordinary (raw_ordinary u)) = false.
Proof. exact (user_no_nextline u). Qed.

Lemma no_nextline_kbd f u inner : forallb user_frame (f :: u) = true ->
  existsb nextline_frame (clean KbdInterrupt (raw_kbd (f :: u) inner)) = false.
Proof. intros H. rewrite (clean_kbd_user_cut f u inner H). exact (user_no_nextline _ H). Qed.

Lemma no_nextline_kbd_call f u mid inner : forallb user_frame (f :: u) = true ->
  existsb nextline_frame (clean KbdInterrupt (raw_kbd_call (f :: u) mid inner)) = false.
Proof. intros H. rewrite (clean_kbd_call_cut f u mid inner H). exact (user_no_nextline _ H). Qed.

Lemma clean_syntax_loop_here : forall t orig, t <> [] -> clean_syntax_loop true t orig = [].
Proof.
  induction t as [|f r IH]; intros orig H; [contradiction|]. simpl. destruct r; [reflexivity|]. apply IH. discriminate.
Qed.

Lemma clean_syntax_loop_compose : forall plug comp orig here, clean_syntax_loop here (plug ++ Compose :: comp) orig = [].
Proof.
  induction plug as [|f r IH]; intros comp orig here; simpl.
  - rewrite orb_true_r. destruct comp; [reflexivity|]. apply clean_syntax_loop_here. discriminate.
  - destruct (r ++ Compose :: comp) eqn:E; [destruct r; discriminate|]. rewrite <- E. apply IH.
Qed.

Lemma clean_syntax_compiled_here : forall plug comp, clean SyntaxErr (raw_syntax plug comp) = [].
Proof.
  intros. unfold clean, raw_syntax. simpl remove_frame. unfold clean_syntax. rewrite clean_syntax_loop_compose. reflexivity.
Qed.

Lemma clean_syntax_loop_user t orig : forallb user_frame t = true -> clean_syntax_loop false t orig = orig.
Proof.
  induction t as [|f r IH]; simpl; [reflexivity|]. intros H. apply andb_prop in H as [Hf Hr].
  destruct (user_not_entry _ Hf) as [_ ->]. destruct r; [reflexivity|]. apply IH; auto.
Qed.

(** an exception raised at run time from the user's code -- WHATEVER its class, SyntaxError and KeyboardInterrupt included:
    the raw traceback is the runner frame followed by user frames only (no compose.py frame: nothing was compiled by
    nextline; no WithContext frame: not raised inside a trace call), and the cleaned traceback is exactly the user frames *)
Lemma clean_runtime_any_class : forall k u, forallb user_frame u = true -> clean k (raw_ordinary u) = u.
Proof.
  intros k u H. unfold clean, raw_ordinary. simpl remove_frame.
  assert (S : clean_syntax k u = u) by (destruct k; try reflexivity; apply clean_syntax_loop_user; exact H).
  rewrite S. destruct k; try reflexivity. destruct u as [|f r]; [reflexivity|].
  simpl in *. apply andb_prop in H as [_ Hr]. rewrite cut_wc_user_only; auto.
Qed.
