(** all-continue: one prompt, at the line that follows the first accepted call, and none after --
    provided the frame below the first accepted frame (botframe) is not a generator/coroutine frame.
    The stream is cut in four: (1) the events before the first accepted call, all calls among them rejected: nothing
    happens; (2) the first accepted call: botframe is set, no prompt; (3) its first line: the one prompt, answered
    `continue`; (4) everything after: quiet.  (4) is proved before (2) and (3), which end in its invariant. *)
From NL Require Import Bdb.Model Bdb.Basics Bdb.Causal.
Open Scope Z_scope.
Open Scope list_scope.

(** the events before the first accepted call: every call among them is rejected by the filter chain
    (result: the filter state reached) *)
Fixpoint skip_pre (c : cfg) (fs : fstate) (pre : list event) : option fstate :=
  match pre with
  | [] => Some fs
  | e :: r =>
      match e_kind e with
      | KCall => let '(rej, fs') := rejected c e fs in if rej then skip_pre c fs' r else None
      | _ => skip_pre c fs r
      end
  end.

Definition not_gen_frame (b : Z) (evs : list event) : Prop :=
  forall e, In e evs -> e_kind e = KCall -> e_fid e = b -> e_gen e = false.

Definition info_ok (b : Z) (info : list (Z * (option Z * bool))) : Prop :=
  forall p g, In (b, (p, g)) info -> g = false.

Lemma info_ok_gen : forall b st, info_ok b (s_info st) -> gen_of st b = false.
Proof.
  intros b st H. unfold gen_of. destruct (lookup b (s_info st)) as [[p g]|] eqn:L; [|reflexivity].
  apply lookup_in in L. eapply H; eauto.
Qed.

Lemma pre_phase : forall c pol b pre i st fs1,
  s_status st = [] -> skip_pre c (s_filter st) pre = Some fs1 ->
  info_ok b (s_info st) -> not_gen_frame b pre ->
  run_from c pol i st pre = ([], []) /\
  let st' := final c pol i st pre in
  s_dbg st' = s_dbg st /\ s_filter st' = fs1 /\ info_ok b (s_info st').
Proof.
  induction pre as [|e r IH]; intros i st fs1 ST SK IO NG.
  - simpl in *. inversion SK; subst. repeat split; auto.
  - simpl in SK. simpl run_from. simpl final. unfold step.
    assert (NGr : not_gen_frame b r) by (intros x Hx; apply NG; right; exact Hx).
    destruct (e_kind e) eqn:K.
    1: { cbv zeta. cbn [s_filter].
      destruct (rejected c e (s_filter st)) as [rej fs'] eqn:R. destruct rej; [|discriminate].
      match goal with |- context[final c pol (S i) ?s r] => set (s1 := s) end.
      assert (IO1 : info_ok b (s_info s1)).
      { subst s1. simpl. intros p g [H|H].
        - inversion H; subst. apply NG; [left; reflexivity | exact K | reflexivity].
        - eapply IO; eauto. }
      destruct (IH (S i) s1 fs1 ST SK IO1 NGr) as [RF FIN]. rewrite RF. split; [reflexivity|]. exact FIN. }
    (* no frame has a trace function yet *)
    all: rewrite ST; simpl lookup; destruct (IH (S i) st fs1 ST SK IO NGr) as [RF FIN]; rewrite RF; split; [reflexivity | exact FIN].
Qed.

Definition quiet (b : Z) (st : state) : Prop :=
  (exists bb, botframe (s_dbg st) = Some bb) /\ stopframe (s_dbg st) = Some b /\ returnframe (s_dbg st) = None /\
  stoplineno (s_dbg st) = -1 /\ info_ok b (s_info st).

Lemma stop_here_quiet : forall b st f l, quiet b st -> stop_here (s_dbg st) f l = false.
Proof.
  intros b st f l (_ & S1 & _ & S3 & _). unfold stop_here. rewrite S1, S3.
  destruct (Z.eqb f b); reflexivity.
Qed.

Lemma quiet_step : forall c pol b i st e,
  quiet b st -> (e_kind e = KCall -> e_fid e = b -> e_gen e = false) ->
  exists st' tc, step c pol i st e = (st', None, tc) /\ quiet b st'.
Proof.
  intros c pol b i st e Q NG. pose proof Q as ((bb & B) & S1 & S2 & S3 & IO). unfold step.
  pose proof (stop_here_quiet b st (e_fid e) (e_line e) Q) as SH.
  destruct (e_kind e) eqn:K.
  1: { cbv zeta. cbn [s_filter]. destruct (rejected c e (s_filter st)) as [rej fs'] eqn:R.
    assert (IO1 : info_ok b ((e_fid e, (e_par e, e_gen e)) :: s_info st)).
    { intros p g [H|H]; [inversion H; subst; apply NG; auto | eapply IO; eauto]. }
    destruct rej.
    - eexists; eexists; split; [reflexivity|]. unfold quiet; simpl. repeat split; eauto.
    - unfold dispatch_call. cbn [s_dbg]. rewrite B, SH. cbn [negb].
      eexists; eexists; split; [reflexivity|]. unfold quiet; simpl. repeat split; eauto. }
  (* line, return, exception: stop_here fails, no return frame is set, and [b] is not a generator *)
  all: destruct (lookup (e_fid e) (s_status st)); [|eexists; eexists; split; [reflexivity | exact Q]].
  all: unfold dispatch_line, dispatch_return, dispatch_exception;
    rewrite SH, ?S1, ?S2, ?(info_ok_gen b st IO), ?andb_false_r; cbn [orb oeqb andb];
    eexists; eexists; split; [reflexivity | exact Q].
Qed.

Lemma quiet_run : forall c pol b post i st,
  quiet b st -> not_gen_frame b post -> fst (run_from c pol i st post) = [].
Proof.
  induction post as [|e r IH]; intros i st Q NG; [reflexivity|].
  simpl. destruct (quiet_step c pol b i st e Q) as (st' & tc & ST & Q').
  { intros K F. apply NG; [left; reflexivity | exact K | exact F]. }
  rewrite ST. specialize (IH (S i) st' Q' (fun x Hx => NG x (or_intror Hx))).
  destruct (run_from c pol (S i) st' r) as [ps tcs]. simpl in *. exact IH.
Qed.

Lemma first_call_step : forall c pol b i st e0,
  s_dbg st = mkD None None None 0 ->
  e_kind e0 = KCall -> fst (rejected c e0 (s_filter st)) = false -> e_par e0 = Some b ->
  info_ok b (s_info st) -> (e_fid e0 = b -> e_gen e0 = false) ->
  exists st2, step c pol i st e0 = (st2, None, true) /\
    s_dbg st2 = mkD (Some b) None None 0 /\ lookup (e_fid e0) (s_status st2) = Some Wrapped /\ info_ok b (s_info st2).
Proof.
  intros c pol b i st e0 D K ACC PAR IO NG. unfold step. rewrite K. cbv zeta. cbn [s_filter].
  destruct (rejected c e0 (s_filter st)) as [rej fs2] eqn:R. simpl in ACC. subst rej.
  unfold dispatch_call. cbn [s_dbg]. rewrite D. cbn [botframe].
  eexists. split; [reflexivity|]. cbn [set_status set_dbg s_dbg s_status s_info stopframe returnframe stoplineno].
  split; [rewrite PAR; reflexivity|]. split; [cbn [lookup]; rewrite Z.eqb_refl; reflexivity|].
  intros p g [H|H]; [inversion H; subst; apply NG; reflexivity | eapply IO; eauto].
Qed.

Lemma line_step : forall c b i st l,
  s_dbg st = mkD (Some b) None None 0 -> lookup (e_fid l) (s_status st) = Some Wrapped ->
  e_kind l = KLine -> info_ok b (s_info st) ->
  exists st3, step c (all Continue) i st l = (st3, Some (mkP i KLine (e_line l) (e_fid l)), true) /\ quiet b st3.
Proof.
  intros c b i st l D L K IO. unfold step. rewrite K, L. unfold dispatch_line, stop_here. rewrite D. cbn [stopframe].
  unfold interaction, all, apply_cmd.
  match goal with |- context[curframe ?s l] => destruct (curframe s l) as [[[cur cl] cp] cg] end.
  cbn [s_dbg set_stopinfo botframe s_status s_info s_filter s_nprompt].
  eexists. split; [rewrite K; reflexivity|].
  unfold quiet. cbn [s_dbg s_info]. rewrite D. cbn [set_stopinfo botframe stopframe returnframe stoplineno].
  repeat split; eauto.
Qed.

Theorem continue_once : forall c pre e0 l post b fs1,
  stream_traced c = true ->
  skip_pre c (s_filter (init c)) pre = Some fs1 ->
  e_kind e0 = KCall -> fst (rejected c e0 fs1) = false -> e_par e0 = Some b ->
  e_kind l = KLine -> e_fid l = e_fid e0 ->
  not_gen_frame b (pre ++ e0 :: l :: post) ->
  prompts c (all Continue) (pre ++ e0 :: l :: post) = [mkP (S (List.length pre)) KLine (e_line l) (e_fid l)].
Proof.
  intros c pre e0 l post b fs1 T SK K0 ACC PAR KL FL NG.
  unfold prompts, run. rewrite T. rewrite run_from_app. cbn [fst].
  assert (NGpre : not_gen_frame b pre) by (intros x Hx; apply NG; apply in_or_app; left; exact Hx).
  assert (IO0 : info_ok b (s_info (init c))) by (intros p g H; simpl in H; contradiction).
  destruct (pre_phase c (all Continue) b pre 0%nat (init c) fs1 eq_refl SK IO0 NGpre) as [RF FIN].
  rewrite RF. cbn [fst app]. cbn zeta in FIN. destruct FIN as (F2 & F3 & F5).
  set (st1 := final c (all Continue) 0 (init c) pre) in *.
  rewrite Nat.add_0_l.
  rewrite <- F3 in ACC.
  destruct (first_call_step c (all Continue) b (List.length pre) st1 e0 F2 K0 ACC PAR F5) as (st2 & S2 & D2 & L2 & IO2).
  { intros E. apply NG; [apply in_or_app; right; left; reflexivity | exact K0 | exact E]. }
  rewrite <- FL in L2.
  destruct (line_step c b (S (List.length pre)) st2 l D2 L2 KL IO2) as (st3 & S3 & Q3).
  simpl run_from. rewrite S2, S3.
  pose proof (quiet_run c (all Continue) b post (S (S (List.length pre))) st3 Q3) as QR.
  destruct (run_from c (all Continue) (S (S (List.length pre))) st3 post) as [ps tcs].
  cbn [fst] in *. rewrite QR; [reflexivity|].
  intros x Hx. apply NG. apply in_or_app; right; right; right; exact Hx.
Qed.
