(** Consequences of Bdb/Tie.v stated with the notions of the property files (Bdb/Filters.v). *)
From NL Require Import Bdb.Interp Gen.BdbFuns Bdb.Tie Bdb.Basics Bdb.Filters.
Open Scope Z_scope.

(** the regenerated filter chain (filter.py + register() + global_trace_func) rejects an event iff [accept_attr]
    does not accept it: [tie_rejected_spec] of Bdb/TieFilter.v under the name Props/C05.v uses *)
Theorem tie_filter_chain_attr : forall c e fs,
  irejected filter_classes register_prog global_trace_prog c e fs
  = Some (negb (fst (accept_attr c e fs)), snd (accept_attr c e fs)).
Proof. exact tie_rejected_spec. Qed.

(** transfer: the filter clauses of C05 for the prompts computed by interpreting the regenerated code *)
Theorem tie_filters_transfer : forall c pol evs ps tcs p,
  frame_attrs_const evs -> irun c pol evs = Some (ps, tcs) -> In p ps ->
  exists e, nth_error evs (p_idx p) = Some e /\
            p_kind p = e_kind e /\ p_line p = e_line e /\ p_fid p = e_fid e /\
            e_lam e = false /\
            (c_modules c = false -> e_mc e = MScript) /\
            (c_modules c = true -> e_mc e <> MSkip).
Proof.
  intros c pol evs ps tcs p CONST R HP. rewrite tie_run in R. injection R as R.
  apply (filters_full c pol evs p CONST). unfold prompts. rewrite R. exact HP.
Qed.
