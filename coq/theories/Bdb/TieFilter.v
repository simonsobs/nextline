(** Tie of the filter chain of Bdb/Model.v to the source (part of the tie described in Bdb/Tie.v; a file of its own
    so that a change of filter.py / plugins/__init__.py / global_.py / utils.py is reported by these obligations
    without waiting for the debugger part): theorems about [filter_classes], [register_prog], [global_trace_prog],
    [local_trace_prog], [sys_trace_thread_guarded] of the REGENERATED Gen/BdbFuns.v, interpreted by Bdb/Interp.v. *)
From NL Require Import Bdb.Interp Gen.BdbFuns Bdb.Filters.
Open Scope Z_scope.
Open Scope string_scope.

Definition fname_str (f : fname) : string :=
  match f with
  | FilterLambda => "FilterLambda" | FilterMainScript => "FilterMainScript"
  | FilterByModuleName => "FilterByModuleName" | FilerByModule => "FilerByModule"
  end.

Lemma tie_filter_class : forall f c e s,
  match find_class (fname_str f) filter_classes with
  | Some k => run_class c e k s
  | None => None
  end = Some (run_filter c f e s).
Proof.
  intros. destruct s as [fi tr mo]. destruct f; cbn.
  - unfold dec_FilterLambda, obs_of; cbn. destruct (e_lam e); reflexivity.
  - unfold dec_FilterMainScript, obs_of, is_script; cbn. destruct (e_mc e); reflexivity.
  - unfold dec_FilterByModuleName, obs_of, is_skip; cbn. destruct (e_mc e); reflexivity.
  - (* FilerByModule reads first_added, the entering flag, traced, and whether the module is already listed *)
    unfold filer_by_module; cbn.
    destruct fi, (c_entering c), tr, (existsb (Z.eqb (e_mod e)) mo) eqn:X; cbn; rewrite ?X, ?Z.eqb_refl; reflexivity.
Qed.

Definition class_of (f : fname) : option fclass := find_class (fname_str f) filter_classes.

Lemma ifirst_result_eq : forall c e fs ks,
  Forall2 (fun f k => class_of f = Some k) fs ks ->
  forall s, ifirst_result c e ks s = Some (first_result c fs e s).
Proof.
  intros c e fs ks F. induction F as [|f k fs ks H F IH]; intro s; cbn [ifirst_result first_result].
  - reflexivity.
  - pose proof (tie_filter_class f c e s) as T. unfold class_of in H. rewrite H in T. rewrite T.
    destruct (run_filter c f e s) as [[b|] s1]; [reflexivity|]. apply IH.
Qed.

(** register(hook, run_arg), interpreted: the plugins implementing `filter`, in registration order, with trylast *)
Definition iregistered (modules : bool) : list (fclass * bool) :=
  impls filter_classes (registered_names modules register_prog).

(** the two translators agree on the registration order (Gen/ChildHookOrder.v is what Bdb/Model.v uses) *)
Lemma tie_registered : forall c,
  map (fun kt => (fc_name (fst kt), snd kt)) (iregistered (c_modules c))
  = map (fun ft => (fname_str (fst ft), snd ft)) (registered c).
Proof. intro c. unfold registered. destruct (c_modules c); reflexivity. Qed.

(** pluggy's LIFO / trylast-last order over the interpreted registration = the model's call order *)
Lemma tie_call_order : forall c,
  Forall2 (fun f k => class_of f = Some k) (call_order (registered c)) (pluggy_order (iregistered (c_modules c))).
Proof. intro c. unfold registered. destruct (c_modules c); repeat constructor. Qed.

Lemma tie_first_result : forall c e s,
  ichain filter_classes register_prog c e s = Some (first_result c (call_order (registered c)) e s).
Proof. intros. unfold ichain. apply ifirst_result_eq. apply tie_call_order. Qed.

(** GlobalTraceFunc.global_trace_func: rejected iff the hook's result is truthy; the `filtered` hook runs before
    the local trace function *)
Lemma tie_rejected : forall c e s,
  irejected filter_classes register_prog global_trace_prog c e s = Some (rejected c e s).
Proof.
  intros. unfold irejected, rejected. cbn [global_trace_prog gexec FUEL]. rewrite tie_first_result.
  destruct (first_result c (call_order (registered c)) e s) as [[[|]|] s1]; reflexivity.
Qed.

(** ... stated in terms of the event's own attributes ([accept_attr] of Bdb/Filters.v).  The call order is the one
    the interpreted registration program gives: the registration order of Gen/ChildHookOrder.v is not involved
    (its per-filter decisions [dec_*] are, through [run_filter]). *)
Lemma tie_rejected_spec : forall c e s,
  irejected filter_classes register_prog global_trace_prog c e s
  = Some (negb (fst (accept_attr c e s)), snd (accept_attr c e s)).
Proof.
  intros. rewrite <- chain_complete. unfold irejected, ichain. cbn [global_trace_prog gexec FUEL].
  rewrite (ifirst_result_eq c e (if c_modules c then [FilterByModuleName; FilterLambda; FilerByModule]
                                 else [FilterLambda; FilterMainScript]))
    by (destruct (c_modules c); repeat constructor).
  destruct (first_result _ _ _ _) as [[[|]|] s1]; reflexivity.
Qed.

Lemma tie_lambda_rejected : forall c e s,
  e_lam e = true -> exists s1, irejected filter_classes register_prog global_trace_prog c e s = Some (true, s1).
Proof.
  intros c e s L. rewrite tie_rejected_spec. unfold accept_attr. rewrite L.
  destruct (c_modules c); destruct (e_mc e); cbn; eexists; reflexivity.
Qed.

(** WithContext._local_trace, called with a live next_trace (a fresh closure at a call event; a closure that stayed
    on the frame -- it stays only when it returned itself, i.e. when next_trace was not None): it does not raise, and
    the frame keeps the closure iff the wrapped trace function returned non-None *)
Lemma tie_local_trace : forall r, wexec FUEL local_trace_prog true r = Some r.
Proof. destruct r; reflexivity. Qed.

Lemma tie_sys_trace : sys_trace_thread_guarded = true.
Proof. reflexivity. Qed.

