(** What the filter chain accepts, in terms of the event's own attributes; and where prompts can occur:
    every prompt is at an event of the stream, in a frame the filter chain accepted.  Holds for every
    stream, every policy. *)
From NL Require Import Bdb.Model Bdb.Basics.
Open Scope Z_scope.

(** [accept_attr] does not mention the plugins, their order or pluggy: with module tracing off an event is
    accepted iff it is in the script module and not in a lambda; with module tracing on iff it is not
    skip-listed, not in a lambda, and its thread/task has been entered: already traced, or its module is one
    of the modules to trace (the first module of the entering thread is one). *)
Definition enter_first (c : cfg) (m : Z) (fs : fstate) : fstate :=
  if negb (f_first fs) && c_entering c
  then mkF true (f_traced fs) (if existsb (Z.eqb m) (f_mods fs) then f_mods fs else m :: f_mods fs)
  else fs.

Definition accept_attr (c : cfg) (e : event) (fs : fstate) : bool * fstate :=
  if c_modules c then
    match e_mc e with
    | MSkip => (false, fs)
    | _ => if e_lam e then (false, fs)
           else let fs1 := enter_first c (e_mod e) fs in
                if f_traced fs1 then (true, fs1)
                else if existsb (Z.eqb (e_mod e)) (f_mods fs1) then (true, mkF (f_first fs1) true (f_mods fs1))
                else (false, fs1)
    end
  else (match e_mc e with MScript => negb (e_lam e) | _ => false end, fs).

(** FilerByModule.filter first enters the thread's first module, then makes two tests *)
Lemma filer_by_module_enter : forall c m s,
  filer_by_module c m s =
  (let s1 := enter_first c m s in
   if f_traced s1 then (None, s1)
   else if existsb (Z.eqb m) (f_mods s1) then (None, mkF (f_first s1) true (f_mods s1))
   else (Some true, s1)).
Proof. reflexivity. Qed.

(** the chain in the order pluggy calls it: last registered first, FilerByModule (trylast) last *)
Lemma chain_complete : forall c e fs,
  match first_result c (if c_modules c then [FilterByModuleName; FilterLambda; FilerByModule]
                        else [FilterLambda; FilterMainScript]) e fs with
  | (Some true, fs') => (true, fs')
  | (_, fs') => (false, fs')
  end = (negb (fst (accept_attr c e fs)), snd (accept_attr c e fs)).
Proof.
  intros c e fs. unfold accept_attr. destruct (c_modules c); cbn [first_result run_filter].
  - unfold dec_FilterByModuleName, dec_FilterLambda, obs_of. cbn [o_skip o_lambda].
    destruct (e_mc e); cbn; try reflexivity; destruct (e_lam e); cbn; try reflexivity;
      rewrite filer_by_module_enter; cbv zeta; set (fs1 := enter_first c (e_mod e) fs);
      (destruct (f_traced fs1); [reflexivity|]; destruct (existsb (Z.eqb (e_mod e)) (f_mods fs1)); reflexivity).
  - unfold dec_FilterMainScript, dec_FilterLambda, obs_of. cbn [o_script o_lambda].
    destruct (e_lam e); destruct (e_mc e); reflexivity.
Qed.

Theorem filter_complete : forall c e fs,
  rejected c e fs = (negb (fst (accept_attr c e fs)), snd (accept_attr c e fs)).
Proof.
  intros c e fs. rewrite <- chain_complete. unfold rejected, registered. destruct (c_modules c); reflexivity.
Qed.

Corollary accepted_modules_off : forall c e fs,
  c_modules c = false -> e_mc e = MScript -> e_lam e = false -> fst (rejected c e fs) = false.
Proof.
  intros c e fs M S L. rewrite filter_complete. unfold accept_attr. rewrite M, S, L. reflexivity.
Qed.

Corollary accepted_modules_on : forall c e fs,
  c_modules c = true -> e_mc e <> MSkip -> e_lam e = false ->
  (f_traced fs = true \/ existsb (Z.eqb (e_mod e)) (f_mods fs) = true \/ (f_first fs = false /\ c_entering c = true)) ->
  fst (rejected c e fs) = false.
Proof.
  intros c e fs M S L H. rewrite filter_complete. unfold accept_attr, enter_first. rewrite M, L.
  destruct fs as [fi tr mo]; cbn in *.
  (* [accept_attr] reads four booleans; it rejects exactly in the combinations that [H] excludes *)
  destruct (e_mc e); try (exfalso; apply S; reflexivity);
    destruct fi, (c_entering c), tr, (existsb (Z.eqb (e_mod e)) mo) eqn:X; cbn; rewrite ?X, ?Z.eqb_refl; try reflexivity;
    destruct H as [H|[H|[H1 H2]]]; congruence.
Qed.

(** what the filter chain (in the GENERATED registration order) lets through *)
Definition ok_attrs (c : cfg) (e : event) : Prop :=
  e_lam e = false /\ (if c_modules c then e_mc e <> MSkip else e_mc e = MScript).

Lemma rejected_false_attrs : forall c e fs, fst (rejected c e fs) = false -> ok_attrs c e.
Proof.
  intros c e fs H. rewrite filter_complete in H. unfold accept_attr, ok_attrs in *.
  destruct (c_modules c), (e_mc e), (e_lam e); simpl in H; try discriminate; split; congruence.
Qed.

Definition frame_attrs_const (evs : list event) : Prop :=
  forall e1 e2, In e1 evs -> In e2 evs -> e_fid e1 = e_fid e2 -> e_mc e1 = e_mc e2 /\ e_lam e1 = e_lam e2.

Section Run.
Variable c : cfg.
Variable pol : policy.
Variable all_evs : list event.
Hypothesis CONST : frame_attrs_const all_evs.

Definition wrapped_ok (st : state) : Prop :=
  forall f, lookup f (s_status st) = Some Wrapped -> forall e, In e all_evs -> e_fid e = f -> ok_attrs c e.

Lemma run_from_prompts : forall suf i st,
  (forall e, In e suf -> In e all_evs) -> wrapped_ok st ->
  forall p, In p (fst (run_from c pol i st suf)) ->
  exists e, nth_error suf (p_idx p - i) = Some e /\ (i <= p_idx p)%nat /\
            p = mkP (p_idx p) (e_kind e) (e_line e) (e_fid e) /\ ok_attrs c e.
Proof.
  induction suf as [|e r IH]; intros i st SUB INV p HP.
  - simpl in HP. contradiction.
  - simpl in HP. destruct (step c pol i st e) as [[st' op] tc] eqn:ST.
    destruct (run_from c pol (S i) st' r) as [ps tcs] eqn:R. simpl in HP.
    pose proof (step_facts _ _ _ _ _ _ _ _ ST) as [F1 F2].
    assert (INe : In e all_evs) by (apply SUB; left; reflexivity).
    assert (INV' : wrapped_ok st').
    { intros f Hf e' He' Hfe'. destruct (F2 f Hf) as [Hold | (Hf1 & Hk & Hrej)].
      - eapply INV; eauto.
      - apply rejected_false_attrs in Hrej. rewrite Hf1 in Hfe'.
        destruct (CONST e e' INe He' (eq_sym Hfe')) as [A B]. unfold ok_attrs in *. rewrite <- A, <- B. exact Hrej. }
    assert (TAIL : forall q, In q ps -> exists e0, nth_error (e :: r) (p_idx q - i) = Some e0 /\ (i <= p_idx q)%nat /\
                    q = mkP (p_idx q) (e_kind e0) (e_line e0) (e_fid e0) /\ ok_attrs c e0).
    { intros q Hq. specialize (IH (S i) st' (fun x Hx => SUB x (or_intror Hx)) INV' q).
      rewrite R in IH. specialize (IH Hq). destruct IH as (e0 & N & LE & EQ & OK).
      exists e0. split; [| split; [lia | split; [exact EQ | exact OK]]].
      replace (p_idx q - i)%nat with (S (p_idx q - S i))%nat by lia. exact N. }
    destruct op as [p0|]; [| apply TAIL; exact HP].
    destruct HP as [HP | HP]; [| apply TAIL; exact HP].
    subst p0. destruct (F1 p eq_refl) as [EQ K]. exists e. rewrite EQ. simpl.
    replace (i - i)%nat with 0%nat by lia. split; [reflexivity|]. split; [lia|]. split; [reflexivity|].
    destruct (e_kind e); [exact (rejected_false_attrs _ _ _ K) | eapply INV; eauto ..].
Qed.
End Run.

Theorem prompts_at_accepted_events : forall c pol evs p,
  frame_attrs_const evs -> In p (prompts c pol evs) ->
  exists e, nth_error evs (p_idx p) = Some e /\ p = mkP (p_idx p) (e_kind e) (e_line e) (e_fid e) /\ ok_attrs c e.
Proof.
  intros c pol evs p CONST HP. unfold prompts, run in HP. destruct (stream_traced c); [| simpl in HP; contradiction].
  destruct (run_from_prompts c pol evs CONST evs 0%nat (init c) (fun e H => H)) with (p := p) as (e & N & _ & EQ & OK).
  - intros f Hf. simpl in Hf. discriminate.
  - exact HP.
  - exists e. rewrite Nat.sub_0_r in N. auto.
Qed.

(** sys_trace: no trace function in other threads when trace_threads is off *)
Theorem no_prompt_in_untraced_thread : forall c pol evs,
  c_threads c = false -> c_main c = false -> prompts c pol evs = [] /\ trace_calls c pol evs = [].
Proof. intros c pol evs H1 H2. unfold prompts, trace_calls, run, stream_traced. rewrite H1, H2. simpl. auto. Qed.

Theorem filters_full : forall c pol evs p,
  frame_attrs_const evs -> In p (prompts c pol evs) ->
  exists e, nth_error evs (p_idx p) = Some e /\
            p_kind p = e_kind e /\ p_line p = e_line e /\ p_fid p = e_fid e /\
            e_lam e = false /\
            (c_modules c = false -> e_mc e = MScript) /\
            (c_modules c = true -> e_mc e <> MSkip).
Proof.
  intros c pol evs p CONST HP. destruct (prompts_at_accepted_events c pol evs p CONST HP) as (e & N & EQ & OK).
  exists e. split; [exact N|]. rewrite EQ; simpl.
  split; [reflexivity|]. split; [reflexivity|]. split; [reflexivity|].
  unfold ok_attrs in OK. destruct OK as [L M]. split; [exact L|]. split; intro X; rewrite X in M; exact M.
Qed.
