(** all-next: the debugger refines a small specification whose state is a function of the history:
    the filter state, the set of frames that got a trace function, whether a first accepted call has
    happened, the frame being stepped ([None] = stop at the next event of any traced frame / accepted
    call), and the generator flag of every frame entered so far.
    Hypothesis (what Props/C05.v C05_next_refuted shows cannot be dropped): at every event the frame Pdb selects is the event's frame
    ([simple_tb]: the traceback of an exception event does not go into another frame). *)
From NL Require Import Bdb.Model Bdb.Basics.
Open Scope Z_scope.
Open Scope list_scope.

Record nspec := mkN {
  n_fs : fstate;
  n_traced : list Z;
  n_bot : bool;
  n_sf : option Z;
  n_info : list (Z * bool)
}.

Definition is_some {A} (o : option A) : bool := match o with Some _ => true | None => false end.

Definition stops (sf : option Z) (f line : Z) : bool :=
  match sf with None => true | Some s => Z.eqb f s && Z.leb 0 line end.

Definition ginfo (info : list (Z * bool)) (f : Z) : bool :=
  match lookup f info with Some g => g | None => false end.

Definition n_init (c : cfg) : nspec := mkN (s_filter (init c)) [] false None [].

Definition with_sf (s : nspec) (sf : option Z) : nspec := mkN (n_fs s) (n_traced s) (n_bot s) sf (n_info s).

Definition next_step (c : cfg) (i : nat) (s : nspec) (e : event) : nspec * option prompt :=
  let pr := Some (mkP i (e_kind e) (e_line e) (e_fid e)) in
  let f := e_fid e in
  let traced := existsb (Z.eqb f) (n_traced s) in
  match e_kind e with
  | KCall =>
      let info' := (f, e_gen e) :: n_info s in
      let '(rej, fs') := rejected c e (n_fs s) in
      if rej then (mkN fs' (n_traced s) (n_bot s) (n_sf s) info', None)
      else if negb (n_bot s) then (mkN fs' (f :: n_traced s) (is_some (e_par e)) (n_sf s) info', None)
      else if negb (stops (n_sf s) f (e_line e)) then (mkN fs' (n_traced s) true (n_sf s) info', None)
      else if is_some (n_sf s) && e_gen e then (mkN fs' (f :: n_traced s) true (n_sf s) info', None)
      else (mkN fs' (f :: n_traced s) true (Some f) info', pr)
  | KLine =>
      if traced && stops (n_sf s) f (e_line e) then (with_sf s (Some f), pr) else (s, None)
  | KReturn =>
      if traced && stops (n_sf s) f (e_line e) then
        if is_some (n_sf s) && e_gen e then (s, None) else (with_sf s None, pr)
      else (s, None)
  | KException =>
      if traced then
        if stops (n_sf s) f (e_line e) then
          if e_gen e && x_stopiter (e_x e) && x_tbnone (e_x e) then (s, None) else (with_sf s (Some f), pr)
        else match n_sf s with
             | Some s0 => if negb (Z.eqb f s0) && ginfo (n_info s) s0 && (x_stopiter (e_x e) || x_genexit (e_x e))
                          then (with_sf s (Some f), pr) else (s, None)
             | None => (s, None)
             end
      else (s, None)
  end.

Fixpoint next_spec_from (c : cfg) (i : nat) (s : nspec) (evs : list event) : list prompt :=
  match evs with
  | [] => []
  | e :: r => let '(s', p) := next_step c i s e in
              match p with Some x => x :: next_spec_from c (S i) s' r | None => next_spec_from c (S i) s' r end
  end.

Definition next_spec (c : cfg) (evs : list event) : list prompt :=
  if stream_traced c then next_spec_from c 0%nat (n_init c) evs else [].

Definition simple_tb (e : event) : Prop :=
  match x_tbf (e_x e) with Some t => t = e_fid e | None => True end.

Record R (st : state) (s : nspec) : Prop := mkR {
  r_fs : s_filter st = n_fs s;
  r_status : forall f, lookup f (s_status st) = if existsb (Z.eqb f) (n_traced s) then Some Wrapped else None;
  r_bot : is_some (botframe (s_dbg st)) = n_bot s;
  r_sf : stopframe (s_dbg st) = n_sf s;
  r_rf : returnframe (s_dbg st) = None;
  r_ln : stoplineno (s_dbg st) = 0;
  r_gen : forall f, gen_of st f = ginfo (n_info s) f
}.

Lemma R_stop : forall st s f l, R st s -> stop_here (s_dbg st) f l = stops (n_sf s) f l.
Proof.
  intros st s f l H. unfold stop_here, stops. rewrite (r_sf _ _ H), (r_ln _ _ H).
  destruct (n_sf s); [|reflexivity]. destruct (Z.eqb f z); reflexivity.
Qed.

Lemma curframe_simple : forall st e, simple_tb e -> curframe st e = (e_fid e, e_line e, e_par e, e_gen e).
Proof.
  intros st e H. unfold curframe, simple_tb in *. destruct (e_kind e); try reflexivity.
  destruct (x_tbf (e_x e)); [|reflexivity]. subst z. rewrite Z.eqb_refl. reflexivity.
Qed.

Lemma inter_next : forall i r st e,
  simple_tb e ->
  interaction (all Next) i true r st e =
  (mkS (set_stopinfo (s_dbg st) (Some (e_fid e)) None 0) (s_status st) (s_info st) (s_filter st) (S (s_nprompt st)),
   Some (mkP i (e_kind e) (e_line e) (e_fid e))).
Proof.
  intros i r st e H. unfold interaction, all, apply_cmd. rewrite (curframe_simple _ e H). reflexivity.
Qed.

Lemma R_with_sf : forall st s sf n,
  R st s ->
  R (mkS (set_stopinfo (s_dbg st) sf None 0) (s_status st) (s_info st) (s_filter st) n) (with_sf s sf).
Proof.
  intros st s sf n H. destruct H. constructor; simpl; auto.
Qed.

Lemma existsb_cons_eq : forall f g l, existsb (Z.eqb f) (g :: l) = Z.eqb f g || existsb (Z.eqb f) l.
Proof. reflexivity. Qed.

(** The two ways a leaf of [step_next] is closed: the event changes nothing, so the relation at hand is the
    result; or the event is prompted and `next` makes its frame the one being stepped. *)
Local Ltac keep := eexists; eexists; split; [reflexivity | assumption].
Local Ltac stop SB K :=
  rewrite inter_next by exact SB; eexists; eexists; split; [rewrite K; reflexivity | apply R_with_sf; assumption].

Lemma step_next : forall c i st s e,
  R st s -> simple_tb e ->
  exists st' tc, step c (all Next) i st e = (st', snd (next_step c i s e), tc) /\ R st' (fst (next_step c i s e)).
Proof.
  intros c i st s e H SB. pose proof H as H0. destruct H as [Hfs Hst Hbot Hsf Hrf Hln Hgen].
  unfold step, next_step. destruct (e_kind e) eqn:K.
  - (* call *)
    cbv zeta. cbn [s_filter]. rewrite Hfs. destruct (rejected c e (n_fs s)) as [rej fs'].
    assert (GEN : forall st1, s_info st1 = (e_fid e, (e_par e, e_gen e)) :: s_info st ->
                  forall f, gen_of st1 f = ginfo ((e_fid e, e_gen e) :: n_info s) f).
    { intros st1 E f. unfold gen_of, ginfo. rewrite E. simpl. destruct (Z.eqb f (e_fid e)); [reflexivity|].
      apply Hgen. }
    (* split along dispatch_call first; every outcome is [st] with some fields replaced, and the relation is
       re-established field by field.  [auto] leaves at most one field: [r_bot] where botframe was just set
       (by cases on [e_par e]) or is unchanged (B), [r_status] where the frame joins [n_traced] (Hst) *)
    destruct rej;
      [| unfold dispatch_call; cbn [s_dbg]; rewrite (R_stop st s _ _ H0), Hsf; fold (is_some (n_sf s));
         destruct (botframe (s_dbg st)) as [bb|] eqn:B; simpl in Hbot; rewrite <- Hbot; cbn [negb];
         [ destruct (stops (n_sf s) (e_fid e) (e_line e)); cbn [negb];
           [ destruct (is_some (n_sf s) && e_gen e); [| rewrite inter_next by exact SB] | ] | ] ].
    all: eexists; eexists; split; [rewrite ?K; reflexivity|]; constructor; simpl; auto;
      first [ rewrite B; reflexivity | destruct (e_par e); reflexivity
            | intros f; rewrite Hst; destruct (Z.eqb f (e_fid e)); reflexivity ].
  - (* line *)
    rewrite Hst. destruct (existsb (Z.eqb (e_fid e)) (n_traced s)); cbn [andb]; [|keep].
    unfold dispatch_line. rewrite (R_stop st s) by exact H0.
    destruct (stops (n_sf s) (e_fid e) (e_line e)); [stop SB K | keep].
  - (* return *)
    rewrite Hst. destruct (existsb (Z.eqb (e_fid e)) (n_traced s)); cbn [andb]; [|keep].
    unfold dispatch_return. rewrite (R_stop st s) by exact H0. rewrite Hrf. cbn [oeqb]. rewrite orb_false_r.
    destruct (stops (n_sf s) (e_fid e) (e_line e)); [|keep].
    rewrite Hsf. fold (is_some (n_sf s)). destruct (is_some (n_sf s) && e_gen e); [keep|].
    (* `next` makes the returning frame the stop frame; dispatch_return then clears it: stop anywhere *)
    rewrite inter_next by exact SB. cbn [s_dbg set_stopinfo stopframe stoplineno oeqb]. rewrite Z.eqb_refl. cbn [andb negb Z.eqb].
    eexists; eexists; split; [rewrite K; reflexivity|].
    exact (R_with_sf st s None (S (s_nprompt st)) H0).
  - (* exception *)
    rewrite Hst. destruct (existsb (Z.eqb (e_fid e)) (n_traced s)); [|keep].
    unfold dispatch_exception. rewrite (R_stop st s) by exact H0.
    destruct (stops (n_sf s) (e_fid e) (e_line e)).
    + destruct (e_gen e && x_stopiter (e_x e) && x_tbnone (e_x e)); [keep | stop SB K].
    + rewrite Hsf. destruct (n_sf s) as [s0|]; [|keep]. rewrite Hgen.
      destruct (negb (Z.eqb (e_fid e) s0) && ginfo (n_info s) s0 && (x_stopiter (e_x e) || x_genexit (e_x e)));
        [stop SB K | keep].
Qed.

Lemma run_next : forall c evs i st s,
  R st s -> (forall e, In e evs -> simple_tb e) ->
  fst (run_from c (all Next) i st evs) = next_spec_from c i s evs.
Proof.
  induction evs as [|e r IH]; intros i st s H SB; [reflexivity|].
  simpl. destruct (step_next c i st s e H (SB e (or_introl eq_refl))) as (st' & tc & ST & R').
  rewrite ST. destruct (next_step c i s e) as [s' p]. simpl in *.
  specialize (IH (S i) st' s' R' (fun x Hx => SB x (or_intror Hx))).
  destruct (run_from c (all Next) (S i) st' r) as [ps tcs]. simpl in *. rewrite IH.
  destruct p; reflexivity.
Qed.

Theorem next_refines : forall c evs,
  (forall e, In e evs -> simple_tb e) ->
  prompts c (all Next) evs = next_spec c evs.
Proof.
  intros c evs SB. unfold prompts, run, next_spec. destruct (stream_traced c); [|reflexivity].
  apply run_next; [|exact SB].
  constructor; simpl; auto.
Qed.
