(** Tie of the hand-written model Bdb/Model.v to the source: theorems about the REGENERATED terms of
    Gen/BdbFuns.v (translate/bdb_funs.py: the installed CPython bdb.py, and custom.py, factory.py, filter.py,
    plugins/__init__.py, global_.py, utils.py, call.py of /repo), interpreted by Bdb/Interp.v.

    For ALL debugger states, frames, events, policies:
      tie_stop_here, tie_set_stopinfo           Bdb.stop_here / _set_stopinfo          = stop_here / set_stopinfo
      tie_commands                              Bdb.set_* , CustomizedPdb.set_continue = apply_cmd
      tie_interaction                           user_* -> CustomizedPdb.cmdloop under CmdloopHook -> one command
                                                                                       = interaction
      tie_dispatch_line/call/return/exception   Bdb.dispatch_*                         = dispatch_*
      tie_trace_dispatch                        Bdb.trace_dispatch selects them by the event name
      tie_init                                  CustomizedPdb.__init__                 = the debugger of [init]
      tie_step, tie_run_from, tie_run           one raw event / a whole stream through the regenerated code
                                                                                       = step / run_from / run
    In Bdb/TieFilter.v (re-exported here):
      tie_filter_class, tie_registered, tie_call_order, tie_first_result, tie_rejected
                                                filter.py, register(), global_trace_func = run_filter, registered,
                                                                                         call_order, first_result, rejected
      tie_rejected_spec, tie_lambda_rejected    the same chain against the attribute-level specification
                                                (the registration order of Gen/ChildHookOrder.v is not involved)
      tie_local_trace, tie_sys_trace            WithContext._local_trace, sys_trace's thread guard
    All are equalities "interpretation of the regenerated term = Some (model function)": kind (a) of
    harness/TIE_TASK.md; every theorem of Props/C05.v about [prompts]/[trace_calls] transfers by [tie_run]
    (Bdb/TieProps.v does it for the filter clauses: tie_filters_transfer).
    Only [tie_overrides] and [tie_sys_trace] are of kind (c) (reflexivity against a pinned value).

    HONEST LABELS.
    * Genuine translation + equality with the model for all inputs: everything listed above except the next two items.
    * Pins (a fixed shape checked, nothing interpreted): [tie_overrides] (the list of methods CustomizedPdb defines),
      [tie_sys_trace] (a boolean the translator emits after checking the shape of sys_trace), and the checks the
      TRANSLATOR makes without emitting a term -- it fails closed when they do not hold, no theorem speaks about them:
      factory.py Factory/_factory (a fresh CustomizedPdb(cmdloop_hook=CmdloopHook(hook=hook), ..) per call, its
      trace_dispatch returned) and PdbInstanceFactory; local_.py LocalTraceFunc.init/local_trace_func (one trace function
      per current_trace_no()) and Factory._factory (first statement / WithContext(trace, context=_context) / one yield in
      _context); utils.py _global_trace (a FRESH closure per call event) and _create_local_trace; global_.py
      TraceFuncCreator._trace_func and GlobalTraceFunc.init; filter.py FilterByModuleName.init, FilerByModule.__init__
      (initial values), .init, .context, .on_cmdloop (statement for statement); runner.py: the one call
      sys_trace(trace_func=trace_func, thread=run_arg.trace_threads), no other settrace in nextline/; spec.py: `filter` is
      firstresult; the imports the translated names come from; module bodies (imports, defs, classes only), class bodies
      (defs only), bases, decorators, parameter lists and defaults of everything translated; CustomizedPdb defines no
      method besides __init__, cmdloop, _cmdloop, set_continue (or an override of a translated Bdb method);
      super().__init__(stdin=, stdout=, nosigint=True, readrc=False) only.
    * Ignored positions (one rule, translate/bdb_funs.py is_noise): docstrings, pass, print/logger calls and
      `msg = <text>` whose arguments contain no Call / NamedExpr / Await / Yield / comprehension, `logger = getLogger(<name>)`;
      an assert is never ignored (`assert next_trace` of WithContext is translated: [WAssertNextTrace]).
    * Exceptions: the interpreter has none.  `raise BdbQuit` and an assert that fails are STUCK states, and the theorems
      say they are not reached from quitting = False; the try/finally of Bdb.dispatch_return (frame_returning reset) is
      given its meaning for the normal completion of user_return only -- an exception out of the command loop (a
      KeyboardInterrupt at the prompt, C04) is outside this model and this tie.  The `try/except NotOnTraceCall` of
      CustomizedPdb.cmdloop IS interpreted as an exception handler (the raise comes from CmdloopHook).

    NOT translated (stays hand-written, see the header of Bdb/Interp.v): pdb.py between Bdb.user_* and the
    command (interaction, the choice of curframe, do_X -> set_X), pluggy's call order, CPython's
    trace_trampoline, break_here/break_anywhere (no breakpoints). *)
From NL Require Import Bdb.Interp Gen.BdbFuns.
From NL Require Export Bdb.TieFilter.
Open Scope Z_scope.
Open Scope string_scope.

Definition methods : list method := app custom_methods bdb_methods.
Definition fr_of (e : event) (returning : bool) : val := if returning then eframe e else VNone.
Definition opt_list {A} (o : option A) : list A := match o with Some x => [x] | None => [] end.

Lemma tie_set_stopinfo : forall e user st fr q out sf rf ln,
  call methods e user FUEL "_set_stopinfo" [of_opt sf; of_opt rf; VInt ln] (mkI st fr q out)
  = Some (VNone, mkI (set_dbg st (set_stopinfo (s_dbg st) sf rf ln)) fr false out).
Proof.
  intros. destruct st as [d ss si sf0 np]. destruct d as [b s0 r0 l0]. destruct sf, rf; reflexivity.
Qed.

Definition cur_val (st : state) (e : event) : val :=
  let '(cur, curline, curpar, curgen) := curframe st e in VFrame cur (Some (mkV curline curpar curgen)).

Lemma tie_commands : forall c e st returning out,
  run_cmd methods e c (cur_val st e) (mkI st (fr_of e returning) false out)
  = Some (mkI (apply_cmd c st e returning) (fr_of e returning) false out).
Proof.
  intros. unfold cur_val, apply_cmd. destruct (curframe st e) as [[[cur cl] cp] cg].
  destruct st as [[b s0 r0 l0] ss si sf0 np]. destruct c.
  - (* set_step: the caller of a returning frame is given a trace function if it has none *)
    destruct returning; cbn; [|reflexivity].
    destruct (e_par e) as [p|]; cbn; [|reflexivity].
    destruct (lookup p ss); reflexivity.
  - reflexivity.
  - (* set_return: a generator frame stops at its own return, any other in its caller *)
    destruct cg; cbn; [reflexivity|]. destruct cp; reflexivity.
  - reflexivity.
  - (* the overridden set_continue *)
    destruct b; reflexivity.
Qed.

(** Pdb.user_* -> interaction -> CustomizedPdb.cmdloop (custom.py) under CmdloopHook (factory.py) *)
Definition interact (pol : policy) (i : nat) (w : bool) (e : event) : istate -> option istate :=
  iinteract methods cmdloop_hook_prog pol i w e cmdloop_prog.

Lemma one_prompt_cur : forall pol i e s,
  one_prompt methods pol i e s =
  (let st := i_st s in
   let st1 := mkS (s_dbg st) (s_status st) (s_info st) (s_filter st) (S (s_nprompt st)) in
   run_cmd methods e (pol (s_nprompt st) e) (cur_val st1 e)
     (mkI st1 (i_fr s) (i_quit s) (app (i_out s) [mkP i (e_kind e) (e_line e) (e_fid e)]))).
Proof.
  intros. unfold one_prompt, cur_val. cbv zeta.
  destruct (curframe _ e) as [[[cur cl] cp] cg]. reflexivity.
Qed.

Lemma tie_interaction : forall pol i w e returning st out,
  interact pol i w e (mkI st (fr_of e returning) false out)
  = Some (let '(st', p) := interaction pol i w returning st e in
          mkI st' (fr_of e returning) false (app out (opt_list p))).
Proof.
  intros. unfold interact, iinteract, interaction. destruct w.
  - cbn [cmdloop_prog cmdloop_hook_prog cexec hook_raises]. rewrite one_prompt_cur. cbn [i_st i_fr i_quit i_out].
    cbv zeta. rewrite tie_commands. reflexivity.
  - cbn. rewrite app_nil_r. reflexivity.
Qed.

Definition dcall (pol : policy) (i : nat) (w : bool) (e : event) (m : string) (args : list val) (st : state) :=
  call methods e (interact pol i w e) FUEL m args (mkI st VNone false []).
Definition res (v : val) (st : state) (p : option prompt) : option (val * istate) :=
  Some (v, mkI st VNone false (opt_list p)).

Local Opaque interact interaction.

(** [tie_interaction] for a state whose frame_returning is written out: None (line, call, exception) or the
    event's frame (return) *)
Lemma interact_fr : forall pol i w e returning st fr out,
  fr = fr_of e returning ->
  interact pol i w e (mkI st fr false out)
  = Some (let '(st', p) := interaction pol i w returning st e in mkI st' fr false (app out (opt_list p))).
Proof. intros. subst. apply tie_interaction. Qed.

Ltac inter :=
  match goal with
  | |- context[interact ?pol ?i ?w ?e (mkI ?st ?fr false ?out)] =>
      first [ rewrite (interact_fr pol i w e false st fr out eq_refl)
            | rewrite (interact_fr pol i w e true st fr out eq_refl) ];
      match goal with |- context[interaction pol i w ?r st e] =>
        destruct (interaction pol i w r st e) as [[[? ? ? ?] ? ? ? ?] ?] end; cbn
  end.

(** One proof script for all the dispatch functions: evaluate, split on the next undetermined test (the outcome
    of [stop_here] first, since it decides which of the other tests are made at all; then an integer comparison,
    a frame attribute that is None or a frame, a flag of the event), replace a call of user_X by the model's
    [interaction] ([tie_interaction]); a leaf is closed by reflexivity, or by contradiction among the recorded
    comparisons.  It does not depend on the order of the operands of a comparison or on the order in which the
    source makes its tests. *)
Ltac crunch :=
  repeat match goal with
         | H : _ = true |- _ => rewrite !H
         | H : _ = false |- _ => rewrite !H
         | H : lookup _ _ = _ |- _ => rewrite !H
         | H : e_par _ = _ |- _ => rewrite !H
         end;
  cbn -[Z.eqb Z.leb Z.ltb];
  first
  [ reflexivity | exfalso; lia | exfalso; congruence
  | lazymatch goal with
    | |- context[gen_of _ _] => unfold gen_of; crunch
    | |- context[parent_of _ _] => unfold parent_of; crunch
    | |- context[interact _ _ _ _ (mkI _ _ false _)] => inter; crunch
    | |- context[stop_here ?d ?f ?l] => destruct (stop_here d f l) eqn:?; crunch
    | |- context[Z.eqb ?a ?b] => destruct (Z.eqb_spec a b); crunch
    | |- context[Z.leb ?a ?b] => destruct (Z.leb_spec a b); crunch
    | |- context[Z.ltb ?a ?b] => destruct (Z.ltb_spec a b); crunch
    | |- context[lookup ?k ?l] => destruct (lookup k l) as [[? ?]|] eqn:?; crunch
    | |- context[of_opt ?x] => destruct x; crunch
    | |- context[oeqb ?x ?y] => first [is_var x; destruct x | is_var y; destruct y | unfold oeqb]; crunch
    | |- context[e_gen ?e] => destruct (e_gen e) eqn:?; crunch
    | |- context[x_stopiter ?x] => destruct (x_stopiter x) eqn:?; crunch
    | |- context[x_genexit ?x] => destruct (x_genexit x) eqn:?; crunch
    | |- context[x_tbnone ?x] => destruct (x_tbnone x) eqn:?; crunch
    | |- context[e_par ?e] => destruct (e_par e) eqn:?; crunch
    | |- context[if ?b then _ else _] => destruct b eqn:?; crunch
    end ].

Lemma tie_stop_here : forall e user s f vw,
  call methods e user FUEL "stop_here" [VFrame f (Some vw)] s
  = Some (VBool (stop_here (s_dbg (i_st s)) f (v_line vw)), s).
Proof.
  intros e user [[[b s0 r0 l0] ss si sf0 np] fr q out] f [ln bk g]. unfold stop_here. crunch.
Qed.

(** Each dispatch method first asks [stop_here] about the event's frame.  [cbn] evaluates a dispatch method
    together with that call; applied to this equation it leaves the call in the very form it has inside the
    evaluated method, so one rewrite puts the model's [stop_here] there and the comparisons inside it need no
    case analysis of their own. *)
Lemma stop_here_eframe : forall e user s,
  call methods e user FUEL "stop_here" [eframe e] s
  = Some (VBool (stop_here (s_dbg (i_st s)) (e_fid e) (e_line e)), s).
Proof. intros. exact (tie_stop_here e user s (e_fid e) (eview e)). Qed.

Ltac dispatch :=
  let SH := fresh in
  unfold dcall, res;
  match goal with |- call _ ?e ?user _ _ _ ?s = _ => pose proof (stop_here_eframe e user s) as SH end;
  cbn -[Z.eqb] in SH; cbn -[Z.eqb]; rewrite SH; crunch.

Lemma tie_dispatch_line : forall pol i w st e,
  dcall pol i w e "dispatch_line" [eframe e] st
  = (let '(st', p) := dispatch_line pol i w st e in res VTrace st' p).
Proof. intros pol i w [[b s0 r0 l0] ss si sf0 np] e. unfold dispatch_line. dispatch. Qed.

Lemma tie_dispatch_call : forall pol i st e,
  dcall pol i true e "dispatch_call" [eframe e; VArg] st
  = (let '(st', p, t) := dispatch_call pol i st e in res (if t then VTrace else VNone) st' p).
Proof.
  intros pol i [[[b|] s0 r0 l0] ss si sf0 np] e; unfold dispatch_call; [dispatch | crunch].
Qed.

Lemma tie_dispatch_return : forall pol i w st e,
  dcall pol i w e "dispatch_return" [eframe e; VArg] st
  = (let '(st', p) := dispatch_return pol i w st e in res VTrace st' p).
Proof. intros pol i w [[b s0 r0 l0] ss si sf0 np] e. unfold dispatch_return. dispatch. Qed.

Lemma tie_dispatch_exception : forall pol i w st e,
  dcall pol i w e "dispatch_exception" [eframe e; VArg] st
  = (let '(st', p) := dispatch_exception pol i w st e in res VTrace st' p).
Proof. intros pol i w [[b s0 r0 l0] ss si sf0 np] e. unfold dispatch_exception. dispatch. Qed.

Definition expected (pol : policy) (i : nat) (w : bool) (st : state) (e : event) : option (val * istate) :=
  match e_kind e with
  | KCall => let '(st', p, t) := dispatch_call pol i st e in res (if t then VTrace else VNone) st' p
  | KLine => let '(st', p) := dispatch_line pol i w st e in res VTrace st' p
  | KReturn => let '(st', p) := dispatch_return pol i w st e in res VTrace st' p
  | KException => let '(st', p) := dispatch_exception pol i w st e in res VTrace st' p
  end.

Lemma tie_trace_dispatch : forall pol i w st e,
  (e_kind e = KCall -> w = true) ->
  dcall pol i w e "trace_dispatch" [eframe e; VStr (kname (e_kind e)); VArg] st = expected pol i w st e.
Proof.
  intros pol i w st e W. unfold expected.
  (* put the four interpreted dispatch methods back in place of the model's: both sides then run the same
     method on the same state, and evaluate to the same term [b] but for the [return] around it on the left *)
  rewrite <- tie_dispatch_line, <- tie_dispatch_call, <- tie_dispatch_return, <- tie_dispatch_exception.
  unfold dcall. destruct (e_kind e); [rewrite (W eq_refl) | | | ]; cbn;
    match goal with |- _ = ?b => generalize b end; intros [[v s]|]; reflexivity.
Qed.

Lemma tie_init : forall c e user st fr q out,
  exec methods e user FUEL (m_body custom_init) [] (mkI st fr q out)
  = Some (ONext, [], mkI (set_dbg st (s_dbg (init c))) fr false out).
Proof.
  intros. destruct st as [d ss si sf0 np]. destruct d as [b s0 r0 l0]. reflexivity.
Qed.

(** of the methods of Bdb / Pdb / Cmd, CustomizedPdb overrides set_continue, cmdloop and _cmdloop only
    (the translator refuses an override of any other method the model depends on; this pins the list) *)
Lemma tie_overrides :
  forallb (fun x => existsb (String.eqb x) ["_cmdloop"; "cmdloop"; "set_continue"]) custom_overrides = true
  /\ existsb (String.eqb "set_continue") custom_overrides = true
  /\ existsb (String.eqb "cmdloop") custom_overrides = true.
Proof. repeat split; reflexivity. Qed.

(** one raw event through the regenerated code: global trace function (filter chain) -> a fresh WithContext
    closure around Pdb.trace_dispatch for a call event; the frame's own trace function for the other events
    (CPython: a frame without f_trace gets no line/return/exception events; a None result leaves f_trace) *)
Definition istep (c : cfg) (pol : policy) (i : nat) (st : state) (e : event) : option (state * option prompt * bool) :=
  match e_kind e with
  | KCall =>
      let st0 := mkS (s_dbg st) (s_status st) ((e_fid e, (e_par e, e_gen e)) :: s_info st) (s_filter st) (s_nprompt st) in
      match irejected filter_classes register_prog global_trace_prog c e (s_filter st0) with
      | Some (rej, fs) =>
          let st1 := mkS (s_dbg st0) (s_status st0) (s_info st0) fs (s_nprompt st0) in
          if rej then Some (st1, None, false)
          else match dcall pol i true e "trace_dispatch" [eframe e; VStr (kname (e_kind e)); VArg] st1 with
               | Some (v, s) =>
                   match wexec FUEL local_trace_prog true (truthy v) with
                   | Some keep => Some (if keep then set_status (i_st s) (e_fid e) Wrapped else i_st s, hd_error (i_out s), true)
                   | None => None
                   end
               | None => None
               end
      | None => None
      end
  | _ =>
      match lookup (e_fid e) (s_status st) with
      | None => Some (st, None, false)
      | Some t =>
          let w := match t with Wrapped => true | Raw => false end in
          match dcall pol i w e "trace_dispatch" [eframe e; VStr (kname (e_kind e)); VArg] st with
          | Some (v, s) =>
              (* a WithContext closure must return itself again (then its next_trace stays live); Pdb's own
                 trace_dispatch on a Raw frame must return non-None (f_trace is replaced by the result) *)
              match (if w then wexec FUEL local_trace_prog true (truthy v) else Some (truthy v)) with
              | Some true => Some (i_st s, hd_error (i_out s), w)
              | _ => None
              end
          | None => None
          end
      end
  end.

Lemma tie_step : forall c pol i st e, istep c pol i st e = Some (step c pol i st e).
Proof.
  intros. unfold istep, step. destruct (e_kind e) eqn:K.
  1: { rewrite tie_rejected. cbn [s_filter s_dbg s_status s_info s_nprompt].
    destruct (rejected c e (s_filter st)) as [rej fs]. destruct rej; [reflexivity|].
    rewrite <- K, tie_trace_dispatch by reflexivity. unfold expected. rewrite K.
    match goal with |- context[let '(_, _) := ?d in _] => destruct d as [[st2 p] t] end.
    unfold res. destruct t; cbn [truthy]; rewrite tie_local_trace; destruct p; reflexivity. }
  (* line, return, exception: the frame's own trace function, if it has one *)
  all: destruct (lookup (e_fid e) (s_status st)) as [t|]; [|reflexivity].
  all: rewrite <- K, tie_trace_dispatch by (rewrite K; discriminate); unfold expected; rewrite K.
  all: match goal with |- context[let '(_, _) := ?d in _] => destruct d as [st2 p] end.
  all: unfold res; cbn [truthy]; rewrite tie_local_trace; destruct t, p; reflexivity.
Qed.

Fixpoint irun_from (c : cfg) (pol : policy) (i : nat) (st : state) (evs : list event) : option (list prompt * list nat) :=
  match evs with
  | [] => Some ([], [])
  | e :: r =>
      match istep c pol i st e with
      | Some (st', p, tc) =>
          match irun_from c pol (S i) st' r with
          | Some (ps, tcs) => Some ((match p with Some x => x :: ps | None => ps end), (if tc then i :: tcs else tcs))
          | None => None
          end
      | None => None
      end
  end.

(** call.py sys_trace: a thread other than the main one is traced only if trace_threads *)
Definition irun (c : cfg) (pol : policy) (evs : list event) : option (list prompt * list nat) :=
  if c_main c || (sys_trace_thread_guarded && c_threads c) then irun_from c pol 0%nat (init c) evs else Some ([], []).

Lemma tie_run_from : forall c pol evs i st, irun_from c pol i st evs = Some (run_from c pol i st evs).
Proof.
  intros c pol evs. induction evs as [|e r IH]; intros i st; cbn [irun_from run_from]; [reflexivity|].
  rewrite tie_step. destruct (step c pol i st e) as [[st' p] tc]. rewrite IH.
  destruct (run_from c pol (S i) st' r) as [ps tcs]. reflexivity.
Qed.

Theorem tie_run : forall c pol evs, irun c pol evs = Some (run c pol evs).
Proof.
  intros. unfold irun, run, stream_traced. rewrite tie_sys_trace. cbn [andb].
  destruct (c_main c || c_threads c); [apply tie_run_from | reflexivity].
Qed.

Corollary tie_prompts : forall c pol evs, option_map fst (irun c pol evs) = Some (prompts c pol evs).
Proof. intros. rewrite tie_run. reflexivity. Qed.

(** non-vacuity: def f(a): b = a + 1; return b / x = f(1), module tracing off -- the interpreter runs the
    regenerated code to the prompts the model computes (all-step, all-next, all-continue) *)
Definition tie_ev (k : kind) (f : Z) (p : option Z) (l : Z) : event := mkE k f p l MScript 0 false false noX.
Definition tie_stream : list event :=
  [tie_ev KCall 1 (Some 0) 0; tie_ev KLine 1 (Some 0) 1; tie_ev KLine 1 (Some 0) 4;
   tie_ev KCall 2 (Some 1) 1; tie_ev KLine 2 (Some 1) 2; tie_ev KLine 2 (Some 1) 3; tie_ev KReturn 2 (Some 1) 3;
   tie_ev KLine 1 (Some 0) 5; tie_ev KReturn 1 (Some 0) 5].
Definition tie_cfg : cfg := mkC true false true true [].

Example tie_example :
  option_map (fun r => map p_idx (fst r)) (irun tie_cfg (all Step) tie_stream) = Some [1; 2; 3; 4; 5; 6; 7; 8]%nat /\
  option_map (fun r => map p_idx (fst r)) (irun tie_cfg (all Next) tie_stream) = Some [1; 2; 7; 8]%nat /\
  option_map (fun r => map p_idx (fst r)) (irun tie_cfg (all Continue) tie_stream) = Some [1]%nat.
Proof. repeat split; vm_compute; reflexivity. Qed.
