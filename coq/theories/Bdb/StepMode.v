(** all-step: the debugger stays in step mode; the prompted line events are exactly the line events of
    frames that had an accepted call event ([step_lines]).  Then the same list twice more: with the event's own
    attributes in place of the filter chain ([step_lines_attr]), and without any state when module tracing is
    off ([step_lines_off]). *)
From NL Require Import Bdb.Model Bdb.Basics Bdb.Filters.
Open Scope Z_scope.
Open Scope list_scope.

(** the specification looks at the filter chain only (no debugger state) *)
Fixpoint step_spec (c : cfg) (i : nat) (fs : fstate) (acc : list Z) (evs : list event) : list nat :=
  match evs with
  | [] => []
  | e :: r =>
      match e_kind e with
      | KCall => let '(rej, fs') := rejected c e fs in step_spec c (S i) fs' (if rej then acc else e_fid e :: acc) r
      | KLine => if existsb (Z.eqb (e_fid e)) acc then i :: step_spec c (S i) fs acc r else step_spec c (S i) fs acc r
      | _ => step_spec c (S i) fs acc r
      end
  end.

Definition stepmode (d : dbg) : Prop := stopframe d = None /\ returnframe d = None /\ stoplineno d = 0.

Definition is_line (p : prompt) : bool := match p_kind p with KLine => true | _ => false end.

Lemma stop_here_stepmode : forall d f l, stepmode d -> stop_here d f l = true.
Proof. intros d f l (H & _ & _). unfold stop_here. rewrite H. reflexivity. Qed.

Definition step_inv (st : state) (acc : list Z) : Prop :=
  stepmode (s_dbg st) /\ forall f, lookup f (s_status st) = Some Wrapped <-> existsb (Z.eqb f) acc = true.

Lemma existsb_eqb_refl : forall f acc, existsb (Z.eqb f) (f :: acc) = true.
Proof. intros. simpl. rewrite Z.eqb_refl. reflexivity. Qed.

Lemma inv_traced : forall st acc f, step_inv st acc ->
  existsb (Z.eqb f) acc = match lookup f (s_status st) with Some Wrapped => true | _ => false end.
Proof.
  intros st acc f [_ W]. destruct (W f) as [W1 W2].
  destruct (existsb (Z.eqb f) acc); [rewrite W2; reflexivity|].
  destruct (lookup f (s_status st)) as [[|]|]; [discriminate W1 | |]; reflexivity.
Qed.

Lemma inv_accept : forall st acc f, step_inv st acc -> step_inv (set_status st f Wrapped) (f :: acc).
Proof.
  intros st acc f [M W]. split; [exact M|]. intros g. simpl.
  destruct (Z.eqb g f); [split; reflexivity | apply W].
Qed.

Lemma inter_step : forall i w r st e st' op acc,
  interaction (all Step) i w r st e = (st', op) -> step_inv st acc ->
  s_filter st' = s_filter st /\ step_inv st' acc /\ op = if w then Some (mkP i (e_kind e) (e_line e) (e_fid e)) else None.
Proof.
  intros i w r st e st' op acc H [M W]. unfold interaction in H. destruct w; inversion H; subst; clear H;
    [|split; [reflexivity|]; split; [exact (conj M W) | reflexivity]].
  unfold all, apply_cmd. destruct (curframe _ e) as [[[cur cl] cp] cg]. simpl.
  split; [reflexivity|]. split; [|reflexivity]. split; [unfold stepmode; simpl; auto|].
  (* at a return, set_step gives the caller Pdb's own trace function if it has none: a Raw entry, not a Wrapped one *)
  destruct r; [|exact W]. destruct (e_par e) as [p|]; [|exact W].
  destruct (lookup p (s_status st)) eqn:L; [exact W|].
  intros f. simpl. destruct (Z.eqb f p) eqn:E; [|apply W].
  apply Z.eqb_eq in E. subst f. rewrite <- (W p), L. split; discriminate.
Qed.

(** In step mode [stop_here] holds everywhere, so a dispatch function is one interaction, except where
    bdb returns before it reaches user_*. *)
Lemma dispatch_line_step : forall pol i w st e, stepmode (s_dbg st) ->
  dispatch_line pol i w st e = interaction pol i w false st e.
Proof. intros pol i w st e M. unfold dispatch_line. rewrite stop_here_stepmode by exact M. reflexivity. Qed.

Lemma dispatch_exception_step : forall pol i w st e, stepmode (s_dbg st) ->
  dispatch_exception pol i w st e =
  if e_gen e && x_stopiter (e_x e) && x_tbnone (e_x e) then (st, None) else interaction pol i w false st e.
Proof. intros pol i w st e M. unfold dispatch_exception. rewrite stop_here_stepmode by exact M. reflexivity. Qed.

Lemma dispatch_return_step : forall i w st e acc, step_inv st acc ->
  dispatch_return (all Step) i w st e = interaction (all Step) i w true st e.
Proof.
  intros i w st e acc INV. pose proof INV as [M _]. unfold dispatch_return. rewrite stop_here_stepmode by exact M.
  destruct (interaction (all Step) i w true st e) as [st' p] eqn:I.
  (* after the interaction the stop frame is None again, so the test that clears the stop information fails *)
  destruct (inter_step _ _ _ _ _ _ _ _ I INV) as (_ & [(J & _) _] & _). destruct M as (M1 & _). rewrite M1, J. reflexivity.
Qed.

Lemma dispatch_call_step : forall pol i st e, stepmode (s_dbg st) ->
  dispatch_call pol i st e =
  match botframe (s_dbg st) with
  | None => (set_dbg st (mkD (e_par e) None None 0), None, true)
  | Some _ => let '(st', p) := interaction pol i true false st e in (st', p, true)
  end.
Proof.
  intros pol i st e M. unfold dispatch_call. rewrite stop_here_stepmode by exact M.
  destruct M as (M1 & M2 & M3). rewrite M1, M2, M3. reflexivity.
Qed.

Lemma not_line : forall i e p, e_kind e <> KLine ->
  Some (mkP i (e_kind e) (e_line e) (e_fid e)) = Some p -> is_line p = false.
Proof. intros i e p K H. inversion H. unfold is_line. simpl. destruct (e_kind e); congruence. Qed.

Lemma step_stepmode : forall c i st e st' op tc acc,
  step c (all Step) i st e = (st', op, tc) -> step_inv st acc ->
  match e_kind e with
  | KCall => let '(rej, fs') := rejected c e (s_filter st) in
             s_filter st' = fs' /\ step_inv st' (if rej then acc else e_fid e :: acc) /\
             (forall p, op = Some p -> is_line p = false)
  | KLine => s_filter st' = s_filter st /\ step_inv st' acc /\
             op = if existsb (Z.eqb (e_fid e)) acc then Some (mkP i KLine (e_line e) (e_fid e)) else None
  | _ => s_filter st' = s_filter st /\ step_inv st' acc /\ (forall p, op = Some p -> is_line p = false)
  end.
Proof.
  intros c i st e st' op tc acc H INV. pose proof INV as [M _]. unfold step in H.
  destruct (e_kind e) eqn:K.
  1: { (* call: the frame is recorded, the filter chain runs, then dispatch_call *)
    cbv zeta in H. cbn [s_filter s_dbg s_status s_info s_nprompt] in H.
    destruct (rejected c e (s_filter st)) as [rej fs] eqn:R.
    destruct rej; [inversion H; subst; split; [reflexivity|]; split; [exact INV | discriminate]|].
    rewrite dispatch_call_step in H by exact M. cbn [s_dbg] in H. destruct (botframe (s_dbg st)).
    - match type of H with context[interaction ?a ?b ?c0 ?d ?s ?ev] =>
        destruct (interaction a b c0 d s ev) as [s2 p2] eqn:I end.
      destruct (inter_step _ _ _ _ _ _ _ acc I INV) as (I1 & I2 & I3). inversion H; subst st' op tc.
      split; [exact I1|]. split; [apply inv_accept; exact I2|]. rewrite I3. intros p. apply not_line. congruence.
    - inversion H; subst st' op tc. split; [reflexivity|]. split; [|discriminate].
      apply inv_accept. split; [unfold stepmode; simpl; auto | apply INV]. }
  (* line, return, exception: nothing without a trace function; otherwise at most one interaction *)
  all: rewrite ?(inv_traced st acc (e_fid e) INV);
    destruct (lookup (e_fid e) (s_status st)) as [t|];
    [| inversion H; subst; split; [reflexivity|]; split; [exact INV|]; first [reflexivity | discriminate]].
  all: rewrite ?dispatch_line_step, ?(dispatch_return_step _ _ _ _ acc), ?dispatch_exception_step in H by assumption.
  3: destruct (e_gen e && x_stopiter (e_x e) && x_tbnone (e_x e));
       [inversion H; subst; split; [reflexivity|]; split; [exact INV | discriminate]|].
  all: match type of H with context[interaction ?a ?b ?c0 ?d ?s ?ev] =>
         destruct (interaction a b c0 d s ev) as [s2 p2] eqn:I end;
       destruct (inter_step _ _ _ _ _ _ _ acc I INV) as (I1 & I2 & I3); inversion H; subst st' op tc;
       split; [exact I1|]; split; [exact I2|].
  - rewrite I3, K. destruct t; reflexivity.
  - rewrite I3. destruct t; [intros p; apply not_line; congruence | discriminate].
  - rewrite I3. destruct t; [intros p; apply not_line; congruence | discriminate].
Qed.

Lemma run_from_step_lines : forall c evs i st acc,
  step_inv st acc ->
  map p_idx (filter is_line (fst (run_from c (all Step) i st evs))) = step_spec c i (s_filter st) acc evs.
Proof.
  induction evs as [|e r IH]; intros i st acc INV; [reflexivity|].
  simpl. destruct (step c (all Step) i st e) as [[st' op] tc] eqn:S0.
  pose proof (step_stepmode _ _ _ _ _ _ _ _ S0 INV) as F.
  destruct (run_from c (all Step) (S i) st' r) as [ps tcs] eqn:R.
  destruct (e_kind e) eqn:K; [destruct (rejected c e (s_filter st)) as [rej fs'] | ..];
    destruct F as (F1 & F2 & F3); specialize (IH (S i) st' _ F2); rewrite R, F1 in IH; simpl in IH; rewrite <- IH.
  2: subst op; destruct (existsb (Z.eqb (e_fid e)) acc); reflexivity.
  all: destruct op as [p|]; simpl; [rewrite (F3 p eq_refl)|]; reflexivity.
Qed.

Theorem step_lines : forall c evs,
  stream_traced c = true ->
  map p_idx (filter is_line (prompts c (all Step) evs))
  = step_spec c 0%nat (s_filter (init c)) [] evs.
Proof.
  intros c evs T. unfold prompts, run. rewrite T.
  apply (run_from_step_lines c evs 0%nat (init c) []).
  split; [unfold stepmode; simpl; auto|]. intros f. simpl. split; discriminate.
Qed.

Fixpoint step_spec_attr (c : cfg) (i : nat) (fs : fstate) (acc : list Z) (evs : list event) : list nat :=
  match evs with
  | [] => []
  | e :: r =>
      match e_kind e with
      | KCall => let '(ok, fs') := accept_attr c e fs in step_spec_attr c (S i) fs' (if ok then e_fid e :: acc else acc) r
      | KLine => if existsb (Z.eqb (e_fid e)) acc then i :: step_spec_attr c (S i) fs acc r else step_spec_attr c (S i) fs acc r
      | _ => step_spec_attr c (S i) fs acc r
      end
  end.

Lemma step_spec_attr_eq : forall c evs i fs acc, step_spec c i fs acc evs = step_spec_attr c i fs acc evs.
Proof.
  induction evs as [|e r IH]; intros i fs acc; [reflexivity|]. simpl.
  destruct (e_kind e); try (rewrite IH; reflexivity).
  rewrite filter_complete. destruct (accept_attr c e fs) as [ok fs']. simpl. destruct ok; simpl; apply IH.
Qed.

(** module tracing off: no state at all -- the lines of the frames entered by a call in the script module, not in a lambda *)
Fixpoint script_lines (i : nat) (acc : list Z) (evs : list event) : list nat :=
  match evs with
  | [] => []
  | e :: r =>
      match e_kind e with
      | KCall => script_lines (S i) (if (match e_mc e with MScript => negb (e_lam e) | _ => false end) then e_fid e :: acc else acc) r
      | KLine => if existsb (Z.eqb (e_fid e)) acc then i :: script_lines (S i) acc r else script_lines (S i) acc r
      | _ => script_lines (S i) acc r
      end
  end.

Lemma step_spec_attr_off : forall c evs i fs acc,
  c_modules c = false -> step_spec_attr c i fs acc evs = script_lines i acc evs.
Proof.
  induction evs as [|e r IH]; intros i fs acc M; [reflexivity|]. simpl.
  destruct (e_kind e); try (apply IH; exact M).
  - unfold accept_attr. rewrite M. apply IH; exact M.
  - destruct (existsb _ _); rewrite IH; auto.
Qed.

Theorem step_lines_attr : forall c evs,
  stream_traced c = true ->
  map p_idx (filter is_line (prompts c (all Step) evs))
  = step_spec_attr c 0%nat (s_filter (init c)) [] evs.
Proof. intros c evs T. rewrite step_lines by exact T. apply step_spec_attr_eq. Qed.

Theorem step_lines_off : forall c evs,
  stream_traced c = true -> c_modules c = false ->
  map p_idx (filter is_line (prompts c (all Step) evs))
  = script_lines 0%nat [] evs.
Proof. intros c evs T M. rewrite step_lines_attr by exact T. apply step_spec_attr_off. exact M. Qed.
