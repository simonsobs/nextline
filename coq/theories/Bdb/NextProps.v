(** all-next, in the words of the property (consequences of the refinement in NextMode.v):
    while a non-generator frame [f] is being stepped -- from a prompt in [f] to the next event of [f] --
    nothing is prompted (nothing inside the calls it makes), that next event is prompted if it is a line,
    and after the prompt of its return the next line of a frame stepped before (a caller) is prompted. *)
From NL Require Import Bdb.Model Bdb.Basics Bdb.NextMode.
Open Scope Z_scope.
Open Scope list_scope.

Fixpoint nfinal (c : cfg) (i : nat) (s : nspec) (evs : list event) : nspec :=
  match evs with [] => s | e :: r => nfinal c (S i) (fst (next_step c i s e)) r end.

Lemma spec_app : forall c a b i s,
  next_spec_from c i s (a ++ b) = next_spec_from c i s a ++ next_spec_from c (i + List.length a) (nfinal c i s a) b.
Proof.
  induction a as [|e r IH]; intros b i s; simpl.
  - rewrite Nat.add_0_r. reflexivity.
  - destruct (next_step c i s e) as [s' p]. simpl. rewrite IH.
    replace (S i + List.length r)%nat with (i + S (List.length r))%nat by lia.
    destruct p; reflexivity.
Qed.

Definition traced_in (s : nspec) (f : Z) : bool := existsb (Z.eqb f) (n_traced s).

Lemma next_step_frame : forall c i s e,
  let s' := fst (next_step c i s e) in
  (n_traced s' = n_traced s \/ n_traced s' = e_fid e :: n_traced s) /\
  n_info s' = match e_kind e with KCall => (e_fid e, e_gen e) :: n_info s | _ => n_info s end.
Proof.
  intros c i s e. unfold next_step. destruct (e_kind e); cbv zeta;
    repeat match goal with
           | |- context[let '(_, _) := ?t in _] => destruct t
           | |- context[if ?b then _ else _] => destruct b
           | |- context[match ?o with Some _ => _ | None => _ end] => destruct o
           end; simpl; auto.
Qed.

Lemma prompt_state : forall c i s e s' p,
  next_step c i s e = (s', Some p) ->
  p = mkP i (e_kind e) (e_line e) (e_fid e) /\ traced_in s' (e_fid e) = true /\
  n_sf s' = (match e_kind e with KReturn => None | _ => Some (e_fid e) end).
Proof.
  intros c i s e s' p H. unfold next_step, traced_in in *. destruct (e_kind e) eqn:K; cbv zeta in H.
  - destruct (rejected c e (n_fs s)) as [rej fs']. destruct rej; [discriminate|].
    destruct (negb (n_bot s)); [discriminate|]. destruct (negb _); [discriminate|]. destruct (_ && _); [discriminate|].
    inversion H; subst. simpl. rewrite Z.eqb_refl. auto.
  - destruct (existsb _ _) eqn:T; [|discriminate]. cbn [andb] in H. destruct (stops _ _ _); [|discriminate].
    inversion H; subst. simpl. auto.
  - destruct (existsb _ _) eqn:T; [|discriminate]. cbn [andb] in H. destruct (stops _ _ _); [|discriminate].
    destruct (_ && _); [discriminate|]. inversion H; subst. simpl. auto.
  - destruct (existsb _ _) eqn:T; [|discriminate]. destruct (stops _ _ _).
    + destruct (_ && _ && _); [discriminate|]. inversion H; subst. simpl. auto.
    + destruct (n_sf s); [|discriminate]. destruct (_ && _ && _); [|discriminate]. inversion H; subst. simpl. auto.
Qed.

Lemma spec_idx_range : forall c evs i s p,
  In p (next_spec_from c i s evs) -> (i <= p_idx p < i + List.length evs)%nat.
Proof.
  induction evs as [|e r IH]; intros i s p H; simpl in H; [contradiction|].
  destruct (next_step c i s e) as [s' [x|]] eqn:NS; simpl.
  - destruct H as [H|H]; [|apply IH in H; lia]. subst x. destruct (prompt_state _ _ _ _ _ _ NS) as [-> _]. simpl. lia.
  - apply IH in H. lia.
Qed.

Lemma traced_mono : forall c i s e f, traced_in s f = true -> traced_in (fst (next_step c i s e)) f = true.
Proof.
  intros c i s e f H. unfold traced_in in *. destruct (next_step_frame c i s e) as [[E|E] _]; rewrite E; [exact H|].
  simpl. rewrite H. apply orb_true_r.
Qed.

Lemma traced_mono_run : forall c evs i s f, traced_in s f = true -> traced_in (nfinal c i s evs) f = true.
Proof.
  induction evs as [|e r IH]; intros i s f H; simpl; [exact H|]. apply IH. apply traced_mono. exact H.
Qed.

Lemma prompts_stream_traced : forall c pol evs k, In k (map p_idx (prompts c pol evs)) -> stream_traced c = true.
Proof. intros c pol evs k H. unfold prompts, run in H. destruct (stream_traced c); [reflexivity | contradiction]. Qed.

Lemma prompted_here : forall c pre e rest i s,
  In (i + List.length pre)%nat (map p_idx (next_spec_from c i s (pre ++ e :: rest))) ->
  exists s1 x, next_step c (i + List.length pre) (nfinal c i s pre) e = (s1, Some x).
Proof.
  intros c pre e rest i s H. rewrite spec_app, map_app in H. apply in_app_or in H. destruct H as [H|H].
  - apply in_map_iff in H. destruct H as (x & Hx & IN). apply spec_idx_range in IN. lia.
  - simpl in H. destruct (next_step c (i + List.length pre) (nfinal c i s pre) e) as [s1 [x|]]; [eauto|].
    apply in_map_iff in H. destruct H as (x & Hx & IN). apply spec_idx_range in IN. lia.
Qed.

Lemma other_frame : forall c i s e f,
  n_sf s = Some f -> ginfo (n_info s) f = false -> e_fid e <> f ->
  snd (next_step c i s e) = None /\ n_sf (fst (next_step c i s e)) = Some f /\ ginfo (n_info (fst (next_step c i s e))) f = false.
Proof.
  intros c i s e f SF G NE. apply Z.eqb_neq in NE. unfold next_step. rewrite SF.
  assert (ST : stops (Some f) (e_fid e) (e_line e) = false) by (unfold stops; rewrite NE; reflexivity).
  rewrite ST. destruct (e_kind e); cbv zeta.
  - assert (G' : ginfo ((e_fid e, e_gen e) :: n_info s) f = false).
    { unfold ginfo in *. simpl. rewrite Z.eqb_sym, NE. exact G. }
    destruct (rejected c e (n_fs s)) as [rej fs']. destruct rej; [simpl; auto|].
    destruct (negb (n_bot s)); simpl; auto.
  - rewrite andb_false_r. simpl; auto.
  - rewrite andb_false_r. simpl; auto.
  - destruct (existsb (Z.eqb (e_fid e)) (n_traced s)); [|simpl; auto]. rewrite NE, G. simpl. auto.
Qed.

Lemma other_frames_run : forall c mid i s f,
  n_sf s = Some f -> ginfo (n_info s) f = false -> (forall e, In e mid -> e_fid e <> f) ->
  next_spec_from c i s mid = [] /\ n_sf (nfinal c i s mid) = Some f.
Proof.
  induction mid as [|e r IH]; intros i s f SF G NE; simpl; [auto|].
  destruct (other_frame c i s e f SF G (NE e (or_introl eq_refl))) as (O1 & O2 & O3).
  destruct (next_step c i s e) as [s' p]. simpl in *. subst p.
  apply IH; auto.
Qed.

Section Stepped.
Variable c : cfg.
Variables pre mid post : list event.
Variables ei ej : event.
Variable f : Z.
Let evs := pre ++ ei :: mid ++ ej :: post.
Hypothesis SIMPLE : forall e, In e evs -> simple_tb e.
Hypothesis FI : e_fid ei = f.
Hypothesis FJ : e_fid ej = f.
Hypothesis MID : forall e, In e mid -> e_fid e <> f.        (* ej is the next event of frame f *)
Hypothesis NOTGEN : forall e, In e (pre ++ [ei]) -> e_kind e = KCall -> e_fid e = f -> e_gen e = false.
Hypothesis NOTRET : e_kind ei <> KReturn.
Hypothesis PROMPTED : In (List.length pre) (map p_idx (prompts c (all Next) evs)).

Lemma info_not_gen : forall l i s,
  ginfo (n_info s) f = false -> (forall e, In e l -> e_kind e = KCall -> e_fid e = f -> e_gen e = false) ->
  ginfo (n_info (nfinal c i s l)) f = false.
Proof.
  induction l as [|e r IH]; intros i s G H; simpl; [exact G|].
  apply IH; [| intros x Hx; apply H; right; exact Hx].
  rewrite (proj2 (next_step_frame c i s e)). destruct (e_kind e) eqn:K; try exact G.
  unfold ginfo in *. simpl. destruct (Z.eqb f (e_fid e)) eqn:E; [|exact G].
  apply Z.eqb_eq in E. apply H; [left; reflexivity | exact K | symmetry; exact E].
Qed.

Lemma stepped_to_next :
  exists front s2,
    (forall p, In p front -> (p_idx p <= List.length pre)%nat) /\ n_sf s2 = Some f /\ traced_in s2 f = true /\
    prompts c (all Next) evs = front ++ next_spec_from c (S (List.length pre) + List.length mid) s2 (ej :: post).
Proof.
  pose proof (prompts_stream_traced _ _ _ _ PROMPTED) as T.
  rewrite (next_refines c evs SIMPLE) in *. unfold next_spec in *. rewrite T in *. unfold evs in *.
  destruct (prompted_here c pre ei _ 0%nat _ PROMPTED) as (s1 & x & NS). cbn [Nat.add] in NS.
  rewrite spec_app. simpl. rewrite NS.
  pose proof (proj2 (next_step_frame c (List.length pre) (nfinal c 0 (n_init c) pre) ei)) as P4. rewrite NS in P4. cbn [fst] in P4.
  destruct (prompt_state _ _ _ _ _ _ NS) as (P1 & P2 & P3). rewrite FI in *.
  assert (G : ginfo (n_info s1) f = false).
  { assert (G0 : ginfo (n_info (nfinal c 0 (n_init c) pre)) f = false).
    { apply info_not_gen; [reflexivity|]. intros y Hy. apply NOTGEN. apply in_or_app; left; exact Hy. }
    rewrite P4. destruct (e_kind ei) eqn:K; try exact G0.
    unfold ginfo. simpl. rewrite Z.eqb_refl. apply NOTGEN; [apply in_or_app; right; left; reflexivity | exact K | exact FI]. }
  assert (SF : n_sf s1 = Some f) by (destruct (e_kind ei); try exact P3; contradiction).
  destruct (other_frames_run c mid (S (List.length pre)) s1 f SF G MID) as [E SF'].
  rewrite spec_app, E.
  exists (next_spec_from c 0 (n_init c) pre ++ [x]), (nfinal c (S (List.length pre)) s1 mid).
  split; [|split; [exact SF' | split; [apply traced_mono_run; exact P2 | rewrite <- app_assoc; reflexivity]]].
  intros p IN. apply in_app_or in IN. destruct IN as [IN|[<-|[]]]; [apply spec_idx_range in IN; lia | rewrite P1; reflexivity].
Qed.

Theorem next_nothing_inside : forall k,
  (List.length pre < k < S (List.length pre) + List.length mid)%nat ->
  ~ In k (map p_idx (prompts c (all Next) evs)).
Proof.
  intros k RANGE H. destruct stepped_to_next as (front & s2 & B & _ & _ & EQ).
  rewrite EQ, map_app in H. apply in_app_or in H.
  destruct H as [H|H]; apply in_map_iff in H; destruct H as (x & Hx & IN);
    [apply B in IN | apply spec_idx_range in IN]; lia.
Qed.

Theorem next_line_prompted :
  e_kind ej = KLine -> 0 <= e_line ej ->
  In (S (List.length pre) + List.length mid)%nat (map p_idx (prompts c (all Next) evs)).
Proof.
  intros KJ LJ. destruct stepped_to_next as (front & s2 & _ & SF & TR & EQ).
  rewrite EQ, map_app. apply in_or_app. right. simpl next_spec_from.
  unfold next_step at 1. rewrite KJ, FJ. unfold traced_in in TR. rewrite TR, SF. unfold stops. rewrite Z.eqb_refl.
  apply Z.leb_le in LJ. rewrite LJ. simpl. left. reflexivity.
Qed.
End Stepped.

Lemma prompted_frame_traced : forall c l i s p,
  In p (next_spec_from c i s l) -> traced_in (nfinal c i s l) (p_fid p) = true.
Proof.
  induction l as [|e r IH]; intros i s p H; simpl in H; [contradiction|].
  simpl. destruct (next_step c i s e) as [s' q] eqn:NS. simpl.
  destruct q as [x|]; [destruct H as [E|H] |]; try (apply IH; exact H).
  subst x. destruct (prompt_state _ _ _ _ _ _ NS) as (P1 & P2 & _). rewrite P1. simpl.
  apply traced_mono_run. exact P2.
Qed.

(** after the prompt of a return the debugger stops at the very next line of any frame it has a trace
    function in -- in particular of the caller, if it was prompted before *)
Theorem next_after_return : forall c pre ei ej post p,
  (forall e, In e (pre ++ ei :: ej :: post) -> simple_tb e) ->
  e_kind ei = KReturn -> In (List.length pre) (map p_idx (prompts c (all Next) (pre ++ ei :: ej :: post))) ->
  e_kind ej = KLine ->
  In p (prompts c (all Next) (pre ++ ei :: ej :: post)) -> p_fid p = e_fid ej -> (p_idx p < List.length pre)%nat ->
  In (S (List.length pre)) (map p_idx (prompts c (all Next) (pre ++ ei :: ej :: post))).
Proof.
  intros c pre ei ej post p SIMPLE KI PR KJ INP PG LT.
  pose proof (prompts_stream_traced _ _ _ _ PR) as T.
  rewrite (next_refines c _ SIMPLE) in *. unfold next_spec in *. rewrite T in *.
  destruct (prompted_here c pre ei _ 0%nat _ PR) as (s1 & x & NS).
  rewrite spec_app in *. rewrite Nat.add_0_l in *.
  set (s0 := nfinal c 0 (n_init c) pre) in *.
  (* the frame of ej has a trace function at s0: it was prompted in pre *)
  assert (TG : traced_in s0 (e_fid ej) = true).
  { apply in_app_or in INP. destruct INP as [INP|INP].
    - rewrite <- PG. apply prompted_frame_traced. exact INP.
    - apply spec_idx_range in INP. lia. }
  destruct (prompt_state _ _ _ _ _ _ NS) as (_ & _ & P3). rewrite KI in P3.
  assert (TG1 : traced_in s1 (e_fid ej) = true).
  { replace s1 with (fst (next_step c (List.length pre) s0 ei)) by (rewrite NS; reflexivity). apply traced_mono. exact TG. }
  (* after the prompted return nothing is being stepped, so the line of a traced frame is prompted *)
  rewrite map_app. apply in_or_app. right. simpl. rewrite NS. simpl. right.
  unfold next_step at 1. rewrite KJ. unfold traced_in in TG1. rewrite TG1, P3. simpl. left. reflexivity.
Qed.
