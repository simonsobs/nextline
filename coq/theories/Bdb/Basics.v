(** Basic facts about Bdb/Model.v: what one event can do to the state, and that the
    command policy is consulted only when a prompt is produced. *)
From NL Require Import Bdb.Model.
Open Scope Z_scope.

Lemma lookup_in : forall {A} k (l : list (Z * A)) v, lookup k l = Some v -> In (k, v) l.
Proof.
  induction l as [|[k' v'] r IH]; intros v H; simpl in H; [discriminate|].
  destruct (Z.eqb k k') eqn:E.
  - apply Z.eqb_eq in E. inversion H; subst. left; reflexivity.
  - right. apply IH; exact H.
Qed.

Definition status_ext (s s' : list (Z * tstatus)) : Prop :=
  forall f, lookup f s' = Some Wrapped -> lookup f s = Some Wrapped.

Lemma status_ext_refl : forall s, status_ext s s.
Proof. intros s f H; exact H. Qed.

Lemma apply_cmd_status : forall k st e r, status_ext (s_status st) (s_status (apply_cmd k st e r)).
Proof.
  intros k st e r. unfold apply_cmd. destruct (curframe st e) as [[[cur cl] cp] cg].
  destruct k; simpl; try apply status_ext_refl.
  - destruct r; simpl; try apply status_ext_refl.
    destruct (e_par e) as [p|]; simpl; try apply status_ext_refl.
    destruct (lookup p (s_status st)) eqn:L; simpl; try apply status_ext_refl.
    intros f H. simpl in H. destruct (Z.eqb f p) eqn:E; [discriminate | exact H].
  - destruct cg; simpl; apply status_ext_refl.
Qed.

Lemma apply_cmd_frame : forall k st e r,
  s_info (apply_cmd k st e r) = s_info st /\ s_filter (apply_cmd k st e r) = s_filter st /\
  botframe (s_dbg (apply_cmd k st e r)) = botframe (s_dbg st).
Proof.
  intros k st e r. unfold apply_cmd. destruct (curframe st e) as [[[cur cl] cp] cg].
  destruct k; simpl; auto. destruct cg; auto.
Qed.

Lemma interaction_indep : forall pol1 pol2 i w r st e st',
  interaction pol1 i w r st e = (st', None) -> interaction pol2 i w r st e = (st', None).
Proof. intros. unfold interaction in *. destruct w; [discriminate | exact H]. Qed.

Lemma interaction_prompt_indep : forall pol1 pol2 i w r st e st1 p,
  interaction pol1 i w r st e = (st1, Some p) -> exists st2, interaction pol2 i w r st e = (st2, Some p).
Proof. intros. unfold interaction in *. destruct w; [| discriminate]. inversion H; subst. eexists; reflexivity. Qed.

Definition disp_ok (i : nat) (w : bool) (st : state) (e : event) (r : state * option prompt) : Prop :=
  status_ext (s_status st) (s_status (fst r)) /\ s_info (fst r) = s_info st /\ s_filter (fst r) = s_filter st /\
  botframe (s_dbg (fst r)) = botframe (s_dbg st) /\
  (forall p, snd r = Some p -> w = true /\ p = mkP i (e_kind e) (e_line e) (e_fid e)).

Lemma disp_ok_id : forall i w st e, disp_ok i w st e (st, None).
Proof. intros. unfold disp_ok; simpl. repeat split; try apply status_ext_refl; intros; discriminate. Qed.

Lemma disp_ok_inter : forall pol i w r st e, disp_ok i w st e (interaction pol i w r st e).
Proof.
  intros pol i w r st e. unfold interaction. destruct w; [|apply disp_ok_id].
  set (st1 := mkS _ _ _ _ _). unfold disp_ok; simpl.
  split; [exact (apply_cmd_status _ st1 e r)|]. destruct (apply_cmd_frame (pol (s_nprompt st) e) st1 e r) as (A & B & C).
  repeat split; try assumption. congruence.
Qed.

Lemma dispatch_line_ok : forall pol i w st e, disp_ok i w st e (dispatch_line pol i w st e).
Proof.
  intros. unfold dispatch_line. destruct (stop_here _ _ _); [apply disp_ok_inter | apply disp_ok_id].
Qed.

Lemma dispatch_exception_ok : forall pol i w st e, disp_ok i w st e (dispatch_exception pol i w st e).
Proof.
  intros. unfold dispatch_exception.
  destruct (stop_here _ _ _).
  - destruct (_ && _ && _); [apply disp_ok_id | apply disp_ok_inter].
  - destruct (stopframe (s_dbg st)); [| apply disp_ok_id].
    destruct (_ && _ && _); [apply disp_ok_inter | apply disp_ok_id].
Qed.

Lemma dispatch_return_ok : forall pol i w st e, disp_ok i w st e (dispatch_return pol i w st e).
Proof.
  intros. unfold dispatch_return.
  destruct (_ || _); [| apply disp_ok_id].
  destruct (_ && _); [apply disp_ok_id |].
  pose proof (disp_ok_inter pol i w true st e) as H.
  destruct (interaction pol i w true st e) as [st' p].
  destruct (_ && _); [| exact H].
  unfold disp_ok in *; simpl in *. exact H.
Qed.

(** dispatch_call is the one dispatcher that sets botframe (at the first accepted call), so it has the clauses of
    [disp_ok] but the one about botframe *)
Lemma dispatch_call_ok : forall pol i st e st' op tr,
  dispatch_call pol i st e = (st', op, tr) ->
  status_ext (s_status st) (s_status st') /\ s_info st' = s_info st /\ s_filter st' = s_filter st /\
  (forall p, op = Some p -> p = mkP i (e_kind e) (e_line e) (e_fid e)).
Proof.
  intros pol i st e st' op tr H. unfold dispatch_call in H.
  (* without a bottom frame, when stop_here fails, and in a generator frame bdb returns before user_call *)
  destruct (botframe (s_dbg st)); [destruct (negb _); [|destruct (_ && _)]|];
    try (inversion H; subst; simpl; repeat split; try apply status_ext_refl; intros; discriminate).
  pose proof (disp_ok_inter pol i true false st e) as D.
  destruct (interaction pol i true false st e) as [s2 p2]. inversion H; subst; clear H.
  destruct D as (D1 & D2 & D3 & D4 & D5). simpl in *. repeat split; auto.
  intros p Hp. apply D5 in Hp. tauto.
Qed.

Lemma step_facts : forall c pol i st e st' op tc,
  step c pol i st e = (st', op, tc) ->
  (forall p, op = Some p -> p = mkP i (e_kind e) (e_line e) (e_fid e) /\
     match e_kind e with
     | KCall => fst (rejected c e (s_filter st)) = false
     | _ => lookup (e_fid e) (s_status st) = Some Wrapped
     end) /\
  (forall f, lookup f (s_status st') = Some Wrapped ->
     lookup f (s_status st) = Some Wrapped \/
     (f = e_fid e /\ e_kind e = KCall /\ fst (rejected c e (s_filter st)) = false)).
Proof.
  intros c pol i st e st' op tc H. unfold step in H.
  destruct (e_kind e) eqn:K.
  1: { (* call *)
    cbv zeta in H. cbn [s_filter s_dbg s_status s_info s_nprompt] in H.
    destruct (rejected c e (s_filter st)) as [rej fs] eqn:R.
    cbn [fst]. destruct rej.
    + inversion H; subst; clear H. split; [intros; discriminate | intros f Hf; left; exact Hf].
    + match type of H with context[dispatch_call ?a ?b ?s ?ev] =>
        pose proof (dispatch_call_ok a b s ev) as D; destruct (dispatch_call a b s ev) as [[s2 p2] tr] end.
      specialize (D _ _ _ eq_refl). destruct D as (D1 & D2 & D3 & D5). cbn [s_status] in D1.
      inversion H; subst; clear H. split.
      * intros p Hp. split; [rewrite (D5 p Hp); rewrite K; reflexivity | reflexivity].
      * intros f Hf. destruct tr.
        { simpl in Hf. destruct (Z.eqb f (e_fid e)) eqn:E.
          - right. apply Z.eqb_eq in E. auto.
          - left. apply D1; exact Hf. }
        left. apply D1; exact Hf. }
  (* line, return, exception *)
  all: destruct (lookup (e_fid e) (s_status st)) as [t|] eqn:L;
    [| inversion H; subst; split; [intros; discriminate | intros f Hf; left; exact Hf]].
  all: match type of H with context[let '(_, _) := ?d in _] =>
         assert (D : disp_ok i (match t with Wrapped => true | Raw => false end) st e d)
           by first [apply dispatch_line_ok | apply dispatch_return_ok | apply dispatch_exception_ok];
         destruct d as [s2 p2] end.
  all: inversion H; subst; clear H; destruct D as (D1 & _ & _ & _ & D5); simpl in *; split;
    [| intros f Hf; left; apply D1; exact Hf].
  all: intros p Hp; destruct (D5 p Hp) as [W E]; rewrite K in E; split; auto; destruct t; [reflexivity | discriminate].
Qed.
