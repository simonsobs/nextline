(** TIE of the hand-written model of the child-side command path (Prompt/Model.v) to the code
    of /repo.

    Gen/PromptFuns.v holds the statement trees of Prompt.init / on_start_trace / on_end_trace /
    prompt, relay_commands.fn, try_again_on_error, PromptFunc._prompt_func and
    SendCommand._send_command, REGENERATED from the source at every check
    (translate/prompt_funs.py, fail closed).  Prompt/Interp.v gives those trees a small-step
    semantics.  This file drives the interpreter by the SAME labels as Prompt/Model.v and proves
    that for EVERY list of labels the interpreter of the regenerated code and the model produce
    the same observable history (same output at every label: which instance was relayed or
    dropped, which prompt opened, which command was executed or discarded for which prompt) and
    the same queues ([sim]).  A theorem of Prompt/{Inv,Once,Erase,Deliver}.v, being a statement
    about [trace ls], therefore holds of the regenerated code ([ihist_trace]); those of Prompt/Once.v
    are restated so ([tie_*]).

    What a label means for the code (the only place where the granularity of the model is
    chosen; everything else is computed from the regenerated trees):
      Send c        SendCommand._send_command(PdbCommand c) runs to its end
      Relay         the relay thread (executor.submit(try_again_on_error, fn)), standing at
                    `queue_in.get()`, is woken and runs on to its next get
      StartTrace t  Prompt.on_start_trace(t) runs to its end   (enabled: t is not a live trace)
      EndTrace t    Prompt.on_end_trace(t) runs to its end     (enabled: t is live and its thread is not in a prompt)
      OpenPrompt t  the thread of the live trace t calls _prompt_func and runs on to its first get
      Take t        that thread, standing at `queue.get()`, is woken and runs on to its next get,
                    or returns from _prompt_func, or dies
    Liveness of trace numbers is the environment's (C06: a number is started once; a trace ends
    when its thread is done): a ghost set of the interpreter, NOT read off the code's dict --
    that the dict holds a queue exactly for the live traces is part of what is proved. *)
From NL Require Import Prompt.Interp Prompt.Hist.
From NL Require Prompt.Spec Prompt.Inv Prompt.Once.
From Coq Require Import Lia.
Open Scope Z_scope.

Record ist := mkI {
  i_sh : shared;
  i_relay : thread;
  i_threads : Z -> option (thread * Z);    (* the thread of trace t while it is inside _prompt_func, and the
                                              prompt number on_prompt announced for it *)
  i_live : Z -> bool                       (* ghost: traces started and not ended *)
}.

Definition set_sh (s : ist) (sh : shared) : ist := mkI sh (i_relay s) (i_threads s) (i_live s).

(** Prompt.init: the map is created by the regenerated constructor expression *)
Definition sh_blank : shared := mkSh [] 0 DDefault (fun _ => None) (fun _ => []) 0 counter_start [] false false false.
Definition init_shared : shared :=
  match eval 0 sh_blank empty init_queue_map with
  | EOk sh _ VMap _ => sh
  | _ => sh_blank
  end.

(** The plugin framework enters Prompt.context() (a generator): it runs to its yield, entering
    relay_commands on the way, whose `executor.submit(f, args)` starts the relay thread; the relay
    thread runs on to its first get.  Both threads are COMPUTED from the regenerated bodies. *)
Definition ctx0 : thread := mkT 0 empty [KS prompt_context_body].
Definition booted : shared * thread * thread :=
  match resume FUEL init_shared ctx0 with
  | RAtGet sh cx [ISubmit f args] =>
      match call 0 (fst (fun_def f)) (snd (fun_def f)) args with
      | Some r0 =>
          match resume FUEL sh r0 with
          | RAtGet sh' r _ => (sh', cx, r)
          | _ => (sh, cx, r0)
          end
      | None => (sh, cx, ctx0)
      end
  | _ => (init_shared, ctx0, ctx0)
  end.
Definition relay_started : shared * thread := (fst (fst booted), snd booted).
(** the context thread, standing at the yield of Prompt.context inside `with relay_commands(..)` *)
Definition ctx_thread : thread := snd (fst booted).

Definition iinit : ist := mkI (fst relay_started) (snd relay_started) (fun _ => None) (fun _ => false).

Definition istep (s : ist) (l : label) : ist * option out :=
  let sh := i_sh s in
  match l with
  | Send c =>
      match call 0 send_command_params send_command_body [VCmd 0 c] with
      | Some th =>
          match resume FUEL sh th with
          | RDone sh' _ [ISent i] => (set_sh s sh', Some (OSent i))
          | _ => (s, None)
          end
      | None => (s, None)
      end
  | Relay =>
      match resume FUEL sh (i_relay s) with
      | RBlocked => (s, Some OIdle)
      | RAtGet sh' th' [IGot i _; IPut _ i' _] =>
          (mkI sh' th' (i_threads s) (i_live s), if Nat.eqb i i' then Some (ORelayed i) else None)
      | RAtGet sh' th' [IGot i _] => (mkI sh' th' (i_threads s) (i_live s), Some (ODropped i))
      | _ => (s, None)
      end
  | StartTrace t =>
      if i_live s t then (s, Some ONotEnabled) else
      match call t on_start_trace_params on_start_trace_body [VInt t] with
      | Some th =>
          match resume FUEL sh th with
          | RDone sh' _ [] => (mkI sh' (i_relay s) (i_threads s) (upd (i_live s) t true), Some OStarted)
          | _ => (s, None)
          end
      | None => (s, None)
      end
  | EndTrace t =>
      match i_live s t, i_threads s t with
      | true, None =>
          match call t on_end_trace_params on_end_trace_body [VInt t] with
          | Some th =>
              match resume FUEL sh th with
              | RDone sh' _ [] => (mkI sh' (i_relay s) (i_threads s) (upd (i_live s) t false), Some OEnded)
              | _ => (s, None)
              end
          | None => (s, None)
          end
      | _, _ => (s, Some ONotEnabled)
      end
  | OpenPrompt t =>
      match i_live s t, i_threads s t with
      | true, None =>
          match call t prompt_func_params prompt_func_body [VNone] with
          | Some th =>
              match resume FUEL sh th with
              | RAtGet sh' th' [IStartPrompt t' p] =>
                  (mkI sh' (i_relay s) (upd (i_threads s) t (Some (th', p))) (i_live s), if Z.eqb t' t then Some (OOpened p) else None)
              | _ => (s, None)
              end
          | None => (s, None)
          end
      | _, _ => (s, Some ONotEnabled)
      end
  | Take t =>
      match i_threads s t with
      | Some (th, p) =>
          match resume FUEL sh th with
          | RBlocked => (s, Some OBlocked)
          | RAtGet sh' th' [IGot i c] => (mkI sh' (i_relay s) (upd (i_threads s) t (Some (th', p))) (i_live s), Some (ODiscard p i c))
          | RDone sh' (VText i c) [IGot _ _; IEndPrompt t' p' (VText i' _)] =>
              (mkI sh' (i_relay s) (upd (i_threads s) t None) (i_live s),
               if Nat.eqb i i' && Z.eqb t' t then Some (OExec p' i c) else None)
          | RDied sh' XAssertion [IGot i _; IEndPrompt _ _ VEmptyStr] =>
              (* the AssertionError leaves _prompt_func through `with on_prompt`: its finally reports command='' *)
              (mkI sh' (i_relay s) (upd (i_threads s) t None) (i_live s), Some (OAssert i))
          | _ => (s, None)
          end
      | None => (s, Some ONotEnabled)
      end
  end.

Fixpoint itrace_from (s : ist) (ls : list label) : list (label * option out) :=
  match ls with
  | [] => []
  | l :: r => (l, snd (istep s l)) :: itrace_from (fst (istep s l)) r
  end.
Fixpoint iexec_from (s : ist) (ls : list label) : ist :=
  match ls with
  | [] => s
  | l :: r => iexec_from (fst (istep s l)) r
  end.
Definition itrace (ls : list label) := itrace_from iinit ls.
Definition ifinal (ls : list label) := iexec_from iinit ls.

Definition iqueue (s : ist) (t : Z) : option (list icmd) :=
  match h_dict (i_sh s) t with Some id => Some (h_heap (i_sh s) id) | None => None end.

Definition some_out (e : label * out) : label * option out := (fst e, Some (snd e)).

(** The continuation of the relay thread at its get, and of a trace's thread at the get of
    Prompt.prompt: COMPUTED by running the interpreter on the regenerated code. *)
Definition K_relay : cont := Eval vm_compute in t_k (i_relay iinit).
Definition K_take1 : cont :=
  Eval vm_compute in
    match i_threads (iexec_from iinit [StartTrace 1; OpenPrompt 1]) 1 with Some (th, _) => t_k th | None => [] end.
(** prompt number and trace number are locals of the suspended Repeater.on_prompt generator (held by
    the with frame), so one continuation serves every trace *)
Definition K_take : cont := K_take1.

(** Symbolic execution of the regenerated bodies, one micro-step at a time ([run_step]): [cbn]
    evaluates one [mstep] on the concrete statement trees, the hypotheses about the data decide
    the lookups. *)
Definition run_cont (f : nat) (evs : list ievent) (r : mres) (sh : shared) (th : thread) : rres :=
  match r with
  | MNext sh' th' e => if at_get (t_k th') then RAtGet sh' th' (evs ++ e) else run f sh' th' (evs ++ e)
  | MBlocked => RStuck
  | MDone _ => RDone sh (returned th) evs
  | MDied sh' x e => RDied sh' x (evs ++ e)
  | MStuck => RStuck
  end.
Lemma run_step : forall f sh th evs r, mstep sh th = r -> run (S f) sh th evs = run_cont f evs r sh th.
Proof. intros; subst; reflexivity. Qed.
Definition resume_cont (f : nat) (r : mres) (sh : shared) (th : thread) : rres :=
  match r with
  | MBlocked => RBlocked
  | MNext sh' th' e => if at_get (t_k th') then RAtGet sh' th' e else run f sh' th' e
  | MDone _ => RDone sh (returned th) []
  | MDied sh' x e => RDied sh' x e
  | MStuck => RStuck
  end.
Lemma resume_step : forall f sh th r, mstep sh th = r -> resume f sh th = resume_cont f r sh th.
Proof. intros; subst; reflexivity. Qed.

(** One [mstep] reads the head of the continuation and, for break / continue / return / raise /
    yield, the frames below it.  So a step is first tried with the tail a variable ([cbn] then does
    not walk through the rest of the function body, which is several times slower), and with the
    tail as it stands when the result would be stuck on it. *)
Lemma run_step_tail : forall f sh tno en it k evs (r : cont -> mres),
  (forall k0, mstep sh (mkT tno en (it :: k0)) = r k0) ->
  run (S f) sh (mkT tno en (it :: k)) evs = run_cont f evs (r k) sh (mkT tno en (it :: k)).
Proof. intros. apply run_step. auto. Qed.
Lemma resume_step_tail : forall f sh tno en it k (r : cont -> mres),
  (forall k0, mstep sh (mkT tno en (it :: k0)) = r k0) ->
  resume f sh (mkT tno en (it :: k)) = resume_cont f (r k) sh (mkT tno en (it :: k)).
Proof. intros. apply resume_step. auto. Qed.

(* tidy the goal after a step *)
Ltac red_cont := cbn [run_cont resume_cont do_raise at_get has_delim negb t_k stmt_has_get has_get orb existsb app returned].
(* compute one [mstep]; [tac] rewrites with the hypotheses that decide the lookups *)
Ltac ms tac := solve [cbn; repeat (progress tac; cbn); reflexivity].
(* the same with the tail a variable; a result stuck on the tail (neither MNext, MBlocked nor MDied) is
   refused, so that [first] below goes on to the step with the tail as it stands *)
Ltac ms_tail tac :=
  solve [intro; cbn; repeat (progress tac; cbn);
         lazymatch goal with |- MNext _ _ _ = _ => idtac | |- MBlocked = _ => idtac | |- MDied _ _ _ = _ => idtac end;
         reflexivity].
Ltac run1 tac := first [erewrite run_step_tail by (ms_tail tac) | erewrite run_step by (ms tac)]; red_cont.
Ltac res1 tac := first [erewrite resume_step_tail by (ms_tail tac) | erewrite resume_step by (ms tac)]; red_cont.
(* a whole wake-up: [resume], then micro-steps until the thread stands at a get, is done or has died *)
Ltac exec tac := unfold FUEL; res1 tac; repeat run1 tac; try reflexivity.

Lemma send_exec : forall sh c th,
  call 0 send_command_params send_command_body [VCmd 0 c] = Some th -> h_sentinel sh = false ->
  resume FUEL sh th = RDone (hset_in sh (h_in sh ++ [(h_nsent sh, c)]) (S (h_nsent sh))) VNone [ISent (h_nsent sh)].
Proof. intros sh c th H Hs. inversion H; subst. exec ltac:(rewrite ?Hs). Qed.

Lemma relay_idle : forall sh tno en, h_in sh = [] -> h_sentinel sh = false -> resume FUEL sh (mkT tno en K_relay) = RBlocked.
Proof. intros sh tno en H Hs. unfold K_relay. exec ltac:(rewrite ?H, ?Hs). Qed.

Lemma relay_some : forall sh tno en i c r id,
  h_in sh = (i, c) :: r -> h_dict sh (c_trace c) = Some id ->
  resume FUEL sh (mkT tno en K_relay) =
  RAtGet (hset_heap (hset_in sh r (h_nsent sh)) (hupd (h_heap sh) id (h_heap sh id ++ [(i, c)])))
         (mkT tno (eupd en "fn.l0" (VCmd i c)) K_relay) [IGot i c; IPut id i c].
Proof. intros sh tno en i c r id H E. unfold K_relay. exec ltac:(rewrite ?H, ?E). Qed.

Lemma relay_none : forall sh tno en i c r,
  h_kind sh = DPlain -> en "ta.a0"%string = Some (VFun FnFn) ->
  h_in sh = (i, c) :: r -> h_dict sh (c_trace c) = None ->
  resume FUEL sh (mkT tno en K_relay) =
  RAtGet (hset_in sh r (h_nsent sh)) (mkT tno (eupd en "fn.l0" (VCmd i c)) K_relay) [IGot i c].
Proof. intros sh tno en i c r Hk Ha H E. unfold K_relay. exec ltac:(rewrite ?H, ?E, ?Hk, ?Ha). Qed.

Lemma start_exec : forall sh t th,
  call t on_start_trace_params on_start_trace_body [VInt t] = Some th ->
  resume FUEL sh th = RDone (hset_dict (alloc sh) (upd (h_dict sh) t (Some (h_next sh)))) VNone [].
Proof. intros sh t th H. inversion H; subst. exec idtac. Qed.

Lemma end_exec : forall sh t th id,
  call t on_end_trace_params on_end_trace_body [VInt t] = Some th -> h_dict sh t = Some id ->
  resume FUEL sh th = RDone (hset_dict sh (upd (h_dict sh) t None)) VNone [].
Proof. intros sh t th id H E. inversion H; subst. exec ltac:(rewrite ?E). Qed.

Definition env_open (t p : Z) (id : nat) : env :=
  eupd (eupd (eupd (eupd (eupd (eupd (eupd (eupd (eupd (eupd (eupd (eupd (eupd empty "pf.a0" VNone) "pf.l0" (VInt p))
    "op.a0" (VInt p)) "op.a1" VNone) "op.l0" VOpaque) "op.l1" (VInt t)) "op.l2" VOpaque) "op.l3" VOpaque)
    "op.l4" (VEvent (MStart t p))) "op.l5" VEmptyStr)
    "prompt.a0" (VInt p)) "prompt.l0" (VInt t)) "prompt.l1" (VQueue id).

Lemma open_exec : forall sh t th id,
  call t prompt_func_params prompt_func_body [VNone] = Some th -> h_dict sh t = Some id ->
  resume FUEL sh th =
  RAtGet (hset_ctr sh (h_ctr sh + 1)) (mkT t (env_open t (h_ctr sh) id) K_take) [IStartPrompt t (h_ctr sh)].
Proof. intros sh t th id H E. inversion H; subst. exec ltac:(rewrite ?E). Qed.

Section Take.
  Variables (sh : shared) (tno : Z) (en : env) (p t : Z) (id : nat).
  Hypothesis Ha : en "prompt.a0"%string = Some (VInt p).
  Hypothesis Ht : en "prompt.l0"%string = Some (VInt t).
  Hypothesis Hq : en "prompt.l1"%string = Some (VQueue id).
  Hypothesis Hop : en "op.a0"%string = Some (VInt p).
  Hypothesis Hol : en "op.l1"%string = Some (VInt t).
  Hypothesis Ho5 : en "op.l5"%string = Some VEmptyStr.

  Lemma take_blocked : h_heap sh id = [] -> resume FUEL sh (mkT tno en K_take) = RBlocked.
  Proof. intros E. unfold K_take, K_take1. exec ltac:(rewrite ?Hq, ?E). Qed.

  Lemma take_assert : forall i c r, h_heap sh id = (i, c) :: r -> Z.eqb (c_trace c) t = false ->
    resume FUEL sh (mkT tno en K_take) =
    RDied (hset_heap sh (hupd (h_heap sh) id r)) XAssertion [IGot i c; IEndPrompt t p VEmptyStr].
  Proof. intros i c r E E1. unfold K_take, K_take1. exec ltac:(rewrite ?Hq, ?E, ?Ht, ?E1, ?Hop, ?Hol, ?Ho5). Qed.

  Lemma take_exec : forall i c r, h_heap sh id = (i, c) :: r -> Z.eqb (c_trace c) t = true -> Z.eqb (c_prompt c) p = true ->
    resume FUEL sh (mkT tno en K_take) =
    RDone (hset_heap sh (hupd (h_heap sh) id r)) (VText i c) [IGot i c; IEndPrompt t p (VText i c)].
  Proof. intros i c r E E1 E2. unfold K_take, K_take1. exec ltac:(rewrite ?Hq, ?E, ?Ht, ?E1, ?Ha, ?E2, ?Hop, ?Hol). Qed.

  Lemma take_discard : forall i c r, h_heap sh id = (i, c) :: r -> Z.eqb (c_trace c) t = true -> Z.eqb (c_prompt c) p = false ->
    resume FUEL sh (mkT tno en K_take) =
    RAtGet (hset_heap sh (hupd (h_heap sh) id r))
           (mkT tno (eupd (eupd en "prompt.l2" (VCmd i c)) "prompt.l3" (VInt (c_prompt c))) K_take) [IGot i c].
  Proof. intros i c r E E1 E2. unfold K_take, K_take1. exec ltac:(rewrite ?Hq, ?E, ?Ht, ?E1, ?Ha, ?E2). Qed.
End Take.

Definition thread_ok (sh : shared) (t p : Z) (th : thread) : Prop :=
  t_k th = K_take /\ t_env th "prompt.a0"%string = Some (VInt p) /\ t_env th "prompt.l0"%string = Some (VInt t) /\
  t_env th "op.a0"%string = Some (VInt p) /\ t_env th "op.l1"%string = Some (VInt t) /\ t_env th "op.l5"%string = Some VEmptyStr /\
  exists id, h_dict sh t = Some id /\ t_env th "prompt.l1"%string = Some (VQueue id).

Record R (s : ist) (m : state) : Prop := mkR {
  r_in : h_in (i_sh s) = s_in m;
  r_nsent : h_nsent (i_sh s) = s_nsent m;
  r_ctr : h_ctr (i_sh s) = s_ctr m;
  r_kind : h_kind (i_sh s) = DPlain;
  r_sentinel : h_sentinel (i_sh s) = false;
  r_map : forall t, s_map m t = iqueue s t;
  r_fresh : forall t id, h_dict (i_sh s) t = Some id -> (id < h_next (i_sh s))%nat;
  r_inj : forall t t' id, h_dict (i_sh s) t = Some id -> h_dict (i_sh s) t' = Some id -> t = t';
  r_live : forall t, i_live s t = match h_dict (i_sh s) t with Some _ => true | None => false end;
  r_open : forall t, match s_open m t with
                     | Some p => exists th, i_threads s t = Some (th, p) /\ thread_ok (i_sh s) t p th
                     | None => i_threads s t = None
                     end;
  r_relay_k : t_k (i_relay s) = K_relay;
  r_relay_f : t_env (i_relay s) "ta.a0"%string = Some (VFun FnFn)
}.

Lemma R_init : R iinit init.
Proof. (* one evaluation of the boot sequence, not one per field *) vm_compute. constructor; try reflexivity; intros; try discriminate. Qed.

Definition sim1 (s : ist) (m : state) (l : label) : Prop :=
  R (fst (istep s l)) (fst (step m l)) /\ snd (istep s l) = Some (snd (step m l)) /\
  (h_open (i_sh (fst (istep s l))) = h_open (i_sh s) /\        (* the child never touches context.open_prompts *)
   h_bound (i_sh (fst (istep s l))) = h_bound (i_sh s)).       (* nor context.send_command *)

Lemma thread_ok_dict : forall sh sh' t p th, (h_dict sh' t = h_dict sh t) -> thread_ok sh t p th -> thread_ok sh' t p th.
Proof. intros sh sh' t p th E (A & B & C & B' & C' & D' & id & D & F). repeat split; auto. exists id. rewrite E. auto. Qed.

Lemma open_frame : forall sh sh' (thr thr' : Z -> option (thread * Z)) (mo mo' : Z -> option Z) t,
  match mo t with
  | Some p => exists th, thr t = Some (th, p) /\ thread_ok sh t p th
  | None => thr t = None
  end ->
  h_dict sh' t = h_dict sh t -> thr' t = thr t -> mo' t = mo t ->
  match mo' t with
  | Some p => exists th, thr' t = Some (th, p) /\ thread_ok sh' t p th
  | None => thr' t = None
  end.
Proof.
  intros sh sh' thr thr' mo mo' t H Ed Et Em. rewrite Em, Et. destruct (mo t); [ | assumption].
  destruct H as (th & A & B). exists th. split; [assumption | ]. eapply thread_ok_dict; eassumption.
Qed.

(** replacing the content of t's queue object changes [iqueue] at t only: no other number leads to that object *)
Lemma iqueue_hupd : forall s s' t id q,
  h_dict (i_sh s) t = Some id -> (forall t', h_dict (i_sh s) t' = Some id -> t' = t) ->
  h_dict (i_sh s') = h_dict (i_sh s) -> h_heap (i_sh s') = hupd (h_heap (i_sh s)) id q ->
  forall t', iqueue s' t' = upd (iqueue s) t (Some q) t'.
Proof.
  intros s s' t id q Ed Hi Hd Hh t'. unfold iqueue. rewrite Hd, Hh. destruct (Z.eqb_spec t' t) as [-> | Hne].
  - rewrite Inv.upd_same, Ed. unfold hupd. rewrite Nat.eqb_refl. reflexivity.
  - rewrite Inv.upd_other by assumption. destruct (h_dict (i_sh s) t') as [id' | ] eqn:Et; [ | reflexivity].
    unfold hupd. destruct (Nat.eqb_spec id' id) as [-> | ]; [ | reflexivity]. exfalso. apply Hne, Hi, Et.
Qed.

Lemma sim_send : forall s m c, R s m -> sim1 s m (Send c).
Proof.
  intros [sh rel thr live] [mi mm mo mc mn] c [Hin Hns Hc Hk Hsn Hm Hf Hi Hl Ho Hrk Hrf]. cbn in *. subst mi mn mc.
  unfold sim1, istep. cbn [i_sh].
  destruct (call 0 send_command_params send_command_body [VCmd 0 c]) as [th | ] eqn:Ec; [ | cbv in Ec; discriminate Ec].
  rewrite (send_exec sh c th Ec Hsn). cbn [fst snd step set_sh i_sh i_relay i_threads i_live s_in s_nsent s_map s_open s_ctr].
  split; [ | repeat split; reflexivity].
  constructor; cbn; auto.
Qed.

Lemma sim_relay : forall s m, R s m -> sim1 s m Relay.
Proof.
  intros [sh [rno ren rk] thr live] [mi mm mo mc mn] [Hin Hns Hc Hk Hsn Hm Hf Hi Hl Ho Hrk Hrf]. cbn in *. subst mi mn mc rk.
  unfold sim1, istep, step. cbn [i_sh i_relay s_in s_map].
  destruct (h_in sh) as [ | [i c] r] eqn:Ein.
  - rewrite (relay_idle sh rno ren Ein Hsn). cbn. split; [ | repeat split; reflexivity].
    constructor; cbn; auto.
  - specialize (Hm (c_trace c)) as Hmc. unfold iqueue in Hmc. cbn in Hmc.
    destruct (h_dict sh (c_trace c)) as [id | ] eqn:Ed.
    + rewrite (relay_some sh rno ren i c r id Ein Ed). rewrite Hmc. cbn. rewrite Nat.eqb_refl. split; [ | repeat split; reflexivity].
      constructor; cbn; auto.
      * (* r_map *) intros t. erewrite (iqueue_hupd (mkI sh (mkT rno ren K_relay) thr live) _ (c_trace c) id _ Ed (fun t' E => Hi t' _ id E Ed)) by reflexivity.
        unfold upd. rewrite Hm. reflexivity.
    + rewrite (relay_none sh rno ren i c r Hk Hrf Ein Ed). rewrite Hmc. cbn. split; [ | repeat split; reflexivity].
      constructor; cbn; auto.
Qed.

Lemma sim_start : forall s m t, R s m -> sim1 s m (StartTrace t).
Proof.
  intros [sh rel thr live] [mi mm mo mc mn] t [Hin Hns Hc Hk Hsn Hm Hf Hi Hl Ho Hrk Hrf]. cbn in *. subst mi mn mc.
  unfold sim1, istep, step. cbn [i_sh i_live s_map].
  rewrite Hl, Hm. unfold iqueue. cbn [i_sh].
  destruct (h_dict sh t) as [id | ] eqn:Ed.
  - cbn. split; [ | repeat split; reflexivity]. constructor; cbn; auto.
  - destruct (call t on_start_trace_params on_start_trace_body [VInt t]) as [th | ] eqn:Ec; [ | cbv in Ec; discriminate Ec].
    rewrite (start_exec sh t th Ec). cbn. split; [ | repeat split; reflexivity].
    constructor; cbn; auto.
    + (* r_map *) intros t'. unfold iqueue. cbn. destruct (Z.eqb_spec t' t) as [-> | Hne].
      * rewrite !Inv.upd_same. rewrite Nat.eqb_refl. reflexivity.
      * rewrite !Inv.upd_other by assumption. rewrite Hm. unfold iqueue. cbn.
        destruct (h_dict sh t') as [id' | ] eqn:Et; [ | reflexivity].
        apply Hf in Et. destruct (Nat.eqb_spec id' (h_next sh)); [lia | reflexivity].
    + (* r_fresh *) intros t' id'. destruct (Z.eqb_spec t' t) as [-> | Hne].
      * rewrite Inv.upd_same. intros E; inversion E. lia.
      * rewrite Inv.upd_other by assumption. intros E. apply Hf in E. lia.
    + (* r_inj *) intros t1 t2 id'. destruct (Z.eqb_spec t1 t) as [-> | Hn1]; destruct (Z.eqb_spec t2 t) as [-> | Hn2];
        rewrite ?Inv.upd_same, ?Inv.upd_other by assumption; intros E1 E2; auto.
      * inversion E1; subst. apply Hf in E2. lia.
      * inversion E2; subst. apply Hf in E1. lia.
      * eapply Hi; eassumption.
    + (* r_live *) intros t'. destruct (Z.eqb_spec t' t) as [-> | Hne].
      * rewrite !Inv.upd_same. reflexivity.
      * rewrite !Inv.upd_other by assumption. apply Hl.
    + (* r_open *) intros t'. specialize (Ho t'). destruct (mo t') as [p | ]; [ | assumption].
      destruct Ho as (th' & A & B). exists th'. split; [assumption | ]. eapply thread_ok_dict; [ | exact B].
      cbn. destruct B as (_ & _ & _ & _ & _ & _ & id' & D & _). apply Inv.upd_other. intros ->. congruence.
Qed.

Lemma open_threads : forall s m t, R s m -> (i_threads s t = None <-> s_open m t = None).
Proof.
  intros s m t H. pose proof (r_open s m H t) as Ho. destruct (s_open m t).
  - destruct Ho as (th & A & _). rewrite A. split; discriminate.
  - tauto.
Qed.

Lemma sim_end : forall s m t, R s m -> sim1 s m (EndTrace t).
Proof.
  intros s m t H. pose proof (open_threads s m t H) as Hot. revert Hot.
  destruct s as [sh rel thr live]; destruct m as [mi mm mo mc mn]; destruct H as [Hin Hns Hc Hk Hsn Hm Hf Hi Hl Ho Hrk Hrf]. cbn in *. subst mi mn mc.
  intros Hot. unfold sim1, istep, step. cbn [i_sh i_live i_threads s_map s_open].
  rewrite Hl, Hm. unfold iqueue. cbn [i_sh].
  destruct (h_dict sh t) as [id | ] eqn:Ed.
  - destruct (mo t) as [p | ] eqn:Eo.
    + destruct (thr t) eqn:Et; [ | exfalso; destruct Hot as [Hot _]; specialize (Hot eq_refl); discriminate].
      cbn. split; [ | repeat split; reflexivity]. constructor; cbn; auto.
    + destruct Hot as [_ Hot]. rewrite (Hot eq_refl).
      destruct (call t on_end_trace_params on_end_trace_body [VInt t]) as [th | ] eqn:Ec; [ | cbv in Ec; discriminate Ec].
      rewrite (end_exec sh t th id Ec Ed). cbn. split; [ | repeat split; reflexivity].
      constructor; cbn; auto.
      * (* r_map *) intros t'. unfold iqueue. cbn. destruct (Z.eqb_spec t' t) as [-> | Hne].
        -- rewrite !Inv.upd_same. reflexivity.
        -- rewrite !Inv.upd_other by assumption. rewrite Hm. reflexivity.
      * (* r_fresh *) intros t' id'. destruct (Z.eqb_spec t' t) as [-> | Hne]; rewrite ?Inv.upd_same, ?Inv.upd_other by assumption; [discriminate | apply Hf].
      * (* r_inj *) intros t1 t2 id'. destruct (Z.eqb_spec t1 t) as [-> | Hn1]; destruct (Z.eqb_spec t2 t) as [-> | Hn2];
          rewrite ?Inv.upd_same, ?Inv.upd_other by assumption; try discriminate. apply Hi.
      * (* r_live *) intros t'. destruct (Z.eqb_spec t' t) as [-> | Hne]; rewrite ?Inv.upd_same, ?Inv.upd_other by assumption; [reflexivity | apply Hl].
      * (* r_open *) intros t'. specialize (Ho t'). destruct (mo t') as [p | ] eqn:Eo'; [ | assumption].
        destruct Ho as (th' & A & B). exists th'. split; [assumption | ]. eapply thread_ok_dict; [ | exact B].
        cbn. apply Inv.upd_other. intros ->. congruence.
  - cbn. split; [ | repeat split; reflexivity]. constructor; cbn; auto.
Qed.

Lemma env_open_ok : forall sh t p id, h_dict sh t = Some id -> thread_ok sh t p (mkT t (env_open t p id) K_take).
Proof. intros sh t p id E. repeat split. exists id. split; [assumption | reflexivity]. Qed.

Lemma sim_open : forall s m t, R s m -> sim1 s m (OpenPrompt t).
Proof.
  intros s m t H. pose proof (open_threads s m t H) as Hot. revert Hot.
  destruct s as [sh rel thr live]; destruct m as [mi mm mo mc mn]; destruct H as [Hin Hns Hc Hk Hsn Hm Hf Hi Hl Ho Hrk Hrf]. cbn in *. subst mi mn mc.
  intros Hot. unfold sim1, istep, step. cbn [i_sh i_live i_threads s_map s_open].
  rewrite Hl, Hm. unfold iqueue. cbn [i_sh].
  destruct (h_dict sh t) as [id | ] eqn:Ed.
  - destruct (mo t) as [p | ] eqn:Eo.
    + destruct (thr t) eqn:Et; [ | exfalso; destruct Hot as [Hot _]; specialize (Hot eq_refl); discriminate].
      cbn. split; [ | repeat split; reflexivity]. constructor; cbn; auto.
    + destruct Hot as [_ Hot]. rewrite (Hot eq_refl).
      destruct (call t prompt_func_params prompt_func_body [VNone]) as [th | ] eqn:Ec; [ | cbv in Ec; discriminate Ec].
      rewrite (open_exec sh t th id Ec Ed). cbn. rewrite Z.eqb_refl. split; [ | repeat split; reflexivity].
      constructor; cbn; auto.
      (* r_open *) intros t'. destruct (Z.eqb_spec t' t) as [-> | Hne].
      * rewrite !Inv.upd_same. eexists. split; [reflexivity | ]. apply env_open_ok. exact Ed.
      * apply (open_frame sh _ thr _ mo _ t' (Ho t')); [reflexivity | apply Inv.upd_other; assumption | apply Inv.upd_other; assumption].
  - cbn. split; [ | repeat split; reflexivity]. constructor; cbn; auto.
Qed.

Lemma sim_take : forall s m t, R s m -> sim1 s m (Take t).
Proof.
  intros [sh rel thr live] [mi mm mo mc mn] t [Hin Hns Hc Hk Hsn Hm Hf Hi Hl Ho Hrk Hrf]. cbn in *. subst mi mn mc.
  unfold sim1, istep, step. cbn [i_sh i_threads s_map s_open].
  pose proof (Ho t) as Hot. destruct (mo t) as [p | ] eqn:Eo.
  2:{ rewrite Hot. cbn. split; [ | repeat split; reflexivity]. constructor; cbn; auto. }
  destruct Hot as ([tno en k] & Et & Hk' & Ha & Hl0 & Hop & Hol & Ho5 & id & Ed & Hq). cbn [t_k t_env] in Hk', Ha, Hl0, Hq, Hop, Hol, Ho5. subst k.
  rewrite Et. rewrite Hm. unfold iqueue. cbn [i_sh]. rewrite Ed.
  (* what the rest of R looks like after the queue of t lost its head *)
  assert (Hmap : forall r thr' t', upd mm t (Some r) t' = iqueue (mkI (hset_heap sh (hupd (h_heap sh) id r)) rel thr' live) t').
  { intros r thr' t'. rewrite (iqueue_hupd (mkI sh rel thr live) _ t id r Ed (fun t1 E => Hi t1 _ id E Ed)) by reflexivity.
    unfold upd. rewrite Hm. reflexivity. }
  assert (Hoth : forall sh' v w t', h_dict sh' = h_dict sh -> t' <> t ->
            match upd mo t w t' with
            | Some p' => exists th, upd thr t v t' = Some (th, p') /\ thread_ok sh' t' p' th
            | None => upd thr t v t' = None
            end).
  { intros sh' v w t' Ed' Hn. apply (open_frame sh _ thr _ mo _ t' (Ho t')); [rewrite Ed'; reflexivity | | ]; apply Inv.upd_other; assumption. }
  destruct (h_heap sh id) as [ | [i c] r] eqn:Eh.
  - rewrite (take_blocked sh tno en id Hq Eh). cbn. split; [ | repeat split; reflexivity]. constructor; cbn; auto.
  - destruct (Z.eqb (c_trace c) t) eqn:E1; cbn [negb].
    + destruct (Z.eqb (c_prompt c) p) eqn:E2.
      * rewrite (take_exec sh tno en p t id Ha Hl0 Hq Hop Hol i c r Eh E1 E2). cbn. rewrite Nat.eqb_refl, Z.eqb_refl. cbn. split; [ | repeat split; reflexivity].
        constructor; cbn; auto. (* r_open *) intros t'. destruct (Z.eqb_spec t' t) as [-> | Hn]; [ | apply Hoth; [reflexivity | assumption]].
        rewrite !Inv.upd_same. reflexivity.
      * rewrite (take_discard sh tno en p t id Ha Hl0 Hq i c r Eh E1 E2). cbn. split; [ | repeat split; reflexivity].
        constructor; cbn; auto. (* r_open *) intros t'. destruct (Z.eqb_spec t' t) as [-> | Hn].
        -- rewrite Inv.upd_same, Eo. eexists. split; [reflexivity | ].
           repeat split; cbn; auto. exists id. split; [assumption | ]. cbn. assumption.
        -- rewrite <- (Inv.upd_other mo t (mo t) t' Hn). apply Hoth; [reflexivity | assumption].
    + rewrite (take_assert sh tno en p t id Hl0 Hq Hop Hol Ho5 i c r Eh E1). cbn. split; [ | repeat split; reflexivity].
      constructor; cbn; auto. (* r_open *) intros t'. destruct (Z.eqb_spec t' t) as [-> | Hn]; [ | apply Hoth; [reflexivity | assumption]].
      rewrite !Inv.upd_same. reflexivity.
Qed.

Lemma step_sim : forall s m l, R s m -> sim1 s m l.
Proof.
  intros s m l H. destruct l.
  - apply sim_send; assumption.
  - apply sim_relay; assumption.
  - apply sim_start; assumption.
  - apply sim_end; assumption.
  - apply sim_open; assumption.
  - apply sim_take; assumption.
Qed.

(** THE TIE: for every list of labels, the interpreter of the regenerated code and the model
    produce the same output at every label and end in related states (induction over the label
    list; [step_sim] is the one-label case: symbolic execution of the regenerated trees). *)
Lemma sim_from : forall ls s m, R s m ->
  itrace_from s ls = map some_out (trace_from m ls) /\ R (iexec_from s ls) (exec_from m ls).
Proof.
  induction ls as [ | l ls IH]; intros s m H; simpl.
  - split; [reflexivity | assumption].
  - destruct (step_sim s m l H) as [H1 [H2 _]]. destruct (IH _ _ H1) as [A B]. split; [ | assumption].
    rewrite A. unfold some_out at 1. simpl. rewrite H2. reflexivity.
Qed.

Theorem sim : forall ls, itrace ls = map some_out (trace ls) /\ R (ifinal ls) (final ls).
Proof. intros ls. apply sim_from. apply R_init. Qed.

(** the history the regenerated code produced (labels whose effect the interpreter could classify) *)
Definition ihist (ls : list label) : list ev :=
  flat_map (fun e => match snd e with Some o => [(fst e, o)] | None => [] end) (itrace ls).

Lemma ihist_some : forall {L O} (tr : list (L * O)),
  flat_map (fun e : L * option O => match snd e with Some o => [(fst e, o)] | None => [] end)
           (map (fun e => (fst e, Some (snd e))) tr) = tr.
Proof. induction tr as [ | [l o] tr IH]; simpl; [reflexivity | rewrite IH; reflexivity]. Qed.

(** through this equation every statement about [trace ls] is one about the regenerated code *)
Lemma ihist_trace : forall ls, ihist ls = trace ls.
Proof. intros ls. unfold ihist. rewrite (proj1 (sim ls)). apply ihist_some. Qed.

(** same observable history; the interpreter is never at a loss on the regenerated code *)
Theorem tie_same_history : forall ls,
  ihist ls = trace ls /\ map fst (itrace ls) = ls /\ forall e, In e (itrace ls) -> snd e <> None.
Proof.
  intros ls. split; [apply ihist_trace | ]. rewrite (proj1 (sim ls)). split.
  - rewrite map_map. apply Inv.trace_from_labels.
  - intros e Hin. apply in_map_iff in Hin. destruct Hin as (x & <- & _). discriminate.
Qed.

Theorem tie_same_executed : forall ls, execs (ihist ls) = execs (trace ls).
Proof. intros ls. rewrite ihist_trace. reflexivity. Qed.

Theorem tie_same_queues : forall ls,
  h_in (i_sh (ifinal ls)) = s_in (final ls) /\ forall t, iqueue (ifinal ls) t = s_map (final ls) t.
Proof. intros ls. destruct (sim ls) as [_ H]. split; [apply (r_in _ _ H) | intros t; symmetry; apply (r_map _ _ H)]. Qed.

Theorem tie_same_prompts : forall ls t,
  h_ctr (i_sh (ifinal ls)) = s_ctr (final ls) /\
  match i_threads (ifinal ls) t with Some (_, p) => s_open (final ls) t = Some p | None => s_open (final ls) t = None end.
Proof.
  intros ls t. destruct (sim ls) as [_ H]. split; [apply (r_ctr _ _ H) | ].
  pose proof (r_open _ _ H t) as Ho. destruct (s_open (final ls) t) as [p | ].
  - destruct Ho as (th & A & _). rewrite A. reflexivity.
  - rewrite Ho. reflexivity.
Qed.

Theorem tie_exactly_once : forall ls, NoDup (exec_ids (ihist ls)) /\ NoDup (exec_prompts (ihist ls)).
Proof. intros ls. rewrite ihist_trace. apply Once.exec_once. Qed.

Theorem tie_exactly_once_addressed : forall ls pre t p i c post,
  ihist ls = pre ++ (Take t, OExec p i c) :: post ->
  nth_error (sends (ihist ls)) i = Some c /\ nth_error (sends pre) i = Some c /\
  c_trace c = t /\ c_prompt c = p /\ open_in pre t = Some p /\ In i (relayed pre).
Proof. intros ls pre t p i c post. rewrite ihist_trace. apply Once.exec_is_addressed. Qed.

Theorem tie_no_assertion_failure : forall ls l i, ~ In (l, OAssert i) (ihist ls).
Proof. intros ls l i. rewrite ihist_trace. apply Once.no_assertion_failure. Qed.

Theorem tie_decoys_discarded_partial : forall ls i c,
  nth_error (sends (ihist ls)) i = Some c -> Spec.decoy_after_arrival (ihist ls) i c -> ~ In i (exec_ids (ihist ls)).
Proof. intros ls i c. rewrite ihist_trace. apply Once.discarded_if_never_open_after_arrival. Qed.

Theorem tie_other_trace_discarded : forall ls i c t',
  nth_error (sends (ihist ls)) i = Some c -> In (t', c_prompt c) (opens (ihist ls)) -> t' <> c_trace c ->
  ~ In i (exec_ids (ihist ls)).
Proof. intros ls i c t'. rewrite ihist_trace. apply Once.other_trace_discarded. Qed.

Theorem tie_nonexistent_discarded : forall ls i c,
  nth_error (sends (ihist ls)) i = Some c -> ~ In (c_trace c, c_prompt c) (opens (ihist ls)) -> ~ In i (exec_ids (ihist ls)).
Proof. intros ls i c. rewrite ihist_trace. apply Once.nonexistent_discarded. Qed.

Theorem tie_already_answered_discarded : forall ls pre c i post,
  ihist ls = pre ++ (Send c, OSent i) :: post -> In (c_prompt c) (exec_prompts pre) -> ~ In i (exec_ids (ihist ls)).
Proof. intros ls pre c i post. rewrite ihist_trace. apply Once.stale_discarded. Qed.

(** the relay thread puts a command only on the queue object that the map holds under the
    command's OWN trace number, and under no other number; a command for a number the map does
    not hold is put nowhere (KeyError, swallowed by try_again_on_error, which calls fn again:
    the thread is back at its get) *)
Theorem tie_put_on_own_queue : forall ls,
  let s := ifinal ls in
  match resume FUEL (i_sh s) (i_relay s) with
  | RBlocked => h_in (i_sh s) = []
  | RAtGet sh' th' evs =>
      t_k th' = K_relay /\ h_kind sh' = DPlain /\
      exists i c r, h_in (i_sh s) = (i, c) :: r /\
        match h_dict (i_sh s) (c_trace c) with
        | Some id => evs = [IGot i c; IPut id i c] /\ (forall t, h_dict (i_sh s) t = Some id -> t = c_trace c)
        | None => evs = [IGot i c]
        end
  | _ => False
  end.
Proof.
  intros ls s. destruct (sim ls) as [_ H]. fold s in H. destruct H as [_ _ _ Hk Hsn _ _ Hi _ _ Hrk Hrf].
  destruct (i_relay s) as [rno ren rk]. cbn in Hrk, Hrf. subst rk.
  destruct (h_in (i_sh s)) as [ | [i c] r] eqn:Ein.
  - rewrite (relay_idle _ rno ren Ein Hsn). reflexivity.
  - destruct (h_dict (i_sh s) (c_trace c)) as [id | ] eqn:Ed.
    + rewrite (relay_some _ rno ren i c r id Ein Ed). split; [reflexivity | ]. split; [exact Hk | ].
      exists i, c, r. split; [reflexivity | ]. rewrite Ed. split; [reflexivity | ].
      intros t Et. eapply Hi; eassumption.
    + rewrite (relay_none _ rno ren i c r Hk Hrf Ein Ed). split; [reflexivity | ]. split; [exact Hk | ].
      exists i, c, r. split; [reflexivity | ]. rewrite Ed. reflexivity.
Qed.

(** the map holds a queue exactly for the live trace numbers, distinct objects for distinct numbers *)
Theorem tie_queue_iff_live : forall ls t,
  (i_live (ifinal ls) t = true <-> iqueue (ifinal ls) t <> None) /\
  forall t' id, h_dict (i_sh (ifinal ls)) t = Some id -> h_dict (i_sh (ifinal ls)) t' = Some id -> t = t'.
Proof.
  intros ls t. destruct (sim ls) as [_ H]. split.
  - rewrite (r_live _ _ H). unfold iqueue. destruct (h_dict (i_sh (ifinal ls)) t); split; intros; try discriminate; auto.
  - intros t' id. apply (r_inj _ _ H).
Qed.

(** a command taken from the queue while prompt p is open is executed iff its prompt number
    EQUALS p; otherwise it is discarded and the prompt stays open *)
Theorem tie_executed_iff_equal : forall ls t th p i c r,
  i_threads (ifinal ls) t = Some (th, p) -> iqueue (ifinal ls) t = Some ((i, c) :: r) ->
  snd (istep (ifinal ls) (Take t)) = Some (if Z.eqb (c_prompt c) p then OExec p i c else ODiscard p i c) /\
  (snd (istep (ifinal ls) (Take t)) = Some (OExec p i c) <-> c_prompt c = p).
Proof.
  intros ls t th p i c r Et Eq.
  destruct (sim ls) as [_ H]. destruct (step_sim _ _ (Take t) H) as [_ [Hs _]].
  assert (Hm : s_map (final ls) t = Some ((i, c) :: r)) by (rewrite (r_map _ _ H); exact Eq).
  assert (Ho : s_open (final ls) t = Some p) by (pose proof (proj2 (tie_same_prompts ls t)) as X; rewrite Et in X; exact X).
  assert (Hc : c_trace c = t).
  { pose proof (Inv.Inv_reach ls) as I. destruct (Inv.i_q _ _ I t _ i c Hm (or_introl eq_refl)) as (_ & A & _). exact A. }
  assert (X : snd (step (final ls) (Take t)) = if Z.eqb (c_prompt c) p then OExec p i c else ODiscard p i c).
  { unfold step. rewrite Ho, Hm. rewrite Hc, Z.eqb_refl. cbn [negb]. destruct (Z.eqb (c_prompt c) p); reflexivity. }
  rewrite Hs, X. split; [reflexivity | ].
  destruct (Z.eqb_spec (c_prompt c) p); split; intros E; auto; try discriminate E. contradiction.
Qed.

(** the prompt number announced for a prompt is the counter's value, unique in the run *)
Theorem tie_prompt_numbers_unique : forall ls, NoDup (map snd (opens (ihist ls))).
Proof. intros ls. rewrite ihist_trace. apply (Inv.i_opens_nodup _ _ (Inv.Inv_reach ls)). Qed.

(** non-vacuity: the interpreter runs the regenerated code through the example of Props/C07.v *)
Definition tie_ex_run : list label :=
  [StartTrace 1; StartTrace 2; OpenPrompt 1; OpenPrompt 2;
   Send (mkCmd 1 2 901); Send (mkCmd 7 1 902); Send (mkCmd 2 9 903); Send (mkCmd 2 2 5);
   Send (mkCmd 2 2 904); Send (mkCmd 1 1 6); Send (mkCmd 1 1 905);
   Relay; Relay; Relay; Relay; Relay; Relay; Relay;
   Take 1; Take 2; Take 2; Take 1; OpenPrompt 2; Take 2; Take 2; EndTrace 1].

Example tie_example :
  execs (ihist tie_ex_run) = [(2, 2, 3%nat, mkCmd 2 2 5); (1, 1, 5%nat, mkCmd 1 1 6)] /\
  map snd (itrace [StartTrace 1; OpenPrompt 1; Send (mkCmd 2 1 7); Send (mkCmd 1 1 8); Relay; Relay; Take 1]) =
    [Some OStarted; Some (OOpened 1); Some (OSent 0); Some (OSent 1); Some (ODropped 0); Some (ORelayed 1);
     Some (OExec 1 1 (mkCmd 1 1 8))].
Proof. vm_compute. split; reflexivity. Qed.

(** relay_commands is interpreted as what it is: a generator context manager with
    `with ThreadPoolExecutor(max_workers=1)`, `executor.submit(try_again_on_error, fn)`,
    `try: yield  finally: queue_in.put(None); future.result()`.  The protected body is the single
    `yield` (the whole run happens there), so "the finally body is reached from every suspension
    point of the protected body" is: reached when the context is left normally AND when the
    body raised (the exception is thrown into the generator at its yield). *)
Definition K_ctx : cont := Eval vm_compute in t_k ctx_thread.

(** entering Prompt.context() submits exactly try_again_on_error(fn) and stops at the yield *)
Lemma boot_submits :
  exists sh cx, resume FUEL init_shared ctx0 = RAtGet sh cx [ISubmit FnTryAgain [VFun FnFn]] /\ t_k cx = K_ctx /\
                sh = init_shared /\ at_get (t_k cx) = true.
Proof. eexists. eexists. split; [vm_compute; reflexivity | ]. repeat split. Qed.

(** the relay thread of every run IS that submitted call, run to its first get *)
Lemma relay_is_the_submitted_call : t_k (i_relay iinit) = K_relay /\ t_env (i_relay iinit) "ta.a0"%string = Some (VFun FnFn).
Proof. split; reflexivity. Qed.

Definition K_ctx_wait : cont := Eval vm_compute in
  match after_yield (mkT 0 empty K_ctx) None with
  | Some th => match resume FUEL init_shared th with RAtGet _ th' _ => t_k th' | _ => [] end
  | None => []
  end.
Definition K_ctx_wait_raising (x : exc) : cont := Eval vm_compute in
  match after_yield (mkT 0 empty K_ctx) (Some x) with
  | Some th => match resume FUEL init_shared th with RAtGet _ th' _ => t_k th' | _ => [] end
  | None => []
  end.

(** leaving the context normally: the sentinel is put, then the thread waits for the future *)
Lemma ctx_exit_normal : forall sh tno en th,
  h_sentinel sh = false -> after_yield (mkT tno en K_ctx) None = Some th ->
  resume FUEL sh th = RAtGet (hset_sentinel sh true) (mkT tno en K_ctx_wait) [ISentinel].
Proof. intros sh tno en th Hs H. inversion H; subst. exec ltac:(rewrite ?Hs). Qed.

(** the body raised x: the SAME finally body runs (sentinel, wait), with x still propagating behind it *)
Lemma ctx_exit_raising : forall sh tno en th x,
  h_sentinel sh = false -> after_yield (mkT tno en K_ctx) (Some x) = Some th ->
  resume FUEL sh th = RAtGet (hset_sentinel sh true) (mkT tno en (K_ctx_wait_raising x)) [ISentinel].
Proof. intros sh tno en th x Hs H. inversion H; subst. destruct x; exec ltac:(rewrite ?Hs). Qed.

(** while the relay thread is alive the context thread stays blocked; once its future is done the
    context is left: normally, or with the body's exception *)
Lemma ctx_waits : forall sh tno en, h_relay_done sh = false ->
  resume FUEL sh (mkT tno en K_ctx_wait) = RBlocked /\ forall x, resume FUEL sh (mkT tno en (K_ctx_wait_raising x)) = RBlocked.
Proof. intros sh tno en H. split; [ | intros x; destruct x]; exec ltac:(rewrite ?H). Qed.

(** (future.result() returns; then the exit of `with ThreadPoolExecutor` waits for the same future: a second wake-up) *)
Lemma ctx_ends : forall sh tno en, h_relay_done sh = true ->
  (exists th' v, resume FUEL sh (mkT tno en K_ctx_wait) = RAtGet sh th' [] /\ resume FUEL sh th' = RDone sh v []) /\
  forall x, exists th', resume FUEL sh (mkT tno en (K_ctx_wait_raising x)) = RAtGet sh th' [] /\ resume FUEL sh th' = RDied sh x [].
Proof.
  intros sh tno en H. split; [eexists | intros x; destruct x]; eexists; (split; [exec ltac:(rewrite ?H) | exec ltac:(rewrite ?H)]).
Qed.

(** the relay thread at its get, queue_in empty, the sentinel there: `while msg := queue_in.get()`
    ends, fn returns, try_again_on_error returns: the thread (the future) is done *)
Lemma relay_ends : forall sh tno en, h_in sh = [] -> h_sentinel sh = true ->
  resume FUEL sh (mkT tno en K_relay) = RDone (hset_sentinel sh false) VNone [].
Proof. intros sh tno en H Hs. unfold K_relay. exec ltac:(rewrite ?H, ?Hs). Qed.

(** ... and until then it relays exactly as without the sentinel *)
Definition with_sentinel (s : ist) (b : bool) : ist := set_sh s (hset_sentinel (i_sh s) b).

Lemma relay_step_sentinel : forall s m b, R s m -> h_in (i_sh s) <> [] ->
  istep (with_sentinel s b) Relay = (with_sentinel (fst (istep s Relay)) b, snd (istep s Relay)).
Proof.
  intros [sh [rno ren rk] thr live] m b [Hin Hns Hc Hk Hsn Hm Hf Hi Hl Ho Hrk Hrf] Hne. cbn in *. subst rk.
  unfold istep, with_sentinel. cbn [i_sh i_relay set_sh i_threads i_live].
  destruct (h_in sh) as [ | [i c] r] eqn:Ein; [contradiction | ].
  destruct (h_dict sh (c_trace c)) as [id | ] eqn:Ed.
  - rewrite (relay_some sh rno ren i c r id Ein Ed).
    rewrite (relay_some (hset_sentinel sh b) rno ren i c r id); [ | exact Ein | exact Ed].
    cbn. destruct (Nat.eqb i i); reflexivity.
  - rewrite (relay_none sh rno ren i c r Hk Hrf Ein Ed).
    rewrite (relay_none (hset_sentinel sh b) rno ren i c r); [ | exact Hk | exact Hrf | exact Ein | exact Ed].
    reflexivity.
Qed.

Fixpoint relay_n (n : nat) (s : ist) : ist :=
  match n with O => s | S k => relay_n k (fst (istep s Relay)) end.

Lemma with_sentinel_false : forall s m, R s m -> with_sentinel s false = s.
Proof.
  intros [[a b c d e f g h i j k] rel thr live] m H. pose proof (r_sentinel _ _ H) as Hs. cbn in Hs. subst i. reflexivity.
Qed.

Lemma with_sentinel_twice : forall s a b, with_sentinel (with_sentinel s a) b = with_sentinel s b.
Proof. intros [[] rel thr live] a b. reflexivity. Qed.

(** SHUT-DOWN: from ANY reachable state, once the sentinel is behind the commands of queue_in, the
    relay thread relays those commands exactly as the model's Relay does (one per wake-up, in
    order, none lost), then takes the sentinel and ends: future.result() returns *)
Theorem relay_drains_and_ends : forall n s m, R s m -> n = length (s_in m) ->
  let s' := relay_n n (with_sentinel s true) in
  R (with_sentinel s' false) (exec_from m (repeat Relay n)) /\
  h_in (i_sh s') = [] /\ h_sentinel (i_sh s') = true /\
  resume FUEL (i_sh s') (i_relay s') = RDone (hset_sentinel (i_sh s') false) VNone [].
Proof.
  induction n as [ | n IH]; intros s m H Hn s'.
  - subst s'. cbn [relay_n repeat exec_from].
    assert (E : h_in (i_sh s) = []).
    { rewrite (r_in _ _ H). destruct (s_in m); [reflexivity | discriminate Hn]. }
    split; [ | split; [ | split]].
    + rewrite with_sentinel_twice, (with_sentinel_false s m H). exact H.
    + destruct s as [sh rel thr live]; exact E.
    + destruct s as [sh rel thr live]; reflexivity.
    + destruct s as [sh [rno ren rk] thr live]. pose proof (r_relay_k _ _ H) as Hk. cbn in Hk, E |- *. subst rk.
      apply relay_ends; [exact E | reflexivity].
  - assert (Hne : h_in (i_sh s) <> []).
    { rewrite (r_in _ _ H). destruct (s_in m); [discriminate Hn | discriminate]. }
    destruct (step_sim s m Relay H) as (H1 & _ & _).
    assert (Hlen : n = length (s_in (fst (step m Relay)))).
    { unfold step. destruct (s_in m) as [ | [i c] r]; [discriminate Hn | ]. cbn in Hn.
      destruct (s_map m (c_trace c)); cbn; lia. }
    subst s'. cbn [relay_n repeat exec_from]. rewrite (relay_step_sentinel s m true H Hne). cbn [fst].
    exact (IH _ _ H1 Hlen).
Qed.
