(** The object wiring of pdb_/factory.py, on the REGENERATED bodies (Gen/PromptFuns.v:
    pif_init_body = PdbInstanceFactory.init, pif_create_body = PdbInstanceFactory.create_local_trace_func,
    factory_body = Factory): every trace function handed out during a run reaches, through
    pdb.stdin (a StdInOut) .prompt_func, ONE AND THE SAME PromptFunc object -- the one created
    when the plugin was initialised -- hence one prompt counter per run (Prompt/Tie.v interprets
    `counter()` on one shared counter; this file is what justifies that).

    A tiny object semantics: `Cls(k=v, ..)` allocates a fresh object remembering its keyword
    arguments (Factory is not a class: its regenerated body is run); `def f(): ..` is a closure
    over the locals bound so far; `x.a` reads the keyword argument a of x, or is a bound method.
    Attribute stores on locals (`stdio.prompt_end = ..`) are evaluated and not tracked; the
    translator refuses a store to an attribute this file reads.  Modelled, not verified:
    StdInOut keeps `prompt_func` and calls it in readline (shape-checked by the translator),
    pluggy calls `init` once per run and `create_local_trace_func` once per trace. *)
From NL Require Import Prompt.Syntax Gen.PromptFuns.
Local Open Scope string_scope.

Inductive wval :=
| WNone
| WObj (cls : string) (id : nat) (fields : list (string * wval))
| WMeth (o : wval) (a : string)
| WClos (body : list wstmt) (env : list (string * wval)).

Fixpoint lookup {A} (x : string) (l : list (string * A)) : option A :=
  match l with [] => None | (y, v) :: r => if String.eqb x y then Some v else lookup x r end.

Notation wenv := (list (string * wval)).

(** [weval]: the value and the allocation counter; [wrun], the result of a body: the returned
    value (if any), the fields of self, the allocation counter *)
Fixpoint weval (fuel : nat) (e : wexpr) (en self : wenv) (st : nat) {struct fuel} : option (wval * nat) :=
  match fuel with
  | O => None
  | S f =>
    match e with
    | WVar x => match lookup x en with Some v => Some (v, st) | None => None end
    | WSelf a => match lookup a self with Some v => Some (v, st) | None => None end
    | WAttr e' a =>
        match weval f e' en self st with
        | Some (WObj cls id fields, st1) =>
            Some (match lookup a fields with Some v => v | None => WMeth (WObj cls id fields) a end, st1)
        | _ => None
        end
    | WNew cls kw =>
        let fix args (kw : list (string * wexpr)) (st : nat) : option (wenv * nat) :=
          match kw with
          | [] => Some ([], st)
          | (k, e') :: r =>
              match weval f e' en self st with
              | Some (v, st1) => match args r st1 with Some (vs, st2) => Some ((k, v) :: vs, st2) | None => None end
              | None => None
              end
          end in
        match args kw st with
        | Some (fields, st1) =>
            if String.eqb cls "Factory"
            then match wrun f factory_body fields self st1 with Some (Some v, _, st2) => Some (v, st2) | _ => None end
            else Some (WObj cls st1 fields, S st1)
        | None => None
        end
    | WCallVal e' =>
        match weval f e' en self st with
        | Some (WClos body cenv, st1) =>
            match wrun f body cenv self st1 with Some (Some v, _, st2) => Some (v, st2) | _ => None end
        | _ => None
        end
    end
  end
with wrun (fuel : nat) (body : list wstmt) (en self : wenv) (st : nat) {struct fuel} : option (option wval * wenv * nat) :=
  match fuel with
  | O => None
  | S f =>
    match body with
    | [] => Some (None, self, st)
    | WAssign x e :: r => match weval f e en self st with Some (v, st1) => wrun f r ((x, v) :: en) self st1 | None => None end
    | WSetSelf a e :: r => match weval f e en self st with Some (v, st1) => wrun f r en ((a, v) :: self) st1 | None => None end
    | WSetAttr _ _ e :: r => match weval f e en self st with Some (_, st1) => wrun f r en self st1 | None => None end
    | WDef name b :: r => wrun f r ((name, WClos b en) :: en) self st
    | WReturn e :: _ => match weval f e en self st with Some (v, st1) => Some (Some v, self, st1) | None => None end
    end
  end.

Definition WFUEL : nat := 40.

(** the prompt function a trace function leads to: pdb.trace_dispatch -> pdb.stdin -> .prompt_func *)
Definition prompt_func_of (v : wval) : option wval :=
  match v with
  | WMeth (WObj _ _ fields) _ =>
      match lookup "stdin" fields with
      | Some (WObj _ _ f2) => lookup "prompt_func" f2
      | _ => None
      end
  | _ => None
  end.

Definition is_prompt_func (v : wval) : bool :=
  match v with WObj cls _ _ => String.eqb cls "PromptFunc" | _ => false end.

(** a closure sees the locals bound BEFORE its def: nothing it reads is assigned after it *)
Fixpoint assigned_after_def (seen_def : bool) (b : list wstmt) : bool :=
  match b with
  | [] => false
  | WDef _ _ :: r => assigned_after_def true r
  | WAssign _ _ :: r => seen_def || assigned_after_def seen_def r
  | _ :: r => assigned_after_def seen_def r
  end.

(** ONE PromptFunc per run: PdbInstanceFactory.init (whatever the allocation state st0) creates a
    PromptFunc object pf, and EVERY later create_local_trace_func() (whatever has been allocated
    meanwhile) returns a trace function whose stdin leads to that same pf and leaves self unchanged *)
Theorem one_prompt_func_per_run : forall hook st0,
  exists pf self st1,
    wrun WFUEL pif_init_body [("hook", hook)] [] st0 = Some (None, self, st1) /\
    (forall st, exists v st', wrun WFUEL pif_create_body [] self st = Some (Some v, self, st') /\ prompt_func_of v = Some pf) /\
    is_prompt_func pf = true.
Proof.
  intros hook st0. eexists. eexists. eexists. split; [reflexivity | ]. split.
  - intros st. eexists. eexists. split; reflexivity.
  - reflexivity.
Qed.

Lemma factory_closure_reads_earlier_locals : assigned_after_def false factory_body = false.
Proof. reflexivity. Qed.

(** hence: any number of traces, one counter *)
Corollary all_traces_share_the_prompt_func : forall (hook : wval) (st0 : nat),
  exists pf self, is_prompt_func pf = true /\
    forall sts : list nat,
      Forall (fun st => exists v st', wrun WFUEL pif_create_body [] self st = Some (Some v, self, st') /\ prompt_func_of v = Some pf) sts.
Proof.
  intros hook st0. destruct (one_prompt_func_per_run hook st0) as (pf & self & st1 & _ & H & Hp).
  exists pf, self. split; [exact Hp | ]. intros sts. apply Forall_forall. intros st _. apply H.
Qed.
