(** [step] by cases ([stepped], [step_spec]: the case analysis that the inductions of this file
    and of Prompt/Deliver.v go through), and the invariant of the command path that relates the
    model's state to the observable history ([Inv], [Inv_reach]). *)
From NL Require Import Prompt.Model Prompt.Hist.
Open Scope Z_scope.

Lemma nth_error_app_some {A} (a b : list A) i x : nth_error a i = Some x -> nth_error (a ++ b) i = Some x.
Proof. intros H. rewrite nth_error_app1; auto. apply nth_error_Some. congruence. Qed.

Lemma in_snoc {A} (l : list A) x y : In y (l ++ [x]) <-> In y l \/ y = x.
Proof. rewrite in_app_iff. simpl. intuition. Qed.

Lemma NoDup_snoc {A} (l : list A) x : NoDup l -> ~ In x l -> NoDup (l ++ [x]).
Proof.
  intros. apply NoDup_rev in H. rewrite <- (rev_involutive (l ++ [x])). apply NoDup_rev.
  rewrite rev_app_distr. simpl. constructor; [rewrite <- in_rev; assumption|assumption].
Qed.

Lemma nodup_snd_inj {A B} (l : list (A * B)) a b p :
  NoDup (map snd l) -> In (a, p) l -> In (b, p) l -> a = b.
Proof.
  induction l as [|[x y] l IH]; simpl; intros Hnd Ha Hb; [contradiction|].
  inversion Hnd; subst.
  destruct Ha as [Ha|Ha]; destruct Hb as [Hb|Hb].
  - congruence.
  - inversion Ha; subst. exfalso. apply H1. apply in_map_iff. exists (b, p). auto.
  - inversion Hb; subst. exfalso. apply H1. apply in_map_iff. exists (a, p). auto.
  - eauto.
Qed.

Lemma nodup_app_disjoint {A} (a b : list A) x : NoDup (a ++ b) -> In x a -> In x b -> False.
Proof.
  induction a as [|y a IH]; simpl; intros Hnd Ha Hb; [contradiction|].
  inversion Hnd; subst. destruct Ha as [->|Ha]; [apply H1; apply in_or_app; auto|eauto].
Qed.

Lemma split_snoc {A} (pre : list A) x post tr e :
  pre ++ x :: post = tr ++ [e] ->
  (post = [] /\ pre = tr /\ x = e) \/ (exists post', post = post' ++ [e] /\ tr = pre ++ x :: post').
Proof.
  intros H.
  destruct post as [|p post].
  - left. apply app_inj_tail in H. tauto.
  - right. destruct (@exists_last _ (p :: post)) as (q & z & E2); [discriminate|].
    rewrite E2 in H. rewrite app_comm_cons, app_assoc in H. apply app_inj_tail in H. destruct H as [H1 H2]. subst z.
    exists q. split; [assumption|]. rewrite <- H1. reflexivity.
Qed.

Lemma trace_from_app : forall a s b,
  trace_from s (a ++ b) = trace_from s a ++ trace_from (exec_from s a) b.
Proof. induction a; simpl; intros; [reflexivity | rewrite IHa; reflexivity]. Qed.

Lemma exec_from_app : forall a s b, exec_from s (a ++ b) = exec_from (exec_from s a) b.
Proof. induction a; simpl; intros; [reflexivity | apply IHa]. Qed.

Lemma trace_from_labels : forall ls s, map fst (trace_from s ls) = ls.
Proof. induction ls as [|l ls IH]; intros s; simpl; [reflexivity|rewrite IH; reflexivity]. Qed.

Lemma trace_snoc ls l : trace (ls ++ [l]) = trace ls ++ [(l, snd (step (final ls) l))].
Proof. unfold trace, final. rewrite trace_from_app. reflexivity. Qed.

Lemma final_snoc ls l : final (ls ++ [l]) = fst (step (final ls) l).
Proof. unfold final. rewrite exec_from_app. reflexivity. Qed.

Lemma trace_split : forall ls s pre l o post,
  trace_from s ls = pre ++ (l, o) :: post ->
  exists l1 l2, ls = l1 ++ l :: l2 /\ pre = trace_from s l1 /\
                o = snd (step (exec_from s l1) l) /\
                post = trace_from (fst (step (exec_from s l1) l)) l2.
Proof.
  induction ls as [|a ls IH]; intros s pre l o post H.
  - destruct pre; discriminate.
  - destruct pre as [|e pre]; simpl in H.
    + inversion H; subst. exists [], ls. repeat split.
    + inversion H; subst. destruct (IH _ _ _ _ _ H2) as (l1 & l2 & -> & -> & -> & ->).
      exists (a :: l1), l2. repeat split.
Qed.

Definition enabled (s : state) (l : label) : bool :=
  match l with
  | Send _ | Relay => true
  | StartTrace t => match s_map s t with None => true | Some _ => false end
  | EndTrace t | OpenPrompt t => match s_map s t, s_open s t with Some _, None => true | _, _ => false end
  | Take t => match s_open s t, s_map s t with Some _, Some _ => true | _, _ => false end
  end.

Inductive stepped (s : state) : label -> state -> out -> Prop :=
| st_send c :
    stepped s (Send c) (mkSt (s_in s ++ [(s_nsent s, c)]) (s_map s) (s_open s) (s_ctr s) (S (s_nsent s))) (OSent (s_nsent s))
| st_idle : s_in s = [] -> stepped s Relay s OIdle
| st_relayed i c r q : s_in s = (i, c) :: r -> s_map s (c_trace c) = Some q ->
    stepped s Relay (set_map (set_in s r) (upd (s_map s) (c_trace c) (Some (q ++ [(i, c)])))) (ORelayed i)
| st_dropped i c r : s_in s = (i, c) :: r -> s_map s (c_trace c) = None -> stepped s Relay (set_in s r) (ODropped i)
| st_started t : s_map s t = None -> stepped s (StartTrace t) (set_map s (upd (s_map s) t (Some []))) OStarted
| st_ended t q : s_map s t = Some q -> s_open s t = None ->
    stepped s (EndTrace t) (set_map s (upd (s_map s) t None)) OEnded
| st_opened t q : s_map s t = Some q -> s_open s t = None ->
    stepped s (OpenPrompt t) (mkSt (s_in s) (s_map s) (upd (s_open s) t (Some (s_ctr s))) (s_ctr s + 1) (s_nsent s))
            (OOpened (s_ctr s))
| st_blocked t p : s_open s t = Some p -> s_map s t = Some [] -> stepped s (Take t) s OBlocked
| st_assert t p i c r : s_open s t = Some p -> s_map s t = Some ((i, c) :: r) -> c_trace c <> t ->
    stepped s (Take t) (set_open (set_map s (upd (s_map s) t (Some r))) (upd (s_open s) t None)) (OAssert i)
| st_exec t p i c r : s_open s t = Some p -> s_map s t = Some ((i, c) :: r) -> c_trace c = t -> c_prompt c = p ->
    stepped s (Take t) (set_open (set_map s (upd (s_map s) t (Some r))) (upd (s_open s) t None)) (OExec p i c)
| st_discard t p i c r : s_open s t = Some p -> s_map s t = Some ((i, c) :: r) -> c_trace c = t -> c_prompt c <> p ->
    stepped s (Take t) (set_map s (upd (s_map s) t (Some r))) (ODiscard p i c)
| st_start_off t : enabled s (StartTrace t) = false -> stepped s (StartTrace t) s ONotEnabled
| st_end_off t : enabled s (EndTrace t) = false -> stepped s (EndTrace t) s ONotEnabled
| st_open_off t : enabled s (OpenPrompt t) = false -> stepped s (OpenPrompt t) s ONotEnabled
| st_take_off t : enabled s (Take t) = false -> stepped s (Take t) s ONotEnabled.

Lemma step_spec s l : stepped s l (fst (step s l)) (snd (step s l)).
Proof.
  destruct l as [c| |t|t|t|t]; simpl.
  - constructor.
  - destruct (s_in s) as [|[i c] r] eqn:Ei; [constructor; assumption|].
    destruct (s_map s (c_trace c)) eqn:Em; econstructor; eassumption.
  - destruct (s_map s t) eqn:Em; constructor; simpl; rewrite ?Em; auto.
  - destruct (s_map s t) eqn:Em; [destruct (s_open s t) eqn:Eo|]; econstructor; simpl; rewrite ?Em, ?Eo; eauto.
  - destruct (s_map s t) eqn:Em; [destruct (s_open s t) eqn:Eo|]; econstructor; simpl; rewrite ?Em, ?Eo; eauto.
  - destruct (s_open s t) as [p|] eqn:Eo; [|constructor; simpl; rewrite Eo; reflexivity].
    destruct (s_map s t) as [[|[i c] r]|] eqn:Em; [econstructor; eassumption| |constructor; simpl; rewrite Eo, Em; reflexivity].
    destruct (Z.eqb_spec (c_trace c) t); [destruct (Z.eqb_spec (c_prompt c) p)|]; econstructor; eassumption.
Qed.

Lemma step_cases s l s' o : step s l = (s', o) -> stepped s l s' o.
Proof. intros E. pose proof (step_spec s l) as H. rewrite E in H. exact H. Qed.

Lemma step_exec s t p i c r :
  s_open s t = Some p -> s_map s t = Some ((i, c) :: r) -> c_trace c = t -> c_prompt c = p ->
  step s (Take t) = (set_open (set_map s (upd (s_map s) t (Some r))) (upd (s_open s) t None), OExec p i c).
Proof. intros Ho Hm Ht Hp. simpl. rewrite Ho, Hm, Ht, Hp, !Z.eqb_refl. reflexivity. Qed.

Lemma step_discard s t p i c r :
  s_open s t = Some p -> s_map s t = Some ((i, c) :: r) -> c_trace c = t -> c_prompt c <> p ->
  step s (Take t) = (set_map s (upd (s_map s) t (Some r)), ODiscard p i c).
Proof.
  intros Ho Hm Ht Hp. simpl. rewrite Ho, Hm, Ht, Z.eqb_refl. simpl.
  destruct (Z.eqb_spec (c_prompt c) p); [contradiction|reflexivity].
Qed.

Lemma exec_out_inv s l p i c : snd (step s l) = OExec p i c ->
  exists t r, l = Take t /\ s_open s t = Some p /\ s_map s t = Some ((i, c) :: r) /\ c_trace c = t /\ c_prompt c = p.
Proof. intros E. pose proof (step_spec s l) as H. rewrite E in H. inversion H; subst; eauto 10. Qed.

Lemma relay_out_inv s i : snd (step s Relay) = ORelayed i -> exists c r, s_in s = (i, c) :: r.
Proof. intros E. pose proof (step_spec s Relay) as H. rewrite E in H. inversion H; eauto. Qed.

Lemma sends_app a b : sends (a ++ b) = sends a ++ sends b.
Proof. induction a as [|[[] o] a IH]; simpl; rewrite ?IH; reflexivity. Qed.

Lemma execs_app a b : execs (a ++ b) = execs a ++ execs b.
Proof. induction a as [|[[] []] a IH]; simpl; rewrite ?IH; reflexivity. Qed.

Lemma relayed_app a b : relayed (a ++ b) = relayed a ++ relayed b.
Proof. induction a as [|[[] []] a IH]; simpl; rewrite ?IH; reflexivity. Qed.

Lemma opens_app a b : opens (a ++ b) = opens a ++ opens b.
Proof. induction a as [|[[] []] a IH]; simpl; rewrite ?IH; reflexivity. Qed.

Lemma exec_prompts_app a b : exec_prompts (a ++ b) = exec_prompts a ++ exec_prompts b.
Proof. unfold exec_prompts. rewrite execs_app, map_app. reflexivity. Qed.

Lemma open_in_snoc tr e : open_in (tr ++ [e]) = open_step (open_in tr) e.
Proof. unfold open_in. rewrite fold_left_app. reflexivity. Qed.

Lemma in_execs_split : forall tr t p i c, In (t, p, i, c) (execs tr) ->
  exists pre post, tr = pre ++ (Take t, OExec p i c) :: post.
Proof.
  induction tr as [|[l o] tr IH]; simpl; intros; [contradiction|].
  assert (Hrec : In (t, p, i, c) (execs tr) -> exists pre post, (l, o) :: tr = pre ++ (Take t, OExec p i c) :: post).
  { intros Hin. destruct (IH _ _ _ _ Hin) as (pre & post & ->). exists ((l, o) :: pre), post. reflexivity. }
  destruct l; auto. destruct o; auto.
  destruct H as [H|H]; auto. inversion H; subst. exists [], tr. reflexivity.
Qed.

Lemma in_relayed_split : forall tr i, In i (relayed tr) -> exists pre post, tr = pre ++ (Relay, ORelayed i) :: post.
Proof.
  induction tr as [|[l o] tr IH]; simpl; intros i H; [contradiction|].
  assert (Hrec : In i (relayed tr) -> exists pre post, (l, o) :: tr = pre ++ (Relay, ORelayed i) :: post).
  { intros Hin. destruct (IH _ Hin) as (pre & post & ->). exists ((l, o) :: pre), post. reflexivity. }
  destruct l; auto. destruct o; auto. destruct H as [->|H]; auto. exists [], tr. reflexivity.
Qed.

Lemma nth_sends_split : forall tr i c, nth_error (sends tr) i = Some c ->
  exists p1 o p2, tr = p1 ++ (Send c, o) :: p2.
Proof.
  induction tr as [|[l o] tr IH]; intros i c H; [destruct i; discriminate|].
  assert (Hrec : forall i, nth_error (sends tr) i = Some c -> exists p1 o' p2, (l, o) :: tr = p1 ++ (Send c, o') :: p2).
  { intros j Hj. destruct (IH _ _ Hj) as (p1 & o' & p2 & ->). exists ((l, o) :: p1), o', p2. reflexivity. }
  destruct l; simpl in H; eauto.
  destruct i; simpl in H; [inversion H; subst; exists [], o, tr; reflexivity|eauto].
Qed.

(** strictly increasing tags within [lo, hi) *)

Fixpoint between (lo hi : nat) (q : list icmd) : Prop :=
  match q with
  | [] => (lo <= hi)%nat
  | (i, _) :: r => (lo <= i)%nat /\ between (S i) hi r
  end.

Lemma between_le : forall q lo hi, between lo hi q -> (lo <= hi)%nat.
Proof. induction q as [|[i c] q IH]; simpl; intros; [assumption|]. destruct H. apply IH in H0. lia. Qed.

Lemma between_weaken : forall q lo hi hi', between lo hi q -> (hi <= hi')%nat -> between lo hi' q.
Proof. induction q as [|[i c] q IH]; simpl; intros; [lia|]. destruct H. split; eauto. Qed.

Lemma between_weaken_lo : forall q lo lo' hi, between lo hi q -> (lo' <= lo)%nat -> between lo' hi q.
Proof. destruct q as [|[i c] q]; simpl; intros; [lia|]. destruct H. split; [lia|assumption]. Qed.

Lemma between_snoc : forall q lo hi i c, between lo hi q -> (hi <= i)%nat -> between lo (S i) (q ++ [(i, c)]).
Proof.
  induction q as [|[j d] q IH]; simpl; intros.
  - split; lia.
  - destruct H. split; eauto.
Qed.

Lemma between_in : forall q lo hi i c, between lo hi q -> In (i, c) q -> (lo <= i)%nat.
Proof.
  induction q as [|[j d] q IH]; simpl; intros; [contradiction|].
  destruct H as [H1 H2]. destruct H0 as [E|E].
  - inversion E; subst. lia.
  - specialize (IH _ _ _ _ H2 E). lia.
Qed.

(** tag at the front of queue_in (= number of commands the relay has consumed) *)
Definition front (s : state) : nat :=
  match s_in s with [] => s_nsent s | (i, _) :: _ => i end.

Record Inv (tr : list ev) (s : state) : Prop := {
  i_nsent : s_nsent s = length (sends tr);
  i_in_sorted : between (front s) (s_nsent s) (s_in s);
  i_in_nth : forall i c, In (i, c) (s_in s) -> nth_error (sends tr) i = Some c;
  i_q_sorted : forall t q, s_map s t = Some q -> between 0 (front s) q;
  i_q : forall t q i c, s_map s t = Some q -> In (i, c) q ->
        nth_error (sends tr) i = Some c /\ c_trace c = t /\ In i (relayed tr) /\ ~ In i (exec_ids tr);
  i_open : forall t, open_in tr t = s_open s t;
  i_open_ok : forall t p, s_open s t = Some p ->
        p < s_ctr s /\ s_map s t <> None /\ ~ In p (exec_prompts tr) /\ In (t, p) (opens tr);
  i_open_inj : forall t t' p, s_open s t = Some p -> s_open s t' = Some p -> t = t';
  i_opens_lt : forall t p, In (t, p) (opens tr) -> p < s_ctr s;
  i_opens_nodup : NoDup (map snd (opens tr));
  i_exec_ids : NoDup (exec_ids tr);
  i_exec_prompts : NoDup (exec_prompts tr);
  i_execs : forall t p i c, In (t, p, i, c) (execs tr) ->
        nth_error (sends tr) i = Some c /\ c_trace c = t /\ c_prompt c = p /\
        In i (relayed tr) /\ In (t, p) (opens tr);
  i_relayed_lt : forall i, In i (relayed tr) -> (i < front s)%nat;
  i_no_assert : forall l i, ~ In (l, OAssert i) tr
}.

Lemma Inv_init : Inv [] init.
Proof.
  constructor; simpl; intros; try contradiction; try discriminate; try constructor; auto;
  try (unfold front; simpl; lia).
Qed.

Lemma upd_same {A} (f : Z -> A) k v : upd f k v k = v.
Proof. unfold upd. rewrite Z.eqb_refl. reflexivity. Qed.

Lemma upd_other {A} (f : Z -> A) k v x : x <> k -> upd f k v x = f x.
Proof. unfold upd. intros. destruct (Z.eqb_spec x k); congruence. Qed.

(* push sends / execs / relayed / opens / open_in through [tr ++ [e]] in the goal *)
Ltac hist :=
  unfold exec_ids, exec_prompts in *;
  rewrite ?sends_app, ?execs_app, ?relayed_app, ?opens_app, ?open_in_snoc; simpl; rewrite ?app_nil_r, ?map_app; simpl.

Lemma no_assert_snoc (tr : list ev) e :
  (forall l i, ~ In (l, OAssert i) tr) -> (forall l i, e <> (l, OAssert i)) ->
  forall l i, ~ In (l, OAssert i) (tr ++ [e]).
Proof. intros H He l i Hin. apply in_snoc in Hin. destruct Hin as [Hin|Hin]; [eapply H; eauto|]. eapply He; eauto. Qed.

Definition silent (e : ev) : Prop :=
  match e with
  | (Send _, _) => False
  | (_, ORelayed _) | (_, OOpened _) | (_, OExec _ _ _) | (_, OAssert _) => False
  | _ => True
  end.

Lemma silent_snoc tr e : silent e ->
  sends (tr ++ [e]) = sends tr /\ execs (tr ++ [e]) = execs tr /\ relayed (tr ++ [e]) = relayed tr /\
  opens (tr ++ [e]) = opens tr /\ open_in (tr ++ [e]) = open_in tr /\ forall l i, e <> (l, OAssert i).
Proof.
  rewrite sends_app, execs_app, relayed_app, opens_app, open_in_snoc.
  destruct e as [[] []]; simpl; intros []; rewrite ?app_nil_r; repeat split; discriminate.
Qed.

(** [Inv tr s] reads [tr] only through the history functions, and a silent event changes none *)
Lemma Inv_silent tr s e : silent e -> Inv tr s -> Inv (tr ++ [e]) s.
Proof.
  intros Hs I. destruct (silent_snoc tr e Hs) as (E1 & E2 & E3 & E4 & E5 & E6). destruct I.
  constructor; unfold exec_ids, exec_prompts in *; rewrite ?E1, ?E2, ?E3, ?E4, ?E5; auto.
  apply no_assert_snoc; assumption.
Qed.

(* the last conjunct says [i = front s]; as two inequalities it serves [lia] and survives [subst] *)
Lemma front_pop s i c r :
  s_in s = (i, c) :: r -> between (front s) (s_nsent s) (s_in s) ->
  between (front (set_in s r)) (s_nsent s) r /\ (S i <= front (set_in s r))%nat /\ (front s <= i <= front s)%nat.
Proof.
  intros E H. unfold front in *. rewrite E in *. simpl in *. destruct H as [_ H].
  destruct r as [|[j d] r']; simpl in *.
  - repeat split; auto.
  - destruct H. repeat split; auto.
Qed.

Lemma upd_live (m : Z -> option (list icmd)) k v x : m x <> None -> (x = k -> v <> None) -> upd m k v x <> None.
Proof. intros H Hv. unfold upd. destruct (Z.eqb_spec x k); auto. Qed.

Lemma Inv_step tr s l : Inv tr s -> Inv (tr ++ [(l, snd (step s l))]) (fst (step s l)).
Proof.
  intros I.
  destruct (step_spec s l) as [c0 | Ein | i c r q Ein Eq | i c r Ein Eq | t Em | t q Em Eo | t q Em Eo | t p Eo Em
                              | t p i c r Eo Em Hct | t p i c r Eo Em Htr Hp | t p i c r Eo Em Htr Hp | t E | t E | t E | t E];
    try (apply Inv_silent; [exact Logic.I|]); try assumption.
  - (* Send *)
    destruct I.
    assert (Hf : front (mkSt (s_in s ++ [(s_nsent s, c0)]) (s_map s) (s_open s) (s_ctr s) (S (s_nsent s))) = front s).
    { unfold front; simpl. destruct (s_in s) as [|[j d] r]; reflexivity. }
    constructor; rewrite ?Hf; simpl; hist; intros; eauto.
    + (* i_nsent *) rewrite app_length; simpl. lia.
    + (* i_in_sorted *) apply between_snoc with (hi := s_nsent s); auto.
    + (* i_in_nth *) apply in_snoc in H. destruct H as [H|H].
      * apply nth_error_app_some; auto.
      * inversion H; subst. rewrite i_nsent0. rewrite nth_error_app2, Nat.sub_diag; auto.
    + (* i_q *) destruct (i_q0 _ _ _ _ H H0) as (A & B & C' & D). repeat split; auto. apply nth_error_app_some; auto.
    + (* i_execs *) destruct (i_execs0 _ _ _ _ H) as (A & B & C' & D & E). repeat split; auto. apply nth_error_app_some; auto.
    + (* i_no_assert *) apply no_assert_snoc; auto. discriminate.
  - (* relayed: delivered to the trace's queue *)
    destruct (front_pop _ _ _ _ Ein (i_in_sorted _ _ I)) as (Hb & Hlt & Hfr).
    assert (Hfr' : front (set_map (set_in s r) (upd (s_map s) (c_trace c) (Some (q ++ [(i, c)])))) = front (set_in s r)) by reflexivity.
    assert (Hnth : nth_error (sends tr) i = Some c) by (apply (i_in_nth _ _ I); rewrite Ein; left; reflexivity).
    destruct I. constructor; rewrite ?Hfr'; simpl; hist; intros; eauto.
    + (* i_in_nth *) apply i_in_nth0. rewrite Ein. right. assumption.
    + (* i_q_sorted *) destruct (Z.eq_dec t (c_trace c)) as [e|n]; [rewrite e, upd_same in H|rewrite upd_other in H by assumption].
      * inversion H; subst. apply between_weaken with (hi := S i); auto.
        apply between_snoc with (hi := front s); eauto. lia.
      * apply between_weaken with (hi := front s); eauto. lia.
    + (* i_q *) destruct (Z.eq_dec t (c_trace c)) as [e|n]; [rewrite e, upd_same in H|rewrite upd_other in H by assumption].
      * inversion H; subst. apply in_snoc in H0. destruct H0 as [H0|H0].
        -- destruct (i_q0 _ _ _ _ Eq H0) as (A & B & C' & D). repeat split; auto. apply in_snoc; auto.
        -- inversion H0; subst. repeat split; auto. apply in_snoc; auto.
           intro Hex. apply in_map_iff in Hex. destruct Hex as ([[[t1 p1] i1] c1] & E1 & Hin). simpl in E1. subst i1.
           destruct (i_execs0 _ _ _ _ Hin) as (_ & _ & _ & Hr & _).
           apply i_relayed_lt0 in Hr. lia.
      * destruct (i_q0 _ _ _ _ H H0) as (A & B & C' & D). repeat split; auto. apply in_snoc; auto.
    + (* i_open_ok *) destruct (i_open_ok0 _ _ H) as (A & B & C' & D). repeat split; auto. apply upd_live; [assumption|discriminate].
    + (* i_execs *) destruct (i_execs0 _ _ _ _ H) as (A & B & C' & D & E). repeat split; auto. apply in_snoc; auto.
    + (* i_relayed_lt *) apply in_snoc in H. destruct H as [H|H]; [apply i_relayed_lt0 in H; lia|subst; lia].
    + (* i_no_assert *) apply no_assert_snoc; auto. discriminate.
  - (* dropped: KeyError *)
    destruct (front_pop _ _ _ _ Ein (i_in_sorted _ _ I)) as (Hb & Hlt & Hfr).
    destruct I. constructor; simpl; intros; eauto.
    + (* i_in_nth *) apply i_in_nth0. rewrite Ein. right. assumption.
    + (* i_q_sorted *) apply between_weaken with (hi := front s); eauto. lia.
    + (* i_relayed_lt *) apply i_relayed_lt0 in H. lia.
  - (* started *)
    destruct I. constructor; simpl; intros; eauto.
    + (* i_q_sorted *) destruct (Z.eq_dec t0 t) as [e|n]; [rewrite e, upd_same in H|rewrite upd_other in H by assumption]; [inversion H; simpl; lia|eauto].
    + (* i_q *) destruct (Z.eq_dec t0 t) as [e|n]; [rewrite e, upd_same in H|rewrite upd_other in H by assumption]; [inversion H; subst; contradiction|eauto].
    + (* i_open_ok *) destruct (i_open_ok0 _ _ H) as (A & B & C' & D). repeat split; auto. apply upd_live; [assumption|discriminate].
  - (* ended *)
    destruct I. constructor; simpl; intros; eauto.
    + (* i_q_sorted *) destruct (Z.eq_dec t0 t) as [e|n]; [rewrite e, upd_same in H|rewrite upd_other in H by assumption]; [discriminate|eauto].
    + (* i_q *) destruct (Z.eq_dec t0 t) as [e|n]; [rewrite e, upd_same in H|rewrite upd_other in H by assumption]; [discriminate|eauto].
    + (* i_open_ok *) destruct (i_open_ok0 _ _ H) as (A & B & C' & D). repeat split; auto. apply upd_live; [assumption|congruence].
  - (* opened *)
    assert (Hex : forall p, In p (exec_prompts tr) -> p < s_ctr s).
    { intros p Hp. unfold exec_prompts in Hp. apply in_map_iff in Hp. destruct Hp as ([[[t1 p1] i1] c1] & E1 & Hin).
      simpl in E1; subst. destruct (i_execs _ _ I _ _ _ _ Hin) as (_ & _ & _ & _ & Ho). eapply i_opens_lt; eauto. }
    destruct I. constructor; simpl; hist; intros; eauto.
    + (* i_open *) unfold upd. rewrite i_open0. reflexivity.
    + (* i_open_ok *) unfold upd in *. destruct (Z.eqb_spec t0 t).
      * inversion H; subst. repeat split; try lia; try congruence.
        -- intro Hin. apply Hex in Hin. lia.
        -- apply in_snoc; auto.
      * destruct (i_open_ok0 _ _ H) as (A & B & C' & D). repeat split; auto; try lia. apply in_snoc; auto.
    + (* i_open_inj *) unfold upd in *. destruct (Z.eqb_spec t0 t); destruct (Z.eqb_spec t' t); subst; auto.
      * inversion H; subst. apply i_open_ok0 in H0. lia.
      * inversion H0; subst. apply i_open_ok0 in H. lia.
      * eauto.
    + (* i_opens_lt *) apply in_snoc in H. destruct H as [H|H]; [apply i_opens_lt0 in H; lia|inversion H; lia].
    + (* i_opens_nodup *) apply NoDup_snoc; auto. intro Hin. apply in_map_iff in Hin. destruct Hin as ([t1 p1] & E1 & Hin). simpl in E1; subst.
      apply i_opens_lt0 in Hin. lia.
    + (* i_execs *) destruct (i_execs0 _ _ _ _ H) as (A & B & C' & D & E). repeat split; auto. apply in_snoc; auto.
    + (* i_no_assert *) apply no_assert_snoc; auto. discriminate.
  - (* the assertion cannot fail: what is in t's queue carries t *)
    destruct (i_q _ _ I _ _ i c Em (or_introl eq_refl)) as (_ & Htr & _). contradiction.
  - (* executed: the prompt closes *)
    destruct (i_q _ _ I _ _ i c Em (or_introl eq_refl)) as (Hnth & _ & Hrel & Hnex).
    pose proof (i_q_sorted _ _ I _ _ Em) as Hsort. simpl in Hsort. destruct Hsort as [_ Hsort].
    assert (Hr : forall i0 c0, In (i0, c0) r -> (i < i0)%nat).
    { intros i0 c0 Hin. pose proof (between_in _ _ _ _ _ Hsort Hin). lia. }
    destruct (i_open_ok _ _ I _ _ Eo) as (Hlt & _ & Hnp & Hop).
    destruct I. constructor; simpl; hist; intros; eauto.
    + (* i_q_sorted *) destruct (Z.eq_dec t0 t) as [e|n]; [rewrite e, upd_same in H|rewrite upd_other in H by assumption]; [|eauto].
      inversion H; subst. apply between_weaken_lo with (lo := S i); auto. lia.
    + (* i_q *) destruct (Z.eq_dec t0 t) as [e|n]; [rewrite e, upd_same in H|rewrite upd_other in H by assumption].
      * inversion H; subst q. destruct (i_q0 t ((i, c) :: r) i0 c0 Em (or_intror H0)) as (A & B & C' & D).
        subst t0. repeat split; auto. intro Hin. apply in_snoc in Hin. destruct Hin as [Hin|Hin]; [contradiction|].
        apply Hr in H0. lia.
      * destruct (i_q0 _ _ _ _ H H0) as (A & B & C' & D). repeat split; auto.
        intro Hin. apply in_snoc in Hin. destruct Hin as [Hin|Hin]; [contradiction|]. subst i0. congruence.
    + (* i_open *) unfold upd. rewrite i_open0. reflexivity.
    + (* i_open_ok *) unfold upd in *. destruct (Z.eqb_spec t0 t); [discriminate|].
      destruct (i_open_ok0 _ _ H) as (A & B & C' & D). repeat split; auto.
      intro Hin. apply in_snoc in Hin. destruct Hin as [Hin|Hin]; [contradiction|]. subst p0. apply n. eauto.
    + (* i_open_inj *) unfold upd in *. destruct (Z.eqb_spec t0 t); [discriminate|]. destruct (Z.eqb_spec t' t); [discriminate|]. eauto.
    + (* i_exec_ids *) apply NoDup_snoc; auto.
    + (* i_exec_prompts *) apply NoDup_snoc; auto.
    + (* i_execs *) apply in_snoc in H. destruct H as [H|H]; [eauto|]. inversion H; subst. repeat split; auto.
    + (* i_no_assert *) apply no_assert_snoc; auto. discriminate.
  - (* discarded: the loop continues *)
    pose proof (i_q_sorted _ _ I _ _ Em) as Hsort. simpl in Hsort. destruct Hsort as [_ Hsort].
    destruct I. constructor; simpl; intros; eauto.
    + (* i_q_sorted *) destruct (Z.eq_dec t0 t) as [e|n]; [rewrite e, upd_same in H|rewrite upd_other in H by assumption]; [|eauto].
      inversion H; subst. apply between_weaken_lo with (lo := S i); auto. lia.
    + (* i_q *) destruct (Z.eq_dec t0 t) as [e|n]; [rewrite e, upd_same in H|rewrite upd_other in H by assumption]; [|eauto].
      inversion H; subst q. subst t0. apply (i_q0 t ((i, c) :: r) i0 c0 Em (or_intror H0)).
    + (* i_open_ok *) destruct (i_open_ok0 _ _ H) as (A & B & C' & D). repeat split; auto. apply upd_live; [assumption|discriminate].
Qed.

Theorem Inv_reach : forall ls, Inv (trace ls) (final ls).
Proof.
  induction ls using rev_ind.
  - apply Inv_init.
  - rewrite trace_snoc, final_snoc. apply Inv_step. assumption.
Qed.

Lemma step_no_assert ls l i : snd (step (final ls) l) <> OAssert i.
Proof.
  intros E. apply (i_no_assert _ _ (Inv_reach (ls ++ [l])) l i).
  rewrite trace_snoc, E. apply in_snoc. auto.
Qed.
