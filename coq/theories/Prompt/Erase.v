(** Deleting never-executed commands from the stream (together with the relay
    step that moved each of them and the prompt-loop iteration that discarded
    it) changes nothing that the remaining labels do: a simulation between the
    run and the run of the erased label sequence. *)
From NL Require Import Prompt.Model Prompt.Hist Prompt.Inv Prompt.Once.
Open Scope Z_scope.

Definition erased (D : nat -> bool) (e : ev) : bool :=
  match e with
  | (Send _, OSent i) => D i
  | (Relay, ORelayed i) => D i
  | (Relay, ODropped i) => D i
  | (Take _, ODiscard _ i _) => D i
  | _ => false
  end.

Definition kept (D : nat -> bool) (tr : list ev) : list ev := filter (fun e => negb (erased D e)) tr.
Definition erase (D : nat -> bool) (tr : list ev) : list label := map fst (kept D tr).

(** an output without the ghost tags *)
Inductive vis :=
| VSent | VRelayed | VDropped | VIdle | VStarted | VEnded | VOpened (p : Z)
| VExec (p : Z) (c : cmd) | VDiscard (p : Z) (c : cmd) | VBlocked | VAssert | VNotEnabled.

Definition strip (o : out) : vis :=
  match o with
  | OSent _ => VSent | ORelayed _ => VRelayed | ODropped _ => VDropped | OIdle => VIdle
  | OStarted => VStarted | OEnded => VEnded | OOpened p => VOpened p
  | OExec p _ c => VExec p c | ODiscard p _ c => VDiscard p c | OBlocked => VBlocked
  | OAssert _ => VAssert | ONotEnabled => VNotEnabled
  end.
Definition strip_ev (e : ev) : label * vis := (fst e, strip (snd e)).

(** executed commands without tags: (trace, prompt, command) in order *)
Definition vexecs (tr : list ev) : list (Z * Z * cmd) :=
  map (fun e => match e with (t, p, _, c) => (t, p, c) end) (execs tr).

Definition keepq (D : nat -> bool) (q : list icmd) : list cmd :=
  map snd (filter (fun ic => negb (D (fst ic))) q).

Record Sim (D : nat -> bool) (s s' : state) : Prop := {
  sim_in : keepq D (s_in s) = map snd (s_in s');
  sim_map : forall t, option_map (keepq D) (s_map s t) = option_map (map snd) (s_map s' t);
  sim_open : forall t, s_open s t = s_open s' t;
  sim_ctr : s_ctr s = s_ctr s'
}.

Lemma keepq_app D a b : keepq D (a ++ b) = keepq D a ++ keepq D b.
Proof. unfold keepq. rewrite filter_app, map_app. reflexivity. Qed.

Lemma keepq_cons D i c r : keepq D ((i, c) :: r) = if D i then keepq D r else c :: keepq D r.
Proof. unfold keepq. simpl. destruct (D i); reflexivity. Qed.

Lemma sim_map_some D s s' t q : Sim D s s' -> s_map s t = Some q ->
  exists q', s_map s' t = Some q' /\ keepq D q = map snd q'.
Proof.
  intros S E. pose proof (sim_map _ _ _ S t) as H. rewrite E in H. simpl in H.
  destruct (s_map s' t) as [q'|]; [|discriminate]. inversion H. eauto.
Qed.

Lemma sim_map_none D s s' t : Sim D s s' -> s_map s t = None -> s_map s' t = None.
Proof.
  intros S E. pose proof (sim_map _ _ _ S t) as H. rewrite E in H. simpl in H.
  destruct (s_map s' t); [discriminate|reflexivity].
Qed.

(** [sim_map] after the same update on both sides (the binders [m], [m'] are not used) *)
Lemma sim_upd_map D s s' t q q' (m := s_map s) (m' := s_map s') :
  Sim D s s' -> option_map (keepq D) q = option_map (map snd) q' ->
  forall x, option_map (keepq D) (upd (s_map s) t q x) = option_map (map snd) (upd (s_map s') t q' x).
Proof. intros S H x. unfold upd. destruct (Z.eqb x t); [assumption|apply (sim_map _ _ _ S)]. Qed.

Lemma sim_upd_l D s s' t q : Sim D s s' -> option_map (keepq D) q = option_map (map snd) (s_map s' t) ->
  forall x, option_map (keepq D) (upd (s_map s) t q x) = option_map (map snd) (s_map s' x).
Proof. intros S H x. unfold upd. destruct (Z.eqb_spec x t); [subst; assumption|apply (sim_map _ _ _ S)]. Qed.

Lemma keepq_snoc D q i c : keepq D (q ++ [(i, c)]) = keepq D q ++ (if D i then [] else [c]).
Proof. rewrite keepq_app. unfold keepq at 2. simpl. destruct (D i); reflexivity. Qed.

(** one step of the simulation: an erased event moves the left state only; at any other label both
    states take the same branch of [step], because each guard reads what [Sim] equates *)
Lemma sim_step D s s' l :
  Sim D s s' ->
  (forall p i c, snd (step s l) = OExec p i c -> D i = false) ->
  (forall i, snd (step s l) <> OAssert i) ->
  if erased D (l, snd (step s l)) then Sim D (fst (step s l)) s'
  else strip (snd (step s' l)) = strip (snd (step s l)) /\ Sim D (fst (step s l)) (fst (step s' l)).
Proof.
  intros S Hex Has. pose proof (sim_in _ _ _ S) as Hi.
  destruct l as [c| |t|t|t|t]; simpl in *; rewrite <- ?(sim_open _ _ _ S t), <- ?(sim_ctr _ _ _ S).
  - (* Send *)
    destruct (D (s_nsent s)) eqn:Ed; [|split; [reflexivity|]]; destruct S; constructor; simpl; auto;
      rewrite keepq_snoc, Ed, ?app_nil_r, ?map_app; simpl; congruence.
  - (* Relay *)
    destruct (s_in s) as [|[i c] r] eqn:Ein.
    + cbn in Hi. destruct (s_in s'); [|discriminate]. simpl. split; [reflexivity|assumption].
    + destruct (D i) eqn:Ed.
      * (* the relayed / dropped instance is in D: s' does nothing *)
        rewrite keepq_cons, Ed in Hi.
        destruct (s_map s (c_trace c)) as [q|] eqn:Em; simpl; rewrite Ed; constructor; simpl; try apply S; try assumption.
        destruct (sim_map_some _ _ _ _ _ S Em) as (q' & Em' & Hq).
        apply sim_upd_l; [assumption|]. rewrite Em'. simpl. rewrite keepq_snoc, Ed, app_nil_r. congruence.
      * rewrite keepq_cons, Ed in Hi.
        destruct (s_in s') as [|[i' c'] r'] eqn:Ein'; [discriminate|]. simpl in Hi. inversion Hi; subst c'.
        destruct (s_map s (c_trace c)) as [q|] eqn:Em; simpl; rewrite Ed.
        -- destruct (sim_map_some _ _ _ _ _ S Em) as (q' & Em' & Hq). rewrite Em'. simpl.
           split; [reflexivity|]. constructor; simpl; try apply S; try assumption.
           apply sim_upd_map; [assumption|]. simpl. rewrite keepq_snoc, Ed, map_app. simpl. congruence.
        -- rewrite (sim_map_none _ _ _ _ S Em). simpl. split; [reflexivity|]. constructor; simpl; try apply S; assumption.
  - (* StartTrace *)
    destruct (s_map s t) as [q|] eqn:Em.
    + destruct (sim_map_some _ _ _ _ _ S Em) as (q' & Em' & Hq). rewrite Em'. simpl. split; [reflexivity|assumption].
    + rewrite (sim_map_none _ _ _ _ S Em). simpl. split; [reflexivity|].
      constructor; simpl; try apply S. apply sim_upd_map; [assumption|reflexivity].
  - (* EndTrace *)
    destruct (s_map s t) as [q|] eqn:Em.
    + destruct (sim_map_some _ _ _ _ _ S Em) as (q' & Em' & Hq). rewrite Em'.
      destruct (s_open s t); simpl; (split; [reflexivity|]); auto.
      constructor; simpl; try apply S. apply sim_upd_map; [assumption|reflexivity].
    + rewrite (sim_map_none _ _ _ _ S Em). simpl. split; [reflexivity|assumption].
  - (* OpenPrompt *)
    destruct (s_map s t) as [q|] eqn:Em.
    + destruct (sim_map_some _ _ _ _ _ S Em) as (q' & Em' & Hq). rewrite Em'.
      destruct (s_open s t); simpl; (split; [reflexivity|]); auto.
      constructor; simpl; try apply S; try (rewrite (sim_ctr _ _ _ S); reflexivity).
      intros x. unfold upd. destruct (Z.eqb x t); [reflexivity|apply (sim_open _ _ _ S)].
    + rewrite (sim_map_none _ _ _ _ S Em). simpl. split; [reflexivity|assumption].
  - (* Take *)
    destruct (s_open s t) as [p|] eqn:Eo; [|simpl; split; [reflexivity|assumption]].
    destruct (s_map s t) as [q|] eqn:Em.
    2:{ rewrite (sim_map_none _ _ _ _ S Em). simpl. split; [reflexivity|assumption]. }
    destruct (sim_map_some _ _ _ _ _ S Em) as (q' & Em' & Hq). rewrite Em'.
    destruct q as [|[i c] r].
    + cbn in Hq. destruct q'; [|discriminate]. simpl. split; [reflexivity|assumption].
    + destruct (negb (c_trace c =? t)) eqn:Et; [exfalso; eapply Has; reflexivity|].
      destruct (D i) eqn:Ed.
      * rewrite keepq_cons, Ed in Hq.
        destruct (Z.eqb_spec (c_prompt c) p); [specialize (Hex _ _ _ eq_refl); congruence|].
        simpl. rewrite Ed. constructor; simpl; try apply S.
        apply sim_upd_l; [assumption|]. rewrite Em'. simpl. congruence.
      * rewrite keepq_cons, Ed in Hq.
        destruct q' as [|[i' c'] r']; [discriminate|]. simpl in Hq. inversion Hq; subst c'. rewrite Et.
        assert (Hm : forall x, option_map (keepq D) (upd (s_map s) t (Some r) x) = option_map (map snd) (upd (s_map s') t (Some r') x))
          by (apply sim_upd_map; [assumption|simpl; congruence]).
        destruct (Z.eqb_spec (c_prompt c) p); simpl; rewrite ?Ed; (split; [reflexivity|]);
          constructor; simpl; try apply S; try assumption.
        intros x. unfold upd. destruct (Z.eqb x t); [reflexivity|apply (sim_open _ _ _ S)].
Qed.

Lemma sim_run D : forall ls s s', Sim D s s' ->
  (forall i, D i = true -> ~ In i (exec_ids (trace_from s ls))) ->
  (forall l i, ~ In (l, OAssert i) (trace_from s ls)) ->
  map strip_ev (trace_from s' (erase D (trace_from s ls))) = map strip_ev (kept D (trace_from s ls)).
Proof.
  induction ls as [|l ls IH]; intros s s' S Hex Has; [reflexivity|].
  simpl in Hex, Has.
  assert (H1 : forall p i c, snd (step s l) = OExec p i c -> D i = false).
  { intros p i c E. destruct (D i) eqn:Ed; [|reflexivity]. exfalso.
    destruct (exec_out_inv _ _ _ _ _ E) as (t & r & -> & _). apply (Hex i Ed). rewrite E. left. reflexivity. }
  assert (H2 : forall i, snd (step s l) <> OAssert i).
  { intros i E. apply (Has l i). left. rewrite E. reflexivity. }
  assert (Hex' : forall i, D i = true -> ~ In i (exec_ids (trace_from (fst (step s l)) ls))).
  { intros i Ed Hin. apply (Hex i Ed). unfold exec_ids in *. simpl.
    destruct l; auto. destruct (snd (step s (Take t))); auto. right. assumption. }
  assert (Has' : forall l0 i, ~ In (l0, OAssert i) (trace_from (fst (step s l)) ls)).
  { intros l0 i Hin. apply (Has l0 i). right. assumption. }
  pose proof (sim_step D s s' l S H1 H2) as St.
  remember (erased D (l, snd (step s l))) as b eqn:Eb.
  unfold erase, kept in *. cbn [trace_from filter]. rewrite <- Eb. destruct b; cbn [negb map fst trace_from].
  - apply IH; assumption.
  - destruct St as [Hs St]. unfold strip_ev at 1 3. cbn [fst snd]. rewrite Hs. f_equal. apply IH; assumption.
Qed.

Lemma Sim_init D : Sim D init init.
Proof. constructor; reflexivity. Qed.

(** the run of the erased label sequence does, label for label, what the
    original run did at the labels that remain *)
Theorem erase_never_executed : forall ls D,
  (forall i, D i = true -> ~ In i (exec_ids (trace ls))) ->
  map strip_ev (trace (erase D (trace ls))) = map strip_ev (kept D (trace ls)).
Proof.
  intros ls D H. apply sim_run; [apply Sim_init|assumption|apply no_assertion_failure].
Qed.

Lemma vexecs_strip : forall a b, map strip_ev a = map strip_ev b -> vexecs a = vexecs b.
Proof.
  induction a as [|[l o] a IH]; destruct b as [|[l' o'] b]; simpl; intros H; try discriminate; [reflexivity|].
  inversion H. unfold strip_ev in H1. simpl in *. subst l'. specialize (IH _ H3). unfold vexecs in *. simpl.
  destruct l; auto. destruct o, o'; simpl in *; try discriminate; auto. inversion H2; subst. simpl. f_equal. assumption.
Qed.

Lemma vexecs_kept D : forall tr, vexecs (kept D tr) = vexecs tr.
Proof.
  induction tr as [|[l o] tr IH]; [reflexivity|].
  change (kept D ((l, o) :: tr)) with (if negb (erased D (l, o)) then (l, o) :: kept D tr else kept D tr).
  destruct (erased D (l, o)) eqn:E; cbn [negb].
  - rewrite IH. destruct l; destruct o; simpl in E; try discriminate; reflexivity.
  - unfold vexecs in *. destruct l; destruct o; simpl; rewrite ?IH; reflexivity.
Qed.

Theorem erase_same_execs : forall ls D,
  (forall i, D i = true -> ~ In i (exec_ids (trace ls))) ->
  vexecs (trace (erase D (trace ls))) = vexecs (trace ls).
Proof.
  intros ls D H. rewrite (vexecs_strip _ _ (erase_never_executed ls D H)). apply vexecs_kept.
Qed.
