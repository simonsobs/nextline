(** Exactly-once delivery and the fate of decoys, derived from the invariant; at the end the
    decision procedure of Prompt/Spec.v for [decoy_after_arrival] is shown sound. *)
From NL Require Import Prompt.Model Prompt.Hist Prompt.Spec Prompt.Inv.
Open Scope Z_scope.

(** the command that closes prompt (t, p) is a sent command carrying exactly
    (t, p); it was sent and had reached t's queue before, and (t, p) is the open
    prompt of t at that moment *)
Theorem exec_is_addressed : forall ls pre t p i c post,
  trace ls = pre ++ (Take t, OExec p i c) :: post ->
  nth_error (sends (trace ls)) i = Some c /\ nth_error (sends pre) i = Some c /\
  c_trace c = t /\ c_prompt c = p /\ open_in pre t = Some p /\ In i (relayed pre).
Proof.
  intros ls pre t p i c post H.
  destruct (trace_split _ _ _ _ _ _ H) as (l1 & l2 & -> & -> & Ho & _).
  symmetry in Ho. apply exec_out_inv in Ho. destruct Ho as (t' & r & Et & Hop & Hm & _ & Hp). inversion Et; subst t'.
  pose proof (Inv_reach l1) as I. fold (trace l1). fold (final l1) in Hop, Hm.
  destruct (i_q _ _ I _ _ i c Hm (or_introl eq_refl)) as (A & B & C' & _).
  repeat split; auto.
  - rewrite H. fold (trace l1). rewrite sends_app. apply nth_error_app_some. assumption.
  - rewrite (i_open _ _ I). assumption.
Qed.

(** no instance is executed twice; no prompt is closed twice *)
Theorem exec_once : forall ls, NoDup (exec_ids (trace ls)) /\ NoDup (exec_prompts (trace ls)).
Proof. intros ls. pose proof (Inv_reach ls) as I. split; [apply (i_exec_ids _ _ I)|apply (i_exec_prompts _ _ I)]. Qed.

Lemma in_exec_ids : forall tr i, In i (exec_ids tr) -> exists t p c, In (t, p, i, c) (execs tr).
Proof.
  intros tr i H. unfold exec_ids in H. apply in_map_iff in H. destruct H as ([[[t p] i'] c] & E & Hin).
  simpl in E. subst. eauto.
Qed.

(** an executed instance was addressed to a prompt that its own trace opened *)
Theorem executed_opened : forall ls i c,
  nth_error (sends (trace ls)) i = Some c -> In i (exec_ids (trace ls)) ->
  In (c_trace c, c_prompt c) (opens (trace ls)).
Proof.
  intros ls i c Hn Hin. apply in_exec_ids in Hin. destruct Hin as (t & p & c' & Hin).
  destruct (i_execs _ _ (Inv_reach ls) _ _ _ _ Hin) as (A & B & C' & _ & E). congruence.
Qed.

(** PARTIAL form of "decoys are discarded": classification at and after the
    ARRIVAL in the trace's queue.  Added hypothesis w.r.t. the property text:
    the addressed prompt is not open at any moment from the arrival on (the
    property text classifies at the moment of sending). *)
Theorem discarded_if_never_open_after_arrival : forall ls i c,
  nth_error (sends (trace ls)) i = Some c -> decoy_after_arrival (trace ls) i c -> ~ In i (exec_ids (trace ls)).
Proof.
  intros ls i c Hn Hnever Hin. apply in_exec_ids in Hin. destruct Hin as (t & p & c' & Hin).
  apply in_execs_split in Hin. destruct Hin as (pre & post & Htr).
  destruct (exec_is_addressed _ _ _ _ _ _ _ Htr) as (A & _ & B & C' & D & E).
  assert (c' = c) by congruence. subst c'. subst t p.
  exact (Hnever pre _ Htr E D).
Qed.

(** another trace's prompt (whenever that trace opens it) *)
Theorem other_trace_discarded : forall ls i c t',
  nth_error (sends (trace ls)) i = Some c ->
  In (t', c_prompt c) (opens (trace ls)) -> t' <> c_trace c ->
  ~ In i (exec_ids (trace ls)).
Proof.
  intros ls i c t' Hn Ho Hne Hin. apply (executed_opened _ _ _ Hn) in Hin.
  apply Hne. eapply nodup_snd_inj; eauto. apply (i_opens_nodup _ _ (Inv_reach ls)).
Qed.

(** a prompt that never exists (unknown trace, number never issued to it) *)
Theorem nonexistent_discarded : forall ls i c,
  nth_error (sends (trace ls)) i = Some c ->
  ~ In (c_trace c, c_prompt c) (opens (trace ls)) ->
  ~ In i (exec_ids (trace ls)).
Proof. intros ls i c Hn Ho Hin. apply Ho. eapply executed_opened; eauto. Qed.

(** an already answered prompt *)
Theorem stale_discarded : forall ls pre c i post,
  trace ls = pre ++ (Send c, OSent i) :: post ->
  In (c_prompt c) (exec_prompts pre) ->
  ~ In i (exec_ids (trace ls)).
Proof.
  intros ls pre c i post H Hst Hin.
  destruct (trace_split _ _ _ _ _ _ H) as (l1 & l2 & Hls & Hpre & Ho & _).
  simpl in Ho. injection Ho as Ho. fold (final l1) in Ho. fold (trace l1) in Hpre.
  pose proof (Inv_reach l1) as I1. pose proof (Inv_reach ls) as I.
  assert (Hi : i = length (sends pre)) by (rewrite Ho, Hpre; apply (i_nsent _ _ I1)).
  assert (Hn : nth_error (sends (trace ls)) i = Some c).
  { rewrite H, sends_app. simpl. rewrite nth_error_app2 by lia. rewrite Hi, Nat.sub_diag. reflexivity. }
  apply in_exec_ids in Hin. destruct Hin as (t & p & c' & Hin).
  destruct (i_execs _ _ I _ _ _ _ Hin) as (A & B & C' & _).
  assert (c' = c) by congruence. subst c'.
  rewrite H, execs_app in Hin. simpl in Hin. apply in_app_iff in Hin. destruct Hin as [Hin|Hin].
  - rewrite Hpre in Hin. destruct (i_execs _ _ I1 _ _ _ _ Hin) as (A' & _).
    assert (i < length (sends (trace l1)))%nat by (apply nth_error_Some; congruence).
    rewrite <- Hpre in H0. lia.
  - pose proof (i_exec_prompts _ _ I) as Hnd. rewrite H, exec_prompts_app in Hnd. simpl in Hnd.
    assert (Hp2 : In (c_prompt c) (exec_prompts post)).
    { unfold exec_prompts. apply in_map_iff. exists (t, p, i, c). split; auto. }
    eapply nodup_app_disjoint; eassumption.
Qed.

(** the assertion `pdb_command.trace_no == trace_no` never fails *)
Theorem no_assertion_failure : forall ls l i, ~ In (l, OAssert i) (trace ls).
Proof. intros ls. apply (i_no_assert _ _ (Inv_reach ls)). Qed.

Lemma arrival_check_sound tr i c : arrival_check tr i c = true -> decoy_after_arrival tr i c.
Proof.
  intros H pre post Htr Hin Ho. unfold arrival_check in H. rewrite forallb_forall in H.
  assert (Hp : pre = firstn (length pre) tr).
  { rewrite Htr. rewrite firstn_app, Nat.sub_diag, firstn_all. simpl. rewrite app_nil_r. reflexivity. }
  specialize (H (length pre)). rewrite <- Hp in H. simpl in H.
  assert (Hs : In (length pre) (seq 0 (S (length tr)))).
  { apply in_seq. rewrite Htr, app_length. lia. }
  apply H in Hs. rewrite Ho, Z.eqb_refl in Hs. simpl in Hs.
  assert (He : existsb (Nat.eqb i) (relayed pre) = true).
  { apply existsb_exists. exists i. split; [assumption|apply Nat.eqb_refl]. }
  rewrite He in Hs. discriminate.
Qed.
