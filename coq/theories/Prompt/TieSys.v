(** TIE of the composed model (Prompt/System.v: child + event channel + main-process filter) and
    of the main-process guard to the code of /repo.

    Gen/PromptFuns.v holds, besides the child's functions (Prompt/Tie.v), the statement trees of
    Nextline.send_pdb_command, Imp.send_command, CommandSender.send_command,
    SendCommand._send_command, the cases of OnEvent.on_event_in_process and the statements of
    RunSession.run that touch the filter, REGENERATED from the source at every check.  This file
    drives the interpreter (Prompt/Interp.v) by the labels of Prompt/System.v and proves

    * [ssim]: for EVERY list of system labels the interpreter of the regenerated code and
      Prompt/System.v produce the same output at every label and end in related states (same
      event queue, same open_prompts, child states related by the simulation of Prompt/Tie.v);
      hence the theorems of Prompt/SysProofs.v hold of the regenerated code ([tie_system_*]);
    * [main_*]: the main process over SEVERAL runs (labels: an event is handled, a run starts,
      an API call), stated at the theorems.

    What a label means for the code:
      SApi c    Nextline.send_pdb_command(command=c_text, prompt_no=c_prompt, trace_no=c_trace)
                (arguments bound BY NAME to the regenerated parameter list) runs to its end through
                Imp.send_command -> CommandSender.send_command [-> SendCommand._send_command]
      SMain     the case of on_event_in_process for the class of the next event of queue_out runs to
                its end (its hook awaited: the hooks do not touch open_prompts -- translator check:
                open_prompts is used nowhere else in /repo/nextline)
      SChild l  the child's label (Prompt/Tie.v); OnStartPrompt / OnEndPrompt are put on queue_out
      MRunStart the statements of RunSession.run that touch the filter, in source order.
    Modelled, not verified: queue_out is FIFO (C10), pluggy, the mp queue between the processes. *)
From NL Require Import Prompt.Interp Prompt.Hist Prompt.Tie.
From NL Require Prompt.Spec Prompt.Inv Prompt.Once Prompt.Deliver Prompt.SysProofs.
From Coq Require Import Lia.
Open Scope Z_scope.

Definition api_arg (n : string) (c : cmd) : option val :=
  if String.eqb n "command" then Some (VStr (c_text c))
  else if String.eqb n "prompt_no" then Some (VInt (c_prompt c))
  else if String.eqb n "trace_no" then Some (VInt (c_trace c))
  else None.

Fixpoint api_args (names : list string) (c : cmd) : option (list val) :=
  match names with
  | [] => Some []
  | n :: r => match api_arg n c, api_args r c with Some v, Some vs => Some (v :: vs) | _, _ => None end
  end.

Definition api_thread (c : cmd) : option thread :=
  match api_args api_param_names c with
  | Some vs => call 0 api_params api_body vs
  | None => None
  end.

Definition class_of (e : mev) : string :=
  match e with MStart _ _ => "OnStartPrompt" | MEnd _ _ => "OnEndPrompt" end.

Fixpoint find_case (name : string) (cases : list (string * stmt)) : option stmt :=
  match cases with
  | [] => None
  | (n, b) :: r => if String.eqb n name || String.eqb n "_" then Some b else find_case name r
  end.

Definition event_thread (e : mev) : option thread :=
  match find_case (class_of e) event_cases with
  | Some b => call 0 event_params b [VEvent e]
  | None => None
  end.

Definition run_start_thread : thread := mkT 0 empty (map KS run_tracked).

Lemma api_forward : forall sh c th, api_thread c = Some th -> h_bound sh = true -> h_sentinel sh = false ->
  mem (c_trace c, c_prompt c) (h_open sh) = true ->
  resume FUEL sh th = RDone (hset_in sh (h_in sh ++ [(h_nsent sh, c)]) (S (h_nsent sh))) VNone [ISent (h_nsent sh)].
Proof. intros sh [t p x] th H Hb Hs E. inversion H; subst. cbn [c_trace c_prompt] in E. exec ltac:(rewrite ?E, ?Hb, ?Hs). Qed.

Lemma api_drop : forall sh c th, api_thread c = Some th -> h_bound sh = true ->
  mem (c_trace c, c_prompt c) (h_open sh) = false ->
  resume FUEL sh th = RDone sh VNone [].
Proof. intros sh [t p x] th H Hb E. inversion H; subst. cbn [c_trace c_prompt] in E. exec ltac:(rewrite ?E, ?Hb). Qed.

(** before the first run context.send_command is None: `assert context.send_command` raises *)
Lemma api_unbound : forall sh c th, api_thread c = Some th -> h_bound sh = false ->
  resume FUEL sh th = RDied sh XAssertion [].
Proof. intros sh [t p x] th H Hb. inversion H; subst. exec ltac:(rewrite ?Hb). Qed.

Lemma see_start : forall sh t n th, event_thread (MStart t n) = Some th ->
  resume FUEL sh th = RDone (hset_opens sh ((t, n) :: h_open sh)) VNone [IHook "on_start_prompt"].
Proof. intros sh t n th H. inversion H; subst. exec idtac. Qed.

Lemma see_end : forall sh t n th, event_thread (MEnd t n) = Some th ->
  resume FUEL sh th = RDone (hset_opens sh (remove_pair (t, n) (h_open sh))) VNone [IHook "on_end_prompt"].
Proof. intros sh t n th H. inversion H; subst. exec idtac. Qed.

(** both cases at once: the handler does to open_prompts what [see] does to the model's set *)
Lemma see_exec : forall sh e th, event_thread e = Some th ->
  exists evs, resume FUEL sh th = RDone (hset_opens sh (see (h_open sh) e)) VNone evs.
Proof. intros sh [t n | t n] th H; eexists; [apply see_start | apply see_end]; exact H. Qed.

(** RunSession.run up to and including the spawn: a new queue_in, the sender bound to it, the set emptied *)
Lemma run_start_exec : forall sh,
  resume FUEL sh run_start_thread =
  RDone (hset_opens (hset_bound (hset_sentinel (hset_in sh [] (h_nsent sh)) false) true) []) VNone [].
Proof. intros sh. unfold run_start_thread. cbn [map run_tracked]. exec idtac. Qed.

(** the set is emptied BEFORE the child of the new run exists (no event of the new run can have been handled) *)
Fixpoint before_spawn (l : list stmt) : list stmt :=
  match l with [] => [] | SSpawn :: _ => [] | x :: r => x :: before_spawn r end.
Lemma cleared_before_spawn :
  existsb (fun s => match s with SSetClear (EAttr AOpenPrompts) => true | _ => false end) (before_spawn run_tracked) = true /\
  existsb (fun s => match s with SSpawn => true | _ => false end) run_tracked = true.
Proof. split; reflexivity. Qed.

(** the queue the main process puts commands on is the one the child's relay thread reads *)
Lemma queue_in_wiring : session_in_pos = set_queues_in_pos.
Proof. reflexivity. Qed.

Record sist := mkSI { si_ch : ist; si_evq : list mev }.
(** the composed system starts inside a run: RunSession.run has been entered (the sender is bound) *)
Definition siinit : sist :=
  mkSI (set_sh iinit (match resume FUEL (i_sh iinit) run_start_thread with RDone sh' _ _ => sh' | _ => i_sh iinit end)) [].

Definition isstep (x : sist) (l : slabel) : sist * option sout :=
  let s := si_ch x in
  match l with
  | SChild (Send _) => (x, Some SNotALabel)
  | SChild l' =>
      (mkSI (fst (istep s l')) (si_evq x ++ match snd (istep s l') with Some o => emitted l' o | None => [] end),
       option_map SOut (snd (istep s l')))
  | SMain =>
      match si_evq x with
      | [] => (x, Some SIdle)
      | e :: r =>
          match event_thread e with
          | Some th =>
              match resume FUEL (i_sh s) th with
              | RDone sh' _ _ => (mkSI (set_sh s sh') r, Some (SSaw e))
              | _ => (x, None)
              end
          | None => (x, None)
          end
      end
  | SApi c =>
      match api_thread c with
      | Some th =>
          match resume FUEL (i_sh s) th with
          | RDone sh' _ [ISent i] => (mkSI (set_sh s sh') (si_evq x), Some (SForwarded i))
          | RDone sh' _ [] => (mkSI (set_sh s sh') (si_evq x), Some SDropped)
          | _ => (x, None)
          end
      | None => (x, None)
      end
  end.

Fixpoint istrace_from (x : sist) (ls : list slabel) : list (slabel * option sout) :=
  match ls with [] => [] | l :: r => (l, snd (isstep x l)) :: istrace_from (fst (isstep x l)) r end.
Fixpoint isexec_from (x : sist) (ls : list slabel) : sist :=
  match ls with [] => x | l :: r => isexec_from (fst (isstep x l)) r end.
Definition istrace (ls : list slabel) := istrace_from siinit ls.
Definition isfinal (ls : list slabel) := isexec_from siinit ls.

Definition RS (x : sist) (y : sstate) : Prop :=
  R (si_ch x) (ch y) /\ si_evq x = evq y /\ h_open (i_sh (si_ch x)) = mopen y /\ h_bound (i_sh (si_ch x)) = true.

Lemma R_opens : forall s m o, R s m -> R (set_sh s (hset_opens (i_sh s) o)) m.
Proof.
  intros [sh rel thr live] m o [Hin Hns Hc Hk Hsn Hm Hf Hi Hl Ho Hrk Hrf]. constructor; cbn in *; auto.
Qed.

Lemma R_run_start : forall s m, R s m -> s_in m = [] ->
  R (set_sh s (hset_opens (hset_bound (hset_sentinel (hset_in (i_sh s) [] (h_nsent (i_sh s))) false) true) [])) m.
Proof.
  intros [sh rel thr live] m [Hin Hns Hc Hk Hsn Hm Hf Hi Hl Ho Hrk Hrf] E. constructor; cbn in *; auto.
Qed.

Lemma send_state : forall s c, h_sentinel (i_sh s) = false -> fst (istep s (Send c)) = set_sh s (hset_in (i_sh s) (h_in (i_sh s) ++ [(h_nsent (i_sh s), c)]) (S (h_nsent (i_sh s)))).
Proof.
  intros s c Hs. unfold istep.
  destruct (call 0 send_command_params send_command_body [VCmd 0 c]) as [th | ] eqn:Ec; [ | cbv in Ec; discriminate Ec].
  rewrite (send_exec (i_sh s) c th Ec Hs). reflexivity.
Qed.

Definition ssome (e : slabel * sout) : slabel * option sout := (fst e, Some (snd e)).

Lemma sstep_sim : forall x y l, RS x y ->
  RS (fst (isstep x l)) (fst (sstep y l)) /\ snd (isstep x l) = Some (snd (sstep y l)).
Proof.
  intros [s q] [m q' mo] l (HR & Hq & Ho & Hb). cbn in HR, Hq, Ho, Hb. subst q'.
  pose proof (r_sentinel _ _ HR) as Hsn.
  destruct l as [l' | | c].
  - (* the child *)
    assert (X : forall l0,
                RS (mkSI (fst (istep s l0)) (q ++ match snd (istep s l0) with Some o => emitted l0 o | None => [] end))
                   (mkS (fst (step m l0)) (q ++ emitted l0 (snd (step m l0))) mo) /\
                option_map SOut (snd (istep s l0)) = Some (SOut (snd (step m l0)))).
    { intros l0. destruct (step_sim s m l0 HR) as (A & B & C & D). rewrite B. cbn. split; [ | reflexivity].
      split; [exact A | ]. split; [reflexivity | ]. cbn. rewrite C, D. split; assumption. }
    destruct l'; cbn [isstep sstep si_ch si_evq ch evq mopen];
      try apply X.
    split; [ | reflexivity]. split; [exact HR | ]. split; [reflexivity | split; assumption].
  - (* the main process handles an event *)
    cbn [isstep sstep si_ch si_evq ch evq mopen].
    destruct q as [ | e r].
    + split; [ | reflexivity]. split; [exact HR | ]. split; [reflexivity | split; assumption].
    + destruct (event_thread e) as [th | ] eqn:Et; [ | destruct e; cbv in Et; discriminate Et].
      destruct (see_exec (i_sh s) e th Et) as (evs & E). rewrite E. cbn. split; [ | reflexivity].
      split; [apply R_opens; exact HR | ]. split; [reflexivity | ]. destruct s; cbn in *. rewrite Ho. split; [reflexivity | assumption].
  - (* an API call *)
    cbn [isstep sstep si_ch si_evq ch evq mopen].
    destruct (api_thread c) as [th | ] eqn:Et; [ | destruct c; cbv in Et; discriminate Et].
    rewrite <- Ho. destruct (mem (c_trace c, c_prompt c) (h_open (i_sh s))) eqn:Em.
    + rewrite (api_forward (i_sh s) c th Et Hb Hsn Em). cbn [fst snd].
      split; [ | rewrite (r_nsent _ _ HR); reflexivity].
      destruct (step_sim s m (Send c) HR) as (A & _ & C & D). rewrite (send_state s c Hsn) in A, C, D.
      split; [exact A | ]. split; [reflexivity | ]. cbn [si_ch mopen]. rewrite C, D. split; [reflexivity | assumption].
    + rewrite (api_drop (i_sh s) c th Et Hb Em). cbn [fst snd]. split; [ | reflexivity].
      split; [ | split; [reflexivity | split]]; destruct s; cbn; auto.
Qed.

Lemma ssim_from : forall ls x y, RS x y ->
  istrace_from x ls = map ssome (strace_from y ls) /\ RS (isexec_from x ls) (sexec_from y ls).
Proof.
  induction ls as [ | l ls IH]; intros x y H; simpl.
  - split; [reflexivity | assumption].
  - destruct (sstep_sim x y l H) as [H1 H2]. destruct (IH _ _ H1) as [A B]. split; [ | assumption].
    rewrite A. unfold ssome at 1. simpl. rewrite H2. reflexivity.
Qed.

Lemma RS_init : RS siinit sinit.
Proof.
  unfold siinit. rewrite run_start_exec. split; [apply R_run_start; [apply R_init | reflexivity] | repeat split].
Qed.

Theorem ssim : forall ls, istrace ls = map ssome (strace ls) /\ RS (isfinal ls) (sfinal ls).
Proof. intros ls. apply ssim_from. apply RS_init. Qed.

Definition ishist (ls : list slabel) : list sev :=
  flat_map (fun e => match snd e with Some o => [(fst e, o)] | None => [] end) (istrace ls).

Lemma ishist_strace : forall ls, ishist ls = strace ls.
Proof. intros ls. unfold ishist. rewrite (proj1 (ssim ls)). apply ihist_some. Qed.

Theorem tie_system_same_history : forall ls, ishist ls = strace ls /\ forall e, In e (istrace ls) -> snd e <> None.
Proof.
  intros ls. split; [apply ishist_strace | ]. rewrite (proj1 (ssim ls)).
  intros e Hin. apply in_map_iff in Hin. destruct Hin as (x & <- & _). discriminate.
Qed.

Theorem tie_system_same_state : forall ls,
  si_evq (isfinal ls) = evq (sfinal ls) /\ h_open (i_sh (si_ch (isfinal ls))) = mopen (sfinal ls) /\
  h_in (i_sh (si_ch (isfinal ls))) = s_in (ch (sfinal ls)) /\
  forall t, iqueue (si_ch (isfinal ls)) t = s_map (ch (sfinal ls)) t.
Proof.
  intros ls. destruct (ssim ls) as [_ (HR & Hq & Ho & _)]. repeat split; auto.
  - apply (r_in _ _ HR).
  - intros t. symmetry. apply (r_map _ _ HR).
Qed.

Theorem tie_system_decoys_discarded : forall sls pre c o post,
  ishist sls = pre ++ (SApi c, o) :: post ->
  forall l1, pre = ishist l1 ->
  open_in (ctrace l1) (c_trace c) <> Some (c_prompt c) ->
  o = SDropped \/ exists i, o = SForwarded i /\ ~ In i (exec_ids (ctrace sls)).
Proof.
  intros sls pre c o post E l1 E1. rewrite ishist_strace in E, E1.
  exact (SysProofs.system_decoys_discarded sls pre c o post E l1 E1).
Qed.

Theorem tie_system_forwarded_seen_open : forall sls pre c i post,
  ishist sls = pre ++ (SApi c, SForwarded i) :: post -> In (c_trace c, c_prompt c) (seen_open pre).
Proof. intros sls pre c i post. rewrite ishist_strace. apply SysProofs.forwarded_seen_open. Qed.

Inductive mlabel :=
| MEv (e : mev)        (* on_event_in_process handles an OnStartPrompt / OnEndPrompt *)
| MRunStart            (* RunSession.run is entered (a new run of the same Nextline object) *)
| MApi (c : cmd).      (* send_pdb_command *)

Inductive mout := MSaw | MStarted | MForwarded (i : nat) | MDropped | MRaised.   (* MRaised: AssertionError, no run has started yet *)

Definition mmstep (sh : shared) (l : mlabel) : shared * option mout :=
  match l with
  | MEv e =>
      match event_thread e with
      | Some th => match resume FUEL sh th with RDone sh' _ _ => (sh', Some MSaw) | _ => (sh, None) end
      | None => (sh, None)
      end
  | MRunStart => match resume FUEL sh run_start_thread with RDone sh' _ _ => (sh', Some MStarted) | _ => (sh, None) end
  | MApi c =>
      match api_thread c with
      | Some th =>
          match resume FUEL sh th with
          | RDone sh' _ [ISent i] => (sh', Some (MForwarded i))
          | RDone sh' _ [] => (sh', Some MDropped)
          | RDied sh' XAssertion [] => (sh', Some MRaised)
          | _ => (sh, None)
          end
      | None => (sh, None)
      end
  end.

Definition mmfinal (ls : list mlabel) : shared := fold_left (fun sh l => fst (mmstep sh l)) ls init_shared.

(** the set as a function of the history: emptied at a run start, +pair at its OnStartPrompt, -pair at its OnEndPrompt *)
Definition spec_step (m : list (Z * Z)) (l : mlabel) : list (Z * Z) :=
  match l with MEv e => see m e | MRunStart => [] | MApi _ => m end.
Definition spec_open (ls : list mlabel) : list (Z * Z) := fold_left spec_step ls [].

Definition is_run_start (l : mlabel) : bool := match l with MRunStart => true | _ => false end.

Definition MInv (sh : shared) (started : bool) : Prop := h_sentinel sh = false /\ h_bound sh = started.

Lemma mmstep_open : forall sh l b, MInv sh b ->
  h_open (fst (mmstep sh l)) = spec_step (h_open sh) l /\ snd (mmstep sh l) <> None /\
  MInv (fst (mmstep sh l)) (b || is_run_start l).
Proof.
  intros sh l b [Hs Hb]. destruct l as [e | | c]; unfold mmstep.
  - destruct (event_thread e) as [th | ] eqn:Et; [ | destruct e; cbv in Et; discriminate Et].
    destruct (see_exec sh e th Et) as (evs & E). rewrite E, orb_false_r. repeat split; auto; discriminate.
  - rewrite run_start_exec. rewrite orb_true_r. repeat split; discriminate.
  - destruct (api_thread c) as [th | ] eqn:Et; [ | destruct c; cbv in Et; discriminate Et].
    rewrite orb_false_r. destruct b.
    + destruct (mem (c_trace c, c_prompt c) (h_open sh)) eqn:Em.
      * rewrite (api_forward sh c th Et Hb Hs Em). repeat split; auto; discriminate.
      * rewrite (api_drop sh c th Et Hb Em). repeat split; auto; discriminate.
    + rewrite (api_unbound sh c th Et Hb). repeat split; auto; discriminate.
Qed.

Lemma fold_snoc {A B} (f : A -> B -> A) (l : list B) (x : B) (a : A) : fold_left f (l ++ [x]) a = f (fold_left f l a) x.
Proof. rewrite fold_left_app. reflexivity. Qed.

Theorem main_open_prompts : forall ls,
  h_open (mmfinal ls) = spec_open ls /\ MInv (mmfinal ls) (existsb is_run_start ls).
Proof.
  induction ls as [ | l ls IH] using rev_ind; [split; [reflexivity | split; reflexivity] | ].
  destruct IH as [IH1 IH2].
  unfold mmfinal, spec_open. rewrite !fold_snoc. fold (mmfinal ls). fold (spec_open ls).
  destruct (mmstep_open (mmfinal ls) l _ IH2) as (A & _ & C). rewrite A, IH1. split; [reflexivity | ].
  rewrite existsb_app. cbn [existsb]. rewrite orb_false_r. exact C.
Qed.

(** the guard: after ANY history of the main process in which a run has started,
    send_pdb_command puts the command on queue_in iff its (trace_no, prompt_no) pair is in the
    set; otherwise nothing is put.  It needs a started run: before the first run
    `assert context.send_command` raises ([main_before_first_run_raises]). *)
Theorem main_forwards_iff_member : forall ls c, existsb is_run_start ls = true ->
  let sh := mmfinal ls in
  if mem (c_trace c, c_prompt c) (spec_open ls)
  then snd (mmstep sh (MApi c)) = Some (MForwarded (h_nsent sh)) /\ h_in (fst (mmstep sh (MApi c))) = h_in sh ++ [(h_nsent sh, c)]
  else snd (mmstep sh (MApi c)) = Some MDropped /\ fst (mmstep sh (MApi c)) = sh.
Proof.
  intros ls c Hst sh. destruct (main_open_prompts ls) as [Ho [Hs Hb]]. rewrite <- Ho. fold sh in Hs, Hb |- *. rewrite Hst in Hb.
  unfold mmstep.
  destruct (api_thread c) as [th | ] eqn:Et; [ | destruct c; cbv in Et; discriminate Et].
  destruct (mem (c_trace c, c_prompt c) (h_open sh)) eqn:Em.
  - rewrite (api_forward sh c th Et Hb Hs Em). split; reflexivity.
  - rewrite (api_drop sh c th Et Hb Em). split; reflexivity.
Qed.

Theorem main_before_first_run_raises : forall ls c, existsb is_run_start ls = false ->
  snd (mmstep (mmfinal ls) (MApi c)) = Some MRaised /\ fst (mmstep (mmfinal ls) (MApi c)) = mmfinal ls.
Proof.
  intros ls c Hst. destruct (main_open_prompts ls) as [_ [Hs Hb]]. rewrite Hst in Hb. unfold mmstep.
  destruct (api_thread c) as [th | ] eqn:Et; [ | destruct c; cbv in Et; discriminate Et].
  rewrite (api_unbound _ c th Et Hb). split; reflexivity.
Qed.

(** the set holds EXACTLY the prompts started and not ended in the CURRENT run *)
Definition started_not_ended (ls : list mlabel) (t p : Z) : Prop :=
  exists pre post, ls = pre ++ MEv (MStart t p) :: post /\ ~ In MRunStart post /\ ~ In (MEv (MEnd t p)) post.

Lemma started_not_ended_snoc : forall ls l t p,
  started_not_ended (ls ++ [l]) t p <->
  l = MEv (MStart t p) \/ (started_not_ended ls t p /\ l <> MRunStart /\ l <> MEv (MEnd t p)).
Proof.
  intros ls l t p. unfold started_not_ended. split.
  - intros (pre & post & E & N1 & N2). symmetry in E. apply Inv.split_snoc in E.
    destruct E as [(-> & -> & <-) | (post' & -> & ->)]; [left; reflexivity | right].
    split; [exists pre, post'; repeat split; auto; intros H; [apply N1 | apply N2]; apply in_or_app; auto | ].
    split; intros ->; [apply N1 | apply N2]; apply in_or_app; right; left; reflexivity.
  - intros [-> | ((pre & post & -> & N1 & N2) & H1 & H2)].
    + exists ls, []. repeat split; auto.
    + exists pre, (post ++ [l]). split; [rewrite <- app_assoc; reflexivity | ].
      split; intros H; apply in_app_or in H; destruct H as [H | [H | []]]; auto.
Qed.

Theorem spec_open_exact : forall ls t p, In (t, p) (spec_open ls) <-> started_not_ended ls t p.
Proof.
  induction ls as [ | l ls IH] using rev_ind; intros t p.
  - cbn. split; [tauto | ]. intros (pre & post & E & _). destruct pre; discriminate E.
  - rewrite started_not_ended_snoc, <- IH. unfold spec_open. rewrite fold_snoc. fold (spec_open ls).
    destruct l as [[t' n' | t' n'] | | c]; cbn; rewrite ?SysProofs.in_remove_pair_iff;
      (split; [intros H | intros [E | (H & N1 & N2)]; try discriminate E]).
    + (* MStart, -> *) destruct H as [E | H]; [left; congruence | right; repeat split; auto; discriminate].
    + (* MStart, <-, it is that start *) left. congruence.
    + (* MStart, <-, an earlier one *) right. exact H.
    + (* MEnd, -> *) destruct H as [H Hne]. right. repeat split; auto; [discriminate | congruence].
    + (* MEnd, <- *) split; [exact H | congruence].
    + (* MRunStart, -> *) destruct H.
    + (* MRunStart, <- *) apply N1. reflexivity.
    + (* MApi, -> *) right. repeat split; auto; discriminate.
    + (* MApi, <- *) exact H.
Qed.

(** together: a command is forwarded iff its prompt was started and has not ended in the current run *)
Theorem main_forwards_iff_open_in_current_run : forall ls c, existsb is_run_start ls = true ->
  (snd (mmstep (mmfinal ls) (MApi c)) = Some (MForwarded (h_nsent (mmfinal ls))) <-> started_not_ended ls (c_trace c) (c_prompt c)).
Proof.
  intros ls c Hst. rewrite <- spec_open_exact, <- SysProofs.mem_iff_in.
  pose proof (main_forwards_iff_member ls c Hst) as H. cbv zeta in H.
  destruct (mem (c_trace c, c_prompt c) (spec_open ls)); destruct H as [H1 H2]; rewrite H1; split; intros E; auto; discriminate E.
Qed.

(** a pair left over from a killed run does not survive the start of the next run *)
Corollary main_stale_pair_dropped : forall ls1 ls2 c,
  ~ In (MEv (MStart (c_trace c) (c_prompt c))) ls2 ->
  snd (mmstep (mmfinal (ls1 ++ MRunStart :: ls2)) (MApi c)) = Some MDropped.
Proof.
  intros ls1 ls2 c Hn.
  assert (Hst : existsb is_run_start (ls1 ++ MRunStart :: ls2) = true).
  { rewrite existsb_app. cbn. rewrite orb_true_r. reflexivity. }
  pose proof (main_forwards_iff_member (ls1 ++ MRunStart :: ls2) c Hst) as H. cbv zeta in H.
  destruct (mem (c_trace c, c_prompt c) (spec_open (ls1 ++ MRunStart :: ls2))) eqn:Em; [ | apply H].
  exfalso. apply SysProofs.mem_iff_in, spec_open_exact in Em. clear H Hst. revert Hn Em.
  (* the run start, or whatever follows it, would have to be that prompt's start *)
  induction ls2 as [ | l ls2 IH] using rev_ind; intros Hn Em.
  - apply started_not_ended_snoc in Em.
    destruct Em as [E | (_ & N & _)]; [discriminate E | apply N; reflexivity].
  - rewrite app_comm_cons, app_assoc in Em. apply started_not_ended_snoc in Em.
    destruct Em as [-> | (Em & _)]; [apply Hn, in_or_app; right; left; reflexivity | ].
    apply IH; [intros Hin; apply Hn, in_or_app; left; exact Hin | exact Em].
Qed.

(** non-vacuity: prompt (1,4) open when run 1 is killed; in run 2 a command for (1,4) is dropped
    until prompt (1,4) of run 2 starts *)
Example main_example :
  map (fun ls => snd (mmstep (mmfinal ls) (MApi (mkCmd 1 4 7))))
    [[MRunStart; MEv (MStart 1 4)];
     [MRunStart; MEv (MStart 1 4); MRunStart];
     [MRunStart; MEv (MStart 1 4); MRunStart; MEv (MStart 1 3)];
     [MRunStart; MEv (MStart 1 4); MRunStart; MEv (MStart 1 3); MEv (MEnd 1 3); MEv (MStart 1 4)];
     [MRunStart; MEv (MStart 1 4); MEv (MEnd 1 4)]]
  = [Some (MForwarded 0); Some MDropped; Some MDropped; Some (MForwarded 0); Some MDropped].
Proof. vm_compute. reflexivity. Qed.

(** non-vacuity at system level: the example of Props/C07.v, run by the interpreter of the regenerated code *)
Definition tie_ex_system : list slabel :=
  [SChild (StartTrace 1); SChild (OpenPrompt 1); SMain; SApi (mkCmd 1 1 1); SChild Relay; SChild (Take 1); SMain;
   SChild (OpenPrompt 1); SMain; SApi (mkCmd 1 2 2); SApi (mkCmd 1 3 999);
   SChild Relay; SChild (Take 1); SChild Relay; SMain; SChild (OpenPrompt 1); SChild (Take 1); SMain;
   SApi (mkCmd 1 3 1); SChild Relay; SChild (Take 1)].

Example tie_system_example :
  map snd (istrace tie_ex_system) =
  map Some
  [SOut OStarted; SOut (OOpened 1); SSaw (MStart 1 1); SForwarded 0; SOut (ORelayed 0); SOut (OExec 1 0 (mkCmd 1 1 1)); SSaw (MEnd 1 1);
   SOut (OOpened 2); SSaw (MStart 1 2); SForwarded 1; SDropped;
   SOut (ORelayed 1); SOut (OExec 2 1 (mkCmd 1 2 2)); SOut OIdle; SSaw (MEnd 1 2); SOut (OOpened 3); SOut OBlocked; SSaw (MStart 1 3);
   SForwarded 2; SOut (ORelayed 2); SOut (OExec 3 2 (mkCmd 1 3 1))].
Proof. vm_compute. reflexivity. Qed.
