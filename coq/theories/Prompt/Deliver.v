(** Delivery.  A command addressed to the open prompt and present in the trace's queue IS executed,
    after exactly (position + 1) iterations of the prompt loop, whatever sits in front of it, and
    nothing else changes ([take_run], [genuine_answer_executed]). *)
From NL Require Import Prompt.Model Prompt.Hist Prompt.Spec Prompt.Inv Prompt.Once.
Open Scope Z_scope.

Definition frame (t : Z) (s s' : state) : Prop :=
  s_in s' = s_in s /\ s_ctr s' = s_ctr s /\ s_nsent s' = s_nsent s /\
  forall x, x <> t -> s_map s' x = s_map s x /\ s_open s' x = s_open s x.

Lemma frame_refl t s : frame t s s.
Proof. repeat split; auto. Qed.

Lemma frame_trans t a b c : frame t a b -> frame t b c -> frame t a c.
Proof.
  intros (A1 & A2 & A3 & A4) (B1 & B2 & B3 & B4). repeat split; try congruence;
    destruct (A4 _ H), (B4 _ H); congruence.
Qed.

Definition discard_out (n : Z) (jd : icmd) : out := ODiscard n (fst jd) (snd jd).

Lemma frame_take s t : frame t s (fst (step s (Take t))).
Proof.
  (* [auto] below uses this at the queues and prompts of the other traces *)
  assert (U : forall A (m : Z -> A) v x, x <> t -> upd m t v x = m x) by (intros; apply upd_other; assumption).
  destruct (step s (Take t)) as [s' o] eqn:E. apply step_cases in E.
  inversion E; subst; try apply frame_refl; repeat split; simpl; auto.
Qed.

Lemma take_run : forall front s t n i c back,
  s_open s t = Some n ->
  s_map s t = Some (front ++ (i, c) :: back) ->
  c_trace c = t -> c_prompt c = n ->
  (forall j d, In (j, d) front -> c_trace d = t /\ c_prompt d <> n) ->
  let k := S (length front) in
  let s' := exec_from s (repeat (Take t) k) in
  map snd (trace_from s (repeat (Take t) k)) = map (discard_out n) front ++ [OExec n i c] /\
  s_open s' t = None /\ s_map s' t = Some back /\ frame t s s'.
Proof.
  induction front as [|[j d] front IH]; intros s t n i c back Ho Hm Ht Hp Hf;
    pose proof (frame_take s t) as F; cbv zeta.
  - cbn [length repeat trace_from exec_from map app]. rewrite (step_exec _ _ _ _ _ _ Ho Hm Ht Hp) in *.
    exact (conj eq_refl (conj (upd_same _ _ _) (conj (upd_same _ _ _) F))).
  - destruct (Hf j d (or_introl eq_refl)) as [Hdt Hdp].
    change (repeat (Take t) (S (length ((j, d) :: front)))) with (Take t :: repeat (Take t) (S (length front))).
    cbn [trace_from exec_from map app].
    rewrite (step_discard s t n j d (front ++ (i, c) :: back) Ho Hm Hdt Hdp) in *. cbn [fst snd] in *.
    destruct (IH (set_map s (upd (s_map s) t (Some (front ++ (i, c) :: back)))) t n i c back
                 Ho (upd_same _ _ _) Ht Hp (fun j' d' H => Hf j' d' (or_intror H))) as (A & B & C' & D).
    rewrite A. exact (conj eq_refl (conj B (conj C' (frame_trans _ _ _ _ F D)))).
Qed.

(** the same for a reachable state: the trace-number side condition is an invariant *)
Theorem genuine_answer_executed : forall ls t n front i c back,
  s_open (final ls) t = Some n ->
  s_map (final ls) t = Some (front ++ (i, c) :: back) ->
  c_prompt c = n ->
  (forall j d, In (j, d) front -> c_prompt d <> n) ->
  let k := S (length front) in
  let ls' := ls ++ repeat (Take t) k in
  exists tail,
    trace ls' = trace ls ++ tail /\
    map fst tail = repeat (Take t) k /\
    map snd tail = map (discard_out n) front ++ [OExec n i c] /\
    s_open (final ls') t = None /\ s_map (final ls') t = Some back /\
    frame t (final ls) (final ls').
Proof.
  intros ls t n front i c back Ho Hm Hp Hf k ls'.
  pose proof (Inv_reach ls) as I.
  assert (Ht : c_trace c = t).
  { apply (i_q _ _ I t _ i c Hm). apply in_or_app. right. left. reflexivity. }
  assert (Hf' : forall j d, In (j, d) front -> c_trace d = t /\ c_prompt d <> n).
  { intros j d Hin. split; [|eapply Hf; eauto].
    apply (i_q _ _ I t _ j d Hm). apply in_or_app. left. assumption. }
  destruct (take_run front (final ls) t n i c back Ho Hm Ht Hp Hf') as (A & B & C' & D).
  exists (trace_from (final ls) (repeat (Take t) k)).
  unfold ls', trace, final. rewrite trace_from_app, exec_from_app. fold (final ls).
  split; [reflexivity|]. split; [|split; [exact A|split; [exact B|split; [exact C'|exact D]]]].
  apply trace_from_labels.
Qed.

Lemma ctr_opens : forall ls,
  s_ctr (final ls) = 1 + Z.of_nat (length (opens (trace ls))) /\
  (forall n, 1 <= n < s_ctr (final ls) -> exists t, In (t, n) (opens (trace ls))) /\
  (forall t n, In (t, n) (opens (trace ls)) -> 1 <= n).
Proof.
  induction ls using rev_ind; [split; [reflexivity|split; simpl; intros; [lia|contradiction]]|].
  destruct IHls as (IH1 & IH2 & IH3). rewrite trace_snoc, final_snoc, opens_app.
  (* only an opened prompt moves the counter or adds to [opens] *)
  destruct (step_spec (final ls) x); cbn [opens app s_ctr set_map set_in set_open]; rewrite ?app_nil_r;
    try (repeat split; assumption).
  rewrite app_length. cbn [length]. split; [lia|]. split.
  - intros n Hn. destruct (Z.eq_dec n (s_ctr (final ls))) as [->|Hne].
    + exists t. apply in_snoc. auto.
    + destruct (IH2 n) as [t' Ht']; [lia|]. exists t'. apply in_snoc. auto.
  - intros t' n Hin. apply in_snoc in Hin. destruct Hin as [Hin|Hin]; [eauto|]. inversion Hin; subst. lia.
Qed.

Lemma opened_closed_or_open : forall ls t n,
  In (t, n) (opens (trace ls)) -> In n (exec_prompts (trace ls)) \/ s_open (final ls) t = Some n.
Proof.
  induction ls using rev_ind; intros t n; [contradiction|].
  rewrite trace_snoc, final_snoc, opens_app, exec_prompts_app. pose proof (step_no_assert ls x) as Hna. revert Hna.
  destruct (step_spec (final ls) x); intros Hna; simpl; rewrite ?app_nil_r; auto; intros Hin.
  - (* opened *)
    apply in_snoc in Hin. destruct Hin as [Hin|Hin]; [|inversion Hin; right; apply upd_same].
    destruct (IHls _ _ Hin) as [Hc|Hc]; auto. right. rewrite upd_other; [assumption|congruence].
  - exfalso. eapply Hna. reflexivity.
  - (* executed: the prompt of t0 is closed *)
    destruct (IHls _ _ Hin) as [Hc|Hc]; [left; apply in_snoc; auto|].
    destruct (Z.eq_dec t t0) as [->|Hne]; [left; apply in_snoc; right; simpl; congruence|].
    right. rewrite upd_other; assumption.
Qed.

Lemma no_future_snoc tr e : no_future_queued (tr ++ [e]) -> no_future_queued tr.
Proof.
  intros H pre i post c E Hn. apply (H pre i (post ++ [e]) c).
  - rewrite E, <- app_assoc. reflexivity.
  - rewrite sends_app. apply nth_error_app_some. assumption.
Qed.

Lemma relayed_number_issued ls i c :
  no_future_queued (trace ls) -> In i (relayed (trace ls)) -> nth_error (sends (trace ls)) i = Some c ->
  c_prompt c < s_ctr (final ls).
Proof.
  intros H Hin Hn. destruct (in_relayed_split _ _ Hin) as (pre & post & E).
  pose proof (H pre i post c E Hn) as Hlt. rewrite (proj1 (ctr_opens ls)), E, opens_app, app_length. lia.
Qed.

Lemma relayed_was_sent ls i : In i (relayed (trace ls)) -> exists c, nth_error (sends (trace ls)) i = Some c.
Proof.
  intros H. pose proof (Inv_reach ls) as I. apply (i_relayed_lt _ _ I) in H.
  assert (Hlt : (i < length (sends (trace ls)))%nat).
  { rewrite <- (i_nsent _ _ I). pose proof (between_le _ _ _ (i_in_sorted _ _ I)). lia. }
  destruct (nth_error (sends (trace ls)) i) eqn:E; eauto. apply nth_error_None in E. lia.
Qed.

Definition holds_answers (tr : list ev) (s : state) : Prop :=
  forall t n i c, s_open s t = Some n -> In i (relayed tr) -> nth_error (sends tr) i = Some c ->
                  c_trace c = t -> c_prompt c = n ->
                  exists q, s_map s t = Some q /\ In (i, c) q.

Lemma retained : forall ls, no_future_queued (trace ls) -> holds_answers (trace ls) (final ls).
Proof.
  induction ls using rev_ind; intros NF; [intros t n i c H; discriminate|].
  rewrite trace_snoc in NF. apply no_future_snoc in NF.
  pose proof (relayed_number_issued ls) as Hiss. specialize (IHls NF).
  pose proof (Inv_reach ls) as I. pose proof (step_no_assert ls x) as Hna. revert Hna.
  rewrite trace_snoc, final_snoc. unfold holds_answers in *. rewrite relayed_app, sends_app.
  destruct (step_spec (final ls) x); intros Hna; simpl; rewrite ?app_nil_r; intros t' n' i' c' Ho Hr Hn Ht Hp; eauto.
  - (* Send: a relayed instance was sent before *)
    destruct (relayed_was_sent ls i' Hr) as (c0 & Hc0). rewrite (nth_error_app_some _ _ _ _ Hc0) in Hn.
    inversion Hn; subst. eauto.
  - (* relayed: the queue of [c_trace c] grows at its end *)
    apply in_snoc in Hr. destruct Hr as [Hr| ->].
    + destruct (IHls _ _ _ _ Ho Hr Hn Ht Hp) as (q0 & Hq & Hin). destruct (Z.eq_dec t' (c_trace c)) as [E|E].
      * rewrite E in *. rewrite upd_same. eexists. split; [reflexivity|]. apply in_snoc. left. congruence.
      * rewrite upd_other by assumption. eauto.
    + assert (c' = c) by (pose proof (i_in_nth _ _ I i c) as X; rewrite H in X; specialize (X (or_introl eq_refl)); congruence).
      subst c' t'. rewrite upd_same. eexists. split; [reflexivity|]. apply in_snoc. auto.
  - (* started *)
    destruct (IHls _ _ _ _ Ho Hr Hn Ht Hp) as (q0 & Hq & Hin). exists q0. rewrite upd_other by congruence. auto.
  - (* ended *)
    destruct (IHls _ _ _ _ Ho Hr Hn Ht Hp) as (q0 & Hq & Hin). exists q0. rewrite upd_other by congruence. auto.
  - (* opened: under [no_future_queued] nothing relayed carries the number just issued *)
    destruct (Z.eq_dec t' t) as [->|E]; [|rewrite upd_other in Ho by assumption; eauto].
    rewrite upd_same in Ho. inversion Ho; subst n'. pose proof (Hiss i' c' NF Hr Hn). lia.
  - exfalso. eapply Hna. reflexivity.
  - (* executed: t's prompt is closed, so t' is another trace *)
    destruct (Z.eq_dec t' t) as [->|E]; [rewrite upd_same in Ho; discriminate|].
    rewrite upd_other in Ho by assumption. rewrite upd_other by assumption. eauto.
  - (* discarded: the head of t's queue did not carry the open number *)
    destruct (IHls _ _ _ _ Ho Hr Hn Ht Hp) as (q0 & Hq & Hin).
    destruct (Z.eq_dec t' t) as [->|E]; [|rewrite upd_other by assumption; eauto].
    rewrite upd_same. exists r. split; [reflexivity|].
    assert (q0 = (i, c) :: r) by congruence. subst q0. destruct Hin as [Hin|Hin]; [|assumption].
    inversion Hin; subst. congruence.
Qed.

Lemma in_exec_prompts tr t p i c : In (Take t, OExec p i c) tr -> In p (exec_prompts tr).
Proof.
  intros H. apply in_split in H. destruct H as (a & b & ->). rewrite exec_prompts_app.
  apply in_or_app. right. left. reflexivity.
Qed.

Lemma first_match : forall (q : list icmd) n i c, In (i, c) q -> c_prompt c = n ->
  exists front j cj back, q = front ++ (j, cj) :: back /\ c_prompt cj = n /\
                          forall j' d, In (j', d) front -> c_prompt d <> n.
Proof.
  induction q as [|[j d] q IH]; intros n i c Hin Hp; [contradiction|].
  destruct (Z.eq_dec (c_prompt d) n) as [E|E].
  - exists [], j, d, q. repeat split; auto.
  - destruct Hin as [Hin|Hin]; [inversion Hin; subst; contradiction|].
    destruct (IH n i c Hin Hp) as (front & j1 & c1 & back & -> & H1 & H2).
    exists ((j, d) :: front), j1, c1, back. repeat split; auto.
    intros j' d' [H|H]; [inversion H; subst; assumption|eauto].
Qed.

(** whole runs, under [no_future_queued]: a prompt that is open and for which an
    answer has been relayed closes after at most (length of its queue) further
    iterations of its loop, by a command carrying exactly its numbers; the
    iterations before only discard commands with other numbers; no other trace
    is touched *)
Theorem answered_prompt_closes : forall ls t n i c,
  no_future_queued (trace ls) ->
  s_open (final ls) t = Some n ->
  In i (relayed (trace ls)) -> nth_error (sends (trace ls)) i = Some c ->
  c_trace c = t -> c_prompt c = n ->
  exists q front j cj back tail,
    s_map (final ls) t = Some q /\ q = front ++ (j, cj) :: back /\
    c_trace cj = t /\ c_prompt cj = n /\ (forall j' d, In (j', d) front -> c_prompt d <> n) /\
    let ls' := ls ++ repeat (Take t) (S (length front)) in
    trace ls' = trace ls ++ tail /\
    map snd tail = map (discard_out n) front ++ [OExec n j cj] /\
    s_open (final ls') t = None /\ In n (exec_prompts (trace ls')) /\
    frame t (final ls) (final ls').
Proof.
  intros ls t n i c NF Ho Hr Hn Ht Hp.
  destruct (retained ls NF t n i c Ho Hr Hn Ht Hp) as (q & Hq & Hin).
  destruct (first_match q n i c Hin Hp) as (front & j & cj & back & E & Hcj & Hfront).
  assert (Htj : c_trace cj = t).
  { apply (i_q _ _ (Inv_reach ls) t q j cj Hq). rewrite E. apply in_or_app. right. left. reflexivity. }
  rewrite E in Hq.
  destruct (genuine_answer_executed ls t n front j cj back Ho Hq Hcj Hfront) as (tail & A & B & C' & D & F & G).
  exists (front ++ (j, cj) :: back), front, j, cj, back, tail.
  split; [exact Hq|]. split; [reflexivity|]. split; [exact Htj|]. split; [exact Hcj|]. split; [exact Hfront|].
  split; [exact A|]. split; [exact C'|]. split; [exact D|]. split; [|exact G].
  rewrite A, exec_prompts_app. apply in_or_app. right. apply (in_exec_prompts _ t n j cj).
  assert (Hl : In (OExec n j cj) (map snd tail)) by (rewrite C'; apply in_snoc; auto).
  apply in_map_iff in Hl. destruct Hl as ([l o] & Eo & Hl). simpl in Eo. subst o.
  assert (l = Take t) by (eapply repeat_spec; rewrite <- B; apply (in_map fst _ _ Hl)). subst l. exact Hl.
Qed.

(** under [no_future_queued] every executed command reached its trace's queue
    while the prompt it closes was already open *)
Theorem executed_arrived_while_open : forall ls pre1 i mid t n c post,
  no_future_queued (trace ls) ->
  trace ls = pre1 ++ (Relay, ORelayed i) :: mid ++ (Take t, OExec n i c) :: post ->
  open_in pre1 t = Some n.
Proof.
  intros ls pre1 i mid t n c post NF E.
  assert (E' : trace ls = (pre1 ++ (Relay, ORelayed i) :: mid) ++ (Take t, OExec n i c) :: post)
    by (rewrite E, <- app_assoc; reflexivity).
  destruct (exec_is_addressed _ _ _ _ _ _ _ E') as (Hn & _ & Ht & Hp & _ & _).
  pose proof (NF pre1 i _ c E Hn) as Hlt.
  destruct (trace_split _ _ _ _ _ _ E) as (l1 & l2 & Hls & Hpre & _). fold (trace l1) in Hpre.
  destruct (ctr_opens l1) as (C1 & C2 & C3). rewrite <- Hpre in *.
  pose proof (Inv_reach ls) as I.
  assert (Hop : In (t, n) (opens (trace ls))).
  { apply (i_execs _ _ I t n i c). rewrite E', execs_app. apply in_or_app. right. left. reflexivity. }
  assert (Hge : 1 <= n) by (destruct (ctr_opens ls) as (_ & _ & G); eauto).
  destruct (C2 n) as (t' & Ht'); [rewrite C1, Hp in *; lia|].
  assert (t' = t).
  { eapply nodup_snd_inj; [apply (i_opens_nodup _ _ I)| |exact Hop].
    rewrite E, opens_app. apply in_or_app. left. assumption. }
  subst t'.
  rewrite Hpre in Ht'. destruct (opened_closed_or_open l1 t n Ht') as [Hc|Hc].
  - exfalso. pose proof (i_exec_prompts _ _ I) as Hnd. rewrite E, exec_prompts_app in Hnd.
    eapply nodup_app_disjoint; [exact Hnd|rewrite Hpre; exact Hc|].
    apply (in_exec_prompts _ t n i c). right. apply in_or_app. right. left. reflexivity.
  - rewrite Hpre. rewrite (i_open _ _ (Inv_reach l1)). assumption.
Qed.
