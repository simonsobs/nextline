(** Independence of traces in the command path: nothing a trace t does or
    fails to do (in particular staying blocked at an open prompt) changes what
    the labels of the other traces, the sender and the relay thread do.  There
    is no shared blocking resource: the per-trace queues are unbounded, the
    relay never waits for a reader, and a prompt loop only reads its own queue. *)
From NL Require Import Prompt.Model Prompt.Hist Prompt.Inv.
Open Scope Z_scope.

(** the two states differ at most in what concerns trace t (its queue content
    and whether its prompt is open); t is live in both or in neither *)
Record Rel (t : Z) (s1 s2 : state) : Prop := {
  r_in : s_in s1 = s_in s2;
  r_nsent : s_nsent s1 = s_nsent s2;
  r_ctr : s_ctr s1 = s_ctr s2;
  r_map : forall x, x <> t -> s_map s1 x = s_map s2 x;
  r_open : forall x, x <> t -> s_open s1 x = s_open s2 x;
  r_live : s_map s1 t = None <-> s_map s2 t = None
}.

Definition other (t : Z) (l : label) : bool :=
  match l with
  | StartTrace x | EndTrace x | OpenPrompt x | Take x => negb (Z.eqb x t)
  | Send _ | Relay => true
  end.

Definition blocked_at (s : state) (t p : Z) : state :=
  mkSt (s_in s) (upd (s_map s) t (Some [])) (upd (s_open s) t (Some p)) (s_ctr s) (s_nsent s).

Lemma Rel_blocked s t p : s_map s t <> None -> Rel t s (blocked_at s t p).
Proof.
  intros H. constructor; simpl; auto.
  - intros x Hx. unfold upd. destruct (Z.eqb_spec x t); congruence.
  - intros x Hx. unfold upd. destruct (Z.eqb_spec x t); congruence.
  - unfold upd. rewrite Z.eqb_refl. split; intros; congruence.
Qed.

Lemma indep_step t s1 s2 l : Rel t s1 s2 -> other t l = true ->
  snd (step s1 l) = snd (step s2 l) /\ Rel t (fst (step s1 l)) (fst (step s2 l)).
Proof.
  intros R Ho. destruct R. destruct l as [c| |x|x|x|x]; simpl in *.
  - rewrite r_nsent0. split; [reflexivity|]. constructor; simpl; auto; congruence.
  - rewrite <- r_in0. destruct (s_in s1) as [|[i c] r] eqn:Ein; simpl.
    + split; [reflexivity|]. constructor; simpl; auto; try congruence.
    + destruct (Z.eq_dec (c_trace c) t) as [E|E].
      * (* the command goes to t's OWN queue, where the two states differ: [r_live] makes both take the
           same branch, relayed or dropped *)
        rewrite E. destruct (s_map s1 t) as [q1|] eqn:E1; destruct (s_map s2 t) as [q2|] eqn:E2; simpl.
        -- split; [reflexivity|]. constructor; simpl; auto; try congruence.
           ++ intros y Hy. unfold upd. destruct (Z.eqb_spec y t); [congruence|auto].
           ++ unfold upd. rewrite Z.eqb_refl. split; intros; congruence.
        -- exfalso. assert (Some q1 = None) by (apply r_live0; reflexivity). discriminate.
        -- exfalso. assert (Some q2 = None) by (apply r_live0; reflexivity). discriminate.
        -- split; [reflexivity|]. constructor; simpl; auto; try congruence; try (split; intros; assumption).
      * rewrite <- (r_map0 _ E). destruct (s_map s1 (c_trace c)) as [q|]; simpl.
        -- split; [reflexivity|]. constructor; simpl; auto; try congruence.
           ++ intros y Hy. unfold upd. destruct (Z.eqb_spec y (c_trace c)); auto.
           ++ unfold upd. destruct (Z.eqb_spec t (c_trace c)); [congruence|assumption].
        -- split; [reflexivity|]. constructor; simpl; auto; try congruence.
  - (* from here on a label of another trace x: the states agree in all that [step] reads at x *)
    destruct (Z.eqb_spec x t); [discriminate|]. rewrite <- (r_map0 _ n).
    destruct (s_map s1 x); simpl; (split; [reflexivity|]); constructor; simpl; auto; try congruence.
    + intros y Hy. unfold upd. destruct (Z.eqb_spec y x); auto.
    + unfold upd. destruct (Z.eqb_spec t x); [congruence|assumption].
  - destruct (Z.eqb_spec x t); [discriminate|]. rewrite <- (r_map0 _ n), <- (r_open0 _ n).
    destruct (s_map s1 x); [destruct (s_open s1 x)|]; simpl; (split; [reflexivity|]); constructor; simpl; auto; try congruence.
    + intros y Hy. unfold upd. destruct (Z.eqb_spec y x); auto.
    + unfold upd. destruct (Z.eqb_spec t x); [congruence|assumption].
  - destruct (Z.eqb_spec x t); [discriminate|]. rewrite <- (r_map0 _ n), <- (r_open0 _ n), <- r_ctr0.
    destruct (s_map s1 x); [destruct (s_open s1 x)|]; simpl; (split; [reflexivity|]); constructor; simpl; auto; try congruence.
    intros y Hy. unfold upd. destruct (Z.eqb_spec y x); auto.
  - destruct (Z.eqb_spec x t); [discriminate|]. rewrite <- (r_map0 _ n), <- (r_open0 _ n).
    destruct (s_open s1 x) as [p|]; [|simpl; split; [reflexivity|constructor; auto; congruence]].
    destruct (s_map s1 x) as [[|[i c] r]|]; try (simpl; split; [reflexivity|constructor; auto; congruence]).
    destruct (negb (c_trace c =? x)); [|destruct (c_prompt c =? p)]; simpl; (split; [reflexivity|]);
      constructor; simpl; auto; try congruence;
      try (intros y Hy; unfold upd; destruct (Z.eqb_spec y x); auto);
      try (unfold upd; destruct (Z.eqb_spec t x); [congruence|assumption]).
Qed.

Theorem indep_run : forall t ls s1 s2,
  Rel t s1 s2 -> Forall (fun l => other t l = true) ls ->
  map snd (trace_from s1 ls) = map snd (trace_from s2 ls).
Proof.
  induction ls as [|l ls IH]; intros s1 s2 R F; [reflexivity|].
  inversion F; subst. destruct (indep_step _ _ _ _ R H1) as [Ho R']. simpl. rewrite Ho. f_equal. apply IH; assumption.
Qed.

(** whatever the other traces are doing (blocked or not), a trace waiting at
    its prompt is answered: send, relay, take -> executed *)
Theorem answer_is_delivered : forall s t p x,
  s_open s t = Some p -> s_map s t = Some [] -> s_in s = [] ->
  map snd (trace_from s [Send (mkCmd t p x); Relay; Take t]) =
  [OSent (s_nsent s); ORelayed (s_nsent s); OExec p (s_nsent s) (mkCmd t p x)].
Proof.
  intros s t p x Ho Hm Hi. simpl. rewrite Hi. simpl. rewrite Hm. simpl.
  unfold upd at 1. rewrite Z.eqb_refl. rewrite Ho.
  unfold upd. rewrite Z.eqb_refl. simpl. rewrite !Z.eqb_refl. simpl. reflexivity.
Qed.
