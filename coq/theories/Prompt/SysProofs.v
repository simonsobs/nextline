From NL Require Import Prompt.Model Prompt.Hist Prompt.Spec Prompt.Inv Prompt.Once Prompt.Deliver Prompt.System.
Open Scope Z_scope.

Lemma sexec_from_app : forall a s b, sexec_from s (a ++ b) = sexec_from (sexec_from s a) b.
Proof. induction a; simpl; intros; [reflexivity|apply IHa]. Qed.
Lemma sproj_from_app : forall a s b, sproj_from s (a ++ b) = sproj_from s a ++ sproj_from (sexec_from s a) b.
Proof. induction a; simpl; intros; [reflexivity|rewrite IHa, app_assoc; reflexivity]. Qed.
Lemma strace_from_app : forall a s b, strace_from s (a ++ b) = strace_from s a ++ strace_from (sexec_from s a) b.
Proof. induction a; simpl; intros; [reflexivity|rewrite IHa; reflexivity]. Qed.

Lemma sfinal_snoc ls l : sfinal (ls ++ [l]) = fst (sstep (sfinal ls) l).
Proof. unfold sfinal. rewrite sexec_from_app. reflexivity. Qed.
Lemma sproj_snoc ls l :
  sproj (ls ++ [l]) = sproj ls ++ match child_label (sfinal ls) l with Some l' => [l'] | None => [] end.
Proof. unfold sproj, sfinal. rewrite sproj_from_app. simpl. rewrite app_nil_r. reflexivity. Qed.
Lemma strace_snoc ls l : strace (ls ++ [l]) = strace ls ++ [(l, snd (sstep (sfinal ls) l))].
Proof. unfold strace, sfinal. rewrite strace_from_app. reflexivity. Qed.

Lemma ch_step s l :
  ch (fst (sstep s l)) = match child_label s l with Some l' => fst (step (ch s) l') | None => ch s end.
Proof.
  destruct l as [l'| |c]; simpl.
  - destruct l'; reflexivity.
  - destruct (evq s); reflexivity.
  - destruct (mem (c_trace c, c_prompt c) (mopen s)); reflexivity.
Qed.

Lemma ch_final : forall ls, ch (sfinal ls) = final (sproj ls).
Proof.
  induction ls using rev_ind; [reflexivity|].
  rewrite sfinal_snoc, sproj_snoc, ch_step, IHls.
  destruct (child_label (sfinal ls) x); [rewrite final_snoc; reflexivity|rewrite app_nil_r; reflexivity].
Qed.

Lemma ctrace_snoc ls l :
  ctrace (ls ++ [l]) = ctrace ls ++ match child_label (sfinal ls) l with
                                    | Some l' => [(l', snd (step (ch (sfinal ls)) l'))] | None => [] end.
Proof.
  unfold ctrace. rewrite sproj_snoc. destruct (child_label (sfinal ls) l).
  - rewrite trace_snoc, ch_final. reflexivity.
  - rewrite !app_nil_r. reflexivity.
Qed.

Lemma mem_iff_in : forall x l, mem x l = true <-> In x l.
Proof.
  intros [a b] l. unfold mem. rewrite existsb_exists. split.
  - intros ([a' b'] & Hin & E). unfold pair_eqb in E. cbn in E. apply andb_true_iff in E. destruct E as [E1 E2].
    apply Z.eqb_eq in E1, E2. subst. exact Hin.
  - intros Hin. exists (a, b). split; [exact Hin | ]. unfold pair_eqb. cbn. rewrite !Z.eqb_refl. reflexivity.
Qed.

Lemma in_remove_pair_iff : forall x y l, In y (remove_pair x l) <-> In y l /\ y <> x.
Proof.
  intros [a b] [a' b'] l. unfold remove_pair. rewrite filter_In. unfold pair_eqb. cbn. split; intros [H1 H2]; split; auto.
  - intros E. inversion E; subst. rewrite !Z.eqb_refl in H2. discriminate.
  - destruct (Z.eqb_spec a a'); destruct (Z.eqb_spec b b'); cbn; auto. subst. exfalso. apply H2. reflexivity.
Qed.

Lemma opens_emitted l o t n : In (MStart t n) (emitted l o) -> In (t, n) (opens [(l, o)]).
Proof.
  destruct l; simpl; try tauto; destruct o; simpl; try tauto.
  - intros [H|[]]. inversion H. left. reflexivity.
  - intros [H|[]]. discriminate.
Qed.

(** what the main process believes open, and what is still on its way, has been issued by the child *)
Lemma view_issued : forall ls,
  (forall t n, In (t, n) (mopen (sfinal ls)) -> In (t, n) (opens (ctrace ls))) /\
  (forall t n, In (MStart t n) (evq (sfinal ls)) -> In (t, n) (opens (ctrace ls))).
Proof.
  induction ls using rev_ind; [split; intros ? ? []|].
  destruct IHls as [IH1 IH2]. rewrite sfinal_snoc, ctrace_snoc.
  assert (Hmono : forall t n extra, In (t, n) (opens (ctrace ls)) -> In (t, n) (opens (ctrace ls ++ extra))).
  { intros. rewrite opens_app. apply in_or_app. auto. }
  destruct x as [l'| |c]; simpl.
  - (* [opens] only grows (Hmono); an MStart enters evq exactly when its pair enters [opens] (opens_emitted) *)
    destruct l' as [c0| |t0|t0|t0|t0]; [simpl; rewrite app_nil_r; split; assumption|..];
      (simpl; split;
       [intros; apply Hmono; eauto
       |intros t n H; apply in_app_or in H; destruct H as [H|H];
        [apply Hmono; eauto|rewrite opens_app; apply in_or_app; right; apply opens_emitted; exact H]]).
  - destruct (evq (sfinal ls)) as [|e r] eqn:E; simpl; rewrite app_nil_r;
      [split; [assumption|intros t n H; rewrite ?E in H; try contradiction; eauto]|].
    split.
    + intros t n H. destruct e as [t0 n0|t0 n0]; simpl in H.
      * destruct H as [H|H]; [inversion H; subst; apply IH2; left; reflexivity|auto].
      * apply in_remove_pair_iff in H. apply IH1, H.
    + intros t n H. apply IH2. right. assumption.
  - destruct (mem (c_trace c, c_prompt c) (mopen (sfinal ls))); simpl.
    + split; intros; apply Hmono; eauto.
    + rewrite app_nil_r. split; assumption.
Qed.

Lemma sent_issued_snoc tr l o :
  sent_issued tr -> (forall c, l = Send c -> In (c_trace c, c_prompt c) (opens tr)) -> sent_issued (tr ++ [(l, o)]).
Proof.
  intros H Hl pre c o' post E. symmetry in E. destruct (split_snoc _ _ _ _ _ E) as [(-> & -> & Ex)|(post' & -> & ->)].
  - inversion Ex; subst. apply Hl. reflexivity.
  - eapply H. reflexivity.
Qed.

(** in the composed system every command put into queue_in is addressed to
    a prompt the child has already issued *)
Theorem system_sent_issued : forall ls, sent_issued (ctrace ls).
Proof.
  induction ls using rev_ind; [intros pre c o post E; destruct pre; discriminate|].
  rewrite ctrace_snoc. destruct x as [l'| |c]; simpl.
  - destruct l'; try (apply sent_issued_snoc; [assumption|intros; discriminate]). rewrite app_nil_r. assumption.
  - rewrite app_nil_r. assumption.
  - destruct (mem (c_trace c, c_prompt c) (mopen (sfinal ls))) eqn:E; [|rewrite app_nil_r; assumption].
    apply sent_issued_snoc; [assumption|]. intros c0 H. inversion H; subst c0.
    apply (proj1 (view_issued ls)). apply mem_iff_in. assumption.
Qed.

(** child level: if only commands for issued prompts are sent, only such commands are queued *)
Theorem sent_issued_no_future : forall ls, sent_issued (trace ls) -> no_future_queued (trace ls).
Proof.
  intros ls SI pre i post c E Hn.
  destruct (trace_split _ _ _ _ _ _ E) as (l1 & l2 & Hls & Hpre & Ho & _).
  symmetry in Ho. apply relay_out_inv in Ho. destruct Ho as (c' & r & Hin). fold (final l1) in Hin. fold (trace l1) in Hpre.
  pose proof (Inv_reach l1) as I1.
  assert (Hc' : nth_error (sends (trace l1)) i = Some c') by (apply (i_in_nth _ _ I1); rewrite Hin; left; reflexivity).
  assert (c' = c).
  { rewrite E, sends_app, Hpre in Hn. rewrite (nth_error_app_some _ _ _ _ Hc') in Hn. congruence. }
  subst c'. destruct (nth_sends_split _ _ _ Hc') as (p1 & o & p2 & Hsplit).
  assert (Hop : In (c_trace c, c_prompt c) (opens p1)).
  { eapply SI. rewrite E, Hpre, Hsplit, <- app_assoc. reflexivity. }
  assert (Hop1 : In (c_trace c, c_prompt c) (opens (trace l1))) by (rewrite Hsplit, opens_app; apply in_or_app; auto).
  pose proof (i_opens_lt _ _ I1 _ _ Hop1) as Hlt. rewrite (proj1 (ctr_opens l1)) in Hlt. rewrite Hpre. exact Hlt.
Qed.

Theorem system_no_future_queued : forall ls, no_future_queued (ctrace ls).
Proof. intros ls. apply sent_issued_no_future. apply system_sent_issued. Qed.

Lemma seen_open_final : forall ls, mopen (sfinal ls) = seen_open (strace ls).
Proof.
  induction ls using rev_ind; [reflexivity|].
  rewrite sfinal_snoc, strace_snoc. unfold seen_open. rewrite fold_left_app. fold (seen_open (strace ls)). rewrite <- IHls.
  destruct x as [l'| |c]; simpl.
  - destruct l'; reflexivity.
  - destruct (evq (sfinal ls)); reflexivity.
  - destruct (mem (c_trace c, c_prompt c) (mopen (sfinal ls))); reflexivity.
Qed.

Lemma strace_split : forall ls s pre l o post,
  strace_from s ls = pre ++ (l, o) :: post ->
  exists l1 l2, ls = l1 ++ l :: l2 /\ pre = strace_from s l1 /\ o = snd (sstep (sexec_from s l1) l).
Proof.
  induction ls as [|a ls IH]; intros s pre l o post H.
  - destruct pre; discriminate.
  - destruct pre as [|e pre]; simpl in H.
    + inversion H; subst. exists [], ls. repeat split.
    + inversion H; subst. destruct (IH _ _ _ _ _ H2) as (l1 & l2 & -> & -> & ->).
      exists (a :: l1), l2. repeat split.
Qed.

Lemma strace_labels : forall ls s, map fst (strace_from s ls) = ls.
Proof. induction ls as [|l ls IH]; intros s; simpl; [reflexivity|rewrite IH; reflexivity]. Qed.

Lemma api_cases : forall ls pre c o post,
  strace ls = pre ++ (SApi c, o) :: post ->
  exists l1, pre = strace l1 /\
    (o = SDropped \/
     (exists i, o = SForwarded i /\ mem (c_trace c, c_prompt c) (seen_open pre) = true /\
                exists rest, ctrace ls = ctrace l1 ++ (Send c, OSent i) :: rest)).
Proof.
  intros ls pre c o post H. destruct (strace_split _ _ _ _ _ _ H) as (l1 & l2 & Hls & Hpre & Ho).
  exists l1. split; [assumption|].
  fold (sfinal l1) in Ho. fold (strace l1) in Hpre. rewrite Hpre, <- seen_open_final.
  simpl in Ho. destruct (mem (c_trace c, c_prompt c) (mopen (sfinal l1))) eqn:Em.
  - right. exists (s_nsent (ch (sfinal l1))). split; [assumption|]. split; [reflexivity|].
    unfold ctrace. rewrite Hls. unfold sproj. rewrite sproj_from_app. fold (sfinal l1). simpl. rewrite Em. simpl.
    unfold trace. rewrite trace_from_app. fold (final (sproj_from sinit l1)). fold (sproj l1). rewrite <- ch_final.
    simpl. eexists. reflexivity.
  - left. assumption.
Qed.

(** full strength at system level: a command sent through the API while the
    prompt it addresses is not open in the child is never executed (it is dropped
    by the main process, or it is stale and discarded by the child) *)
Theorem system_decoys_discarded : forall ls pre c o post,
  strace ls = pre ++ (SApi c, o) :: post ->
  forall l1, pre = strace l1 ->
  open_in (ctrace l1) (c_trace c) <> Some (c_prompt c) ->
  o = SDropped \/ exists i, o = SForwarded i /\ ~ In i (exec_ids (ctrace ls)).
Proof.
  intros ls pre c o post H l1 Hpre Hno.
  destruct (api_cases _ _ _ _ _ H) as (l1' & Hpre' & [Ho|(i & Ho & Hm & rest & Hct)]); [left; assumption|].
  right. exists i. split; [assumption|].
  (* the system history determines its labels, hence the child history *)
  assert (l1' = l1) by (rewrite <- (strace_labels l1' sinit), <- (strace_labels l1 sinit); unfold strace in *; congruence).
  subst l1'.
  (* forwarded: main saw the prompt open, so the child had issued it; not open in the child: it is closed *)
  assert (Hiss : In (c_trace c, c_prompt c) (opens (ctrace l1))).
  { apply (proj1 (view_issued l1)). apply mem_iff_in. rewrite seen_open_final, <- Hpre. assumption. }
  destruct (opened_closed_or_open (sproj l1) _ _ Hiss) as [Hc|Hc].
  - eapply (stale_discarded (sproj ls)); [exact Hct|exact Hc].
  - exfalso. apply Hno. unfold ctrace. rewrite (i_open _ _ (Inv_reach (sproj l1))). exact Hc.
Qed.

(** every forwarded command was sent while the main process saw the addressed prompt open *)
Theorem forwarded_seen_open : forall ls pre c i post,
  strace ls = pre ++ (SApi c, SForwarded i) :: post ->
  In (c_trace c, c_prompt c) (seen_open pre).
Proof.
  intros ls pre c i post H.
  destruct (api_cases _ _ _ _ _ H) as (l1 & _ & [Ho|(j & _ & Hm & _)]); [discriminate|].
  apply mem_iff_in. assumption.
Qed.
