(** The broker (PubSub, nextline/utils/pubsub/broker.py): an interpreter for the
    regenerated method bodies of Gen/PubSubFuns.v ([bstmt]) over a `defaultdict` of
    PubSubItem states, each item method call being run through the item interpreter of
    PubSub/Interp.v on the REGENERATED item bodies; and the proof that every broker
    operation computes [bstep] of PubSub/Model.v. *)
From NL Require Import PubSub.Model PubSub.Lists PubSub.Syntax Gen.PubSubFuns PubSub.Interp PubSub.Tie PubSub.Broker.
From Coq Require Import Lia.
Open Scope Z_scope.

Record ibroker := mkIB {
  ib_map : list (key * nat);       (* self._queue: key -> instance; most recently inserted first *)
  ib_items : list pstate;          (* every PubSubItem ever created *)
  ib_gens : list (nat * nat)       (* generator handle -> (instance, generator of that instance) *)
}.

Inductive bval :=
| BVKey (k : key) | BVVal (v : V) | BVBool (b : bool)
| BVItem (i : nat)                 (* a PubSubItem object *)
| BVNone | BVUnbound.

Definition benv := string -> bval.
Definition benv0 : benv := fun _ => BVUnbound.
Definition bset (en : benv) (x : string) (v : bval) : benv :=
  fun y => if String.eqb x y then v else en y.

(** an argument handed to a PubSubItem method *)
Definition to_value (v : bval) : option value :=
  match v with
  | BVVal x => Some (VEnt (Some (It x)))
  | BVBool b => Some (VBool b)
  | _ => None
  end.

Fixpoint to_values (en : benv) (xs : list string) : option (list value) :=
  match xs with
  | [] => Some []
  | x :: r => match to_value (en x), to_values en r with
              | Some v, Some vs => Some (v :: vs)
              | _, _ => None
              end
  end.

Fixpoint to_kw (en : benv) (kw : list (string * string)) : option (list (string * value)) :=
  match kw with
  | [] => Some []
  | (k, x) :: r => match to_value (en x), to_kw en r with
                   | Some v, Some vs => Some ((k, v) :: vs)
                   | _, _ => None
                   end
  end.

(** calls of item methods: the regenerated item bodies, through PubSub/Interp.v *)
Definition item_call (m : imethod) (pos : list value) (kw : list (string * value)) (ps : pstate)
  : option (pstate * out) :=
  match m with
  | MPublish => plain_out (run_method item_publish_params item_publish_body pos kw ps)
  | MAclose => plain_out (run_method item_aclose_params item_aclose_body pos kw ps)
  | MLatest => latest_out (run_method item_latest_params item_latest_body pos kw ps)
  | MSubscribe => isub_call ps pos kw
  end.

(** on the instance i; an index that does not exist is the harness' invalid handle *)
Definition icall (ib : ibroker) (i : nat) (f : pstate -> option (pstate * out)) : option (ibroker * out) :=
  match nth_error (ib_items ib) i with
  | Some ps => match f ps with
               | Some (ps', x) => Some (mkIB (ib_map ib) (upd (ib_items ib) i ps') (ib_gens ib), x)
               | None => None
               end
  | None => Some (ib, OErr)
  end.

(** `self._queue[key]` of `defaultdict(PubSubItem)`: a miss calls `PubSubItem()` *)
Definition iget_or_create (ib : ibroker) (k : key) : option (ibroker * nat) :=
  match lookup (ib_map ib) k with
  | Some i => Some (ib, i)
  | None =>
    match iinit [] with
    | Some ps0 => Some (mkIB ((k, length (ib_items ib)) :: ib_map ib) (ib_items ib ++ [ps0]) (ib_gens ib),
                        length (ib_items ib))
    | None => None
    end
  end.

Definition beval (e : bexpr) (ib : ibroker) (en : benv) : option (ibroker * bval) :=
  match e with
  | BGetItem x =>
    match en x with
    | BVKey k => match iget_or_create ib k with Some (ib', i) => Some (ib', BVItem i) | None => None end
    | _ => None
    end
  | BPop x =>
    match en x with
    | BVKey k =>
      match lookup (ib_map ib) k with
      | Some i => Some (mkIB (remove_key (ib_map ib) k) (ib_items ib) (ib_gens ib), BVItem i)
      | None => Some (ib, BVNone)
      end
    | _ => None
    end
  | BVar x => match en x with BVUnbound => None | v => Some (ib, v) end
  end.

Inductive bres :=
| BNorm (ib : ibroker) (en : benv)
| BRet (ib : ibroker) (i : nat) (o : out)    (* `return <call on instance i>`; o = what the call gave *)
| BRaise (ib : ibroker)
| BStuck.

Definition do_call (t : bexpr) (m : imethod) (pos : list string) (kw : list (string * string))
           (ib : ibroker) (en : benv) : option (ibroker * nat * out) :=
  match beval t ib en with
  | Some (ib1, BVItem i) =>
    match to_values en pos, to_kw en kw with
    | Some vs, Some kvs =>
      match icall ib1 i (item_call m vs kvs) with
      | Some (ib2, x) => Some (ib2, i, x)
      | None => None
      end
    | _, _ => None
    end
  | _ => None
  end.

Fixpoint bwhile (run : ibroker -> benv -> bres) (fuel : nat) (ib : ibroker) (en : benv) : bres :=
  match fuel with
  | O => BStuck
  | S fuel' =>
    match ib_map ib with
    | [] => BNorm ib en
    | _ => match run ib en with
           | BNorm ib' en' => bwhile run fuel' ib' en'
           | r => r
           end
    end
  end.

Fixpoint bexec (st : bstmt) (ib : ibroker) (en : benv) {struct st} : bres :=
  let block := fix block (l : list bstmt) (ib : ibroker) (en : benv) : bres :=
    match l with
    | [] => BNorm ib en
    | a :: r => match bexec a ib en with
                | BNorm ib' en' => block r ib' en'
                | x => x
                end
    end in
  match st with
  | BReturnCall t m pos kw =>
    match do_call t m pos kw ib en with
    | Some (ib', _, OErr) => BRaise ib'
    | Some (ib', i, x) => BRet ib' i x
    | None => BStuck
    end
  | BAwaitCall t m pos kw =>
    match do_call t m pos kw ib en with
    | Some (ib', _, OErr) => BRaise ib'
    | Some (ib', _, _) => BNorm ib' en
    | None => BStuck
    end
  | BIfWalrus x e body =>
    match beval e ib en with
    | Some (ib1, BVNone) => BNorm ib1 (bset en x BVNone)
    | Some (ib1, BVItem i) => block body ib1 (bset en x (BVItem i))   (* a PubSubItem is truthy *)
    | _ => BStuck
    end
  | BWhileQueue body => bwhile (block body) (S (length (ib_map ib))) ib en
  | BPopItem x =>
    match ib_map ib with
    | (_, i) :: m => BNorm (mkIB m (ib_items ib) (ib_gens ib)) (bset en x (BVItem i))
    | [] => BRaise ib                            (* KeyError *)
    end
  end.

(** the nested [fix block] of [bexec] under a name (convertible: [bexec_while]); it is nested there so
    that [bexec] is structurally recursive *)
Fixpoint bblock (l : list bstmt) (ib : ibroker) (en : benv) : bres :=
  match l with
  | [] => BNorm ib en
  | a :: r => match bexec a ib en with
              | BNorm ib' en' => bblock r ib' en'
              | x => x
              end
  end.

(** binding of broker-level arguments (all given by the harness: key positional, the rest as in
    `obj.publish(k, v)`, `obj.subscribe(k, last=l)`) *)
Fixpoint bbind (params : list (string * option expr)) (pos : list bval) (kw : list (string * bval))
         (en : benv) : option benv :=
  match params with
  | [] => match pos with [] => Some en | _ => None end
  | (x, d) :: r =>
    match pos with
    | v :: pos' => bbind r pos' kw (bset en x v)
    | [] =>
      match assoc kw x with
      | Some v => bbind r [] kw (bset en x v)
      | None => match d with
                | Some (EBool b) => bbind r [] kw (bset en x (BVBool b))
                | _ => None
                end
      end
    end
  end.

Definition bmethod (params : list (string * option expr)) (body : list bstmt)
           (pos : list bval) (kw : list (string * bval)) (ib : ibroker) : bres :=
  match bbind params pos kw benv0 with
  | Some en => bblock body ib en
  | None => BStuck
  end.

Definition unit_out (r : bres) : option (ibroker * out) :=
  match r with
  | BNorm ib _ => Some (ib, OUnit)
  | BRaise ib => Some (ib, OErr)
  | _ => None
  end.

(** `subscribe(key, **kw)`: the generator object it returns gets the next handle *)
Definition ibsub (ib : ibroker) (k : key) (kw : list (string * bval)) : option (ibroker * out) :=
  match bmethod broker_subscribe_params broker_subscribe_body [BVKey k] kw ib with
  | BRet ib' i (OSid s) =>
    Some (mkIB (ib_map ib') (ib_items ib') (ib_gens ib' ++ [(i, s)]), OSid (length (ib_gens ib')))
  | _ => None
  end.

Definition ibstep (ib : ibroker) (o : bop) : option (ibroker * out) :=
  match o with
  | BPublish k v => unit_out (bmethod broker_publish_params broker_publish_body [BVKey k; BVVal v] [] ib)
  | BEnd k => unit_out (bmethod broker_end_params broker_end_body [BVKey k] [] ib)
  | BClose => unit_out (bmethod broker_close_params broker_close_body [] [] ib)
  | BLatest k =>
    match bmethod broker_latest_params broker_latest_body [BVKey k] [] ib with
    | BRet ib' _ (OLatest v) => Some (ib', OLatest v)
    | BRaise ib' => Some (ib', OErr)
    | _ => None
    end
  | BSub k l => ibsub ib k [("last"%string, BVBool l)]
  | BNext g =>
    match nth_error (ib_gens ib) g with
    | Some (i, s) => icall ib i (fun ps => istep ps (Next s))
    | None => Some (ib, OErr)
    end
  | BLeave g =>
    match nth_error (ib_gens ib) g with
    | Some (i, s) => icall ib i (fun ps => istep ps (Leave s))
    | None => Some (ib, OErr)
    end
  end.

Fixpoint ibrun_from (ib : ibroker) (ops : list bop) : option (ibroker * list out) :=
  match ops with
  | [] => Some (ib, [])
  | o :: r =>
    match ibstep ib o with
    | Some (ib', x) => match ibrun_from ib' r with
                       | Some (ib'', xs) => Some (ib'', x :: xs)
                       | None => None
                       end
    | None => None
    end
  end.

Definition ibouts (ops : list bop) : option (list out) :=
  option_map snd (ibrun_from (mkIB [] [] []) ops).

Definition babs (ib : ibroker) : broker :=
  mkBroker (ib_map ib) (map abs (ib_items ib)) (ib_gens ib).

Definition bwf (ib : ibroker) : Prop :=
  (forall i ps, nth_error (ib_items ib) i = Some ps -> wf ps) /\
  (forall k i, In (k, i) (ib_map ib) -> (i < length (ib_items ib))%nat).

Definition btied (ib : ibroker) (o : bop) : Prop :=
  exists ib', ibstep ib o = Some (ib', snd (bstep (babs ib) o)) /\
              babs ib' = fst (bstep (babs ib) o) /\ bwf ib'.

Lemma item_call_aclose : item_call MAclose [] [] = fun ps => istep ps Close.
Proof. reflexivity. Qed.

Lemma icall_tie ib i o : bwf ib ->
  exists ib', icall ib i (fun ps => istep ps o) = Some (ib', snd (on_item (babs ib) i o)) /\
              babs ib' = fst (on_item (babs ib) i o) /\ bwf ib' /\
              ib_map ib' = ib_map ib /\ ib_gens ib' = ib_gens ib.
Proof.
  intros (Hw & Hv). unfold icall, on_item. cbn [babs b_items b_map b_gens]. rewrite nth_error_map.
  destruct (nth_error (ib_items ib) i) as [ps|] eqn:E; cbn [option_map].
  - destruct (tie_step ps o (Hw i ps E)) as (ps' & H1 & H2 & H3). rewrite H1.
    destruct (step (abs ps) o) as [it' x]. cbn [fst snd] in *. eexists. split; [reflexivity|].
    split; [|split; [|split; reflexivity]].
    + unfold babs. cbn. rewrite map_upd, H2. reflexivity.
    + split.
      * intros j pj. cbn. rewrite nth_upd. destruct (Nat.eqb_spec i j) as [->|].
        -- rewrite E. cbn. intros H. inversion H; subst. exact H3.
        -- apply Hw.
      * intros k j Hin. cbn. rewrite upd_length. apply (Hv k j Hin).
  - exists ib. split; [reflexivity|]. split; [reflexivity|]. split; [split; assumption|]. split; reflexivity.
Qed.

Lemma iinit0 : exists ps, iinit [] = Some ps /\ abs ps = new_item false /\ wf ps.
Proof.
  exists (item0 false). split; [reflexivity|]. split; [reflexivity|]. apply wf_no_gens; reflexivity.
Qed.

Lemma iget_or_create_tie ib k : bwf ib ->
  exists ib' i, iget_or_create ib k = Some (ib', i) /\ (babs ib', i) = get_or_create (babs ib) k /\ bwf ib'
                /\ ib_gens ib' = ib_gens ib /\ (i < length (ib_items ib'))%nat.
Proof.
  intros (Hw & Hv). unfold iget_or_create, get_or_create. cbn [babs b_map b_items b_gens].
  destruct (lookup (ib_map ib) k) as [i|] eqn:El.
  - exists ib, i. split; [reflexivity|]. split; [reflexivity|]. split; [split; assumption|]. split; [reflexivity|].
    apply (Hv k i). apply lookup_in. exact El.
  - destruct iinit0 as (ps0 & -> & Ha & Hw0). eexists. eexists. split; [reflexivity|].
    split; [|split; [|split]].
    + unfold babs. cbn. rewrite map_app, map_length. cbn. rewrite Ha. reflexivity.
    + split.
      * intros j pj H. cbn in H. destruct (nth_error_snoc _ _ _ _ H) as [H'|(_ & ->)]; [exact (Hw _ _ H') | exact Hw0].
      * intros k' j. cbn. rewrite app_length. cbn. intros [H|H].
        -- inversion H; subst. lia.
        -- apply Hv in H. lia.
    + reflexivity.
    + cbn. rewrite app_length. cbn. lia.
Qed.

Arguments iget_or_create : simpl never.
Arguments icall : simpl never.
Arguments item_call : simpl never.

Lemma on_item_snd b i o :
  snd (on_item b i o) = match nth_error (b_items b) i with Some it => snd (step it o) | None => OErr end.
Proof. unfold on_item. destruct (nth_error (b_items b) i); [destruct (step _ o)|]; reflexivity. Qed.

(** `self._queue[x].m(...)` for any method [m] whose call is the item operation [o] (true by
    evaluation for each): [on_item] with [o] on the instance [get_or_create] gives *)
Lemma call_key_tie ib k x m pos kw en vs kvs o :
  bwf ib -> en x = BVKey k -> to_values en pos = Some vs -> to_kw en kw = Some kvs ->
  item_call m vs kvs = (fun ps => istep ps o) ->
  exists ib1 i ib2, (babs ib1, i) = get_or_create (babs ib) k /\
    do_call (BGetItem x) m pos kw ib en = Some (ib2, i, snd (on_item (babs ib1) i o)) /\
    babs ib2 = fst (on_item (babs ib1) i o) /\ bwf ib2 /\ (i < length (ib_items ib1))%nat.
Proof.
  intros Hwf H1 H2 H3 Hm. unfold do_call, beval. rewrite H1, H2, H3.
  destruct (iget_or_create_tie ib k Hwf) as (ib1 & i & -> & Hgc & Hwf1 & _ & Hi). rewrite Hm.
  destruct (icall_tie ib1 i o Hwf1) as (ib2 & -> & Hb & Hwf2 & _). exists ib1, i, ib2. auto.
Qed.

Lemma do_call_var x i m pos kw ib en vs kvs :
  en x = BVItem i -> to_values en pos = Some vs -> to_kw en kw = Some kvs ->
  do_call (BVar x) m pos kw ib en =
  match icall ib i (item_call m vs kvs) with
  | Some (ib2, o) => Some (ib2, i, o)
  | None => None
  end.
Proof. intros H1 H2 H3. unfold do_call, beval. rewrite H1, H2, H3. reflexivity. Qed.

Lemma btie_publish ib k v : bwf ib -> btied ib (BPublish k v).
Proof.
  intros Hwf. unfold btied, ibstep, bmethod. cbn.
  match goal with |- context [do_call _ ?m ?pos ?kw _ ?en] =>
    destruct (call_key_tie ib k "key" m pos kw en _ _ (Publish v) Hwf eq_refl eq_refl eq_refl eq_refl)
      as (ib1 & i & ib2 & <- & -> & Hb & Hwf2 & _) end.
  rewrite on_item_snd. destruct (nth_error _ i) as [it|]; [simpl; destruct (i_closed it)|]; cbn; exists ib2; auto.
Qed.

Lemma btie_latest ib k : bwf ib -> btied ib (BLatest k).
Proof.
  intros Hwf. unfold btied, ibstep, bmethod. cbn.
  match goal with |- context [do_call _ ?m ?pos ?kw _ ?en] =>
    destruct (call_key_tie ib k "key" m pos kw en _ _ Latest Hwf eq_refl eq_refl eq_refl eq_refl)
      as (ib1 & i & ib2 & <- & -> & Hb & Hwf2 & _) end.
  rewrite on_item_snd. destruct (nth_error _ i) as [it|]; [simpl; destruct (i_last_item it)|]; cbn; exists ib2; auto.
Qed.

Lemma on_item_sub_out b i l c : (i < length (b_items b))%nat ->
  exists s, snd (on_item b i (Sub l c)) = OSid s.
Proof.
  intros Hi. rewrite on_item_snd. destruct (nth_error (b_items b) i) eqn:E; [simpl; eauto|].
  apply nth_error_None in E. lia.
Qed.

Lemma btie_sub ib k l : bwf ib -> btied ib (BSub k l).
Proof.
  intros Hwf. unfold btied, ibstep, ibsub, bmethod. cbn.
  match goal with |- context [do_call _ ?m ?pos ?kw _ ?en] =>
    destruct (call_key_tie ib k "key" m pos kw en _ _ (Sub l true) Hwf eq_refl eq_refl eq_refl eq_refl)
      as (ib1 & i & ib2 & <- & -> & Hb & Hwf2 & Hi) end.
  destruct (on_item_sub_out (babs ib1) i l true) as (s & Ho).
  { unfold babs. cbn. rewrite map_length. exact Hi. }
  destruct (on_item (babs ib1) i (Sub l true)) as [b2 x] eqn:Eo. cbn [fst snd] in *. subst x b2. cbn.
  eexists. split; [reflexivity|]. split; [reflexivity | exact Hwf2].
Qed.

Lemma on_item_close_out b i : (i < length (b_items b))%nat -> snd (on_item b i Close) = OUnit.
Proof.
  intros Hi. rewrite on_item_snd. destruct (nth_error (b_items b) i) as [it|] eqn:E; [simpl; destruct (i_closed it); reflexivity|].
  apply nth_error_None in E. lia.
Qed.

(** `if q := self._queue.pop(key, None): await q.aclose()` *)
Lemma btie_end ib k : bwf ib -> btied ib (BEnd k).
Proof.
  intros Hwf. unfold btied, ibstep, bmethod. cbn.
  destruct (lookup (ib_map ib) k) as [i|] eqn:El; cbn.
  - set (ib1 := mkIB (remove_key (ib_map ib) k) (ib_items ib) (ib_gens ib)).
    assert (Hwf1 : bwf ib1).
    { destruct Hwf as (A & B). split; [exact A|]. intros k' j Hin. apply (B k' j). apply in_remove_key in Hin. apply Hin. }
    change (mkBroker (remove_key (ib_map ib) k) (map abs (ib_items ib)) (ib_gens ib)) with (babs ib1).
    rewrite item_call_aclose.
    destruct (icall_tie ib1 i Close Hwf1) as (ib2 & -> & Hb & Hwf2 & _).
    rewrite on_item_close_out in *.
    + cbn. exists ib2. auto.
    + unfold babs. cbn. rewrite map_length. apply (proj2 Hwf k i). apply lookup_in. exact El.
  - exists ib. auto.
Qed.

Arguments bwhile : simpl never.

(** the body of `while self._queue: _, q = self._queue.popitem(); await q.aclose()` *)
Definition close_body : list bstmt :=
  Eval cbv in (match broker_close_body with [BWhileQueue b] => b | _ => [] end).

Lemma bexec_while body ib en :
  bexec (BWhileQueue body) ib en = bwhile (bblock body) (S (length (ib_map ib))) ib en.
Proof. reflexivity. Qed.

Lemma bwhile_S run n ib en : bwhile run (S n) ib en =
  match ib_map ib with
  | [] => BNorm ib en
  | _ => match run ib en with BNorm ib' en' => bwhile run n ib' en' | r => r end
  end.
Proof. reflexivity. Qed.

(** [on_item] never reads [b_map] *)
Lemma on_item_shape M its gs i o :
  on_item (mkBroker M its gs) i o =
  (mkBroker M (b_items (fst (on_item (mkBroker [] its gs) i o))) gs, snd (on_item (mkBroker [] its gs) i o)).
Proof.
  unfold on_item. cbn. destruct (nth_error its i) as [it|]; [|reflexivity].
  destruct (step it o). reflexivity.
Qed.

Lemma close_loop : forall m items gens en n,
  bwf (mkIB m items gens) -> (length m < n)%nat ->
  exists ib' en', bwhile (bblock close_body) n (mkIB m items gens) en = BNorm ib' en' /\
    babs ib' = fold_left (fun b ki => fst (on_item b (snd ki) Close)) m (mkBroker [] (map abs items) gens) /\
    bwf ib'.
Proof.
  induction m as [|[k i] m IH]; intros items gens en n Hwf Hn.
  - destruct n as [|n]; [simpl in Hn; lia|]. rewrite bwhile_S. cbn. eexists. eexists. split; [reflexivity|].
    split; [reflexivity | exact Hwf].
  - destruct n as [|n]; [simpl in Hn; lia|]. rewrite bwhile_S. cbn [ib_map].
    set (ib1 := mkIB m items gens).
    assert (Hwf1 : bwf ib1).
    { destruct Hwf as (A & B). split; [exact A|]. intros k' j Hin. apply (B k' j). right. exact Hin. }
    assert (Hi : (i < length items)%nat) by (apply (proj2 Hwf k i); left; reflexivity).
    destruct (icall_tie ib1 i Close Hwf1) as (ib2 & Hc & Hb & Hwf2 & Hm2 & Hg2).
    assert (Hrun : bblock close_body (mkIB ((k, i) :: m) items gens) en =
                   BNorm ib2 (bset en "q" (BVItem i))).
    { cbn. fold ib1. rewrite item_call_aclose, Hc. cbn. rewrite on_item_close_out; [reflexivity|].
      unfold babs. cbn. rewrite map_length. exact Hi. }
    rewrite Hrun. destruct ib2 as [m2 items2 gens2]. cbn in Hm2, Hg2. subst m2 gens2.
    destruct (IH items2 gens (bset en "q" (BVItem i)) n Hwf2) as (ib' & en' & -> & Ha & Hwf').
    { simpl in Hn. lia. }
    exists ib', en'. split; [reflexivity|]. split; [|exact Hwf'].
    rewrite Ha. cbn [fold_left snd]. f_equal.
    unfold babs in Hb. cbn [ib_map ib_items ib_gens ib1] in Hb.
    (* [Hb] is about the broker with map [m], the fold's accumulator has map []: compare the instances only *)
    rewrite on_item_shape in Hb. cbn [fst] in Hb. inversion Hb as [Hitems].
    rewrite (on_item_shape [] (map abs items) gens i Close). cbn [fst]. rewrite <- Hitems. reflexivity.
Qed.

Lemma btie_close ib : bwf ib -> btied ib BClose.
Proof.
  intros Hwf. destruct ib as [m items gens].
  unfold btied, ibstep, bmethod. cbn [bbind broker_close_params broker_close_body bblock].
  rewrite bexec_while. fold close_body. cbn [ib_map].
  destruct (close_loop m items gens benv0 (S (length m)) Hwf) as (ib' & en' & -> & Ha & Hwf'); [lia|].
  exists ib'. cbn. auto.
Qed.

Lemma btie_next ib g : bwf ib -> btied ib (BNext g).
Proof.
  intros Hwf. unfold btied, ibstep, bstep. cbn [babs b_gens].
  destruct (nth_error (ib_gens ib) g) as [[i s]|].
  - destruct (icall_tie ib i (Next s) Hwf) as (ib2 & -> & Hb & Hwf2 & _). exists ib2. auto.
  - exists ib. auto.
Qed.

Lemma btie_leave ib g : bwf ib -> btied ib (BLeave g).
Proof.
  intros Hwf. unfold btied, ibstep, bstep. cbn [babs b_gens].
  destruct (nth_error (ib_gens ib) g) as [[i s]|].
  - destruct (icall_tie ib i (Leave s) Hwf) as (ib2 & -> & Hb & Hwf2 & _). exists ib2. auto.
  - exists ib. auto.
Qed.

(** `PubSub.subscribe(key)` with `last` omitted: the default emitted into [broker_subscribe_params]
    (and, through the keyword call `subscribe(last=last)`, the default of `cache` in
    [item_subscribe_params]) must be the model's `BSub k true` *)
Theorem btie_sub_default ib k : bwf ib ->
  exists ib', ibsub ib k [] = Some (ib', snd (bstep (babs ib) (BSub k true))) /\
              babs ib' = fst (bstep (babs ib) (BSub k true)) /\ bwf ib'.
Proof.
  intros Hwf. change (ibsub ib k []) with (ibstep ib (BSub k true)). exact (btie_sub ib k true Hwf).
Qed.

Theorem btie_step ib o : bwf ib -> btied ib o.
Proof.
  intros Hwf. destruct o; auto using btie_publish, btie_end, btie_close, btie_latest, btie_sub, btie_next, btie_leave.
Qed.

Lemma bwf_init : bwf (mkIB [] [] []).
Proof. split; [intros [|i] ps H; discriminate | intros k i []]. Qed.

Theorem btie_run : forall ops ib, bwf ib ->
  exists ib', ibrun_from ib ops = Some (ib', snd (brun_from (babs ib) ops)) /\
              babs ib' = fst (brun_from (babs ib) ops) /\ bwf ib'.
Proof.
  induction ops as [|o ops IH]; intros ib Hwf; simpl.
  - exists ib. auto.
  - destruct (btie_step ib o Hwf) as (ib1 & H1 & H2 & H3). rewrite H1.
    destruct (bstep (babs ib) o) as [b1 x] eqn:Es. simpl in *. subst b1.
    destruct (IH ib1 H3) as (ib2 & H4 & H5 & H6). rewrite H4.
    destruct (brun_from (babs ib1) ops) as [b2 xs]. simpl in *. exists ib2. auto.
Qed.

(** for EVERY history of broker operations: the regenerated code = the hand-written model *)
Theorem btie_outs ops : ibouts ops = Some (bouts ops).
Proof.
  unfold ibouts, bouts. destruct (btie_run ops (mkIB [] [] []) bwf_init) as (ib' & -> & _ & _).
  reflexivity.
Qed.
