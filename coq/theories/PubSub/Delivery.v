(** The abstract specification satisfies the declarative statement of the
    property: what a subscriber got plus what it is still owed equals the
    expected sequence computed from the history alone. *)
From NL Require Import PubSub.Model PubSub.Lists PubSub.Spec.
From Coq Require Import Lia.
Open Scope Z_scope.

Fixpoint ahist_from (a : aspec) (ops : list op) : hist :=
  match ops with
  | [] => []
  | o :: r => let '(a', x) := astep a o in (o, x) :: ahist_from a' r
  end.

Definition ahist (cache : bool) (ops : list op) : hist := ahist_from (new_aspec cache) ops.

Lemma ahist_combine a ops : ahist_from a ops = combine ops (snd (arun_from a ops)).
Proof.
  revert a; induction ops as [|o ops IH]; intros a; simpl; auto.
  destruct (astep a o) as [a' x]. rewrite IH. destruct (arun_from a' ops). reflexivity.
Qed.

(** `anext` of a subscriber that has started: the second half of [a_next] *)
Definition a_resume (s : asub) : asub * out :=
  match a_state s with
  | AActive =>
    match a_owed s with
    | v :: r => (mkASub (a_last s) (a_cacheopt s) AActive r (a_end s), OItem v)
    | [] => if a_end s then (a_done s, OStop) else (s, OBlocked)
    end
  | _ => (s, OStop)
  end.

Lemma a_next_resume a s : a_state s <> AFresh -> a_next a s = a_resume s.
Proof. intros H. unfold a_next, a_resume. destruct (a_state s) eqn:E; [congruence | |]; rewrite ?E; reflexivity. Qed.

Lemma a_next_fresh a s :
  a_state s = AFresh ->
  a_next a s = a_resume (if a_ended a then a_done s
                         else mkASub (a_last s) (a_cacheopt s) AActive
                                     (replay (a_cache a) (a_since a) (a_last s) (a_cacheopt s)) false).
Proof. intros E. unfold a_next. rewrite E. reflexivity. Qed.

Definition is_sub (x : op * out) : bool := match fst x with Sub _ _ => true | _ => false end.
Definition count_subs (h : hist) : nat := length (filter is_sub h).

Definition started_exp (cache : bool) (b af : hist) (l c : bool) : list V :=
  if has_close b then [] else replay cache (since_clear b) l c ++ pubs (until_close af).

Lemma expected_unfold cache h s :
  expected cache h s =
  match split_start h s, sub_opts h s with
  | Some (b, af), Some (l, c) => started_exp cache b af l c
  | _, _ => []
  end.
Proof. unfold expected, started_exp. destruct (split_start h s) as [[b af]|]; auto. Qed.

Definition starts (s : nat) (x : op * out) : bool :=
  match x with
  | (Next _, OErr) => false
  | (Next s', _) => Nat.eqb s s'
  | _ => false
  end.

Definition leaves (s : nat) (x : op * out) : bool :=
  match x with
  | (Leave s', OUnit) => Nat.eqb s s'
  | _ => false
  end.

Definition gives (s : nat) (x : op * out) : list V :=
  match x with
  | (Next s', OItem v) => if Nat.eqb s s' then [v] else []
  | _ => []
  end.

Definition pub_of (x : op * out) : list V :=
  match x with (Publish v, OUnit) => [v] | _ => [] end.

Lemma got_snoc h x s : got (h ++ [x]) s = got h s ++ gives s x.
Proof.
  induction h as [|[o y] h IH]; simpl.
  - destruct x as [[] []]; simpl; auto; destruct (Nat.eqb s s0); auto.
  - destruct o; auto. destruct y; auto. destruct (Nat.eqb s s0); simpl; congruence.
Qed.

Lemma pubs_app h h' : pubs (h ++ h') = pubs h ++ pubs h'.
Proof.
  induction h as [|[o x] h IH]; simpl; auto.
  destruct o; auto. destruct x; auto. simpl. congruence.
Qed.

Lemma pubs_one x : pubs [x] = pub_of x.
Proof. destruct x as [[] []]; reflexivity. Qed.

Lemma has_close_app h h' : has_close (h ++ h') = has_close h || has_close h'.
Proof. apply existsb_app. Qed.

Lemma has_close_one x : has_close [x] = is_close x.
Proof. unfold has_close. simpl. apply orb_false_r. Qed.

Lemma until_close_snoc h x :
  until_close (h ++ [x]) =
  if has_close h then until_close h else if is_close x then until_close h else until_close h ++ [x].
Proof.
  induction h as [|[o y] h IH]; simpl.
  - destruct x as [[] ?]; reflexivity.
  - destruct o; simpl; try (rewrite IH; unfold has_close; simpl;
      destruct (existsb is_close h); [reflexivity|]; destruct (is_close x); reflexivity).
    reflexivity.
Qed.

Lemma until_close_noclose h : has_close h = false -> until_close h = h.
Proof.
  induction h as [|[o y] h IH]; simpl; auto.
  unfold has_close. simpl. destruct o; simpl; intros H; try discriminate; f_equal; apply IH; exact H.
Qed.

Lemma since_clear_acc_snoc h x acc :
  since_clear_acc (h ++ [x]) acc =
  match x with
  | (Publish v, OUnit) => since_clear_acc h acc ++ [v]
  | (Clear, OUnit) => []
  | _ => since_clear_acc h acc
  end.
Proof.
  revert acc; induction h as [|[o y] h IH]; intros acc; simpl.
  - destruct x as [[] []]; reflexivity.
  - destruct o; try apply IH; destruct y; apply IH.
Qed.

Lemma since_clear_snoc h x :
  since_clear (h ++ [x]) =
  match x with
  | (Publish v, OUnit) => since_clear h ++ [v]
  | (Clear, OUnit) => []
  | _ => since_clear h
  end.
Proof. apply since_clear_acc_snoc. Qed.

Lemma split_start_snoc h x s :
  split_start (h ++ [x]) s =
  match split_start h s with
  | Some (b, af) => Some (b, af ++ [x])
  | None => if starts s x then Some (h, []) else None
  end.
Proof.
  induction h as [|[o y] h IH]; simpl.
  - destruct x as [[] y]; simpl; auto. destruct y; simpl; auto; destruct (Nat.eqb s s0); auto.
  - destruct o; try (rewrite IH; destruct (split_start h s) as [[b af]|]; [reflexivity|];
                     destruct (starts s x); reflexivity).
    destruct y; try (destruct (Nat.eqb s s0); [reflexivity|]);
      rewrite IH; destruct (split_start h s) as [[b af]|]; try reflexivity;
      destruct (starts s x); reflexivity.
Qed.

Lemma split_start_shape h s b af :
  split_start h s = Some (b, af) -> exists x, h = b ++ x :: af /\ is_close x = false.
Proof.
  revert b af; induction h as [|[o y] h IH]; intros b af H; simpl in H; [discriminate|].
  destruct o;
    try (destruct (split_start h s) as [[b' af']|]; [|discriminate]; inversion H; subst;
         destruct (IH _ _ eq_refl) as (x & -> & Hx); exists x; split; [reflexivity | exact Hx]).
  destruct y;
    try (destruct (Nat.eqb s s0); [inversion H; subst; eexists; split; [reflexivity | reflexivity]|]);
    destruct (split_start h s) as [[b' af']|]; try discriminate; inversion H; subst;
    destruct (IH _ _ eq_refl) as (x & -> & Hx); exists x; split; try reflexivity; exact Hx.
Qed.

Lemma left_sub_snoc h x s : left_sub (h ++ [x]) s = left_sub h s || leaves s x.
Proof.
  induction h as [|[o y] h IH]; simpl.
  - destruct x as [[] []]; simpl; auto using orb_false_r.
  - destruct o; auto. destruct y; auto. rewrite IH. apply orb_assoc.
Qed.

Lemma sub_opts_snoc h x s :
  sub_opts (h ++ [x]) s =
  match sub_opts h s with
  | Some o => Some o
  | None => match fst x with
            | Sub l c => if Nat.eqb s (count_subs h) then Some (l, c) else None
            | _ => None
            end
  end.
Proof.
  revert s; induction h as [|[o y] h IH]; intros s; simpl.
  - destruct x as [[] ?]; simpl; auto. destruct s; reflexivity.
  - destruct o; try apply IH.
    destruct s as [|s]; [reflexivity|]. rewrite IH.
    destruct (sub_opts h s); auto.
Qed.

Lemma count_subs_snoc h x : count_subs (h ++ [x]) = (count_subs h + if is_sub x then 1 else 0)%nat.
Proof.
  unfold count_subs. rewrite filter_app, app_length. simpl. destruct (is_sub x); reflexivity.
Qed.

Definition SubInv (cache : bool) (h : hist) (s : nat) (sa : asub) : Prop :=
  sub_opts h s = Some (a_last sa, a_cacheopt sa) /\
  match a_state sa with
  | AFresh => split_start h s = None /\ left_sub h s = false /\ a_owed sa = []
  | AActive =>
    left_sub h s = false /\ a_end sa = has_close h /\
    exists b af, split_start h s = Some (b, af) /\ has_close b = false /\
      got h s ++ a_owed sa = started_exp cache b af (a_last sa) (a_cacheopt sa)
  | AFinished =>
    a_owed sa = [] /\
    (left_sub h s = true \/
     (has_close h = true /\ exists b af, split_start h s = Some (b, af) /\
        got h s = started_exp cache b af (a_last sa) (a_cacheopt sa)))
  end.

Record Inv (cache : bool) (a : aspec) (h : hist) : Prop := mkInv {
  I_cache : a_cache a = cache;
  I_ended : a_ended a = has_close h;
  I_since : a_since a = since_clear h;
  I_n : length (a_subs a) = count_subs h;
  I_subs : forall s sa, nth_error (a_subs a) s = Some sa -> SubInv cache h s sa;
  I_none : forall s, (count_subs h <= s)%nat ->
           split_start h s = None /\ left_sub h s = false /\ got h s = [] /\ sub_opts h s = None
}.

Lemma Inv_init cache : Inv cache (new_aspec cache) [].
Proof.
  constructor; simpl; auto.
  intros [|s] sa H; discriminate.
Qed.

Lemma sub_opts_some_snoc h x s o : sub_opts h s = Some o -> sub_opts (h ++ [x]) s = Some o.
Proof. intros H. rewrite sub_opts_snoc, H. reflexivity. Qed.

Lemma started_exp_snoc cache b af x l c :
  started_exp cache b (af ++ [x]) l c =
  if has_close b || has_close af then started_exp cache b af l c else started_exp cache b af l c ++ pub_of x.
Proof.
  unfold started_exp. destruct (has_close b); [reflexivity|]. simpl.
  rewrite until_close_snoc. destruct (has_close af); [reflexivity|]. rewrite <- app_assoc. f_equal.
  destruct (is_close x) eqn:Ec.
  - destruct x as [[] ?]; try discriminate. symmetry. apply app_nil_r.
  - rewrite pubs_app, pubs_one. reflexivity.
Qed.

Lemma started_exp_snoc_quiet cache b af x l c :
  pub_of x = [] -> started_exp cache b (af ++ [x]) l c = started_exp cache b af l c.
Proof. intros Hp. rewrite started_exp_snoc, Hp, app_nil_r. destruct (_ || _); reflexivity. Qed.

Lemma shape_close h s b af :
  split_start h s = Some (b, af) -> has_close h = has_close b || has_close af.
Proof.
  intros H. destruct (split_start_shape _ _ _ _ H) as (x & -> & Hx).
  rewrite has_close_app. change (x :: af) with ([x] ++ af). rewrite has_close_app, has_close_one, Hx.
  reflexivity.
Qed.

Lemma SubInv_fresh_keep cache h s sa x :
  a_state sa = AFresh -> starts s x = false -> leaves s x = false ->
  SubInv cache h s sa -> SubInv cache (h ++ [x]) s sa.
Proof.
  intros Est Hst Hlv (Ho & H). split; [apply sub_opts_some_snoc; exact Ho|].
  rewrite Est in *. destruct H as (Hsp & Hl & Hw).
  rewrite split_start_snoc, Hsp, Hst, left_sub_snoc, Hl, Hlv. auto.
Qed.

Lemma SubInv_fin_keep cache h s sa x :
  a_state sa = AFinished -> gives s x = [] ->
  SubInv cache h s sa -> SubInv cache (h ++ [x]) s sa.
Proof.
  intros Est Hgv (Ho & H). split; [apply sub_opts_some_snoc; exact Ho|].
  rewrite Est in *. destruct H as (Hw & H). split; auto.
  destruct H as [Hl | (Hc & b & af & Hsp & Hg)].
  - left. rewrite left_sub_snoc, Hl. reflexivity.
  - right. rewrite has_close_app, Hc. split; auto. exists b, (af ++ [x]).
    rewrite split_start_snoc, Hsp, got_snoc, Hgv, app_nil_r, started_exp_snoc, <- (shape_close _ _ _ _ Hsp), Hc.
    auto.
Qed.

Lemma SubInv_active_snoc cache h s sa sa' x :
  a_state sa = AActive -> leaves s x = false ->
  a_last sa' = a_last sa -> a_cacheopt sa' = a_cacheopt sa -> a_state sa' = AActive ->
  a_end sa' = has_close h || is_close x ->
  gives s x ++ a_owed sa' = a_owed sa ++ (if has_close h then [] else pub_of x) ->
  SubInv cache h s sa -> SubInv cache (h ++ [x]) s sa'.
Proof.
  intros Est Hlv El Ec Est' Een Eow (Ho & Hs). rewrite Est in Hs.
  destruct Hs as (Hl & He & b & af & Hsp & Hb & Hg).
  split; [rewrite El, Ec; apply sub_opts_some_snoc; exact Ho|]. rewrite Est'.
  rewrite left_sub_snoc, Hl, Hlv, has_close_app, has_close_one.
  repeat split; auto. exists b, (af ++ [x]).
  rewrite split_start_snoc, Hsp, got_snoc. repeat split; auto.
  rewrite El, Ec, <- app_assoc, Eow, app_assoc, Hg, started_exp_snoc, <- (shape_close _ _ _ _ Hsp).
  destruct (has_close h); [apply app_nil_r | reflexivity].
Qed.

Lemma SubInv_active_end cache h s sa : a_state sa = AActive -> SubInv cache h s sa -> a_end sa = has_close h.
Proof. intros Est (_ & Hs). rewrite Est in Hs. apply Hs. Qed.

Lemma SubInv_active_keep cache h s sa x :
  a_state sa = AActive -> leaves s x = false -> gives s x = [] ->
  (pub_of x = [] /\ is_close x = false \/ has_close h = true) ->
  SubInv cache h s sa -> SubInv cache (h ++ [x]) s sa.
Proof.
  intros Est Hlv Hgv Hq HS. apply (SubInv_active_snoc cache h s sa sa x); auto; rewrite ?Hgv.
  - rewrite (SubInv_active_end _ _ _ _ Est HS). destruct Hq as [(_ & ->)| ->]; [rewrite orb_false_r|]; reflexivity.
  - destruct Hq as [(-> & _)| ->]; [destruct (has_close h)|]; symmetry; apply app_nil_r.
Qed.

Lemma SubInv_keep cache h s sa x :
  starts s x = false -> leaves s x = false -> gives s x = [] ->
  (pub_of x = [] /\ is_close x = false \/ has_close h = true) ->
  SubInv cache h s sa -> SubInv cache (h ++ [x]) s sa.
Proof.
  intros. destruct (a_state sa) eqn:E;
    [apply SubInv_fresh_keep | apply SubInv_active_keep | apply SubInv_fin_keep]; auto.
Qed.

Lemma none_keep h s x :
  (split_start h s = None /\ left_sub h s = false /\ got h s = [] /\ sub_opts h s = None) ->
  starts s x = false -> leaves s x = false -> gives s x = [] ->
  (is_sub x = true -> s <> count_subs h) ->
  split_start (h ++ [x]) s = None /\ left_sub (h ++ [x]) s = false /\ got (h ++ [x]) s = []
  /\ sub_opts (h ++ [x]) s = None.
Proof.
  intros (Hsp & Hl & Hg & Ho) Hst Hlv Hgv Hsub.
  rewrite split_start_snoc, Hsp, Hst, left_sub_snoc, Hl, Hlv, got_snoc, Hg, Hgv, sub_opts_snoc, Ho.
  repeat split; auto.
  destruct x as [[] y]; simpl in *; auto.
  destruct (Nat.eqb_spec s (count_subs h)); auto. exfalso. apply Hsub; auto.
Qed.

Lemma split_none_got h s : split_start h s = None -> got h s = [].
Proof.
  induction h as [|[o y] h IH]; simpl; auto.
  destruct o;
    try (destruct (split_start h s) as [[? ?]|]; [discriminate | auto]).
  destruct y; try (destruct (Nat.eqb s s0); [discriminate|]);
    destruct (split_start h s) as [[? ?]|]; try discriminate; auto.
Qed.

(** the parts of [Inv] about no particular subscriber follow from what kind of entry [x] is; an
    operation then owes only [SubInv] of the new state's subscribers *)
Lemma Inv_snoc cache a a' h x :
  Inv cache a h ->
  a_cache a' = a_cache a -> a_ended a || is_close x = a_ended a' ->
  a_since a' = match x with
               | (Publish v, OUnit) => a_since a ++ [v]
               | (Clear, OUnit) => []
               | _ => a_since a
               end ->
  length (a_subs a') = (if is_sub x then S (length (a_subs a)) else length (a_subs a)) ->
  (forall s sa, nth_error (a_subs a') s = Some sa -> SubInv cache (h ++ [x]) s sa) ->
  (forall s, (length (a_subs a') <= s)%nat -> starts s x = false /\ leaves s x = false /\ gives s x = []) ->
  Inv cache a' (h ++ [x]).
Proof.
  intros [Hca Hen Hsi Hn Hsu Hno] Ec Ee Esi El Hs Hout. constructor.
  - congruence.
  - rewrite <- Ee, Hen, has_close_app, has_close_one. reflexivity.
  - rewrite Esi, Hsi, since_clear_snoc. reflexivity.
  - rewrite El, Hn, count_subs_snoc. destruct (is_sub x); lia.
  - exact Hs.
  - intros s Hle. rewrite count_subs_snoc, <- Hn in Hle.
    destruct (Hout s) as (H1 & H2 & H3); [rewrite El; destruct (is_sub x); lia|].
    rewrite Hn in Hle. apply none_keep; auto.
    + apply Hno. lia.
    + intros Hsub. rewrite Hsub in Hle. lia.
Qed.

Lemma Inv_quiet cache a a' h x :
  Inv cache a h ->
  a_cache a' = a_cache a -> a_ended a' = a_ended a -> a_subs a' = a_subs a ->
  a_since a' = match x with
               | (Publish v, OUnit) => a_since a ++ [v]
               | (Clear, OUnit) => []
               | _ => a_since a
               end ->
  (forall s, starts s x = false /\ leaves s x = false /\ gives s x = []) ->
  (pub_of x = [] /\ is_close x = false \/ has_close h = true) ->
  is_sub x = false ->
  Inv cache a' (h ++ [x]).
Proof.
  intros HI Ec Ee Es Esi Hx Hq Hsub. apply (Inv_snoc cache a a' h x HI); auto.
  - rewrite Ee. destruct Hq as [(_ & ->) | Hc]; [apply orb_false_r|].
    rewrite (I_ended _ _ _ HI), Hc. reflexivity.
  - rewrite Es, Hsub. reflexivity.
  - intros s sa H. rewrite Es in H. destruct (Hx s) as (H1 & H2 & H3).
    apply SubInv_keep; auto. apply (I_subs _ _ _ HI _ _ H).
Qed.

Lemma starts_next_other s s0 y : s <> s0 -> starts s (Next s0, y) = false.
Proof. intros H. simpl. destruct y; auto; apply Nat.eqb_neq; exact H. Qed.

Lemma gives_next_other s s0 y : s <> s0 -> gives s (Next s0, y) = [].
Proof. intros H. simpl. destruct y; auto. apply Nat.eqb_neq in H. rewrite H. reflexivity. Qed.

Lemma starts_next_self s y : y <> OErr -> starts s (Next s, y) = true.
Proof. intros H. simpl. destruct y; auto using Nat.eqb_refl; congruence. Qed.

Lemma SubInv_push cache h s sa v :
  has_close h = false -> SubInv cache h s sa -> SubInv cache (h ++ [(Publish v, OUnit)]) s (a_push v sa).
Proof.
  intros Hnc HS. unfold a_push. destruct (a_state sa) eqn:Est.
  - apply SubInv_fresh_keep; auto.
  - apply (SubInv_active_snoc cache h s sa); auto; [|rewrite Hnc; reflexivity].
    change (a_end sa = has_close h || false). rewrite orb_false_r. exact (SubInv_active_end _ _ _ _ Est HS).
  - apply SubInv_fin_keep; auto.
Qed.

Lemma SubInv_finish cache h s sa y :
  has_close h = false -> SubInv cache h s sa -> SubInv cache (h ++ [(Close, y)]) s (a_finish sa).
Proof.
  intros Hnc HS. unfold a_finish. destruct (a_state sa) eqn:Est.
  - apply SubInv_fresh_keep; auto.
  - apply (SubInv_active_snoc cache h s sa); auto; rewrite Hnc; [reflexivity|]. symmetry. apply app_nil_r.
  - apply SubInv_fin_keep; auto.
Qed.

Lemma SubInv_leave cache h s sb : SubInv cache h s sb -> SubInv cache (h ++ [(Leave s, OUnit)]) s (a_done sb).
Proof.
  intros (Ho & _). split; simpl; [apply sub_opts_some_snoc; exact Ho|]. split; [reflexivity|]. left.
  rewrite left_sub_snoc. simpl. rewrite Nat.eqb_refl. apply orb_true_r.
Qed.

Lemma SubInv_next cache a h s sb :
  a_cache a = cache -> a_ended a = has_close h -> a_since a = since_clear h ->
  SubInv cache h s sb ->
  SubInv cache (h ++ [(Next s, snd (a_next a sb))]) s (fst (a_next a sb)).
Proof.
  intros Hca Hen Hsi HS. pose proof HS as (Ho & Hs). unfold a_next.
  destruct (a_state sb) eqn:Est.
  - (* first anext: the subscriber starts here, [h] is what came before *)
    destruct Hs as (Hsp & Hl & Hw).
    assert (Hstart : forall y, y <> OErr -> split_start (h ++ [(Next s, y)]) s = Some (h, [])).
    { intros y Hy. rewrite split_start_snoc, Hsp, starts_next_self by exact Hy. reflexivity. }
    destruct (a_ended a) eqn:Een.
    + simpl. split; simpl; [apply sub_opts_some_snoc; exact Ho|]. split; [reflexivity|]. right.
      rewrite has_close_app, <- Hen. split; [reflexivity|]. exists h, [].
      split; [apply Hstart; discriminate|]. rewrite got_snoc, (split_none_got _ _ Hsp). simpl.
      unfold started_exp. rewrite <- Hen. reflexivity.
    + assert (Hexp : started_exp cache h [] (a_last sb) (a_cacheopt sb)
                     = replay (a_cache a) (a_since a) (a_last sb) (a_cacheopt sb)).
      { unfold started_exp. rewrite <- Hen, Hca, Hsi. simpl. apply app_nil_r. }
      simpl. destruct (replay (a_cache a) (a_since a) (a_last sb) (a_cacheopt sb)) as [|v r]; simpl;
        (split; simpl; [apply sub_opts_some_snoc; exact Ho|]);
        rewrite left_sub_snoc, Hl, has_close_app, has_close_one, <- Hen; simpl;
        (repeat split; auto); exists h, [];
        (split; [apply Hstart; discriminate|]); (split; [congruence|]);
        rewrite got_snoc, (split_none_got _ _ Hsp), Hexp; simpl; rewrite ?Nat.eqb_refl; reflexivity.
  - (* started *)
    simpl. rewrite Est. destruct Hs as (Hl & He & b & af & Hsp & Hb & Hg).
    destruct (a_owed sb) as [|v r] eqn:Eow.
    + destruct (a_end sb) eqn:Eend; simpl.
      * split; simpl; [apply sub_opts_some_snoc; exact Ho|]. split; [reflexivity|]. right.
        rewrite has_close_app, <- He. split; [reflexivity|].
        exists b, (af ++ [(Next s, OStop)]).
        rewrite split_start_snoc, Hsp, got_snoc. simpl. rewrite app_nil_r.
        split; [reflexivity|]. rewrite app_nil_r in Hg. rewrite Hg.
        rewrite started_exp_snoc_quiet; auto.
      * apply SubInv_active_keep; auto.
    + simpl. apply (SubInv_active_snoc cache h s sb); auto; simpl.
      * rewrite orb_false_r. exact He.
      * rewrite Nat.eqb_refl, Eow. destruct (has_close h); symmetry; apply app_nil_r.
  - simpl. rewrite Est. apply SubInv_fin_keep; auto.
Qed.

(** [Inv_quiet], all but its disjunction `pub_of x = [] /\ is_close x = false \/ has_close h = true`,
    which the caller decides: the entry is no successful publish or close, or the topic had ended *)
Ltac quiet HI :=
  eapply Inv_quiet;
  [ exact HI | reflexivity | simpl; congruence | reflexivity | reflexivity
  | intros; repeat split; reflexivity
  |
  | reflexivity ].

(** [Inv_snoc] for an operation: evaluation settles all but the subscribers *)
Ltac snoc HI :=
  apply (Inv_snoc _ _ _ _ _ HI); simpl; auto using orb_false_r, orb_true_r, map_length, upd_length, last_length.

Lemma step_Inv cache a h o :
  Inv cache a h -> Inv cache (fst (astep a o)) (h ++ [(o, snd (astep a o))]).
Proof.
  intros HI. pose proof HI as [Hca Hen Hsi Hn Hsu Hno].
  destruct o as [v| | | |l c|s0|s0]; simpl.
  - (* Publish *)
    destruct (a_ended a) eqn:Een; simpl; [quiet HI; left; split; reflexivity|].
    snoc HI; [rewrite Een; reflexivity|]. intros s sa' H. rewrite nth_error_map in H.
    destruct (nth_error (a_subs a) s) as [sa|] eqn:En; [|discriminate]. inversion H; subst sa'.
    apply SubInv_push; [congruence | exact (Hsu _ _ En)].
  - (* Clear *)
    destruct (a_ended a) eqn:Een; simpl; quiet HI; left; split; reflexivity.
  - (* Close *)
    destruct (a_ended a) eqn:Een; simpl; [quiet HI; right; congruence|].
    snoc HI. intros s sa' H. rewrite nth_error_map in H.
    destruct (nth_error (a_subs a) s) as [sa|] eqn:En; [|discriminate]. inversion H; subst sa'.
    apply SubInv_finish; [congruence | exact (Hsu _ _ En)].
  - (* Latest *)
    quiet HI. left; split; reflexivity.
  - (* Sub *)
    snoc HI. intros s sa H. destruct (nth_error_snoc _ _ _ _ H) as [H'|(-> & ->)].
    + apply SubInv_keep; auto.
    + rewrite Hn. destruct (Hno (count_subs h) (le_n _)) as (Hsp & Hl & Hg & Ho).
      split; simpl.
      * rewrite sub_opts_snoc, Ho. simpl. rewrite Nat.eqb_refl. reflexivity.
      * rewrite split_start_snoc, Hsp, left_sub_snoc, Hl. simpl. auto.
  - (* Next *)
    destruct (nth_error (a_subs a) s0) as [sb|] eqn:En; simpl; [|quiet HI; left; split; reflexivity].
    pose proof (SubInv_next cache a h s0 sb Hca Hen Hsi (Hsu _ _ En)) as Hnext.
    pose proof (nth_error_lt _ _ _ En) as Hlt.
    destruct (a_next a sb) as [sb' y]. simpl in *. snoc HI.
    + intros s sa H. destruct (Nat.eq_dec s0 s) as [<-|Hneq].
      * rewrite (nth_upd_same _ _ _ Hlt) in H. inversion H; subst sa. exact Hnext.
      * rewrite nth_upd_other in H by assumption.
        apply SubInv_keep; auto using starts_next_other, gives_next_other.
    + intros s Hs. rewrite upd_length in Hs.
      repeat split; [apply starts_next_other | apply gives_next_other]; lia.
  - (* Leave *)
    destruct (nth_error (a_subs a) s0) as [sb|] eqn:En; simpl; [|quiet HI; left; split; reflexivity].
    pose proof (nth_error_lt _ _ _ En) as Hlt. snoc HI.
    + intros s sa H. destruct (Nat.eq_dec s0 s) as [<-|Hneq].
      * rewrite (nth_upd_same _ _ _ Hlt) in H. inversion H; subst sa.
        apply SubInv_leave. exact (Hsu _ _ En).
      * rewrite nth_upd_other in H by assumption.
        apply SubInv_keep; auto. simpl. apply Nat.eqb_neq. auto.
    + intros s Hs. rewrite upd_length in Hs. repeat split. simpl. apply Nat.eqb_neq. lia.
Qed.

Lemma run_Inv cache ops : forall a h,
  Inv cache a h -> Inv cache (fst (arun_from a ops)) (h ++ ahist_from a ops).
Proof.
  induction ops as [|o ops IH]; intros a h HI; simpl.
  - rewrite app_nil_r. exact HI.
  - pose proof (step_Inv _ _ _ o HI) as HS.
    destruct (astep a o) as [a' x]. simpl in HS.
    specialize (IH _ _ HS). destruct (arun_from a' ops) as [a'' xs]. simpl in *.
    rewrite <- app_assoc in IH. exact IH.
Qed.

Theorem spec_Inv cache ops : Inv cache (arun cache ops) (ahist cache ops).
Proof. apply (run_Inv cache ops _ [] (Inv_init cache)). Qed.

Definition a_owed_of (a : aspec) (s : nat) : list V :=
  match nth_error (a_subs a) s with Some sa => a_owed sa | None => [] end.

Theorem spec_exact_delivery cache ops s :
  let h := ahist cache ops in
  left_sub h s = false ->
  got h s ++ a_owed_of (arun cache ops) s = expected cache h s.
Proof.
  intros h Hl. pose proof (spec_Inv cache ops) as [Hca Hen Hsi Hn Hsu Hno]. fold h in Hen, Hsi, Hn, Hsu, Hno.
  unfold a_owed_of. rewrite expected_unfold.
  destruct (nth_error (a_subs (arun cache ops)) s) as [sa|] eqn:En.
  - destruct (Hsu _ _ En) as (Ho & H). rewrite Ho.
    destruct (a_state sa).
    + destruct H as (Hsp & _ & Hw). rewrite Hsp, Hw, (split_none_got _ _ Hsp). reflexivity.
    + destruct H as (_ & _ & b & af & Hsp & _ & Hg). rewrite Hsp. exact Hg.
    + destruct H as (Hw & [H | (_ & b & af & Hsp & Hg)]); [congruence|].
      rewrite Hsp, Hw, app_nil_r. exact Hg.
  - assert (Hge : (count_subs h <= s)%nat) by (rewrite <- Hn; apply nth_error_None; exact En).
    destruct (Hno _ Hge) as (Hsp & _ & Hg & _). rewrite Hsp, Hg. reflexivity.
Qed.

Fixpoint drain (a : aspec) (sa : asub) (n : nat) : list out :=
  match n with
  | O => []
  | S n => let '(sa', o) := a_next a sa in o :: drain a sa' n
  end.

Lemma drain_active a sa :
  a_state sa = AActive -> a_end sa = true ->
  drain a sa (S (length (a_owed sa))) = map OItem (a_owed sa) ++ [OStop].
Proof.
  intros Est Een. remember (a_owed sa) as ow eqn:Eow. revert sa Est Een Eow.
  induction ow as [|v r IH]; intros sa Est Een Eow; simpl.
  - rewrite a_next_resume by congruence. unfold a_resume. rewrite Est, <- Eow, Een. reflexivity.
  - rewrite a_next_resume by congruence. unfold a_resume. rewrite Est, <- Eow. f_equal.
    apply IH; simpl; auto.
Qed.

Lemma arun_from_app a ops ops' :
  arun_from a (ops ++ ops') =
  let '(a', xs) := arun_from a ops in let '(a'', ys) := arun_from a' ops' in (a'', xs ++ ys).
Proof.
  revert a; induction ops as [|o ops IH]; intros a; simpl.
  - destruct (arun_from a ops'). reflexivity.
  - destruct (astep a o) as [a1 x]. rewrite IH.
    destruct (arun_from a1 ops) as [a2 xs]. destruct (arun_from a2 ops') as [a3 ys]. reflexivity.
Qed.

Lemma arun_from_length a ops : length (snd (arun_from a ops)) = length ops.
Proof.
  revert a; induction ops as [|o ops IH]; intros a; simpl; [reflexivity|].
  destruct (astep a o) as [a1 x]. specialize (IH a1). destruct (arun_from a1 ops). simpl in *. congruence.
Qed.

Lemma a_next_ext a a' sa :
  a_cache a' = a_cache a -> a_since a' = a_since a -> a_ended a' = a_ended a ->
  a_next a' sa = a_next a sa.
Proof. intros H1 H2 H3. unfold a_next. rewrite H1, H2, H3. reflexivity. Qed.

Lemma drain_ext a a' sa n :
  a_cache a' = a_cache a -> a_since a' = a_since a -> a_ended a' = a_ended a ->
  drain a' sa n = drain a sa n.
Proof.
  intros H1 H2 H3. revert sa; induction n as [|n IH]; intros sa; simpl; auto.
  rewrite (a_next_ext a a') by assumption. destruct (a_next a sa). rewrite IH. reflexivity.
Qed.

Lemma drain_run n : forall a s sa,
  nth_error (a_subs a) s = Some sa ->
  snd (arun_from a (repeat (Next s) n)) = drain a sa n.
Proof.
  induction n as [|n IH]; intros a s sa En; simpl; auto.
  rewrite En. destruct (a_next a sa) as [sa' o] eqn:Ea.
  match goal with |- context [arun_from ?A _] => set (a' := A) end.
  assert (En' : nth_error (a_subs a') s = Some sa') by (apply nth_upd_same, (nth_error_lt _ _ _ En)).
  specialize (IH a' s sa' En').
  destruct (arun_from a' (repeat (Next s) n)) as [a'' xs]. simpl in *. rewrite IH.
  f_equal. apply drain_ext; reflexivity.
Qed.

(** once the topic has ended no live subscriber can block, and each one stops
    after exactly the items it is still owed *)
Theorem spec_termination cache ops s sa :
  let a := arun cache ops in
  a_ended a = true -> nth_error (a_subs a) s = Some sa ->
  exists n, last (drain a sa (S n)) OBlocked = OStop /\ ~ In OBlocked (drain a sa (S n)).
Proof.
  intros a Hend En.
  pose proof (spec_Inv cache ops) as [Hca Hen Hsi Hn Hsu Hno].
  destruct (Hsu _ _ En) as (_ & H). fold a in Hen.
  destruct (a_state sa) eqn:Est.
  - exists O. simpl. rewrite (a_next_fresh _ _ Est), Hend. simpl. split; [reflexivity|]. intros [H0|[]]. discriminate.
  - destruct H as (_ & He & _). exists (length (a_owed sa)).
    rewrite drain_active; auto; [|congruence]. split.
    + rewrite last_last. reflexivity.
    + intros Hin. apply in_app_or in Hin. destruct Hin as [Hin|[Hin|[]]]; [|discriminate].
      apply in_map_iff in Hin. destruct Hin as (? & ? & _). discriminate.
  - exists O. simpl. rewrite a_next_resume by congruence. unfold a_resume. rewrite Est. simpl. split; [reflexivity|]. intros [H0|[]]. discriminate.
Qed.

Lemma until_close_app_noclose b x af :
  has_close b = false -> is_close x = false ->
  until_close (b ++ x :: af) = b ++ x :: until_close af.
Proof.
  induction b as [|[o y] b IH]; simpl; intros Hb Hx.
  - destruct x as [[] ?]; simpl in *; try reflexivity. discriminate.
  - unfold has_close in Hb. simpl in Hb. destruct o; simpl in *; try discriminate; f_equal; apply IH; auto.
Qed.

(** all subscribers see one order: the new items of every subscriber form a
    suffix of the single publication log of the topic's lifetime *)
Theorem one_order h s b af :
  split_start h s = Some (b, af) -> has_close b = false ->
  exists pre, pubs (until_close h) = pre ++ pubs (until_close af).
Proof.
  intros Hsp Hb. destruct (split_start_shape _ _ _ _ Hsp) as (x & -> & Hx).
  rewrite until_close_app_noclose by assumption.
  exists (pubs (b ++ [x])). change (x :: until_close af) with ([x] ++ until_close af).
  rewrite app_assoc, pubs_app. reflexivity.
Qed.

Theorem spec_latest cache ops :
  snd (astep (arun cache ops) Latest) =
  match rev (since_clear (ahist cache ops)) with v :: _ => OLatest (Some v) | [] => OErr end.
Proof.
  pose proof (spec_Inv cache ops) as [_ _ Hsi _ _ _]. simpl. rewrite Hsi. reflexivity.
Qed.
