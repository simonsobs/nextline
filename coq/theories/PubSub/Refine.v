(** Refinement: the model of PubSubItem (queues, indices, cache, sentinels)
    produces, for every operation sequence, exactly the outputs of the
    abstract specification. *)
From NL Require Import PubSub.Model PubSub.Lists PubSub.Spec PubSub.Delivery.
From Coq Require Import Lia.
Open Scope Z_scope.

Definition ent_vals (l : list ent) : list V :=
  flat_map (fun e => match e with It v => [v] | End => [] end) l.

Definition last_opt {A} (l : list A) : option A :=
  match rev l with x :: _ => Some x | [] => None end.

Lemma last_opt_snoc {A} (l : list A) x : last_opt (l ++ [x]) = Some x.
Proof. unfold last_opt. rewrite rev_app_distr. reflexivity. Qed.

Lemma lastl_snoc {A} (l : list A) x : lastl (l ++ [x]) = [x].
Proof. unfold lastl. rewrite rev_app_distr. reflexivity. Qed.

Lemma ent_vals_app a b : ent_vals (a ++ b) = ent_vals a ++ ent_vals b.
Proof. unfold ent_vals. apply flat_map_app. Qed.

Lemma ent_vals_map_It l : ent_vals (map It l) = l.
Proof. induction l as [|x l IH]; simpl; congruence. Qed.

Definition cache_wf (idx : Z) (c : list enumd) : Prop :=
  c = [] \/ exists c' e, c = c' ++ [(idx, e)] /\ Forall (fun x => fst x < idx) c'.

Definition Rsub (idx : Z) (ended : bool) (s : sub) (a : asub) : Prop :=
  s_last s = a_last a /\ s_cache s = a_cacheopt a /\
  match s_phase s, a_state a with
  | Fresh, AFresh => True
  | Finished, AFinished => True
  | Active, AActive =>
    s_last_idx s <= idx /\
    Forall (fun e => s_last_idx s < fst e <= idx) (s_queue s) /\
    (forall e, In e (s_pending s) -> e <> End) /\
    a_end a = ended /\
    exists qv, map snd (s_queue s) = map It qv ++ (if ended then [End] else []) /\
               a_owed a = ent_vals (s_pending s) ++ qv
  | _, _ => False
  end.

Record R (it : item) (a : aspec) : Prop := mkR {
  R_closed : i_closed it = a_ended a;
  R_cacheflag : a_cache a = match i_cache it with Some _ => true | None => false end;
  R_last_item : i_last_item it = last_opt (a_since a);
  R_idx : fst (i_last_enum it) = i_idx it;
  R_last_enum : snd (i_last_enum it) =
                if a_ended a then Some End else option_map It (last_opt (a_since a));
  R_cache : forall c, i_cache it = Some c ->
            map snd c = map It (a_since a) ++ (if a_ended a then [End] else []) /\ cache_wf (i_idx it) c;
  R_subs : Forall2 (Rsub (i_idx it) (a_ended a)) (i_subs it) (a_subs a)
}.

Lemma R_init cache : R (new_item cache) (new_aspec cache).
Proof.
  constructor; simpl; auto.
  - destruct cache; reflexivity.
  - intros c H. destruct cache; inversion H; subst. split; [reflexivity | left; reflexivity].
Qed.

Lemma cached_before_all c i : Forall (fun x => fst x < i) c -> forall r, cached_before (c ++ r) i = map snd c ++ cached_before r i.
Proof.
  induction 1 as [|[j e] c Hj H IH]; intros r; simpl; auto.
  simpl in Hj. destruct (Z.ltb_spec j i); [|lia]. rewrite IH. reflexivity.
Qed.

Lemma map_snoc_inv {A B} (f : A -> B) l m y :
  map f l = m ++ [y] -> exists l' x, l = l' ++ [x] /\ map f l' = m /\ f x = y.
Proof.
  revert m; induction l as [|a l IH]; intros m H; simpl in H.
  - destruct m; discriminate.
  - destruct m as [|b m]; simpl in H.
    + inversion H. destruct l; [|discriminate]. exists [], a. auto.
    + inversion H; subst. destruct (IH _ H2) as (l' & x & -> & <- & <-).
      exists (a :: l'), x. auto.
Qed.

Lemma push_R idx e s a :
  Rsub idx false s a ->
  Rsub (idx + 1) (match e with End => true | It _ => false end) (push (idx + 1, e) s)
       (match e with It v => a_push v a | End => a_finish a end).
Proof.
  intros (Hl & Hc & H). unfold push, a_push, a_finish, Rsub.
  destruct (s_phase s) eqn:Ep, (a_state a) eqn:Ea; try contradiction;
    try (destruct e; simpl; rewrite ?Ep, ?Ea; auto; fail).
  (* a started subscriber: the entry goes to the end of its queue *)
  destruct H as (Hi & Hq & Hp & He & qv & Hqv & Ho).
  assert (Hq' : Forall (fun x => s_last_idx s < fst x <= idx + 1) (s_queue s ++ [(idx + 1, e)])).
  { apply Forall_app; split; [eapply Forall_impl; [|exact Hq]; simpl; intros; lia|].
    constructor; [simpl; lia | constructor]. }
  destruct e as [v|]; simpl; rewrite ?Ep, ?Ea; repeat split; auto; try lia.
  - (* It v *)
    exists (qv ++ [v]). rewrite !map_app, Hqv, !app_nil_r. simpl.
    split; [reflexivity|]. rewrite Ho, app_assoc. reflexivity.
  - (* End *)
    exists qv. rewrite !map_app, Hqv, app_nil_r. simpl. auto.
Qed.

Lemma cache_wf_snoc idx c e : cache_wf idx c -> cache_wf (idx + 1) (c ++ [(idx + 1, e)]).
Proof.
  intros Hwf. right. exists c, e. split; [reflexivity|].
  destruct Hwf as [->|(c' & e' & -> & Hf)]; [constructor|].
  apply Forall_app; split; [eapply Forall_impl; [|exact Hf]; simpl; intros; lia|].
  constructor; [simpl; lia | constructor].
Qed.

Lemma Rsub_idx_mono idx idx' ended s a : idx <= idx' -> Rsub idx ended s a -> Rsub idx' ended s a.
Proof.
  intros Hle (Hl & Hc & H). unfold Rsub. repeat split; auto.
  destruct (s_phase s), (a_state a); auto.
  destruct H as (Hi & Hq & Hp & He & qv & Hqv & Ho).
  repeat split; auto; try lia.
  - eapply Forall_impl; [|exact Hq]. simpl; intros; lia.
  - eauto.
Qed.

Lemma read_queue_items (P : enumd -> Prop) last_idx q v r tl :
  (forall e, P e -> last_idx < fst e) -> Forall P q -> map snd q = It v :: map It r ++ tl ->
  exists q', read_queue last_idx q = (q', OItem v, false) /\ Forall P q' /\ map snd q' = map It r ++ tl.
Proof.
  intros HP Hq Hm. destruct q as [|[i e] q]; [discriminate|]. inversion Hm; subst.
  inversion Hq as [|? ? Hi Hq']; subst. apply HP in Hi. simpl in Hi.
  exists q. simpl. destruct (Z.ltb_spec last_idx i); [auto | lia].
Qed.

Lemma resume_R idx ended s a :
  Rsub idx ended s a ->
  let '(s', o) := resume_sub s in
  let '(a', o') := a_resume a in
  o = o' /\ Rsub idx ended s' a'.
Proof.
  intros HR. pose proof HR as (Hl & Hc & H). unfold resume_sub, a_resume.
  destruct (s_phase s) eqn:Ep, (a_state a) eqn:Ea; try contradiction.
  1,3: split; [reflexivity | exact HR].
  destruct H as (Hi & Hq & Hp & He & qv & Hqv & Ho).
  destruct (s_pending s) as [|[v|] pend] eqn:Epend.
  - (* read the queue *)
    simpl in Ho. subst qv.
    destruct (a_owed a) as [|v r] eqn:Eow.
    + (* nothing owed *)
      simpl in Hqv. destruct ended.
      * rewrite He. destruct (s_queue s) as [|[i e] q] eqn:Eq; simpl in Hqv; [discriminate|].
        inversion Hqv; subst e. simpl. split; [reflexivity|].
        unfold Rsub, finish_sub, a_done; simpl. auto.
      * rewrite He. destruct (s_queue s) as [|? ?] eqn:Eq; simpl in Hqv; [|discriminate].
        simpl. split; [reflexivity|].
        unfold Rsub; simpl. rewrite Ea. repeat split; auto.
        exists []. rewrite Eow. simpl. auto.
    + destruct (read_queue_items _ _ _ v r _ (fun e (H : s_last_idx s < fst e <= idx) => proj1 H) Hq Hqv)
        as (q' & -> & Hq' & Hm').
      split; [reflexivity|]. unfold Rsub; simpl. repeat split; auto. exists r. auto.
  - (* a pending old item *)
    simpl in Ho. rewrite Ho. split; [reflexivity|].
    unfold Rsub; simpl. repeat split; auto.
    + intros e He'. apply Hp. right. assumption.
    + exists qv. auto.
  - exfalso. apply (Hp End); [left; reflexivity | reflexivity].
Qed.

Lemma cached_before_R it a c pre v :
  R it a -> a_ended a = false -> a_since a = pre ++ [v] -> i_cache it = Some c ->
  cached_before c (i_idx it) = map It pre /\ c <> [].
Proof.
  intros HR Een Es Ec. destruct (R_cache _ _ HR _ Ec) as (Hm & Hwf).
  rewrite Een, app_nil_r, Es, map_app in Hm. simpl in Hm.
  destruct Hwf as [->|(c' & e' & -> & Hf)]; [destruct (map It pre); discriminate|].
  rewrite map_app in Hm. apply app_inj_tail in Hm. destruct Hm as (Hm & _).
  split; [|destruct c'; discriminate].
  rewrite cached_before_all by exact Hf. simpl. rewrite Z.ltb_irrefl, app_nil_r. exact Hm.
Qed.

(** while the topic is open, the old data the first `anext` collects (cached entries, then the last
    item) is the replay of the specification *)
Lemma start_pending it a l c :
  R it a -> a_ended a = false ->
  (if c && (l && match i_cache it with Some (_ :: _) => true | _ => false end)
   then match i_cache it with Some x => cached_before x (i_idx it) | None => [] end else [])
  ++ match option_map It (last_opt (a_since a)) with Some e => if l then [e] else [] | None => [] end
  = map It (replay (a_cache a) (a_since a) l c).
Proof.
  intros HR Een. rewrite (R_cacheflag _ _ HR). unfold replay.
  destruct (rev_case (a_since a)) as [Es | (pre & v & Es)]; rewrite Es.
  - (* nothing published since the last clear *)
    destruct (i_cache it) as [x|] eqn:Ec; [|destruct l, c; reflexivity].
    destruct (R_cache _ _ HR _ Ec) as (Hm & _). rewrite Es, Een in Hm.
    destruct x; [|discriminate]. destruct l, c; reflexivity.
  - rewrite last_opt_snoc. simpl. destruct (i_cache it) as [x|] eqn:Ec.
    + destruct (cached_before_R _ _ _ _ _ HR Een Es Ec) as (Hcb & Hne). rewrite Hcb.
      destruct x; [congruence|]. destruct l, c; simpl; rewrite ?lastl_snoc, ?map_app; reflexivity.
    + destruct l, c; simpl; rewrite ?lastl_snoc; reflexivity.
Qed.

Lemma start_R it a s sa :
  R it a -> Rsub (i_idx it) (a_ended a) s sa ->
  Rsub (i_idx it) (a_ended a) (start_sub it s)
       (if a_ended a then a_done sa
        else mkASub (a_last sa) (a_cacheopt sa) AActive
                    (replay (a_cache a) (a_since a) (a_last sa) (a_cacheopt sa)) false).
Proof.
  intros HR (Hl & Hc & H). unfold start_sub.
  destruct (i_last_enum it) as [li le] eqn:Ele.
  pose proof (R_idx _ _ HR) as Hidx. pose proof (R_last_enum _ _ HR) as Hle.
  rewrite Ele in Hidx, Hle. simpl in Hidx, Hle. subst li le.
  destruct (a_ended a) eqn:Een; [unfold Rsub, a_done; simpl; auto|].
  (* while the topic is open the last enumerated entry is not _END *)
  assert (Hne : forall (X Y : sub) o, match option_map It o with Some End => X | _ => Y end = Y)
    by (intros ? ? []; reflexivity).
  rewrite Hne. cbv zeta. rewrite (start_pending it a (s_last s) (s_cache s) HR Een).
  unfold Rsub; simpl. repeat split; auto; try lia.
  - intros e He. apply in_map_iff in He. destruct He as (x & <- & _). discriminate.
  - exists []. simpl. rewrite app_nil_r, ent_vals_map_It, Hl, Hc. auto.
Qed.

Lemma next_R it a s sa :
  R it a -> Rsub (i_idx it) (a_ended a) s sa ->
  let '(s', o) := next_sub it s in
  let '(a', o') := a_next a sa in
  o = o' /\ Rsub (i_idx it) (a_ended a) s' a'.
Proof.
  intros HR Hs. unfold next_sub. pose proof Hs as (_ & _ & H).
  destruct (s_phase s) eqn:Ep, (a_state sa) eqn:Ea; try contradiction.
  - (* the first anext *)
    rewrite (a_next_fresh a sa Ea). apply (resume_R _ _ _ _ (start_R _ _ _ _ HR Hs)).
  - rewrite a_next_resume by congruence. apply (resume_R _ _ _ _ Hs).
  - rewrite a_next_resume by congruence. apply (resume_R _ _ _ _ Hs).
Qed.

Lemma step_R it a o :
  R it a -> let '(it', x) := step it o in let '(a', y) := astep a o in x = y /\ R it' a'.
Proof.
  intros HR. pose proof HR as [Hcl Hcf Hli Hidx Hle Hca Hsu].
  destruct o as [v| | | |l c|s|s]; simpl.
  - (* Publish *)
    rewrite <- Hcl. destruct (i_closed it) eqn:Ecl; [split; [reflexivity | exact HR]|].
    split; [reflexivity|]. rewrite <- Hcl in *.
    constructor; simpl; auto.
    + destruct (i_cache it); auto.
    + rewrite last_opt_snoc. reflexivity.
    + rewrite last_opt_snoc. reflexivity.
    + intros c Hc. destruct (i_cache it) as [c0|] eqn:Ec; [|discriminate]. inversion Hc; subst c.
      destruct (Hca _ eq_refl) as (Hm & Hwf). split; [|apply cache_wf_snoc; exact Hwf].
      rewrite !map_app, Hm, !app_nil_r. reflexivity.
    + eapply Forall2_map; [|exact Hsu]. intros s sa Hs. apply (push_R _ (It v)); auto.
  - (* Clear *)
    rewrite <- Hcl. destruct (i_closed it) eqn:Ecl; [split; [reflexivity | exact HR]|].
    split; [reflexivity|]. rewrite <- Hcl in *.
    constructor; simpl; auto.
    + destruct (i_cache it); auto.
    + intros c Hc. destruct (i_cache it) as [c0|]; [|discriminate]. inversion Hc; subst.
      split; [reflexivity | left; reflexivity].
    + eapply Forall2_impl'; [|exact Hsu]. intros s sa Hs. eapply Rsub_idx_mono; [|exact Hs]. lia.
  - (* Close *)
    rewrite <- Hcl. destruct (i_closed it) eqn:Ecl; [split; [reflexivity | exact HR]|].
    split; [reflexivity|]. rewrite <- Hcl in *.
    constructor; simpl; auto.
    + destruct (i_cache it); auto.
    + intros c Hc. destruct (i_cache it) as [c0|] eqn:Ec; [|discriminate]. inversion Hc; subst c.
      destruct (Hca _ eq_refl) as (Hm & Hwf). split; [|apply cache_wf_snoc; exact Hwf].
      rewrite map_app, Hm, app_nil_r. reflexivity.
    + eapply Forall2_map; [|exact Hsu]. intros s sa Hs. apply (push_R _ End); auto.
  - (* Latest *)
    split; [|exact HR]. rewrite Hli. unfold last_opt. destruct (rev (a_since a)); reflexivity.
  - (* Sub *)
    split; [rewrite (Forall2_length' _ _ _ Hsu); reflexivity|].
    constructor; simpl; auto.
    apply Forall2_app; [exact Hsu|]. constructor; [|constructor]. unfold Rsub; simpl. auto.
  - (* Next *)
    destruct (nth_error (i_subs it) s) as [sb|] eqn:En.
    + destruct (Forall2_nth_error _ _ _ _ _ Hsu En) as (sa & Ena & Hs). rewrite Ena.
      pose proof (next_R _ _ _ _ HR Hs) as Hn.
      destruct (next_sub it sb) as [sb' x], (a_next a sa) as [sa' y]. destruct Hn as (-> & Hs').
      split; [reflexivity|]. constructor; simpl; auto.
      apply Forall2_upd; auto.
    + rewrite (Forall2_nth_error_none _ _ _ _ Hsu En). split; [reflexivity | exact HR].
  - (* Leave *)
    destruct (nth_error (i_subs it) s) as [sb|] eqn:En.
    + destruct (Forall2_nth_error _ _ _ _ _ Hsu En) as (sa & Ena & Hs). rewrite Ena.
      split; [reflexivity|]. constructor; simpl; auto.
      apply Forall2_upd; auto. destruct Hs as (Hl & Hc & _). unfold Rsub; simpl. auto.
    + rewrite (Forall2_nth_error_none _ _ _ _ Hsu En). split; [reflexivity | exact HR].
Qed.

Lemma run_from_R ops : forall it a,
  R it a -> snd (run_from it ops) = snd (arun_from a ops) /\ R (fst (run_from it ops)) (fst (arun_from a ops)).
Proof.
  induction ops as [|o ops IH]; intros it a HR; simpl; [auto|].
  pose proof (step_R it a o HR) as Hs.
  destruct (step it o) as [it' x], (astep a o) as [a' y]. destruct Hs as (-> & HR').
  destruct (IH _ _ HR') as (Ho & HRf).
  destruct (run_from it' ops), (arun_from a' ops). simpl in *. subst. auto.
Qed.

Theorem refinement cache ops : outs cache ops = aouts cache ops.
Proof. apply (run_from_R ops _ _ (R_init cache)). Qed.

Theorem refinement_state cache ops : R (run cache ops) (arun cache ops).
Proof. apply (run_from_R ops _ _ (R_init cache)). Qed.
