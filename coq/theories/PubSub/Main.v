(** The property theorems about the *model* of PubSubItem, obtained from the
    refinement (Refine.v) and the theorems about the specification
    (Delivery.v). *)
From NL Require Import PubSub.Model PubSub.Lists PubSub.Spec PubSub.Refine PubSub.Delivery.
From Coq Require Import Lia.
Open Scope Z_scope.

Definition history (cache : bool) (ops : list op) : hist := combine ops (outs cache ops).

(** what is in flight for subscriber s: old data still to be yielded + its queue *)
Definition owed_of (it : item) (s : nat) : list V :=
  match nth_error (i_subs it) s with
  | Some sb => match s_phase sb with
               | Active => ent_vals (s_pending sb) ++ ent_vals (map snd (s_queue sb))
               | _ => []
               end
  | None => []
  end.

Lemma history_eq cache ops : history cache ops = ahist cache ops.
Proof. unfold history, ahist. rewrite refinement, ahist_combine. reflexivity. Qed.

Lemma ent_vals_End l : ent_vals (map It l ++ [End]) = l.
Proof. rewrite ent_vals_app, ent_vals_map_It. simpl. apply app_nil_r. Qed.

Lemma owed_of_eq it a s :
  R it a ->
  (forall sa, nth_error (a_subs a) s = Some sa -> a_state sa <> AActive -> a_owed sa = []) ->
  owed_of it s = a_owed_of a s.
Proof.
  intros HR Hidle. unfold owed_of, a_owed_of. pose proof (R_subs _ _ HR) as Hsu.
  destruct (nth_error (i_subs it) s) as [sb|] eqn:En.
  - destruct (Forall2_nth_error _ _ _ _ _ Hsu En) as (sa & Ena & (_ & _ & H)). rewrite Ena.
    destruct (s_phase sb) eqn:Ep, (a_state sa) eqn:Ea; try contradiction.
    + symmetry. apply Hidle; congruence.
    + destruct H as (_ & _ & _ & _ & qv & Hq & Ho). rewrite Ho, Hq. f_equal.
      destruct (a_ended a); [apply ent_vals_End | rewrite app_nil_r; apply ent_vals_map_It].
    + symmetry. apply Hidle; congruence.
  - rewrite (Forall2_nth_error_none _ _ _ _ Hsu En). reflexivity.
Qed.

Lemma idle_owed cache ops s sa :
  nth_error (a_subs (arun cache ops)) s = Some sa -> a_state sa <> AActive -> a_owed sa = [].
Proof.
  intros En Hna. destruct (I_subs _ _ _ (spec_Inv cache ops) _ _ En) as (_ & H).
  destruct (a_state sa); [tauto | congruence | tauto].
Qed.

(** C08, delivery: for EVERY operation sequence and every subscriber that has
    not left, what it received so far followed by what is in flight for it is
    exactly the expected sequence determined by the history: (optional
    replay) ++ every item published between its start and the topic's end --
    nothing lost, duplicated or reordered. *)
Theorem model_exact_delivery cache ops s :
  let h := history cache ops in
  left_sub h s = false ->
  got h s ++ owed_of (run cache ops) s = expected cache h s.
Proof.
  intros h Hl. unfold h in *. rewrite history_eq in *.
  rewrite (owed_of_eq _ (arun cache ops)).
  - apply spec_exact_delivery. exact Hl.
  - apply refinement_state.
  - intros sa. apply idle_owed.
Qed.

(** a subscriber that has seen the end has received everything *)
Theorem model_complete_when_finished cache ops s sb :
  let h := history cache ops in
  left_sub h s = false ->
  nth_error (i_subs (run cache ops)) s = Some sb -> s_phase sb = Finished ->
  got h s = expected cache h s.
Proof.
  intros h Hl En Ep. pose proof (model_exact_delivery cache ops s Hl) as H.
  unfold owed_of in H. rewrite En, Ep, app_nil_r in H. exact H.
Qed.

Theorem model_latest cache ops :
  snd (step (run cache ops) Latest) =
  match rev (since_clear (history cache ops)) with v :: _ => OLatest (Some v) | [] => OErr end.
Proof.
  rewrite history_eq, <- spec_latest.
  pose proof (step_R _ _ Latest (refinement_state cache ops)) as H.
  destruct (step (run cache ops) Latest), (astep (arun cache ops) Latest). simpl. tauto.
Qed.

Theorem model_one_order cache ops s b af :
  let h := history cache ops in
  split_start h s = Some (b, af) -> has_close b = false ->
  expected cache h s =
    (match sub_opts h s with Some (l, c) => replay cache (since_clear b) l c | None => [] end)
    ++ match sub_opts h s with Some _ => pubs (until_close af) | None => [] end
  /\ exists pre, pubs (until_close h) = pre ++ pubs (until_close af).
Proof.
  intros h Hsp Hb. split.
  - rewrite expected_unfold, Hsp. unfold started_exp. rewrite Hb.
    destruct (sub_opts h s) as [[l c]|]; reflexivity.
  - eapply one_order; eauto.
Qed.

(** C08, clean end: once the topic has ended, a subscriber that keeps
    iterating never blocks and reaches the end of its iteration. *)
Theorem model_termination cache ops s :
  i_closed (run cache ops) = true -> (s < length (i_subs (run cache ops)))%nat ->
  exists n,
    let tail := skipn (length ops) (outs cache (ops ++ repeat (Next s) (S n))) in
    last tail OBlocked = OStop /\ ~ In OBlocked tail.
Proof.
  intros Hcl Hs.
  pose proof (refinement_state cache ops) as HR.
  assert (Hend : a_ended (arun cache ops) = true) by (rewrite <- (R_closed _ _ HR); exact Hcl).
  assert (Hlen : length (a_subs (arun cache ops)) = length (i_subs (run cache ops)))
    by (symmetry; eapply Forall2_length'; apply (R_subs _ _ HR)).
  destruct (nth_error (a_subs (arun cache ops)) s) as [sa|] eqn:En.
  2:{ apply nth_error_None in En. lia. }
  destruct (spec_termination cache ops s sa Hend En) as (n & Hlast & Hnb).
  exists n. cbv zeta. rewrite refinement. unfold aouts. rewrite arun_from_app.
  unfold arun in *. destruct (arun_from (new_aspec cache) ops) as [a xs] eqn:Er. cbn [fst snd] in *.
  pose proof (drain_run (S n) a s sa En) as Hd.
  destruct (arun_from a (repeat (Next s) (S n))) as [a'' ys]. cbn [fst snd] in *.
  assert (Hxs : length xs = length ops).
  { pose proof (arun_from_length (new_aspec cache) ops) as H. rewrite Er in H. exact H. }
  rewrite <- Hxs, skipn_app, skipn_all, Nat.sub_diag. cbn [skipn app].
  rewrite Hd. split; assumption.
Qed.
