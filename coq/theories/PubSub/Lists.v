(** Facts about lists ([nth_error], the model's [upd], [Forall2], lists taken apart at the end,
    membership tests) shared by the proofs about the model, the specification and the interpreter. *)
From NL Require Import PubSub.Model.
From Coq Require Import Lia.

Lemma nth_error_ext {A} (l1 l2 : list A) : (forall n, nth_error l1 n = nth_error l2 n) -> l1 = l2.
Proof.
  revert l2; induction l1 as [|a l1 IH]; intros [|b l2] H; auto.
  - specialize (H 0%nat). discriminate.
  - specialize (H 0%nat). discriminate.
  - pose proof (H 0%nat) as H0. simpl in H0. inversion H0; subst. f_equal. apply IH.
    intros n. exact (H (S n)).
Qed.

Lemma nth_upd_same {A} (l : list A) n x : (n < length l)%nat -> nth_error (upd l n x) n = Some x.
Proof. revert n; induction l; intros [|n] H; simpl in *; try lia; auto. apply IHl. lia. Qed.

Lemma nth_upd_other {A} (l : list A) n m x : n <> m -> nth_error (upd l n x) m = nth_error l m.
Proof. revert n m; induction l; intros [|n] [|m] H; simpl; auto; try congruence. Qed.

Lemma nth_upd {A} (l : list A) n m x :
  nth_error (upd l n x) m = if Nat.eqb n m then option_map (fun _ => x) (nth_error l m) else nth_error l m.
Proof.
  destruct (Nat.eqb_spec n m) as [->|Hn].
  - destruct (nth_error l m) eqn:E; simpl.
    + apply nth_upd_same. apply nth_error_Some. congruence.
    + apply nth_error_None. apply nth_error_None in E. clear -E. revert m E.
      induction l; intros [|m] E; simpl in *; try lia. apply le_n_S. apply IHl. lia.
  - apply nth_upd_other. exact Hn.
Qed.

Lemma upd_upd {A} (l : list A) n x y : upd (upd l n x) n y = upd l n y.
Proof. revert n; induction l; intros [|n]; simpl; auto. f_equal. apply IHl. Qed.

Lemma upd_same {A} (l : list A) n x : nth_error l n = Some x -> upd l n x = l.
Proof. revert n; induction l; intros [|n] H; simpl in *; try discriminate; [congruence|]. f_equal. apply IHl. exact H. Qed.

Lemma map_upd {A B} (f : A -> B) (l : list A) n x : map f (upd l n x) = upd (map f l) n (f x).
Proof. revert n; induction l; intros [|n]; simpl; auto. f_equal. apply IHl. Qed.

Lemma upd_length {A} (l : list A) n x : length (upd l n x) = length l.
Proof. revert n; induction l; intros [|n]; simpl; auto. Qed.

Lemma nth_error_lt {A} (l : list A) n x : nth_error l n = Some x -> (n < length l)%nat.
Proof. intros H. apply nth_error_Some. congruence. Qed.

Lemma nth_error_snoc {A} (l : list A) x n y :
  nth_error (l ++ [x]) n = Some y -> nth_error l n = Some y \/ n = length l /\ y = x.
Proof.
  intros H. destruct (Nat.lt_ge_cases n (length l)) as [Hlt|Hge].
  - rewrite nth_error_app1 in H by assumption. auto.
  - rewrite nth_error_app2 in H by assumption. destruct (n - length l)%nat as [|d] eqn:Ed; simpl in H.
    + inversion H. right. split; [lia | reflexivity].
    + destruct d; discriminate.
Qed.

Lemma nodup_snoc {A} (l : list A) x : NoDup l -> ~ In x l -> NoDup (l ++ [x]).
Proof.
  induction l as [|a l IH]; intros Hnd Hx; simpl.
  - constructor; [intros [] | constructor].
  - inversion Hnd; subst. constructor.
    + rewrite in_app_iff. simpl. intros [H|[H|[]]]; [contradiction | subst; apply Hx; left; reflexivity].
    + apply IH; auto. intros H. apply Hx. right. exact H.
Qed.

Lemma rev_case {A} (l : list A) : l = [] \/ exists l' x, l = l' ++ [x].
Proof. destruct (rev l) eqn:E.
  - left. apply (f_equal (@rev A)) in E. rewrite rev_involutive in E. exact E.
  - right. apply (f_equal (@rev A)) in E. rewrite rev_involutive in E. simpl in E. eauto.
Qed.

Lemma existsb_eqb_in s qs : existsb (Nat.eqb s) qs = true <-> In s qs.
Proof.
  rewrite existsb_exists. split.
  - intros (x & Hin & Hx). apply Nat.eqb_eq in Hx. subst x. exact Hin.
  - intros Hin. exists s. split; [exact Hin | apply Nat.eqb_refl].
Qed.

Lemma Forall2_length' {A B} (P : A -> B -> Prop) l l' : Forall2 P l l' -> length l = length l'.
Proof. induction 1; simpl; congruence. Qed.

Lemma Forall2_nth_error {A B} (P : A -> B -> Prop) l l' n x :
  Forall2 P l l' -> nth_error l n = Some x -> exists y, nth_error l' n = Some y /\ P x y.
Proof.
  intros H; revert n; induction H as [|a b l l' Hab H IH]; intros [|n] Hn; simpl in *; try discriminate.
  - inversion Hn; subst; eauto.
  - eauto.
Qed.

Lemma Forall2_nth_error_none {A B} (P : A -> B -> Prop) l l' n :
  Forall2 P l l' -> nth_error l n = None -> nth_error l' n = None.
Proof.
  intros H; revert n; induction H; intros [|n] Hn; simpl in *; try discriminate; auto.
Qed.

Lemma Forall2_upd {A B} (P : A -> B -> Prop) l l' n x y :
  Forall2 P l l' -> P x y -> Forall2 P (upd l n x) (upd l' n y).
Proof.
  intros H; revert n; induction H; intros [|n] Hxy; simpl; constructor; auto.
Qed.

Lemma Forall2_map {A B} (P Q : A -> B -> Prop) f g l l' :
  (forall a b, P a b -> Q (f a) (g b)) -> Forall2 P l l' -> Forall2 Q (map f l) (map g l').
Proof. intros HPQ H; induction H; simpl; constructor; auto. Qed.

Lemma Forall2_impl' {A B} (P Q : A -> B -> Prop) l l' :
  (forall a b, P a b -> Q a b) -> Forall2 P l l' -> Forall2 Q l l'.
Proof. intros HPQ H; induction H; constructor; auto. Qed.
