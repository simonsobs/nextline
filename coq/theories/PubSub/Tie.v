(** Tie of the hand-written model PubSub/Model.v to the source: the REGENERATED method
    bodies of Gen/PubSubFuns.v (translate/pubsub_funs.py), run by the interpreter of
    PubSub/Interp.v, compute exactly the operations of the model.

    [abs] maps the interpreter's state (attributes + one frame per generator object:
    rest of the body, locals, queue) onto the model's record [item]; [wf] says that the
    frame of every suspended generator is one of the four rests the regenerated body
    of `subscribe` can be suspended at (built here from the regenerated body itself,
    nothing is copied by hand).  For every wf state and every operation,
      istep ps o = Some (ps', snd (step (abs ps) o)),  abs ps' = fst (step (abs ps) o),  wf ps'
    ([tie_step]); hence for every operation sequence the interpreter's outputs are the
    model's ([tie_outs]) and every theorem of Props/C08.v about [outs] is a theorem about
    the regenerated code. *)
From NL Require Import PubSub.Model PubSub.Lists PubSub.Syntax Gen.PubSubFuns PubSub.Interp.
From Coq Require Import Lia.
Open Scope Z_scope.

(** the places at which the regenerated `subscribe` can be suspended *)
Fixpoint last_stmt (s : stmt) : stmt := match s with SSeq _ b => last_stmt b | x => x end.

Definition sub_try : stmt := Eval cbv in (last_stmt item_subscribe_body).
Definition sub_fin : stmt := Eval cbv in (match sub_try with STry _ f => f | _ => SSkip end).
Definition sub_tbody : stmt := Eval cbv in (match sub_try with STry b _ => b | _ => SSkip end).
Definition sub_tail : stmt := Eval cbv in (match sub_tbody with SSeq _ t => t | _ => SSkip end).
Definition sub_loop : stmt := Eval cbv in (match sub_tail with SSeq _ w => w | _ => SSkip end).
Definition sub_wbody : stmt := Eval cbv in (match sub_loop with SWhileTrue b => b | _ => SSkip end).
Definition sub_fbody : stmt := Eval cbv in (match sub_tbody with SSeq (SIf _ (SFor2 _ _ _ b) _) _ => b | _ => SSkip end).

(** inside the replay loop, [rest] = the cached entries not looked at yet *)
Definition K_for (rest : list enumd) : stmt :=
  STry (SSeq (SFor2Run SSkip "idx" "item" (CList rest) sub_fbody) sub_tail) sub_fin.
(** at `yield last_item` *)
Definition K_last : stmt := STry (SSeq SSkip sub_loop) sub_fin.
(** at the `yield item` of the queue loop *)
Definition K_loop : stmt := STry (SWhileRun SSkip sub_wbody) sub_fin.
(** in `await q.get()` on an empty queue *)
Definition K_blk : stmt := STry (SWhileRun sub_wbody sub_wbody) sub_fin.

Definition env_int (en : env) (x : string) : Z := match en x with VInt z => z | _ => 0 end.

Definition last_part (en : env) : list ent :=
  match en "last"%string, en "last_item"%string with
  | VBool true, VEnt (Some e) => [e]
  | _, _ => []
  end.

(** old data a suspended generator will still yield before it turns to its queue *)
Definition pending_of (k : stmt) (en : env) : list ent :=
  match k with
  | STry (SSeq (SFor2Run _ _ _ (CList rest) _) _) _ =>
    cached_before rest (env_int en "last_idx") ++ last_part en
  | _ => []
  end.

Definition abs_gen (g : gen) : sub :=
  match g_status g with
  | GFresh => mkSub (g_last g) (g_cache g) Fresh 0 [] []
  | GSusp k => mkSub (g_last g) (g_cache g) Active (env_int (g_env g) "last_idx")
                     (pending_of k (g_env g)) (g_queue g)
  | GDone => mkSub (g_last g) (g_cache g) Finished (env_int (g_env g) "last_idx") [] []
  end.

Definition abs (ps : pstate) : item :=
  mkItem (p_cache ps) (p_idx ps) (p_last_enum ps) (p_last_item ps) (p_closed ps)
         (map abs_gen (p_gens ps)).

Definition suspended (g : gen) : Prop := exists k, g_status g = GSusp k.

Definition wf_gen (s : nat) (g : gen) : Prop :=
  match g_status g with
  | GFresh =>
    g_env g "last"%string = VBool (g_last g) /\ g_env g "cache"%string = VBool (g_cache g) /\
    g_env g "last_idx"%string = VUnbound /\ g_queue g = []
  | GSusp k =>
    ((exists rest, k = K_for rest) \/ k = K_last \/ k = K_loop \/ k = K_blk) /\
    g_env g "last"%string = VBool (g_last g) /\
    (exists li, g_env g "last_idx"%string = VInt li) /\
    g_env g "q"%string = VQueue s /\
    (exists oe, g_env g "last_item"%string = VEnt oe /\ oe <> Some End)
  | GDone => True
  end.

Definition wf (ps : pstate) : Prop :=
  NoDup (p_queues ps) /\
  (forall s, In s (p_queues ps) <-> exists g, nth_error (p_gens ps) s = Some g /\ suspended g) /\
  (forall s g, nth_error (p_gens ps) s = Some g -> wf_gen s g).

Definition tied (ps : pstate) (o : op) : Prop :=
  exists ps', istep ps o = Some (ps', snd (step (abs ps) o)) /\
              abs ps' = fst (step (abs ps) o) /\ wf ps'.

Definition put_gen (ps : pstate) (s : nat) (g : gen) : pstate := with_gens ps (upd (p_gens ps) s g).

Lemma set_queue_put ps s g q :
  nth_error (p_gens ps) s = Some g -> set_queue ps s q = put_gen ps s (gen_set_queue g q).
Proof. intros H. unfold set_queue. rewrite H. reflexivity. Qed.

Lemma upd_gen_put ps s g st en :
  nth_error (p_gens ps) s = Some g ->
  upd_gen ps s st en = put_gen ps s (mkGen (g_last g) (g_cache g) st en (g_queue g)).
Proof. intros H. unfold upd_gen. rewrite H. reflexivity. Qed.

Lemma put_gen_nth ps s g g' :
  nth_error (p_gens ps) s = Some g -> nth_error (p_gens (put_gen ps s g')) s = Some g'.
Proof. intros H. simpl. apply nth_upd_same. apply nth_error_Some. congruence. Qed.

Lemma put_put ps s a b : put_gen (put_gen ps s a) s b = put_gen ps s b.
Proof. unfold put_gen, with_gens. simpl. rewrite upd_upd. reflexivity. Qed.

Lemma abs_put ps s g' :
  abs (put_gen ps s g') = set_subs (abs ps) (upd (i_subs (abs ps)) s (abs_gen g')).
Proof. unfold abs, put_gen, with_gens, set_subs. simpl. rewrite map_upd. reflexivity. Qed.

Lemma abs_with_queues ps l : abs (with_queues ps l) = abs ps.
Proof. reflexivity. Qed.

Lemma abs_nth ps s : nth_error (i_subs (abs ps)) s = option_map abs_gen (nth_error (p_gens ps) s).
Proof. simpl. apply nth_error_map. Qed.

Lemma put_gen_same ps s g : nth_error (p_gens ps) s = Some g -> put_gen ps s g = ps.
Proof. intros H. unfold put_gen, with_gens. rewrite (upd_same _ _ _ H). destruct ps; reflexivity. Qed.

Lemma gen_set_queue_same g : gen_set_queue g (g_queue g) = g.
Proof. destruct g; reflexivity. Qed.

Lemma put_gen_queue_same ps s g : nth_error (p_gens ps) s = Some g -> ps = put_gen ps s (gen_set_queue g (g_queue g)).
Proof. intros E. rewrite gen_set_queue_same, (put_gen_same _ _ _ E). reflexivity. Qed.

(** `_enumerate`: the loop `for q in list(self._queues): await q.put(enumerated)` *)
Definition add_entry (e : enumd) (g : gen) : gen := gen_set_queue g (g_queue g ++ [e]).

Definition push_all (e : enumd) (qs : list nat) (gens : list gen) : list gen :=
  fold_left (fun gs n => match nth_error gs n with Some g => upd gs n (add_entry e g) | None => gs end) qs gens.

Lemma push_all_nth e qs : forall gens s, NoDup qs ->
  nth_error (push_all e qs gens) s =
  option_map (fun g => if existsb (Nat.eqb s) qs then add_entry e g else g) (nth_error gens s).
Proof.
  induction qs as [|n r IH]; intros gens s Hnd; simpl.
  - destruct (nth_error gens s); reflexivity.
  - inversion Hnd as [|? ? Hnotin Hnd']; subst. unfold push_all in *. simpl.
    rewrite IH by assumption. destruct (Nat.eqb_spec s n) as [->|Hne]; simpl.
    + assert (Hex : existsb (Nat.eqb n) r = false).
      { destruct (existsb (Nat.eqb n) r) eqn:Ex; auto. apply existsb_eqb_in in Ex. contradiction. }
      rewrite Hex. destruct (nth_error gens n) as [g|] eqn:E.
      * rewrite nth_upd_same by (apply nth_error_Some; congruence). reflexivity.
      * rewrite E. reflexivity.
    + destruct (nth_error gens n) as [g|] eqn:E; auto.
      rewrite nth_upd_other by congruence. reflexivity.
Qed.

Lemma abs_add_entry e g : abs_gen (add_entry e g) = push e (abs_gen g).
Proof. unfold abs_gen, add_entry, push. simpl. destruct (g_status g); reflexivity. Qed.

Lemma push_all_abs e qs gens :
  NoDup qs -> (forall s g, nth_error gens s = Some g -> suspended g -> In s qs) ->
  map abs_gen (push_all e qs gens) = map (push e) (map abs_gen gens).
Proof.
  intros Hnd Hs. apply nth_error_ext. intros s.
  rewrite !nth_error_map, push_all_nth by assumption.
  destruct (nth_error gens s) as [g|] eqn:E; simpl; auto. f_equal.
  destruct (existsb (Nat.eqb s) qs) eqn:Ex; [apply abs_add_entry|].
  unfold abs_gen, push. destruct (g_status g) eqn:Est; simpl; auto.
  assert (Hin : In s qs) by (apply (Hs s g E); eexists; eauto).
  apply existsb_eqb_in in Hin. congruence.
Qed.

Lemma push_all_length e qs : forall gens, length (push_all e qs gens) = length gens.
Proof.
  induction qs as [|n r IH]; intros gens; auto. unfold push_all in *. simpl.
  destruct (nth_error gens n); rewrite IH; auto. apply upd_length.
Qed.

(** The loop body `await q.put(enumerated)` is written out in the statement: a pin of that one-statement
    fragment, which the regenerated `_enumerate` must contain for [enum_spec] to go through; everything
    around it is executed from the generated term. *)
Lemma for1_put i x : forall qs ps en,
  (forall n, In n qs -> (n < length (p_gens ps))%nat) ->
  en "enumerated"%string = VPair i (Some x) ->
  exists en', en' "enumerated"%string = VPair i (Some x) /\
    for1_list (exec no_enum 0 0 (SAwaitPut (EVar "q") (EVar "enumerated"))) "q" qs ps en
    = RNorm (with_gens ps (push_all (i, x) qs (p_gens ps))) en'.
Proof.
  induction qs as [|n r IH]; intros ps en Hv He.
  - exists en. split; auto. simpl. unfold with_gens. destruct ps; reflexivity.
  - assert (Hn : (n < length (p_gens ps))%nat) by (apply Hv; left; auto).
    destruct (nth_error (p_gens ps) n) as [g|] eqn:Eg; [|apply nth_error_None in Eg; lia].
    set (run := exec no_enum 0 0 (SAwaitPut (EVar "q") (EVar "enumerated"))) in *.
    assert (Hrun : run ps (set en "q" (VQueue n)) =
                   RNorm (put_gen ps n (gen_set_queue g (g_queue g ++ [(i, x)]))) (set en "q" (VQueue n))).
    { unfold run. cbn. rewrite He. unfold get_queue. rewrite Eg. cbn [option_map].
      rewrite (set_queue_put _ _ _ _ Eg). reflexivity. }
    cbn [for1_list]. rewrite Hrun.
    destruct (IH (put_gen ps n (gen_set_queue g (g_queue g ++ [(i, x)]))) (set en "q" (VQueue n))) as (en' & He' & IH').
    + intros m Hm. simpl. rewrite upd_length. apply Hv. right. exact Hm.
    + exact He.
    + exists en'. split; auto. rewrite IH'. unfold push_all. simpl. rewrite Eg. reflexivity.
Qed.

Lemma wf_gen_add_entry s e g : suspended g -> wf_gen s g -> wf_gen s (add_entry e g).
Proof. intros (k & Hk). unfold wf_gen. simpl. rewrite Hk. auto. Qed.

Lemma suspended_add_entry e g : suspended (add_entry e g) <-> suspended g.
Proof. unfold suspended. simpl. tauto. Qed.

Lemma wf_push_all ps e :
  wf ps -> wf (with_gens ps (push_all e (p_queues ps) (p_gens ps))).
Proof.
  intros (Hnd & Hq & Hg). split; [exact Hnd|]. split.
  - intros s. simpl. rewrite Hq, push_all_nth by exact Hnd.
    destruct (nth_error (p_gens ps) s) as [g|]; simpl; [|split; intros (g' & E' & _); discriminate].
    assert (Hb : forall b : bool, suspended (if b then add_entry e g else g) <-> suspended g)
      by (intros []; [apply suspended_add_entry | tauto]).
    split; intros (g' & E' & Hs); inversion E'; subst g'; eexists; (split; [reflexivity|]); eapply Hb; exact Hs.
  - intros s g' E'. simpl in E'. rewrite push_all_nth in E' by exact Hnd.
    destruct (nth_error (p_gens ps) s) as [g|] eqn:E; [|discriminate]. simpl in E'. inversion E'; subst g'.
    destruct (existsb (Nat.eqb s) (p_queues ps)) eqn:Ex; [|exact (Hg _ _ E)].
    apply existsb_eqb_in, Hq in Ex. destruct Ex as (g0 & E0 & Hs0). rewrite E in E0. inversion E0; subst g0.
    apply wf_gen_add_entry; [exact Hs0 | exact (Hg _ _ E)].
Qed.

Lemma wf_queues_valid ps : wf ps -> forall n, In n (p_queues ps) -> (n < length (p_gens ps))%nat.
Proof.
  intros (_ & Hq & _) n Hin. apply Hq in Hin. destruct Hin as (g & E & _).
  apply nth_error_Some. congruence.
Qed.

(** symbolic execution: one equation for each form of statement that [ex1] or a proof below steps
    through by name, and for one round of each loop *)

Section ExecEq.
Variable ce : pstate -> value -> option pstate.
Variable me fu : nat.
Notation ex := (exec ce me fu).

Lemma exec_skip ps en : ex SSkip ps en = RNorm ps en.
Proof. reflexivity. Qed.
Lemma exec_seq a b ps en : ex (SSeq a b) ps en =
  match ex a ps en with
  | RNorm ps' en' => ex b ps' en'
  | RYield v k ps' en' => RYield v (SSeq k b) ps' en'
  | RBlock k ps' en' => RBlock (SSeq k b) ps' en'
  | r => r
  end.
Proof. reflexivity. Qed.
Lemma exec_assign ts e ps en : ex (SAssign ts e) ps en =
  match eval me ps en e with
  | Some v => match assign_all ts v ps en with Some (ps', en') => RNorm ps' en' | None => RStuck end
  | None => RStuck
  end.
Proof. reflexivity. Qed.
Lemma exec_if c t f ps en : ex (SIf c t f) ps en =
  match cond me ps en c with Some true => ex t ps en | Some false => ex f ps en | None => RStuck end.
Proof. reflexivity. Qed.
Lemma exec_for2 x y e body ps en : ex (SFor2 x y e body) ps en =
  match eval me ps en e with
  | Some (VEnums l) => for2_list (ex body) x y body l ps en
  | Some (VLive a) => for2_live (ex body) x y body a fu 0 ps en
  | _ => RStuck
  end.
Proof. reflexivity. Qed.
Lemma exec_for2run cur x y c body ps en : ex (SFor2Run cur x y c body) ps en =
  match ex cur ps en with
  | RNorm ps' en' =>
    match c with
    | CList r => for2_list (ex body) x y body r ps' en'
    | CLive a pos => for2_live (ex body) x y body a fu pos ps' en'
    end
  | RBrk ps' en' => RNorm ps' en'
  | RYield v k ps' en' => RYield v (SFor2Run k x y c body) ps' en'
  | RBlock k ps' en' => RBlock (SFor2Run k x y c body) ps' en'
  | r => r
  end.
Proof. reflexivity. Qed.
Lemma exec_for1 x e body ps en : ex (SFor1 x e body) ps en =
  match eval me ps en e with
  | Some (VQueueList l) => for1_list (ex body) x l ps en
  | _ => RStuck
  end.
Proof. reflexivity. Qed.
Lemma exec_while body ps en : ex (SWhileTrue body) ps en = while_loop (ex body) body fu ps en.
Proof. reflexivity. Qed.
Lemma exec_whilerun cur body ps en : ex (SWhileRun cur body) ps en =
  match ex cur ps en with
  | RNorm ps' en' => while_loop (ex body) body fu ps' en'
  | RBrk ps' en' => RNorm ps' en'
  | RYield v k ps' en' => RYield v (SWhileRun k body) ps' en'
  | RBlock k ps' en' => RBlock (SWhileRun k body) ps' en'
  | r => r
  end.
Proof. reflexivity. Qed.
Lemma exec_try body fin ps en : ex (STry body fin) ps en =
  match ex body ps en with
  | RYield v k ps' en' => RYield v (STry k fin) ps' en'
  | RBlock k ps' en' => RBlock (STry k fin) ps' en'
  | RStuck => RStuck
  | RNorm ps' en' as r0 | RRet _ ps' en' as r0 | RBrk ps' en' as r0 | RRaise ps' en' as r0 =>
    after_fin r0 (ex fin ps' en')
  end.
Proof. reflexivity. Qed.
End ExecEq.

Lemma while_loop_S run b n ps en : while_loop run b (S n) ps en =
  match run ps en with
  | RNorm ps' en' => while_loop run b n ps' en'
  | RBrk ps' en' => RNorm ps' en'
  | RYield v k ps' en' => RYield v (SWhileRun k b) ps' en'
  | RBlock k ps' en' => RBlock (SWhileRun k b) ps' en'
  | r' => r'
  end.
Proof. reflexivity. Qed.

Lemma for2_list_cons run x y body i e r ps en : for2_list run x y body ((i, e) :: r) ps en =
  match run ps (set (set en x (VInt i)) y (VEnt (Some e))) with
  | RNorm ps' en' => for2_list run x y body r ps' en'
  | RBrk ps' en' => RNorm ps' en'
  | RYield v k ps' en' => RYield v (SFor2Run k x y (CList r) body) ps' en'
  | RBlock k ps' en' => RBlock (SFor2Run k x y (CList r) body) ps' en'
  | r' => r'
  end.
Proof. reflexivity. Qed.

Arguments exec : simpl never.
Arguments while_loop : simpl never.
Arguments for2_list : simpl never.
Arguments for2_live : simpl never.
Arguments for1_list : simpl never.
Arguments gen_fuel : simpl never.
Arguments set_queue : simpl never.
Arguments get_queue : simpl never.
Arguments upd_gen : simpl never.
Arguments put_gen : simpl never.
Arguments push_all : simpl never.

Ltac head t := lazymatch t with ?f _ => head f | _ => t end.

(** one step: the equation for the form of the statement being run; a statement without
    sub-statements (any other constructor) has its clause of [exec], which unfolding [exec] once gives *)
Ltac ex1 :=
  match goal with |- context [exec ?ce ?me ?fu ?st ?ps ?en] =>
    match st with
    | SSeq _ _ => rewrite exec_seq | SIf _ _ _ => rewrite exec_if
    | SFor2 _ _ _ _ => rewrite exec_for2 | SFor2Run _ _ _ _ _ => rewrite exec_for2run
    | SFor1 _ _ _ => rewrite exec_for1 | SWhileTrue _ => rewrite exec_while
    | SWhileRun _ _ => rewrite exec_whilerun | STry _ _ => rewrite exec_try
    | _ => let h := head st in is_constructor h;
           let r := eval lazy beta iota delta [exec] in (exec ce me fu st ps en) in
           change (exec ce me fu st ps en) with r
    end
  end.
(** expressions, assignments and lookups in a [set]-built environment, nothing else: a plain [cbn]
    also rewrites the statements still to be run *)
Ltac ev :=
  unfold cond;
  cbn [eval truthy is_same singleton attr_val assign_all assign1 set_attr negb andb option_map nonempty
       set String.eqb Ascii.eqb Bool.eqb Nat.eqb fst snd after_fin
       p_cache p_idx p_last_enum p_last_item p_closed p_queues p_gens with_cache with_queues].
Ltac exs := ev; repeat (ex1; ev).

(** `await self._enumerate(e)` on the regenerated body = [enumerate] of the model *)
Lemma enum_spec ps e : wf ps ->
  exists ps', enum_sem ps (VEnt (Some e)) = Some ps' /\ abs ps' = enumerate (abs ps) e /\ wf ps'
              /\ p_closed ps' = p_closed ps /\ p_last_item ps' = p_last_item ps.
Proof.
  intros Hwf. unfold enum_sem. cbn. unfold item_enumerate_body. exs.
  destruct (p_cache ps) as [c|] eqn:Ec; exs;
    (match goal with |- context [for1_list _ _ _ ?PS ?EN] =>
       destruct (for1_put (p_idx ps + 1) e (p_queues ps) PS EN (wf_queues_valid ps Hwf) eq_refl) as (en' & _ & ->) end;
     eexists; split; [reflexivity|]; split; [|split; [|split; reflexivity]];
     [ unfold abs, enumerate; cbn; rewrite Ec, push_all_abs;
       [reflexivity | apply Hwf | intros s g E Hs; apply Hwf; eauto]
     | exact (wf_push_all ps (p_idx ps + 1, e) Hwf) ]).
Qed.

Arguments enum_sem : simpl never.

Lemma tie_publish ps v : wf ps -> tied ps (Publish v).
Proof.
  intros Hwf. unfold tied, istep, run_method. cbn. unfold item_publish_body. exs.
  destruct (p_closed ps) eqn:Ecl; exs; [exists ps; auto|].
  (* [wf] reads `_queues` and the generators only: by conversion [Hwf] proves it of the state with `_last_item` set *)
  match goal with |- context [enum_sem ?PS _] => destruct (enum_spec PS (It v) Hwf) as (ps' & -> & Ha & Hw & _) end.
  exists ps'. cbn. rewrite Ha. auto.
Qed.

Lemma tie_clear ps : wf ps -> tied ps Clear.
Proof.
  intros Hwf. unfold tied, istep, run_method. cbn. unfold item_clear_body. exs.
  destruct (p_closed ps) eqn:Ecl; exs; [exists ps; auto|].
  destruct (p_cache ps) as [c|] eqn:Ec; exs;
    (eexists; split; [reflexivity|]; split; [|exact Hwf]; unfold abs, do_clear; cbn; rewrite Ec; reflexivity).
Qed.

Lemma tie_close ps : wf ps -> tied ps Close.
Proof.
  intros Hwf. unfold tied, istep, run_method. cbn. unfold item_aclose_body. exs.
  destruct (p_closed ps) eqn:Ecl; exs; [exists ps; auto|].
  match goal with |- context [enum_sem ?PS _] => destruct (enum_spec PS End Hwf) as (ps' & -> & Ha & Hw & _) end.
  exists ps'. cbn. rewrite Ha. auto.
Qed.

Lemma tie_latest ps : wf ps -> tied ps Latest.
Proof.
  intros Hwf. unfold tied, istep, run_method. cbn. unfold item_latest_body. exs.
  destruct (p_last_item ps) eqn:El; exs; rewrite ?El; exists ps; auto.
Qed.

Lemma tie_sub ps l c : wf ps -> tied ps (Sub l c).
Proof.
  intros Hwf. unfold tied, istep, isub, isub_call. cbn. rewrite map_length.
  eexists. split; [reflexivity|]. split; [unfold abs; cbn; rewrite map_app; reflexivity|].
  destruct Hwf as (Hnd & Hq & Hg). split; [exact Hnd|]. split.
  - intros s. cbn. rewrite Hq. split; intros (g & E & Hs).
    + exists g. split; [|exact Hs]. rewrite nth_error_app1; [exact E | apply (nth_error_lt _ _ _ E)].
    + destruct (nth_error_snoc _ _ _ _ E) as [E'|(_ & ->)]; [eauto|]. destruct Hs as (k & Hk). discriminate.
  - intros s g E. cbn in E. destruct (nth_error_snoc _ _ _ _ E) as [E'|(_ & ->)]; [apply (Hg _ _ E') | cbv; auto].
Qed.

Definition agree (en en' : env) : Prop :=
  forall x, x <> "idx"%string -> x <> "item"%string -> en' x = en x.

Lemma agree_refl en : agree en en.
Proof. intros x _ _. reflexivity. Qed.

Lemma agree_trans a b c : agree a b -> agree b c -> agree a c.
Proof. intros H1 H2 x Hi Ht. rewrite H2, H1; auto. Qed.

Lemma agree_set2 en i e : agree en (set (set en "idx" i) "item" e).
Proof.
  intros x Hi Ht. unfold set.
  destruct (String.eqb_spec "item" x); [congruence|]. destruct (String.eqb_spec "idx" x); [congruence|]. reflexivity.
Qed.

(** one iteration of `while True: idx, item = await q.get(); ...` *)
Lemma wbody_spec s F ps en g li :
  nth_error (p_gens ps) s = Some g ->
  en "q"%string = VQueue s -> en "last_idx"%string = VInt li ->
  exec enum_sem s F sub_wbody ps en =
  match g_queue g with
  | [] => RBlock sub_wbody ps en
  | (i, e) :: r =>
    let ps1 := put_gen ps s (gen_set_queue g r) in
    let en1 := set (set en "idx" (VInt i)) "item" (VEnt (Some e)) in
    match e with
    | End => RRet VNone ps1 en1
    | It v => if li <? i then RYield (VEnt (Some (It v))) SSkip ps1 en1 else RNorm ps1 en1
    end
  end.
Proof.
  intros E Hq Hl. let b := eval cbv in sub_wbody in change sub_wbody with b.
  exs. rewrite Hq. unfold get_queue. rewrite E. cbn.
  destruct (g_queue g) as [|[i e] r]; [reflexivity|]. cbn.
  rewrite (set_queue_put _ _ _ _ E). exs.
  destruct e as [v|]; unfold cond; cbn; exs; [|reflexivity].
  unfold cond; cbn. rewrite Hl. cbn. destruct (li <? i); cbn; exs; reflexivity.
Qed.

(** the queue loop of the regenerated body = [read_queue] of the model *)
Lemma while_spec s F li : forall qu n ps en g,
  nth_error (p_gens ps) s = Some g -> g_queue g = qu ->
  en "q"%string = VQueue s -> en "last_idx"%string = VInt li -> (length qu < n)%nat ->
  exists en', agree en en' /\
    while_loop (exec enum_sem s F sub_wbody) sub_wbody n ps en =
    match read_queue li qu with
    | (q', OItem v, _) => RYield (VEnt (Some (It v))) (SWhileRun SSkip sub_wbody) (put_gen ps s (gen_set_queue g q')) en'
    | (q', OStop, _) => RRet VNone (put_gen ps s (gen_set_queue g q')) en'
    | (q', _, _) => RBlock (SWhileRun sub_wbody sub_wbody) (put_gen ps s (gen_set_queue g q')) en'
    end.
Proof.
  induction qu as [|[i e] r IH]; intros n ps en g E Hqu Hq Hl Hn;
    (destruct n as [|n]; [simpl in Hn; lia|]);
    rewrite while_loop_S, (wbody_spec s F ps en g li E Hq Hl), Hqu; cbv beta iota zeta; cbn [read_queue].
  - exists en. split; [apply agree_refl|]. rewrite <- Hqu, <- (put_gen_queue_same ps s g E). reflexivity.
  - destruct e as [v|]; [destruct (li <? i) eqn:Elt|]; try (eexists; split; [apply agree_set2 | reflexivity]).
    destruct (IH n _ (set (set en "idx" (VInt i)) "item" (VEnt (Some (It v)))) (gen_set_queue g r)
                (put_gen_nth _ _ _ _ E) eq_refl Hq Hl) as (en' & Hag & ->);
      [simpl in Hn; lia|].
    exists en'. split; [eapply agree_trans; [apply agree_set2|exact Hag]|].
    destruct (read_queue li r) as [[q' o] fin]. rewrite !put_put. reflexivity.
Qed.

Lemma remove_first_spec s : forall l, In s l ->
  exists l', remove_first s l = Some l' /\
    (NoDup l -> NoDup l' /\ forall x, In x l' <-> (x <> s /\ In x l)).
Proof.
  induction l as [|a l IH]; intros Hin; [destruct Hin|]. simpl.
  destruct (Nat.eqb_spec s a) as [->|Hne].
  - exists l. split; auto. intros Hnd. inversion Hnd; subst. split; auto.
    intros x. simpl. destruct (Nat.eq_dec x a) as [->|]; intuition congruence.
  - destruct Hin as [->|Hin]; [congruence|]. destruct (IH Hin) as (l' & -> & Hl'). exists (a :: l'). split; auto.
    intros Hnd. inversion Hnd; subst. destruct (Hl' H2) as (Hnd' & Hi). split.
    + constructor; auto. rewrite Hi. tauto.
    + intros x. simpl. rewrite Hi. intuition congruence.
Qed.

(** the `finally` clause of the regenerated body *)
Lemma fin_spec s F ps en l' :
  en "q"%string = VQueue s -> remove_first s (p_queues ps) = Some l' ->
  exec enum_sem s F sub_fin ps en = RNorm (with_queues ps l') en.
Proof.
  intros Hq Hr. let b := eval cbv in sub_fin in change sub_fin with b.
  exs. rewrite Hq, Hr. reflexivity.
Qed.

(** one iteration of the replay loop *)
Lemma fbody_spec s F ps en li i e :
  en "last_idx"%string = VInt li ->
  exec enum_sem s F sub_fbody ps (set (set en "idx" (VInt i)) "item" (VEnt (Some e))) =
  let en1 := set (set en "idx" (VInt i)) "item" (VEnt (Some e)) in
  if i <? li then match e with
                  | End => RRet VNone ps en1
                  | It v => RYield (VEnt (Some (It v))) SSkip ps en1
                  end
  else RBrk ps en1.
Proof.
  intros Hl. let b := eval cbv in sub_fbody in change sub_fbody with b.
  rewrite (Z.ltb_antisym li i).
  exs. unfold cond. cbn. rewrite Hl. cbn. destruct (li <=? i); cbn; exs; [reflexivity|].
  destruct e; unfold cond; cbn; exs; reflexivity.
Qed.

(** the replay loop from [rest] on *)
Lemma for_spec s F ps en li rest :
  en "last_idx"%string = VInt li ->
  exists en', agree en en' /\
  for2_list (exec enum_sem s F sub_fbody) "idx" "item" sub_fbody rest ps en =
  match rest with
  | (i, e) :: r =>
    if i <? li then match e with
                    | End => RRet VNone ps en'
                    | It v => RYield (VEnt (Some (It v))) (SFor2Run SSkip "idx" "item" (CList r) sub_fbody) ps en'
                    end
    else RNorm ps en'
  | [] => RNorm ps en'
  end.
Proof.
  intros Hl. destruct rest as [|[i e] r].
  - exists en. split; [apply agree_refl | reflexivity].
  - exists (set (set en "idx" (VInt i)) "item" (VEnt (Some e))). split; [apply agree_set2|].
    rewrite for2_list_cons, (fbody_spec s F ps en li i e Hl). cbv zeta.
    destruct (i <? li); [destruct e|]; reflexivity.
Qed.

(** what the code below the prologue relies on in the locals *)
Record genv (s : nat) (en : env) (l : bool) (li : Z) (oe : option ent) : Prop := {
  ge_last : en "last"%string = VBool l;
  ge_li : en "last_idx"%string = VInt li;
  ge_q : en "q"%string = VQueue s;
  ge_item : en "last_item"%string = VEnt oe;
  ge_ne : oe <> Some End
}.

Lemma genv_agree s en en' l li oe : genv s en l li oe -> agree en en' -> genv s en' l li oe.
Proof.
  intros [H1 H2 H3 H4 H5] Ha. split; auto; rewrite Ha; auto; discriminate.
Qed.

Lemma last_part_agree en en' : agree en en' -> last_part en' = last_part en.
Proof. intros Ha. unfold last_part. rewrite !Ha by discriminate. reflexivity. Qed.

Definition shape (k : stmt) : Prop :=
  (exists rest, k = K_for rest) \/ k = K_last \/ k = K_loop \/ k = K_blk.

Lemma shape_for rest : shape (K_for rest).
Proof. left. eauto. Qed.
Lemma shape_last : shape K_last.
Proof. right; left; reflexivity. Qed.
Lemma shape_loop : shape K_loop.
Proof. right; right; left; reflexivity. Qed.
Lemma shape_blk : shape K_blk.
Proof. right; right; right; reflexivity. Qed.

Lemma read_queue_cases li : forall q q' o fin, read_queue li q = (q', o, fin) ->
  (fin = true /\ o = OStop) \/ (fin = false /\ ((o = OBlocked /\ q' = []) \/ exists v, o = OItem v)).
Proof.
  induction q as [|[i e] r IH]; intros q' o fin H; simpl in H.
  - inversion H; subst. right. split; auto.
  - destruct e as [v|].
    + destruct (li <? i); [inversion H; subst; right; split; eauto | eauto].
    + inversion H; subst. left. auto.
Qed.

Lemma upd_gen_put2 ps s g q' st en :
  nth_error (p_gens ps) s = Some g ->
  upd_gen (put_gen ps s (gen_set_queue g q')) s st en = put_gen ps s (mkGen (g_last g) (g_cache g) st en q').
Proof.
  intros E. rewrite (upd_gen_put _ _ _ _ _ (put_gen_nth _ _ _ _ E)), put_put. reflexivity.
Qed.

(** result of one `__anext__`, in the form the final assembly uses *)
Definition outcome (s : nat) (ps : pstate) (g : gen) (lq : list nat) (en : env)
           (r : option (pstate * out)) (sb : sub * out) : Prop :=
  exists st en' q' Q',
    r = Some (put_gen (with_queues ps Q') s (mkGen (g_last g) (g_cache g) st en' q'), snd sb) /\
    abs_gen (mkGen (g_last g) (g_cache g) st en' q') = fst sb /\
    agree en en' /\
    ((exists k, st = GSusp k /\ shape k /\ Q' = p_queues ps) \/ (st = GDone /\ Q' = lq)).

Lemma with_queues_same ps : with_queues ps (p_queues ps) = ps.
Proof. destruct ps; reflexivity. Qed.

(** an `__anext__` ends suspended again at [k] with queue [q'], or finished, `finally` having left `_queues` = [lq] *)
Lemma outcome_susp s ps ps1 g lq en en' li k q' pend o :
  nth_error (p_gens ps) s = Some g -> ps1 = put_gen ps s (gen_set_queue g q') ->
  en' "last_idx"%string = VInt li -> agree en en' -> shape k -> pending_of k en' = pend ->
  outcome s ps g lq en (Some (upd_gen ps1 s (GSusp k) en', o))
          (mkSub (g_last g) (g_cache g) Active li pend q', o).
Proof.
  intros E -> Hli Hag Hk <-. exists (GSusp k), en', q', (p_queues ps). split; [|split; [|split]].
  - rewrite upd_gen_put2 by exact E. rewrite with_queues_same. reflexivity.
  - unfold abs_gen. cbn. unfold env_int. rewrite Hli. reflexivity.
  - exact Hag.
  - left. exists k. auto.
Qed.

Lemma outcome_done s ps ps1 g lq en en' li q' :
  nth_error (p_gens ps) s = Some g -> ps1 = put_gen ps s (gen_set_queue g q') ->
  en' "last_idx"%string = VInt li -> agree en en' ->
  outcome s ps g lq en (Some (upd_gen (with_queues ps1 lq) s GDone en', OStop))
          (mkSub (g_last g) (g_cache g) Finished li [] [], OStop).
Proof.
  intros E -> Hli Hag. exists GDone, en', q', lq. split; [|split; [|split]].
  - change (with_queues (put_gen ps s ?x) lq) with (put_gen (with_queues ps lq) s x).
    rewrite upd_gen_put2 by exact E. reflexivity.
  - unfold abs_gen. cbn. unfold env_int. rewrite Hli. reflexivity.
  - exact Hag.
  - right. auto.
Qed.

(** from any of the places in / before the queue loop *)
Lemma core_loop s F W n ps en en0 g l li oe lq :
  nth_error (p_gens ps) s = Some g -> genv s en0 l li oe ->
  (length (g_queue g) < n)%nat -> remove_first s (p_queues ps) = Some lq ->
  exec enum_sem s F W ps en = while_loop (exec enum_sem s F sub_wbody) sub_wbody n ps en0 ->
  outcome s ps g lq en0 (settle s (exec enum_sem s F (STry W sub_fin) ps en))
          (resume_sub (mkSub (g_last g) (g_cache g) Active li [] (g_queue g))).
Proof.
  intros E Hen Hn Hr HW. rewrite exec_try, HW.
  destruct (while_spec s F li (g_queue g) n ps en0 g E eq_refl (ge_q _ _ _ _ _ Hen) (ge_li _ _ _ _ _ Hen) Hn)
    as (en' & Hag & ->).
  destruct (genv_agree _ _ _ _ _ _ Hen Hag) as [_ Hli Hq _ _].
  unfold resume_sub. cbn [s_phase s_pending s_last_idx s_queue s_last s_cache].
  destruct (read_queue li (g_queue g)) as [[q' o] fin] eqn:Erq.
  destruct (read_queue_cases _ _ _ _ _ Erq) as [(-> & ->)|(-> & [(-> & ->)|(v & ->)])]; cbn [settle].
  - (* _END *)
    rewrite (fin_spec s F (put_gen ps s (gen_set_queue g q')) en' lq Hq Hr).
    exact (outcome_done s ps _ g lq en0 en' li q' E eq_refl Hli Hag).
  - exact (outcome_susp s ps _ g lq en0 en' li K_blk [] [] OBlocked E eq_refl Hli Hag shape_blk eq_refl).
  - exact (outcome_susp s ps _ g lq en0 en' li K_loop q' [] (OItem v) E eq_refl Hli Hag shape_loop eq_refl).
Qed.

(** `if last and last_item is not _START: yield last_item`, then the queue loop *)
Lemma tail_spec s F ps en l li oe :
  genv s en l li oe ->
  exec enum_sem s F sub_tail ps en =
  match l, oe with
  | true, Some _ => RYield (VEnt oe) (SSeq SSkip sub_loop) ps en
  | _, _ => while_loop (exec enum_sem s F sub_wbody) sub_wbody F ps en
  end.
Proof.
  intros [H1 H2 H3 H4 H5]. let b := eval cbv in sub_tail in change sub_tail with b.
  exs. unfold cond. cbn. rewrite H1. cbn. destruct l; cbn.
  - rewrite H4. cbn. destruct oe as [[v|]|]; cbn; exs; reflexivity.
  - reflexivity.
Qed.

(** after the replay loop has ended (or was skipped): [X] stands for it *)
Lemma core_tail s F X ps en en0 g l li oe lq :
  nth_error (p_gens ps) s = Some g -> genv s en0 l li oe ->
  (length (g_queue g) < F)%nat -> remove_first s (p_queues ps) = Some lq ->
  exec enum_sem s F X ps en = RNorm ps en0 ->
  outcome s ps g lq en0 (settle s (exec enum_sem s F (STry (SSeq X sub_tail) sub_fin) ps en))
          (resume_sub (mkSub (g_last g) (g_cache g) Active li (last_part en0) (g_queue g))).
Proof.
  intros E Hen Hn Hr HX.
  assert (Hcase : (exists v, l = true /\ oe = Some (It v)) \/ last_part en0 = [] /\
                  exec enum_sem s F (SSeq X sub_tail) ps en = while_loop (exec enum_sem s F sub_wbody) sub_wbody F ps en0).
  { rewrite exec_seq, HX, (tail_spec s F ps en0 l li oe Hen). unfold last_part.
    rewrite (ge_last _ _ _ _ _ Hen), (ge_item _ _ _ _ _ Hen).
    destruct l; [|right; split; reflexivity]. destruct oe as [[v|]|].
    - left. eauto.
    - exfalso. apply (ge_ne _ _ _ _ _ Hen). reflexivity.
    - right. split; reflexivity. }
  destruct Hcase as [(v & -> & ->)|(Hlp & HW)].
  - rewrite exec_try, exec_seq, HX, (tail_spec s F ps en0 true li (Some (It v)) Hen).
    unfold last_part. rewrite (ge_last _ _ _ _ _ Hen), (ge_item _ _ _ _ _ Hen).
    cbn [settle resume_sub s_phase s_pending s_last s_cache s_last_idx s_queue].
    exact (outcome_susp s ps ps g lq en0 en0 li K_last _ [] _ E (put_gen_queue_same ps s g E)
             (ge_li _ _ _ _ _ Hen) (agree_refl en0) shape_last eq_refl).
  - rewrite Hlp. apply (core_loop s F _ F ps en en0 g l li oe lq E Hen Hn Hr HW).
Qed.

Lemma outcome_agree s ps g lq en en1 r sb :
  agree en en1 -> outcome s ps g lq en1 r sb -> outcome s ps g lq en r sb.
Proof.
  intros Ha (st & en' & q' & Q' & H1 & H2 & H3 & H4). exists st, en', q', Q'.
  repeat split; auto. eapply agree_trans; eauto.
Qed.

(** from inside the replay loop *)
Lemma core_for s F ps en g l li oe lq rest :
  nth_error (p_gens ps) s = Some g -> genv s en l li oe ->
  (length (g_queue g) < F)%nat -> remove_first s (p_queues ps) = Some lq ->
  outcome s ps g lq en (settle s (exec enum_sem s F (K_for rest) ps en))
          (resume_sub (mkSub (g_last g) (g_cache g) Active li
                             (cached_before rest li ++ last_part en) (g_queue g))).
Proof.
  intros E Hen Hn Hr.
  destruct (for_spec s F ps en li rest (ge_li _ _ _ _ _ Hen)) as (en1 & Hag & Hfor).
  assert (HX : exec enum_sem s F (SFor2Run SSkip "idx" "item" (CList rest) sub_fbody) ps en =
               for2_list (exec enum_sem s F sub_fbody) "idx" "item" sub_fbody rest ps en).
  { rewrite exec_for2run, exec_skip. reflexivity. }
  rewrite Hfor in HX.
  assert (Hen1 := genv_agree _ _ _ _ _ _ Hen Hag).
  destruct rest as [|[i e] r]; [|destruct (i <? li) eqn:Elt]; cbn [cached_before]; rewrite ?Elt; cbn [app].
  - (* no entry left *)
    rewrite <- (last_part_agree _ _ Hag). apply (outcome_agree _ _ _ _ _ _ _ _ Hag).
    apply (core_tail s F _ ps en en1 g l li oe lq E Hen1 Hn Hr HX).
  - (* an entry older than the subscription *)
    unfold K_for. rewrite exec_try, exec_seq, HX. destruct e as [v|].
    + cbn [settle resume_sub app s_phase s_pending s_last s_cache s_last_idx s_queue].
      apply (outcome_susp s ps ps g lq en en1 li (K_for r) _ _ _ E (put_gen_queue_same ps s g E)
               (ge_li _ _ _ _ _ Hen1) Hag (shape_for r)).
      cbn [pending_of K_for]. unfold env_int. rewrite (ge_li _ _ _ _ _ Hen1), (last_part_agree _ _ Hag). reflexivity.
    + rewrite (fin_spec s F ps en1 lq (ge_q _ _ _ _ _ Hen1) Hr).
      cbn [after_fin settle resume_sub app s_phase s_pending s_last s_cache s_last_idx s_queue].
      exact (outcome_done s ps ps g lq en en1 li _ E (put_gen_queue_same ps s g E) (ge_li _ _ _ _ _ Hen1) Hag).
  - (* an entry not older than the subscription: the loop breaks *)
    rewrite <- (last_part_agree _ _ Hag). apply (outcome_agree _ _ _ _ _ _ _ _ Hag).
    apply (core_tail s F _ ps en en1 g l li oe lq E Hen1 Hn Hr HX).
Qed.

Lemma wf_post ps Q s g G :
  wf ps -> nth_error (p_gens ps) s = Some g -> NoDup Q ->
  (forall x, In x Q <-> (x <> s /\ In x (p_queues ps)) \/ (x = s /\ suspended G)) ->
  wf_gen s G -> wf (put_gen (with_queues ps Q) s G).
Proof.
  intros (Hnd & Hq & Hg) E HndQ HQ HG. split; [exact HndQ|]. split.
  - intros x. change (p_queues (put_gen (with_queues ps Q) s G)) with Q.
    change (p_gens (put_gen (with_queues ps Q) s G)) with (upd (p_gens ps) s G).
    rewrite HQ, nth_upd. destruct (Nat.eqb_spec s x) as [->|Hne].
    + rewrite E. cbn [option_map]. split; [intros [(H & _)|(_ & H)]; [congruence | eauto]|].
      intros (g' & Eg & Hs). inversion Eg; subst. auto.
    + rewrite Hq. intuition congruence.
  - intros x g'. change (p_gens (put_gen (with_queues ps Q) s G)) with (upd (p_gens ps) s G).
    rewrite nth_upd. destruct (Nat.eqb_spec s x) as [->|Hne].
    + rewrite E. cbn [option_map]. intros H. inversion H; subst. exact HG.
    + apply Hg.
Qed.

(** a generator that is not suspended has no queue in `_queues`: finishing it changes nothing there *)
Lemma wf_done ps s g G :
  wf ps -> nth_error (p_gens ps) s = Some g -> ~ suspended g -> g_status G = GDone -> wf (put_gen ps s G).
Proof.
  intros Hwf E Hns HG. rewrite <- (with_queues_same ps) at 1. apply (wf_post ps _ s g _ Hwf E); [apply Hwf | |].
  - assert (Hnotin : ~ In s (p_queues ps)).
    { intros Hx. apply Hwf in Hx. destruct Hx as (g0 & E0 & Hs). rewrite E in E0. inversion E0; subst g0. contradiction. }
    assert (~ suspended G) by (intros (k & Hk); congruence).
    intros x. destruct (Nat.eq_dec x s) as [->|]; tauto.
  - unfold wf_gen. rewrite HG. exact I.
Qed.

Lemma next_assemble ps s g Qb en li oe sbr :
  wf ps -> nth_error (p_gens ps) s = Some g ->
  NoDup Qb -> (forall x, In x Qb <-> (x <> s /\ In x (p_queues ps)) \/ x = s) ->
  genv s en (g_last g) li oe ->
  (forall lq, remove_first s Qb = Some lq -> outcome s (with_queues ps Qb) g lq en (inext ps s) sbr) ->
  next_sub (abs ps) (abs_gen g) = sbr ->
  tied ps (Next s).
Proof.
  intros Hwf E HndQ HQ Hen Hout Hsb.
  destruct (remove_first_spec s Qb) as (lq & Hr & Hlq); [apply HQ; right; reflexivity|].
  destruct (Hlq HndQ) as (Hndlq & Hinlq).
  destruct (Hout lq Hr) as (st & en' & q' & Q' & H1 & H2 & Hag & Hst).
  assert (Hstep : step (abs ps) (Next s) =
                  (set_subs (abs ps) (upd (i_subs (abs ps)) s (fst sbr)), snd sbr)).
  { unfold step. rewrite abs_nth, E. cbn [option_map]. rewrite Hsb. destruct sbr; reflexivity. }
  unfold tied. rewrite Hstep. cbn [istep fst snd].
  exists (put_gen (with_queues ps Q') s (mkGen (g_last g) (g_cache g) st en' q')).
  split; [exact H1|]. split; [rewrite abs_put, abs_with_queues, H2; reflexivity|].
  assert (Hen' := genv_agree _ _ _ _ _ _ Hen Hag).
  destruct Hst as [(k & -> & Hk & ->)|(-> & ->)].
  - apply (wf_post ps _ s g _ Hwf E).
    + exact HndQ.
    + intros x. cbn [p_queues with_queues]. rewrite HQ.
      assert (suspended (mkGen (g_last g) (g_cache g) (GSusp k) en' q')) by (eexists; reflexivity). tauto.
    + unfold wf_gen. cbn [g_status g_env g_last].
      split; [exact Hk|]. destruct Hen' as [A B C D F0]. repeat split; eauto.
  - apply (wf_post ps _ s g _ Hwf E).
    + exact Hndlq.
    + intros x. rewrite Hinlq, HQ. split; [tauto|]. intros [H|(_ & (k & Hk))]; [tauto | discriminate].
    + exact I.
Qed.

Definition cache_list (ps : pstate) : list enumd := match p_cache ps with Some x => x | None => [] end.

(** the local `cached` *)
Definition cached_val (ps : pstate) : value :=
  match p_cache ps with Some x => VEnums x | None => VNone end.

Lemma prologue_spec s F ps en l li oe :
  p_last_enum ps = (li, oe) -> en "last"%string = VBool l ->
  let en2 := set (set (set en "last_idx" (VInt li)) "last_item" (VEnt oe)) "cached" (cached_val ps) in
  let en' := set (if l && nonempty (cache_list ps) then en2 else set en2 "cache" (VBool false)) "q" (VQueue s) in
  exec enum_sem s F item_subscribe_body ps en =
  match oe with
  | Some End => RRet VNone ps en2
  | _ => exec enum_sem s F sub_try (with_queues ps (p_queues ps ++ [s])) en'
  end.
Proof.
  intros Hle Hl. cbv zeta. unfold item_subscribe_body, cache_list, cached_val.
  match goal with |- context [STry ?a ?b] => change (STry a b) with sub_try end.
  generalize sub_try. intros T.
  rewrite exec_seq, exec_assign; ev; rewrite Hle; ev.
  rewrite exec_seq, exec_assign; ev.
  (* `last` is the only local of the caller read here: with its value in, the rest is evaluation *)
  destruct (p_cache ps) as [cl|], oe as [[v|]|]; exs; try reflexivity;
    rewrite Hl; destruct l; try reflexivity; destruct cl; reflexivity.
Qed.

Lemma try_spec s F ps en b :
  en "cache"%string = VBool b -> en "cached"%string = cached_val ps -> (b = true -> p_cache ps <> None) ->
  exec enum_sem s F sub_try ps en = exec enum_sem s F (K_for (if b then cache_list ps else [])) ps en.
Proof.
  intros Hc Hd Hb. unfold K_for, sub_try. rewrite !exec_try, !exec_seq, exec_for2run, exec_skip, exec_if.
  unfold cached_val, cache_list in *. ev. rewrite Hc. ev. destruct b; [|reflexivity].
  rewrite Hd. destruct (p_cache ps); [|now destruct Hb]. ev. rewrite exec_for2. ev. rewrite Hd. reflexivity.
Qed.

Lemma fresh_end s F ps en l li :
  p_last_enum ps = (li, Some End) -> en "last"%string = VBool l ->
  exists en', en' "last_idx"%string = VInt li /\ exec enum_sem s F item_subscribe_body ps en = RRet VNone ps en'.
Proof.
  intros Hle Hl. rewrite (prologue_spec s F ps en l li _ Hle Hl). eexists. split; [|reflexivity]. reflexivity.
Qed.

Lemma fresh_spec s F ps en l c li oe :
  p_last_enum ps = (li, oe) -> oe <> Some End ->
  en "last"%string = VBool l -> en "cache"%string = VBool c ->
  exists en', genv s en' l li oe /\
    exec enum_sem s F item_subscribe_body ps en =
    exec enum_sem s F (K_for (if c && (l && nonempty (cache_list ps)) then cache_list ps else []))
         (with_queues ps (p_queues ps ++ [s])) en'.
Proof.
  intros Hle Hne Hl Hc. rewrite (prologue_spec s F ps en l li oe Hle Hl). cbv zeta.
  assert (Hnn : l && nonempty (cache_list ps) = true -> p_cache ps <> None).
  { unfold cache_list. destruct l, (p_cache ps); discriminate. }
  (* [u]: `last and cached` is true, so the prologue leaves `cache` as the caller gave it *)
  set (u := l && nonempty (cache_list ps)) in *.
  match goal with |- context [exec _ _ _ sub_try _ ?E] => set (en' := E) end.
  assert (Hcache : en' "cache"%string = VBool (c && u)).
  { unfold en'. destruct u; cbn; [rewrite andb_true_r; exact Hc | rewrite andb_false_r; reflexivity]. }
  assert (Hcached : en' "cached"%string = cached_val ps) by (unfold en'; destruct u; reflexivity).
  exists en'. split; [unfold en'; destruct u; split; cbn; rewrite ?Hl; auto|].
  assert (Htry := try_spec s F (with_queues ps (p_queues ps ++ [s])) en' (c && u) Hcache Hcached).
  destruct oe as [[v|]|]; [|congruence|]; apply Htry; intros Hb; apply Hnn; destruct c; (exact Hb || discriminate).
Qed.

Lemma fuel_ok ps s g : nth_error (p_gens ps) s = Some g -> (length (g_queue g) < gen_fuel ps s)%nat.
Proof. intros E. unfold gen_fuel, get_queue. rewrite E. cbn. lia. Qed.

Lemma abs_gen_susp g k li :
  g_status g = GSusp k -> g_env g "last_idx"%string = VInt li ->
  abs_gen g = mkSub (g_last g) (g_cache g) Active li (pending_of k (g_env g)) (g_queue g).
Proof. intros Est Hli. unfold abs_gen, env_int. rewrite Est, Hli. reflexivity. Qed.

(** `__anext__` of a suspended generator *)
Lemma tie_next_susp ps s g k :
  wf ps -> nth_error (p_gens ps) s = Some g -> g_status g = GSusp k -> tied ps (Next s).
Proof.
  intros Hwf E Est. pose proof (proj2 (proj2 Hwf) s g E) as Hg. unfold wf_gen in Hg. rewrite Est in Hg.
  destruct Hg as (Hk & Hlast & (li & Hli) & Hq & (oe & Hoe & Hne)).
  assert (Hen : genv s (g_env g) (g_last g) li oe) by (split; auto).
  assert (Hin : In s (p_queues ps)) by (apply Hwf; exists g; split; [auto | exists k; auto]).
  pose proof (fuel_ok ps s g E) as Hn.
  apply (next_assemble ps s g (p_queues ps) (g_env g) li oe (resume_sub (abs_gen g)) Hwf E).
  - apply Hwf.
  - intros x. destruct (Nat.eq_dec x s) as [->|]; tauto.
  - exact Hen.
  - intros lq Hr. rewrite with_queues_same, (abs_gen_susp g k li Est Hli). unfold inext. rewrite E, Est.
    destruct Hk as [(rest & ->)|[->|[->| ->]]]; cbn [pending_of K_for].
    + unfold env_int. rewrite Hli. apply (core_for s _ ps (g_env g) g _ li oe lq rest E Hen Hn Hr).
    + apply (core_loop s _ _ _ ps (g_env g) (g_env g) g _ li oe lq E Hen Hn Hr).
      rewrite exec_seq, exec_skip. change sub_loop with (SWhileTrue sub_wbody). rewrite exec_while. reflexivity.
    + apply (core_loop s _ _ _ ps (g_env g) (g_env g) g _ li oe lq E Hen Hn Hr).
      rewrite exec_whilerun, exec_skip. reflexivity.
    + apply (core_loop s _ _ (S (gen_fuel ps s)) ps (g_env g) (g_env g) g _ li oe lq E Hen); [lia | exact Hr |].
      rewrite exec_whilerun, while_loop_S. reflexivity.
  - unfold next_sub, abs_gen. rewrite Est. reflexivity.
Qed.

(** the first `__anext__` *)
Lemma tie_next_fresh ps s g :
  wf ps -> nth_error (p_gens ps) s = Some g -> g_status g = GFresh -> tied ps (Next s).
Proof.
  intros Hwf E Est. pose proof (proj2 (proj2 Hwf) s g E) as Hg. unfold wf_gen in Hg. rewrite Est in Hg.
  destruct Hg as (Hl & Hc & _ & Hqe).
  assert (Hns : ~ suspended g) by (intros (k & Hk); congruence).
  assert (Hnotin : ~ In s (p_queues ps)).
  { intros Hin. apply Hwf in Hin. destruct Hin as (g0 & E0 & Hs). congruence. }
  destruct (p_last_enum ps) as [li oe] eqn:Ele.
  assert (Hcase : oe = Some End \/ oe <> Some End) by (destruct oe as [[v|]|]; auto; right; discriminate).
  destruct Hcase as [->|Hne].
  - (* the topic has already ended *)
    destruct (fresh_end s (gen_fuel ps s) ps (g_env g) _ li Ele Hl) as (en' & Hli & Hm).
    unfold tied. cbn [istep]. unfold inext. rewrite E, Est, Hm. cbn [settle].
    rewrite (upd_gen_put _ _ _ _ _ E).
    assert (Hstep : step (abs ps) (Next s) =
      (set_subs (abs ps) (upd (i_subs (abs ps)) s (mkSub (g_last g) (g_cache g) Finished li [] [])), OStop)).
    { unfold step. rewrite abs_nth, E. cbn [option_map]. unfold next_sub, abs_gen. rewrite Est.
      cbn [s_phase]. unfold start_sub. cbn [abs i_last_enum]. rewrite Ele. reflexivity. }
    rewrite Hstep. eexists. split; [reflexivity|]. split.
    + rewrite abs_put. unfold abs_gen. cbn. unfold env_int. rewrite Hli. reflexivity.
    + apply (wf_done ps s g _ Hwf E Hns). reflexivity.
  - destruct (fresh_spec s (gen_fuel ps s) ps (g_env g) _ _ li oe Ele Hne Hl Hc) as (en' & Hen & Hex).
    set (rest0 := if g_cache g && (g_last g && nonempty (cache_list ps)) then cache_list ps else []) in *.
    apply (next_assemble ps s g (p_queues ps ++ [s]) en' li oe
             (resume_sub (mkSub (g_last g) (g_cache g) Active li
                                (cached_before rest0 li ++ last_part en') (g_queue g))) Hwf E).
    + apply nodup_snoc; [apply Hwf | exact Hnotin].
    + intros x. rewrite in_app_iff. simpl. destruct (Nat.eq_dec x s) as [->|]; intuition congruence.
    + exact Hen.
    + intros lq Hr. unfold inext. rewrite E, Est, Hex.
      apply (core_for s _ (with_queues ps (p_queues ps ++ [s])) en' g _ li oe lq rest0 E Hen (fuel_ok ps s g E) Hr).
    + (* the model's [start_sub] computes the same old data *)
      unfold next_sub, abs_gen. rewrite Est. cbn [s_phase]. f_equal.
      unfold start_sub. cbn [abs i_last_enum i_cache s_last s_cache]. rewrite Ele, Hqe.
      unfold last_part. rewrite (ge_last _ _ _ _ _ Hen), (ge_item _ _ _ _ _ Hen).
      unfold rest0, cache_list. clear -Hne.
      destruct oe as [[v|]|]; [| congruence |];
        destruct (p_cache ps) as [[|x cl]|]; destruct (g_last g); destruct (g_cache g); reflexivity.
Qed.

Lemma tie_next ps s : wf ps -> tied ps (Next s).
Proof.
  intros Hwf. destruct (nth_error (p_gens ps) s) as [g|] eqn:E.
  - destruct (g_status g) as [|k|] eqn:Est.
    + apply (tie_next_fresh ps s g Hwf E Est).
    + apply (tie_next_susp ps s g k Hwf E Est).
    + unfold tied. cbn [istep]. unfold inext, step. rewrite E, abs_nth, E, Est. cbn [option_map].
      unfold next_sub, abs_gen. rewrite Est. cbn. exists ps. split; [reflexivity|]. split; [|exact Hwf].
      unfold set_subs, abs. cbn. rewrite upd_same; [reflexivity|].
      rewrite nth_error_map, E. cbn. unfold abs_gen. rewrite Est. reflexivity.
  - unfold tied. cbn [istep]. unfold inext, step. rewrite E, abs_nth, E. cbn. exists ps. auto.
Qed.

Lemma unwind_shape s F k ps en : shape k ->
  unwind enum_sem s F k ps en =
  match exec enum_sem s F sub_fin ps en with RNorm ps' en' => Some (ps', en') | _ => None end.
Proof. intros [(rest & ->)|[->|[->| ->]]]; reflexivity. Qed.

(** `aclose()` of the generator (after cancelling a pending `__anext__`) *)
Lemma tie_leave ps s : wf ps -> tied ps (Leave s).
Proof.
  intros Hwf. destruct (nth_error (p_gens ps) s) as [g|] eqn:E.
  2: { unfold tied. cbn [istep]. unfold ileave, step. rewrite E, abs_nth, E. cbn. exists ps. auto. }
  assert (Hstep : step (abs ps) (Leave s) =
                  (set_subs (abs ps) (upd (i_subs (abs ps)) s (finish_sub (abs_gen g))), OUnit)).
  { unfold step. rewrite abs_nth, E. reflexivity. }
  unfold tied. rewrite Hstep. cbn [istep fst snd]. unfold ileave. rewrite E.
  pose proof (proj2 (proj2 Hwf) s g E) as Hg. unfold wf_gen in Hg.
  assert (Hidle : ~ suspended g -> exists ps',
            Some (upd_gen ps s GDone (g_env g), OUnit) = Some (ps', OUnit) /\
            abs ps' = set_subs (abs ps) (upd (i_subs (abs ps)) s (finish_sub (abs_gen g))) /\ wf ps').
  { intros Hns. rewrite (upd_gen_put _ _ _ _ _ E). eexists. split; [reflexivity|]. split.
    - rewrite abs_put. unfold abs_gen. destruct (g_status g) eqn:Est; cbn; [|destruct Hns; eexists; exact Est|reflexivity].
      destruct Hg as (_ & _ & Hu & _). unfold env_int. rewrite Hu. reflexivity.
    - apply (wf_done ps s g _ Hwf E Hns). reflexivity. }
  destruct (g_status g) as [|k|] eqn:Est; [apply Hidle; intros (k & Hk); congruence | | apply Hidle; intros (k & Hk); congruence].
  (* suspended: the `finally` clause runs *)
  destruct Hg as (Hk & Hlast & (li & Hli) & Hq & _).
  assert (Hin : In s (p_queues ps)) by (apply Hwf; exists g; split; [auto | exists k; auto]).
  destruct (remove_first_spec s _ Hin) as (lq & Hr & Hlq). destruct (Hlq (proj1 Hwf)) as (Hndlq & Hinlq).
  rewrite (unwind_shape _ _ _ _ _ Hk), (fin_spec s _ ps (g_env g) lq Hq Hr).
  rewrite (upd_gen_put _ _ g); [|exact E].
  eexists. split; [reflexivity|]. split.
  - rewrite abs_put. unfold abs_gen. rewrite Est. cbn. reflexivity.
  - apply (wf_post ps _ s g _ Hwf E); [exact Hndlq | | exact I].
    intros x. rewrite Hinlq. split; [tauto|]. intros [H|(_ & (k0 & Hk0))]; [exact H | discriminate].
Qed.

(** The defaults of the regenerated signature `subscribe(self, last=.., cache=..)`.
    An omitted argument takes the default that translate/pubsub_funs.py emitted into
    [item_subscribe_params]; the model's [Sub l c] has both explicit.  These equalities hold
    only for the defaults `last=True, cache=True` and the parameter order (last, cache). *)
Lemma isub_defaults ps :
  isub_call ps [] [] = isub ps true true /\
  (forall l, isub_call ps [] [("last"%string, VBool l)] = isub ps l true) /\
  (forall c, isub_call ps [] [("cache"%string, VBool c)] = isub ps true c) /\
  (forall l, isub_call ps [VBool l] [] = isub ps l true) /\
  (forall l c, isub_call ps [VBool l; VBool c] [] = isub ps l c).
Proof. repeat split; reflexivity. Qed.

(** `subscribe()` with nothing given is the model's `Sub true true` *)
Theorem tie_sub_defaults ps : wf ps ->
  exists ps', isub_call ps [] [] = Some (ps', snd (step (abs ps) (Sub true true))) /\
              abs ps' = fst (step (abs ps) (Sub true true)) /\ wf ps'.
Proof. intros Hwf. rewrite (proj1 (isub_defaults ps)). exact (tie_sub ps true true Hwf). Qed.

Theorem tie_step ps o : wf ps -> tied ps o.
Proof.
  intros Hwf. destruct o; auto using tie_publish, tie_clear, tie_close, tie_latest, tie_sub, tie_next, tie_leave.
Qed.

Lemma wf_no_gens ps : p_queues ps = [] -> p_gens ps = [] -> wf ps.
Proof.
  intros Hq Hg. unfold wf. rewrite Hq, Hg. split; [constructor|]. split.
  - intros s. split; [intros [] | intros (g & H & _); destruct s; discriminate].
  - intros [|s] g H; discriminate.
Qed.

(** what `__init__` sets, spelled out: left as the run of the regenerated `__init__`, the state would be
    evaluated again at every later step *)
Definition item0 (cache : bool) : pstate :=
  mkP (if cache then Some [] else None) (-1) (-1, None) None false [] [].

(** `PubSubItem(cache=c)`: the regenerated `__init__` builds the model's initial state *)
Theorem tie_init cache :
  exists ps, iinit [("cache"%string, VBool cache)] = Some ps /\ abs ps = new_item cache /\ wf ps.
Proof.
  exists (item0 cache). split; [destruct cache; reflexivity|]. split; [reflexivity|].
  apply wf_no_gens; reflexivity.
Qed.

Theorem tie_run : forall ops ps, wf ps ->
  exists ps', irun_from ps ops = Some (ps', snd (run_from (abs ps) ops)) /\
              abs ps' = fst (run_from (abs ps) ops) /\ wf ps'.
Proof.
  induction ops as [|o ops IH]; intros ps Hwf; simpl.
  - exists ps. auto.
  - destruct (tie_step ps o Hwf) as (ps1 & H1 & H2 & H3). rewrite H1.
    destruct (step (abs ps) o) as [it1 x] eqn:Es. simpl in *. subst it1.
    destruct (IH ps1 H3) as (ps2 & H4 & H5 & H6). rewrite H4.
    destruct (run_from (abs ps1) ops) as [it2 xs]. simpl in *. exists ps2. auto.
Qed.

(** for EVERY history: running the regenerated code = running the hand-written model *)
Theorem tie_outs cache ops : iouts cache ops = Some (outs cache ops).
Proof.
  unfold iouts, outs. destruct (tie_init cache) as (ps & -> & Ha & Hwf).
  destruct (tie_run ops ps Hwf) as (ps' & -> & _ & _). rewrite Ha. reflexivity.
Qed.

(** with the refinement of PubSub/Refine.v: the regenerated code against the specification *)
From NL Require Import PubSub.Spec PubSub.Refine.

Corollary tie_refines_spec cache ops : iouts cache ops = Some (aouts cache ops).
Proof. rewrite tie_outs, refinement. reflexivity. Qed.
