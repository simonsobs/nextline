(** The broker (PubSub): a collection of independent topic lifetimes.
    - every instance that is no longer bound to a key has been ended;
    - PubSub.close() ends every instance that exists;
    - hence (with the item theorems) every generator handed out before a
      close() terminates. *)
From NL Require Import PubSub.Model PubSub.Lists PubSub.Spec PubSub.Refine PubSub.Delivery PubSub.Main.
From Coq Require Import Lia.
Open Scope Z_scope.

Definition bfinal (ops : list bop) : broker := fst (brun_from new_broker ops).

Lemma step_closed_mono it o : i_closed it = true -> i_closed (fst (step it o)) = true.
Proof.
  intros H. destruct o; simpl; rewrite ?H; simpl; auto.
  - destruct (nth_error (i_subs it) s) as [sb|]; simpl; auto. destruct (next_sub it sb). simpl. auto.
  - destruct (nth_error (i_subs it) s); simpl; auto.
Qed.

Lemma step_close_closes it : i_closed (fst (step it Close)) = true.
Proof. simpl. destruct (i_closed it) eqn:E; simpl; auto. Qed.

Lemma on_item_items b i o j :
  nth_error (b_items (fst (on_item b i o))) j =
  if Nat.eqb i j then option_map (fun it => fst (step it o)) (nth_error (b_items b) j) else nth_error (b_items b) j.
Proof.
  unfold on_item. destruct (Nat.eqb_spec i j) as [->|Hn].
  - destruct (nth_error (b_items b) j) as [it|] eqn:E; simpl; [|rewrite E; reflexivity].
    destruct (step it o) as [it' x] eqn:Es. simpl. rewrite nth_upd_same.
    + reflexivity.
    + apply nth_error_Some. congruence.
  - destruct (nth_error (b_items b) i) as [it|]; simpl; auto.
    destruct (step it o). simpl. apply nth_upd_other. auto.
Qed.

Lemma on_item_map b i o : b_map (fst (on_item b i o)) = b_map b.
Proof. unfold on_item. destruct (nth_error (b_items b) i); auto. destruct (step i0 o); reflexivity. Qed.

Definition bound (m : list (key * nat)) (i : nat) : Prop := exists k, In (k, i) m.

Definition BInv (b : broker) : Prop :=
  NoDup (map fst (b_map b)) /\
  forall i it, nth_error (b_items b) i = Some it -> bound (b_map b) i \/ i_closed it = true.

Lemma lookup_in m k i : lookup m k = Some i -> In (k, i) m.
Proof.
  induction m as [|[k' i'] m IH]; simpl; [discriminate|].
  destruct (Z.eqb_spec k k') as [->|Hn]; intros H; [inversion H; subst; auto | auto].
Qed.

Lemma lookup_none_notin m k : lookup m k = None -> ~ In k (map fst m).
Proof.
  induction m as [|[k' i'] m IH]; simpl; [tauto|].
  destruct (Z.eqb_spec k k') as [->|Hn]; [discriminate|]. intros H [E|Hin]; [congruence | apply IH; auto].
Qed.

Lemma lookup_unique m k j : NoDup (map fst m) -> In (k, j) m -> lookup m k = Some j.
Proof.
  induction m as [|[k' i'] m IH]; simpl; [tauto|]. intros Hnd [E|Hin].
  - inversion E; subst. rewrite Z.eqb_refl. reflexivity.
  - inversion Hnd; subst. destruct (Z.eqb_spec k k') as [->|Hn]; [|auto].
    exfalso. apply H1. apply (in_map fst) in Hin. exact Hin.
Qed.

Lemma in_remove_key m k k' i : In (k', i) (remove_key m k) <-> In (k', i) m /\ k' <> k.
Proof.
  induction m as [|[k0 i0] m IH]; simpl; [tauto|].
  destruct (Z.eqb_spec k k0) as [->|Hn]; simpl; rewrite IH; intuition congruence.
Qed.

Lemma nodup_remove_key m k : NoDup (map fst m) -> NoDup (map fst (remove_key m k)).
Proof.
  induction m as [|[k0 i0] m IH]; simpl; auto. intros Hnd. inversion Hnd; subst.
  destruct (Z.eqb_spec k k0); auto. simpl. constructor; auto.
  intros Hin. apply H1. apply in_map_iff in Hin. destruct Hin as ([k1 i1] & E & Hin). simpl in E. subst k1.
  apply in_remove_key in Hin. destruct Hin as [Hin _]. apply (in_map fst) in Hin. exact Hin.
Qed.

Lemma close_fold m : forall b,
  let b' := fold_left (fun b ki => fst (on_item b (snd ki) Close)) m b in
  b_map b' = b_map b /\
  forall j it', nth_error (b_items b') j = Some it' ->
    exists it, nth_error (b_items b) j = Some it /\
               (i_closed it = true -> i_closed it' = true) /\
               (bound m j -> i_closed it' = true).
Proof.
  induction m as [|[k i] m IH]; intros b; simpl.
  - repeat split; auto. intros j it' H. exists it'. repeat split; auto. intros (k & []).
  - specialize (IH (fst (on_item b i Close))). simpl in IH. destruct IH as (Hm & IH).
    rewrite on_item_map in Hm. repeat split; auto.
    intros j it' H. destruct (IH _ _ H) as (it1 & H1 & Hc1 & Hb1).
    rewrite on_item_items in H1. destruct (Nat.eqb_spec i j) as [->|Hn].
    + destruct (nth_error (b_items b) j) as [it|] eqn:E; [|discriminate]. cbn [option_map] in H1.
      assert (E1 : it1 = fst (step it Close)) by congruence. subst it1.
      exists it. repeat split; auto.
      * intros Hc. apply Hc1. apply step_closed_mono. exact Hc.
      * intros _. apply Hc1. apply step_close_closes.
    + exists it1. repeat split; auto.
      intros (k' & [Hin|Hin]); [inversion Hin; subst; congruence|]. apply Hb1. exists k'. exact Hin.
Qed.

Lemma BInv_on_item b i o : BInv b -> BInv (fst (on_item b i o)).
Proof.
  intros [Hnd HI]. split; [rewrite on_item_map; exact Hnd|].
  intros j it' H. rewrite on_item_items in H. rewrite on_item_map.
  destruct (Nat.eqb_spec i j) as [->|Hn]; [|apply HI; auto].
  destruct (nth_error (b_items b) j) as [it|] eqn:E; [|discriminate]. cbn [option_map] in H.
  assert (E1 : it' = fst (step it o)) by congruence. subst it'.
  destruct (HI _ _ E) as [Hb|Hc]; [left; auto | right; apply step_closed_mono; auto].
Qed.

Lemma BInv_get_or_create b k : BInv b -> BInv (fst (get_or_create b k)).
Proof.
  intros [Hnd HI]. unfold get_or_create. destruct (lookup (b_map b) k) as [i|] eqn:E; simpl; [split; auto|].
  split.
  - simpl. constructor; auto. apply lookup_none_notin. exact E.
  - intros j it H. simpl in *. destruct (nth_error_snoc _ _ _ _ H) as [H'|(-> & _)].
    + destruct (HI _ _ H') as [(k' & Hin)|Hc]; auto. left. exists k'. right. exact Hin.
    + left. exists k. left. reflexivity.
Qed.

Lemma BInv_gens b l : BInv b -> BInv (mkBroker (b_map b) (b_items b) l).
Proof. intros H. exact H. Qed.

Lemma BInv_step b o : BInv b -> BInv (fst (bstep b o)).
Proof.
  intros HI. destruct o; simpl.
  - pose proof (BInv_get_or_create b k HI) as H1. destruct (get_or_create b k) as [b' i]. apply BInv_on_item. exact H1.
  - (* BEnd *)
    destruct (lookup (b_map b) k) as [i|] eqn:E; [|exact HI]. destruct HI as [Hnd HI].
    split.
    + rewrite on_item_map. simpl. apply nodup_remove_key. exact Hnd.
    + intros j it' H. rewrite on_item_items in H. rewrite on_item_map. cbn [b_items b_map b_gens] in *.
      destruct (Nat.eqb_spec i j) as [->|Hn].
      * destruct (nth_error (b_items b) j) as [it|]; [|discriminate]. cbn [option_map] in H.
        assert (E1 : it' = fst (step it Close)) by congruence. subst it'.
        right. apply step_close_closes.
      * destruct (HI _ _ H) as [(k' & Hin)|Hc]; auto.
        left. exists k'. apply in_remove_key. split; auto.
        intros ->. rewrite (lookup_unique _ _ _ Hnd Hin) in E. congruence.
  - (* BClose *)
    unfold close_all. destruct HI as [Hnd HI].
    pose proof (close_fold (b_map b) (mkBroker [] (b_items b) (b_gens b))) as (Hm & Hf). simpl in *.
    split; [rewrite Hm; constructor|].
    intros j it' H. right. destruct (Hf _ _ H) as (it & H0 & Hc & Hb).
    destruct (HI _ _ H0) as [Hbd|Hcl]; auto.
  - pose proof (BInv_get_or_create b k HI) as H1. destruct (get_or_create b k) as [b' i]. apply BInv_on_item. exact H1.
  - (* BSub *)
    pose proof (BInv_get_or_create b k HI) as H1. destruct (get_or_create b k) as [b' i].
    pose proof (BInv_on_item b' i (Sub last true) H1) as H2.
    destruct (on_item b' i (Sub last true)) as [b'' x]. simpl in H2. destruct x; auto.
  - destruct (nth_error (b_gens b) g) as [[i s]|]; [apply BInv_on_item; auto | auto].
  - destruct (nth_error (b_gens b) g) as [[i s]|]; [apply BInv_on_item; auto | auto].
Qed.

Lemma BInv_init : BInv new_broker.
Proof. split; [constructor|]. intros [|i] it H; discriminate. Qed.

Lemma brun_fst_snoc ops : forall b o, fst (brun_from b (ops ++ [o])) = fst (bstep (fst (brun_from b ops)) o).
Proof.
  induction ops as [|x ops IH]; intros b o; simpl.
  - destruct (bstep b o). reflexivity.
  - destruct (bstep b x) as [b1 y]. specialize (IH b1 o).
    destruct (brun_from b1 (ops ++ [o])) as [b2 ys]. destruct (brun_from b1 ops) as [b3 zs]. simpl in *. exact IH.
Qed.

Theorem BInv_reachable ops : BInv (bfinal ops).
Proof.
  unfold bfinal. induction ops as [|o ops IH] using rev_ind; [exact BInv_init|].
  rewrite brun_fst_snoc. apply BInv_step. exact IH.
Qed.

(** PubSub.close() ends every topic lifetime that exists: every generator handed
    out earlier is bound to one of them, so (item theorem [model_termination]) its
    iteration terminates. *)
Theorem close_ends_everything ops i it :
  nth_error (b_items (bfinal (ops ++ [BClose]))) i = Some it -> i_closed it = true.
Proof.
  unfold bfinal. rewrite brun_fst_snoc. simpl. intros H.
  destruct (BInv_reachable ops) as [Hnd HI]. unfold bfinal in *.
  set (b := fst (brun_from new_broker ops)) in *.
  unfold close_all in H.
  pose proof (close_fold (b_map b) (mkBroker [] (b_items b) (b_gens b))) as (_ & Hf). simpl in Hf.
  destruct (Hf _ _ H) as (it0 & H0 & Hc & Hb). destruct (HI _ _ H0); auto.
Qed.

(** an ended key: the instance it was bound to, if the index names one, is ended (a later publish on
    the key starts a new lifetime).  The second disjunct does not mention [it]; it covers an index out
    of range, which no reachable broker has, but [BInv] does not say that map entries are valid indices
    (the interpreter's invariant [bwf] of PubSub/TieBroker.v does). *)
Theorem end_ends_instance ops k i :
  lookup (b_map (bfinal ops)) k = Some i ->
  exists it, nth_error (b_items (bfinal (ops ++ [BEnd k]))) i = Some it /\ i_closed it = true
  \/ nth_error (b_items (bfinal ops)) i = None.
Proof.
  intros E. unfold bfinal in *. rewrite brun_fst_snoc. simpl. rewrite E.
  set (b := fst (brun_from new_broker ops)) in *.
  destruct (nth_error (b_items b) i) as [it|] eqn:Ei.
  - exists (fst (step it Close)). left. rewrite on_item_items. simpl. rewrite Nat.eqb_refl, Ei. simpl.
    split; [reflexivity | apply step_close_closes].
  - exists (new_item false). right. reflexivity.
Qed.
